(* C17 model: batchie.sampling.sample (whole function).  No proofs here.

   The model is a counter machine that emits, in the order the code issues them, the calls made on the
   model object and on the results holder:
     Reset               model.reset_model()
     SetRng e sk         model.set_rng(default_rng(S)) where the SeedSequence S has entropy e, spawn_key sk
     Step                model.step()
     Record              results.add_theta(model.get_model_state())   (MCMC)  /  results.add_theta(theta)  (VI)
     SampleVI n          model.sample(num_samples=n)
   numpy: SeedSequence(seed).spawn(n)[i] is the SeedSequence (entropy = seed, spawn_key = (i,)) for 0 <= i < n,
   python list indexing makes a negative i mean n + i; default_rng(seed) has (entropy = seed, spawn_key = ()) (pre-repair VI variant only).
   That a SeedSequence determines the PCG64 stream, and that distinct spawn keys give non-overlapping
   streams, is numpy's contract and is not modelled (the harness checks the first draws).
   The results holder is (n_thetas, current length): ThetaHolder.add_theta raises when full.
   Abstracted: logging, tqdm, the Theta values themselves.
   Error tags: 1 ValueError (holder full)   2 ValueError (negative seed)   3 OverflowError (negative n_chains)
               4 IndexError (chain_index out of range)   5 ValueError (a None argument)   6 ValueError (not a model) *)
From Coq Require Import ZArith List Bool.
From Batchie Require Import Lib.Sexp.
Import ListNotations.
Open Scope Z_scope.

Inductive event : Type :=
| Reset
| SetRng (entropy : Z) (spawn_key : list Z)
| Step
| Record
| SampleVI (n : Z).

(* seeds = SeedSequence(seed).spawn(n_chains); seeds[chain_index] *)
Definition rng_key (seed n_chains chain_index : Z) : result (Z * list Z) :=
  if seed <? 0 then Err 2
  else if n_chains <? 0 then Err 3
  else if (0 <=? chain_index) && (chain_index <? n_chains) then Ok (seed, [chain_index])
  else if (- n_chains <=? chain_index) && (chain_index <? 0) then Ok (seed, [n_chains + chain_index])
  else Err 4.

(* for _ in trange(n_burnin): model.step() *)
Definition burnin (n_burnin : Z) : list event := repeat Step (Z.to_nat n_burnin).

(* for step_index in trange(total_steps):
       model.step()
       if ((step_index + 1) % thin) == 0: results.add_theta(model.get_model_state())
   [todo] iterations are left, the next one has index [step_index]; [len] = len(results.thetas).
   Returns the events and the final length. *)
Fixpoint thin_loop (thin n_thetas : Z) (todo : nat) (step_index len : Z) : result (list event * Z) :=
  match todo with
  | O => Ok ([], len)
  | S todo' =>
      if (step_index + 1) mod thin =? 0 then
        if n_thetas <=? len then Err 1
        else dor r <- thin_loop thin n_thetas todo' (step_index + 1) (len + 1);
             Ok (Step :: Record :: fst r, snd r)
      else dor r <- thin_loop thin n_thetas todo' (step_index + 1) len;
           Ok (Step :: fst r, snd r)
  end.

(* MCMC branch; n_thetas = results.n_thetas, len0 = len(results.thetas) on entry *)
Definition sample_mcmc (seed n_chains chain_index n_burnin thin n_thetas len0 : Z) : result (list event * Z) :=
  dor key <- rng_key seed n_chains chain_index;
  let total_steps := n_thetas * thin in
  dor r <- thin_loop thin n_thetas (Z.to_nat total_steps) 0 len0;
  Ok (Reset :: SetRng (fst key) (snd key) :: burnin n_burnin ++ fst r, snd r).

(* for theta in samples: results.add_theta(theta) *)
Fixpoint add_all (n_thetas : Z) (todo : nat) (len : Z) : result (list event * Z) :=
  match todo with
  | O => Ok ([], len)
  | S todo' =>
      if n_thetas <=? len then Err 1
      else dor r <- add_all n_thetas todo' (len + 1); Ok (Record :: fst r, snd r)
  end.

(* VI branch; [returned] = len(model.sample(num_samples=n_thetas)) (the VIModel contract says = n_thetas).
   REPAIRED (/repo 67fc5db, KNOWN_FINDINGS vi-chains-share-generator): the generator is derived exactly as in the MCMC
   branch, SeedSequence(seed).spawn(n_chains)[chain_index]; n_burnin and thin are not read *)
Definition sample_vi (seed n_chains chain_index n_thetas len0 : Z) (returned : nat) : result (list event * Z) :=
  dor key <- rng_key seed n_chains chain_index;
  dor r <- add_all n_thetas returned len0;
  Ok (Reset :: SetRng (fst key) (snd key) :: SampleVI n_thetas :: fst r, snd r).

(* the match statement: kind 0 = isinstance MCMCModel (tested first), 1 = VIModel, anything else refused;
   None for any of n_chains, chain_index, n_burnin, thin is refused in the MCMC branch,
   None for n_chains or chain_index in the VI branch *)
Definition sample (kind seed : Z) (n_chains chain_index n_burnin thin : option Z) (n_thetas len0 : Z)
  (returned : nat) : result (list event * Z) :=
  if kind =? 0 then
    match n_chains, chain_index, n_burnin, thin with
    | Some nc, Some ci, Some b, Some t => sample_mcmc seed nc ci b t n_thetas len0
    | _, _, _, _ => Err 5
    end
  else if kind =? 1 then
    match n_chains, chain_index with
    | Some nc, Some ci => sample_vi seed nc ci n_thetas len0 returned
    | _, _ => Err 5
    end
  else Err 6.

(* ---- the PRE-REPAIR variant of the VI branch, kept only for the witness C17_vi_streams_distinct_refuted; it is NOT
   what the source says any more (C17_model_is_source is about [sample] above): model.reset_model();
   rng = default_rng(seed); none of n_chains, chain_index, n_burnin, thin was read ---- *)
Definition sample_vi_pre_repair (seed n_thetas len0 : Z) (returned : nat) : result (list event * Z) :=
  if seed <? 0 then Err 2
  else dor r <- add_all n_thetas returned len0;
       Ok (Reset :: SetRng seed [] :: SampleVI n_thetas :: fst r, snd r).

Definition sample_pre_repair (kind seed : Z) (n_chains chain_index n_burnin thin : option Z) (n_thetas len0 : Z)
  (returned : nat) : result (list event * Z) :=
  if kind =? 1 then sample_vi_pre_repair seed n_thetas len0 returned
  else sample kind seed n_chains chain_index n_burnin thin n_thetas len0 returned.

(* ---- observations on a trace (used to state the schedule) ---- *)
Definition is_step (e : event) : bool := match e with Step => true | _ => false end.
Definition is_record (e : event) : bool := match e with Record => true | _ => false end.
Definition n_steps (tr : list event) : Z := Z.of_nat (length (filter is_step tr)).
Definition n_records (tr : list event) : Z := Z.of_nat (length (filter is_record tr)).
(* for each Record, how many Steps have been issued before it (c = steps so far) *)
Fixpoint record_marks (c : Z) (tr : list event) : list Z :=
  match tr with
  | [] => []
  | Step :: r => record_marks (c + 1) r
  | Record :: r => c :: record_marks c r
  | _ :: r => record_marks c r
  end.
(* ThetaHolder.is_complete *)
Definition is_complete (n_thetas len : Z) : bool := len =? n_thetas.

(* ---- vocabulary of the source translation (Generated/SrcSampling.v, harness/py2gal.py) ----
   The translated function threads one state variable: the world = (calls issued so far on the model
   and on the holder, len(results.thetas)).  The numpy / holder primitives it calls: *)
Definition world : Type := (list event * Z)%type.
Definition emit (w : world) (e : event) : world := (fst w ++ [e], snd w).
(* results.add_theta(...): ThetaHolder raises when full *)
Definition add_theta (n_thetas : Z) (w : world) : result world :=
  if n_thetas <=? snd w then Err 1 else Ok (fst w ++ [Record], snd w + 1).
(* numpy.random.SeedSequence(seed).spawn(n): the parent entropy and the number of children *)
Definition seeds : Type := (Z * Z)%type.
Definition spawn_seeds (seed n : Z) : result seeds :=
  if seed <? 0 then Err 2 else if n <? 0 then Err 3 else Ok (seed, n).
(* default_rng(children[i]): python list indexing (negative i counts from the end); child i has spawn_key (i,) *)
Definition rngkey : Type := (Z * list Z)%type.
Definition rng_of_spawned (s : seeds) (i : Z) : result rngkey :=
  let n := snd s in
  if (0 <=? i) && (i <? n) then Ok (fst s, [i])
  else if (- n <=? i) && (i <? 0) then Ok (fst s, [n + i])
  else Err 4.
(* the Theta objects themselves are abstracted *)
Definition theta : Type := unit.
Definition vi_samples (returned : nat) : list theta := repeat tt returned.

(* ---- appended (gap review g5): the generator a trace hands to the model = the key of its first SetRng event ---- *)
Fixpoint handed_key (tr : list event) : option (Z * list Z) :=
  match tr with
  | [] => None
  | SetRng e sk :: _ => Some (e, sk)
  | _ :: r => handed_key r
  end.
