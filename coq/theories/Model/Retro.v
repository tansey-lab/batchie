(* C11 / C13 model, part 1: retrospective plate generators and smoothers
     batchie.core.RetrospectivePlateGenerator.generate_plates      -> [wrap]
     batchie.core.RetrospectivePlateSmoother.smooth_plates         -> [wrap]
     batchie.retrospective.PlatePermutationPlateGenerator          -> [plate_perm]
     batchie.retrospective.SampleSegregatingPermutationPlateGenerator -> [sample_seg]
     batchie.retrospective.FixedSizeSmoother / OptimalSizeSmoother -> [size_smooth] / [optimal_smooth]
     batchie.retrospective.NPlatePerCellLineSmoother               -> [nplate]
     batchie.retrospective.MergeMinPlateSmoother                   -> [merge_min]
     batchie.retrospective.MergeTopBottomPlateSmoother             -> [merge_tb]
     batchie.retrospective.BatchieEnsemblePlateSmoother            -> [ensemble]
     batchie.data.Plate.merge                                      -> [merge]
   A screen is its list of experiments ([Model.Screen.row]: sample, plate label, treatments,
   observation bits, mask).  Ids are not stored: sample / plate ids are ranks in the sorted
   unique names ([sort_uniq name_cmp]), so "for id in unique_ids" is "for name in sorted unique
   names"; the one place where the code depends on ids beyond that (NPlatePerCellLine keeps using
   ids of a screen it has re-encoded) computes the rank explicitly ([sample_id]).
   The Screen constructor is reduced to the only check that can fail at these call sites
   (plate-uniform mask, [construct]).
   Oracle inputs ([draw] stream, in call order): every result of rng.permutation / rng.choice,
   and every heapq.heappop answer (index, in the list of plates currently in the heap, of the
   plate it returned; the model checks that it is a smallest one: heapq's contract, tie-break
   left to the library).
   Model parameter [fixed : bool]: true = the code as it is (/repo e3ac1df, e05a1b9; Props/C13.v links the source to it);
   false = the logic before those repairs (SampleSegregating: a sample with <= max experiments gets its own plate;
   NPlatePerCellLine: samples to drop are identified by name, not by a stale id).
   Error tags: 2 mixed plate (Screen constructor), 3 numpy ValueError / ZeroDivisionError on a
   parameter, 4 one-sample-per-plate ValueError, 90 oracle stream exhausted / wrong kind,
   91 oracle answer of the wrong length, 92 oracle index out of range, 93 heappop answer not minimal.
   No proofs here. *)
From Coq Require Import ZArith List Bool Arith.
From Batchie Require Import Lib.Sexp Model.Encode Model.Screen.
Import ListNotations.
Open Scope nat_scope.

Inductive draw : Type :=
| DInts (l : list nat)
| DNames (l : list name).

Definition set_plate (p : name) (r : row) : row :=
  {| r_sample := r_sample r; r_plate := p; r_treats := r_treats r; r_obs := r_obs r; r_mask := r_mask r |}.
Definition set_mask (b : bool) (r : row) : row :=
  {| r_sample := r_sample r; r_plate := r_plate r; r_treats := r_treats r; r_obs := r_obs r; r_mask := b |}.
(* an experiment minus its plate label *)
Definition strip (r : row) : name * list tkey * Z * bool := (r_sample r, r_treats r, r_obs r, r_mask r).

Definition unobserved (rows : list row) : list row := filter (fun r => negb (r_mask r)) rows.
Definition observed (rows : list row) : list row := filter r_mask rows.

(* Screen(...) *)
Definition construct (rows : list row) : result (list row) :=
  if plate_uniform rows then Ok rows else Err 2%Z.

Definition is_nil {A} (l : list A) : bool := match l with [] => true | _ => false end.

(* generate_plates / smooth_plates: split, to_screen, transform, combine *)
Definition wrap (f : list row -> list draw -> result (list row * list draw))
           (rows : list row) (ds : list draw) : result (list row * list draw) :=
  let u := unobserved rows in
  let o := observed rows in
  if is_nil u then Ok (rows, ds)
  else
    dor res <- f u ds;
    let '(nu, ds') := res in
    if is_nil o then Ok (nu, ds')
    else dor c <- construct (nu ++ o); Ok (c, ds').

(* ---- selection vectors ---- *)
Definition bvec := list bool.
Fixpoint vcount (v : bvec) : nat :=
  match v with [] => 0 | b :: r => (if b then 1 else 0) + vcount r end.
Fixpoint vor (a b : bvec) : bvec :=
  match a, b with x :: a', y :: b' => (x || y) :: vor a' b' | _, _ => [] end.
Fixpoint vselect {A} (v : bvec) (l : list A) : list A :=
  match v, l with
  | b :: v', x :: l' => if b then x :: vselect v' l' else vselect v' l'
  | _, _ => []
  end.
(* plate_names[v] = nm *)
Fixpoint vrelabel (v : bvec) (nm : name) (rows : list row) : list row :=
  match v, rows with
  | b :: v', r :: rs => (if b then set_plate nm r else r) :: vrelabel v' nm rs
  | _, _ => rows
  end.
Definition memb (i : nat) (l : list nat) : bool := existsb (Nat.eqb i) l.
(* np.isin(np.arange(n), idx) *)
Definition vof_idx (n : nat) (idx : list nat) : bvec := map (fun i => memb i idx) (seq 0 n).

Fixpoint enum_from {A} (k : nat) (l : list A) : list (nat * A) :=
  match l with [] => [] | a :: r => (k, a) :: enum_from (S k) r end.
(* np.arange(size)[f] *)
Definition idx_where (f : row -> bool) (rows : list row) : list nat :=
  map fst (filter (fun p => f (snd p)) (enum_from 0 rows)).

Definition name_mem (x : name) (l : list name) : bool := existsb (name_eqb x) l.
Definition sample_names (rows : list row) : list name := sort_uniq name_cmp (map r_sample rows).
Definition plate_names_of (rows : list row) : list name := sort_uniq name_cmp (map r_plate rows).
Definition in_plate (p : name) (r : row) : bool := name_eqb (r_plate r) p.
Definition in_sample (s : name) (r : row) : bool := name_eqb (r_sample r) s.
(* Plate.selection_vector of get_plate *)
Definition plate_vec (p : name) (rows : list row) : bvec := map (in_plate p) rows.

Definition take_ints (ds : list draw) : result (list nat * list draw) :=
  match ds with DInts l :: r => Ok (l, r) | _ => Err 90%Z end.
Definition take_names (ds : list draw) : result (list name * list draw) :=
  match ds with DNames l :: r => Ok (l, r) | _ => Err 90%Z end.

(* ---- f"generated_plate_{idx}" ---- *)
Fixpoint dec_fuel (fuel n : nat) (acc : list Z) : list Z :=
  match fuel with
  | O => acc
  | S f =>
      let acc' := (48 + Z.of_nat (n mod 10))%Z :: acc in
      if (n / 10 =? 0)%nat then acc' else dec_fuel f (n / 10) acc'
  end.
Definition decimal (n : nat) : list Z := dec_fuel (S n) n [].
Definition gen_prefix : name :=
  [103; 101; 110; 101; 114; 97; 116; 101; 100; 95; 112; 108; 97; 116; 101; 95]%Z.
Definition gen_name (k : nat) : name := gen_prefix ++ decimal k.

(* ---- np.array_split(l, n) for n >= 1 ---- *)
Definition split_start (q r j : nat) : nat := j * q + Nat.min j r.
Definition array_split {A} (l : list A) (n : nat) : list (list A) :=
  let q := length l / n in
  let r := length l mod n in
  map (fun j => firstn (split_start q r (S j) - split_start q r j) (skipn (split_start q r j) l)) (seq 0 n).

(* ---- PlatePermutationPlateGenerator._generate_plates ---- *)
Definition plate_perm (force : list name) (rows : list row) (ds : list draw)
  : result (list row * list draw) :=
  let keepf := fun r : row => if is_nil force then true else negb (name_mem (r_plate r) force) in
  let to_permute := filter keepf rows in
  let non_permuted := filter (fun r => negb (keepf r)) rows in
  dor d <- take_names ds;
  let '(names, ds') := d in
  if negb (length names =? length to_permute) then Err 91%Z
  else
    let permuted := map (fun x => set_mask false (set_plate (fst x) (snd x))) (combine names to_permute) in
    dor c <- construct (permuted ++ non_permuted);
    Ok (c, ds').

(* ---- SampleSegregatingPermutationPlateGenerator._generate_plates ---- *)
Definition cdiv (a b : Z) : Z := ((a + b - 1) / b)%Z.      (* math.ceil(a / float(b)), b > 0 *)

Fixpoint ss_plates (fixed : bool) (mx : Z) (rows : list row) (samples : list name) (ds : list draw)
  : result (list (list nat) * list draw) :=
  match samples with
  | [] => Ok ([], ds)
  | s :: rest =>
      let idx := idx_where (in_sample s) rows in
      if (Z.of_nat (length idx) >? mx)%Z then
        if (mx <=? 0)%Z then Err 3%Z
        else
          let n_plates := Z.to_nat (cdiv (Z.of_nat (length idx)) mx) in
          dor d <- take_ints ds;
          let '(perm, ds1) := d in
          dor r <- ss_plates fixed mx rows rest ds1;
          let '(ps, ds2) := r in
          Ok (array_split perm n_plates ++ ps, ds2)
      else
        dor r <- ss_plates fixed mx rows rest ds;
        let '(ps, ds2) := r in
        Ok ((if fixed then [idx] else []) ++ ps, ds2)
  end.

(* plate_names = [""]*n; for k, indices in enumerate(plate_indices): plate_names[indices] = name k *)
Definition label_of (pis : list (list nat)) (i : nat) : name :=
  fold_left (fun acc kp => if memb i (snd kp) then gen_name (fst kp) else acc) (enum_from 0 pis) [].

Definition sample_seg (fixed : bool) (mx : Z) (rows : list row) (ds : list draw)
  : result (list row * list draw) :=
  dor r <- ss_plates fixed mx rows (sample_names rows) ds;
  let '(pis, ds') := r in
  dor c <- construct (map (fun ir => set_plate (label_of pis (fst ir)) (snd ir)) (enum_from 0 rows));
  Ok (c, ds').

(* ---- FixedSizeSmoother / OptimalSizeSmoother ---- *)
Fixpoint size_results (t : Z) (n : nat) (rows : list row) (plates : list name) (ds : list draw)
  : result (list bvec * list draw) :=
  match plates with
  | [] => Ok ([], ds)
  | p :: rest =>
      let v := plate_vec p rows in
      let sz := Z.of_nat (vcount v) in
      if (sz <? t)%Z then size_results t n rows rest ds
      else if (sz =? t)%Z then
        dor r <- size_results t n rows rest ds;
        let '(vs, ds') := r in Ok (v :: vs, ds')
      else if (t <? 0)%Z then Err 3%Z
      else
        dor d <- take_ints ds;
        let '(idx, ds1) := d in
        dor r <- size_results t n rows rest ds1;
        let '(vs, ds') := r in Ok (vof_idx n idx :: vs, ds')
  end.

Definition size_smooth (t : Z) (rows : list row) (ds : list draw) : result (list row * list draw) :=
  let n := length rows in
  dor r <- size_results t n rows (plate_names_of rows) ds;
  let '(vs, ds') := r in
  let final := fold_left vor vs (repeat false n) in
  Ok (vselect final rows, ds').

Fixpoint insert_nat (x : nat) (l : list nat) : list nat :=
  match l with [] => [x] | y :: r => if x <=? y then x :: l else y :: insert_nat x r end.
Definition sort_nat (l : list nat) : list nat := fold_right insert_nat [] l.
(* np.argmax: first index of the maximum *)
Fixpoint argmax_go (l : list nat) (i best bi : nat) : nat :=
  match l with
  | [] => bi
  | y :: r => if best <? y then argmax_go r (S i) y i else argmax_go r (S i) best bi
  end.
Definition argmax (l : list nat) : nat :=
  match l with [] => 0 | x :: r => argmax_go r 1 x 0 end.
Definition size_products (s : list nat) : list nat :=
  map (fun kx => snd kx * (length s - fst kx)) (enum_from 0 s).
Definition optimal_size (sizes : list nat) : nat :=
  let s := sort_nat sizes in nth (argmax (size_products s)) s 0.
Definition plate_sizes (rows : list row) : list nat :=
  map (fun p => vcount (plate_vec p rows)) (plate_names_of rows).

Definition optimal_smooth (rows : list row) (ds : list draw) : result (list row * list draw) :=
  if is_nil rows then Err 3%Z
  else size_smooth (Z.of_nat (optimal_size (plate_sizes rows))) rows ds.

(* ---- _get_plate_sample_id ---- *)
Definition plate_samples (p : name) (rows : list row) : list name :=
  sort_uniq name_cmp (map r_sample (filter (in_plate p) rows)).
Definition plate_sample (p : name) (rows : list row) : result name :=
  match plate_samples p rows with
  | [s] => Ok s
  | [] => Err 92%Z
  | _ => Err 4%Z
  end.
(* [p for p in screen.plates if self._get_plate_sample_id(p) == sample_id] *)
Definition plates_of_sample (s : name) (rows : list row) : result (list name) :=
  let ps := plate_names_of rows in
  dor sps <- res_map_all (fun p => plate_sample p rows) ps;
  Ok (map fst (filter (fun x => name_eqb (snd x) s) (combine ps sps))).

(* ---- NPlatePerCellLineSmoother ---- *)
Fixpoint count_add (s : name) (counts : list (name * nat)) : list (name * nat) :=
  match counts with
  | [] => [(s, 1)]
  | (k, c) :: r => if name_eqb k s then (k, S c) :: r else (k, c) :: count_add s r
  end.
Definition plate_counts (rows : list row) : result (list (name * nat)) :=
  dor sps <- res_map_all (fun p => plate_sample p rows) (plate_names_of rows);
  Ok (fold_left (fun acc s => count_add s acc) sps []).

Fixpoint index_of (x : name) (l : list name) : nat :=
  match l with [] => 0 | y :: r => if name_eqb x y then 0 else S (index_of x r) end.
(* sample id of a row in the screen [rows] *)
Definition sample_id (rows : list row) (s : name) : nat := index_of s (sample_names rows).

Fixpoint np_drop_stale (m : Z) (todo : list (nat * nat)) (rows : list row) : list row :=
  match todo with
  | [] => rows
  | (sid, c) :: r =>
      if (Z.of_nat c <? m)%Z
      then np_drop_stale m r (filter (fun x => negb (sample_id rows (r_sample x) =? sid)) rows)
      else np_drop_stale m r rows
  end.

Definition nplate (fixed : bool) (m : Z) (rows : list row) : result (list row) :=
  dor counts <- plate_counts rows;
  if fixed then
    let drop := map fst (filter (fun kc => (Z.of_nat (snd kc) <? m)%Z) counts) in
    Ok (filter (fun r => negb (name_mem (r_sample r) drop)) rows)
  else
    Ok (np_drop_stale m (map (fun kc => (sample_id rows (fst kc), snd kc)) counts) rows).

(* ---- Plate.merge: self.merge(other) ---- *)
Definition merge (self other : bvec) (rows : list row) : bvec * list row :=
  let sel := vor self other in
  let nm := match vselect sel rows with r :: _ => r_plate r | [] => [] end in
  (sel, vrelabel sel nm rows).

(* ---- MergeMinPlateSmoother ---- *)
Fixpoint remove_nth {A} (i : nat) (l : list A) : list A :=
  match l, i with
  | [], _ => []
  | _ :: r, O => r
  | x :: r, S j => x :: remove_nth j r
  end.

Definition pop (heap : list bvec) (ds : list draw) : result (bvec * list bvec * list draw) :=
  match ds with
  | DInts [i] :: ds' =>
      match nth_error heap i with
      | Some v =>
          if forallb (fun w => vcount v <=? vcount w) heap then Ok (v, remove_nth i heap, ds')
          else Err 93%Z
      | None => Err 92%Z
      end
  | _ => Err 90%Z
  end.

Fixpoint mm_loop (fuel : nat) (min_size : Z) (heap : list bvec) (rows : list row) (ds : list draw)
  : result (list row * list draw) :=
  match fuel with
  | O => Ok (rows, ds)
  | S f =>
      if length heap <=? 1 then Ok (rows, ds)
      else
        dor p1 <- pop heap ds;
        let '(a, h1, ds1) := p1 in
        dor p2 <- pop h1 ds1;
        let '(b, h2, ds2) := p2 in
        if (Z.of_nat (vcount a + vcount b) >? min_size)%Z then Ok (rows, ds2)
        else
          let '(m, rows') := merge b a rows in
          mm_loop f min_size (h2 ++ [m]) rows' ds2
  end.

Fixpoint mm_samples (min_size : Z) (samples : list name) (rows : list row) (ds : list draw)
  : result (list row * list draw) :=
  match samples with
  | [] => Ok (rows, ds)
  | s :: rest =>
      dor ps <- plates_of_sample s rows;
      let heap := map (fun p => plate_vec p rows) ps in
      dor r <- mm_loop (length heap) min_size heap rows ds;
      let '(rows', ds') := r in
      mm_samples min_size rest rows' ds'
  end.
Definition merge_min (min_size : Z) (rows : list row) (ds : list draw) : result (list row * list draw) :=
  mm_samples min_size (sample_names rows) rows ds.

(* ---- MergeTopBottomPlateSmoother ---- *)
(* sorted(plates, key=size): stable *)
Fixpoint insert_sz (x : bvec) (l : list bvec) : list bvec :=
  match l with
  | [] => [x]
  | y :: r => if vcount x <=? vcount y then x :: l else y :: insert_sz x r
  end.
Definition sort_sz (l : list bvec) : list bvec := fold_right insert_sz [] l.

Fixpoint tb_merge_pairs (pairs : list (bvec * bvec)) (rows : list row) : list row :=
  match pairs with
  | [] => rows
  | (small, big) :: r => tb_merge_pairs r (snd (merge big small rows))
  end.

(* one iteration of the inner loop; None = break *)
Definition tb_iter (s : name) (rows : list row) : result (option (list row)) :=
  dor ps <- plates_of_sample s rows;
  if length ps <=? 1 then Ok None
  else
    let plates := sort_sz (map (fun p => plate_vec p rows) ps) in
    let halfway := length plates / 2 in
    Ok (Some (tb_merge_pairs (combine (firstn halfway plates) (firstn halfway (rev plates))) rows)).

Fixpoint tb_iters (n : nat) (s : name) (rows : list row) : result (list row) :=
  match n with
  | O => Ok rows
  | S k =>
      dor r <- tb_iter s rows;
      match r with
      | None => Ok rows
      | Some rows' => tb_iters k s rows'
      end
  end.
Fixpoint tb_samples (n : nat) (samples : list name) (rows : list row) : result (list row) :=
  match samples with
  | [] => Ok rows
  | s :: rest => dor rows' <- tb_iters n s rows; tb_samples n rest rows'
  end.
Definition merge_tb (n_iter : Z) (rows : list row) : result (list row) :=
  tb_samples (Z.to_nat n_iter) (sample_names rows) rows.

(* ---- shipped smoothers / generators as one dispatch ---- *)
Definition pure_sm (f : list row -> result (list row)) (rows : list row) (ds : list draw)
  : result (list row * list draw) :=
  dor r <- f rows; Ok (r, ds).

Definition ensemble (fixed : bool) (min_size n_iter m : Z) (rows : list row) (ds : list draw)
  : result (list row * list draw) :=
  dor r1 <- wrap (merge_min min_size) rows ds;
  let '(s1, d1) := r1 in
  dor r2 <- wrap (pure_sm (merge_tb n_iter)) s1 d1;
  let '(s2, d2) := r2 in
  dor r3 <- wrap optimal_smooth s2 d2;
  let '(s3, d3) := r3 in
  wrap (pure_sm (nplate fixed m)) s3 d3.

Inductive smoother : Type :=
| SMergeMin (min_size : Z)
| SMergeTB (n_iter : Z)
| SFixed (t : Z)
| SOptimal
| SNPlate (fixed : bool) (m : Z)
| SEnsemble (fixed : bool) (min_size n_iter m : Z).

Definition smooth_inner (sm : smoother) : list row -> list draw -> result (list row * list draw) :=
  match sm with
  | SMergeMin ms => merge_min ms
  | SMergeTB n => pure_sm (merge_tb n)
  | SFixed t => size_smooth t
  | SOptimal => optimal_smooth
  | SNPlate fx m => pure_sm (nplate fx m)
  | SEnsemble fx ms n m => ensemble fx ms n m
  end.
Definition smooth_plates (sm : smoother) := wrap (smooth_inner sm).

(* ---- vocabulary of the source translations (harness/src_functions.py -> Generated/SrcRetro.v) ----
   One definition per primitive the translated functions are configured with: the meaning given to one
   attribute / method / library call of batchie.data or heapq.  Everything else in Generated/SrcRetro.v
   (branches, None checks, loops, raises, arithmetic) comes from the translation of the source text. *)
Definition screen_t := list row.      (* a Screen: its experiments, in row order *)
Definition subset_t := list row.      (* a ScreenSubset: the selected experiments of its parent, in row order *)
(* self._generate_plates(screen, rng) / self._smooth_plates(screen, rng): any function of the screen and of the
   recorded answers still unread; returns the new screen and the answers left, or raises *)
Definition inner := screen_t -> list draw -> result (screen_t * list draw).
(* Screen.subset_unobserved(): `if np.any(~self.observation_mask): return self.subset(~self.observation_mask)` *)
Definition subset_unobserved (s : screen_t) : option subset_t :=
  if is_nil (unobserved s) then None else Some (unobserved s).
(* Screen.subset_observed(): `if np.any(self.observation_mask): return self.subset(self.observation_mask)` *)
Definition subset_observed (s : screen_t) : option subset_t :=
  if is_nil (observed s) then None else Some (observed s).
(* ScreenSubset.to_screen(): Screen(<every column>[self.selection_vector].copy()) - ids are re-encoded (not stored
   here) and the selected rows of a plate-uniform parent are plate-uniform, so the constructor accepts them *)
Definition to_screen (s : subset_t) : screen_t := s.
(* Screen.combine(other): Screen(<every column of self> ++ <every column of other>) *)
Definition combine_screens (a b : screen_t) : result screen_t := construct (a ++ b).
(* Screen.plates: [self.get_plate(x) for x in self.unique_plate_ids], get_plate(x) = Plate(self, self.plate_ids == x).
   A Plate object is its selection vector into its (mutable) parent screen; plate ids are ranks of sorted names. *)
Definition plates_of (s : screen_t) : list bvec := map (fun p => plate_vec p s) (plate_names_of s).
(* plate.unique_sample_ids of a plate [v] of the screen [s]: np.unique(s.sample_ids[v]) - as names, sorted *)
Definition plate_unique_samples (v : bvec) (s : screen_t) : list name := sort_uniq name_cmp (map r_sample (vselect v s)).
(* a[0] on a numpy array: IndexError when it is empty *)
Definition first_item {A} (l : list A) : result A := match l with x :: _ => Ok x | [] => Err 92%Z end.
(* plate.size = number of selected experiments *)
Definition plate_size (v : bvec) : Z := Z.of_nat (vcount v).
(* len(l) *)
Definition zlen {A} (l : list A) : Z := Z.of_nat (length l).

(* ---- vocabulary of the source translations of the shipped generators / smoothers (harness/src_functions.py, configurations
   C13_SAMPLE_SEG ... C13_PLATE_PERMUTATION -> Generated/SrcRetroGen.v).  One definition per primitive: the meaning given to
   one numpy / Generator / batchie.data call.  A `draw` answer is taken from the stream of recorded answers as it is: that it is a
   permutation / a duplicate-free sub-list of the offered array (numpy's contract) is a hypothesis of the shape theorems
   ([ss_contract], [size_contract]), not of the links. *)
(* math.ceil(a / float(b)) on ints: ZeroDivisionError (tag 3) for b = 0, else the ceiling of the quotient (of either sign) *)
Definition ceil_div_float (a b : Z) : result Z := if (b =? 0)%Z then Err 3%Z else Ok (- ((- a) / b))%Z.
(* rng.permutation(a), a an array of row numbers: the recorded answer *)
Definition permutation_ints (a : list nat) (ds : list draw) : result (list nat * list draw) := take_ints ds.
(* np.array_split(a, n): ValueError (tag 3) unless n >= 1 *)
Definition array_split_z {A} (a : list A) (n : Z) : result (list (list A)) :=
  if (n <=? 0)%Z then Err 3%Z else Ok (array_split a (Z.to_nat n)).
(* np.array([""] * n, dtype=object) *)
Definition blank_names (n : nat) : list name := repeat [] n.
(* a[idx] = v with idx an array of positions: IndexError (tag 92) if a position is outside the array *)
Definition set_at (a : list name) (idx : list nat) (v : name) : result (list name) :=
  if forallb (fun i => i <? length a) idx
  then Ok (map (fun ix => if memb (fst ix) idx then v else snd ix) (enum_from 0 a))
  else Err 92%Z.
(* Screen(<every column of s>.copy(), plate_names = l.astype(str), observation_mask = s.observation_mask.copy()):
   ValueError (tag 91) if l has not one entry per experiment *)
Definition screen_labelled (s : screen_t) (l : list name) : result screen_t :=
  if negb (length l =? length s) then Err 91%Z
  else construct (map (fun lr => set_plate (fst lr) (snd lr)) (combine l s)).
(* rng.choice(a, n, replace=False), a an array of row numbers: the recorded answer; ValueError (tag 3) for a negative n *)
Definition choice_ints (a : list nat) (n : Z) (ds : list draw) : result (list nat * list draw) :=
  if (n <? 0)%Z then Err 3%Z else take_ints ds.
(* np.arange(s.size)[v], v a selection vector of s *)
Definition vec_positions (v : bvec) : list nat := map fst (filter snd (enum_from 0 v)).
(* Screen.subset(v): the selected experiments, in row order *)
Definition subset_of (s : screen_t) (v : bvec) : subset_t := vselect v s.
(* np.sort(np.array(l)), l a list of ints *)
Fixpoint insert_z (x : Z) (l : list Z) : list Z :=
  match l with [] => [x] | y :: r => if (x <=? y)%Z then x :: l else y :: insert_z x r end.
Definition sort_z (l : list Z) : list Z := fold_right insert_z [] l.
(* a * b on int arrays of equal length *)
Definition vmul_z (a b : list Z) : list Z := map (fun p => (fst p * snd p)%Z) (combine a b).
(* n - v, n an int, v an int array *)
Definition rsub_z (n : Z) (v : list Z) : list Z := map (fun x => (n - x)%Z) v.
(* np.argmax(a): the first index of the maximum; ValueError (tag 3) on an empty array *)
Fixpoint argmax_z_go (l : list Z) (i best bi : Z) : Z :=
  match l with
  | [] => bi
  | y :: r => if (best <? y)%Z then argmax_z_go r (i + 1)%Z y i else argmax_z_go r (i + 1)%Z best bi
  end.
Definition argmax_z (l : list Z) : result Z :=
  match l with [] => Err 3%Z | x :: r => Ok (argmax_z_go r 1%Z x 0%Z) end.
(* the id of the sample named nm in the screen s: its rank among the sorted unique sample names *)
Definition sample_id_z (s : screen_t) (nm : name) : Z := Z.of_nat (sample_id s nm).
(* plate.unique_sample_ids of a plate [v] of the screen [s], as ids: np.unique(s.sample_ids[v]) (ranks are monotone in the names) *)
Definition plate_unique_sample_ids (v : bvec) (s : screen_t) : list Z := map (sample_id_z s) (plate_unique_samples v s).
(* s.sample_names != nm *)
Definition sample_name_ne (s : screen_t) (nm : name) : bvec := map (fun r => negb (name_eqb (r_sample r) nm)) s.
(* ~np.isin(s.plate_names, f) *)
Definition plate_not_in (s : screen_t) (f : list name) : bvec := map (fun r => negb (name_mem (r_plate r) f)) s.
(* rng.permutation(names), names an array of plate names: the recorded answer *)
Definition permutation_names (a : list name) (ds : list draw) : result (list name * list draw) := take_names ds.
(* Screen(<every column of s>, plate_names = l, observation_mask = np.zeros(s.size)): ValueError (tag 91) if l has not one entry
   per experiment *)
Definition screen_renamed (s : screen_t) (l : list name) : result screen_t :=
  if negb (length l =? length s) then Err 91%Z
  else construct (map (fun x => set_mask false (set_plate (fst x) (snd x))) (combine l s)).
