(* C04 model: what the shipped MCMC models are trained on.
   Transcribes
     batchie.core.BayesianModel.add_observations            -> [add_observations]  (guard: every row unmasked)
     batchie.data.Screen.subset_observed                    -> [train_input]       (None when nothing is observed)
     batchie.cli.train_model.main (lines 123-135)           -> [train_sdc], [train_int]
     batchie.models.sparse_combo.SparseDrugCombo._add_observations
       + LegacySparseDrugComboImpl._update                  -> [sdc_inner]
     batchie.data.create_single_treatment_effect_map        -> [single_effect_map]
     batchie.models.sparse_combo_interaction.SparseDrugComboInteraction._add_observations
       + LegacySparseDrugComboInteractionImpl._update       -> [int_inner]
   and the projection of a screen that the downstream steps (calculate_distance_matrix,
   calculate_scores, select_next_plate) can read              -> [downstream_input].

   Rows are at the level of ids (what Screen.sample_ids / treatment_ids / plate_ids hold; the
   names -> ids encoding is C01's model).  An observation is an exact rational or a special
   float value.  The float32 cast is an abstract function [r32] (it may overflow to +-inf, so
   its codomain is [oval]); logit on (0,1) is the oracle [orc ORC_LOGIT]; the behaviour of
   scipy.special.logit outside (0,1) (0 -> -inf, 1 -> +inf, otherwise NaN) is spelled out.
   The training arrays of the legacy implementations (y, cline, dd1, dd2) are one list of
   [trip]s; the index dictionaries cline_idxs / dd1_idxs / dd2_idxs are determined by it and
   not modelled.

   The interaction model is transcribed as coded before the repair /repo 49949ee when all three switches are false (all true
   is the code as it stands; Props/C04.v C04_source_variant_unique proves it of the translated source):
     fixed_mask = false : combo_mask = (number of control ids in the row == arity)
     fixed_mask = true  : combo_mask = (number of control ids in the row == 0)      [repair]
     guard_neg  = true  : `if not (data.observations >= 0.0).all(): raise`           [repair]
     guard_nan  = true  : `if np.isnan(transformed).any(): raise`                    [repair]
   Error tags: 1 masked row handed to add_observations, 2 negative (or NaN: NaN >= 0 is False)
   observation, 3 NaN after the transform, 4 arity (IndexError dd[1] / ValueError arity != 2).
   No proofs here. *)
From Coq Require Import ZArith List Bool QArith Qcanon.
From Batchie Require Import Lib.Sexp Lib.Num Generated.Consts Generated.ConstsClip Model.Encode.
Import ListNotations.
Open Scope Z_scope.

Inductive oval : Type :=
| OFin (q : Qc)
| ONaN
| OInf (neg : bool).

Record trow := {
  t_sample : Z;
  t_plate : Z;
  t_treats : list Z;
  t_obs : oval;
  t_mask : bool              (* observed? *)
}.

(* one call of LegacySparseDrugCombo(Interaction)Impl._update(y, cl, dd1, dd2) *)
Record trip := { tr_y : oval; tr_cl : Z; tr_d1 : Z; tr_d2 : Z }.

(* ---- float predicates / functions on [oval] ---- *)
Definition o_isnan (v : oval) : bool := match v with ONaN => true | _ => false end.
(* v >= 0.0 *)
Definition o_nonneg (v : oval) : bool :=
  match v with OFin q => qleb 0 q | ONaN => false | OInf neg => negb neg end.
(* v < 0.0 : "a negative observation" *)
Definition o_negative (v : oval) : bool :=
  match v with OFin q => qltb q 0 | ONaN => false | OInf neg => neg end.

Definition q_of_pair (p : Z * Z) : Qc := Q2Qc (Qmake (fst p) (Z.to_pos (snd p))).
Definition clip_lo : Qc := q_of_pair OBS_CLIP_LO.
Definition clip_hi : Qc := q_of_pair OBS_CLIP_HI.

(* np.clip(x, a_min, a_max): NaN propagates, infinities are clipped *)
Definition oclip (v : oval) : oval :=
  match v with
  | OFin q => OFin (qclip clip_lo clip_hi q)
  | ONaN => ONaN
  | OInf true => OFin clip_lo
  | OInf false => OFin clip_hi
  end.

(* np.mean of a non-empty float64 array *)
Definition is_pinf (v : oval) : bool := match v with OInf false => true | _ => false end.
Definition is_ninf (v : oval) : bool := match v with OInf true => true | _ => false end.
Definition fin_part (l : list oval) : list Qc :=
  flat_map (fun v => match v with OFin q => [q] | _ => [] end) l.
Definition omean (l : list oval) : oval :=
  if existsb o_isnan l then ONaN
  else if existsb is_pinf l && existsb is_ninf l then ONaN
  else if existsb is_pinf l then OInf false
  else if existsb is_ninf l then OInf true
  else OFin (qmean (fin_part l)).

(* ---- BayesianModel.add_observations ---- *)
Definition add_observations {S : Type} (inner : list trow -> result S) (rows : list trow) : result S :=
  if forallb t_mask rows then inner rows else Err 1.

(* ---- Screen.subset_observed ---- *)
Definition train_input (rows : list trow) : option (list trow) :=
  if existsb t_mask rows then Some (filter t_mask rows) else None.

(* ---- what downstream steps can read: everything but the observation value of masked rows ---- *)
Record drow := {
  d_sample : Z;
  d_plate : Z;
  d_treats : list Z;
  d_mask : bool;
  d_obs : option oval        (* Some only for observed rows *)
}.
Definition downstream_row (r : trow) : drow :=
  {| d_sample := t_sample r; d_plate := t_plate r; d_treats := t_treats r; d_mask := t_mask r;
     d_obs := if t_mask r then Some (t_obs r) else None |}.
Definition downstream_input (rows : list trow) : list drow := map downstream_row rows.

(* subset_observed computed from the projection alone *)
Definition view_train_input (v : list drow) : option (list trow) :=
  if existsb d_mask v then
    Some (flat_map (fun d => match d_mask d, d_obs d with
                             | true, Some o => [{| t_sample := d_sample d; t_plate := d_plate d;
                                                   t_treats := d_treats d; t_obs := o; t_mask := true |}]
                             | _, _ => []
                             end) v)
  else None.

(* ---- the relation "differ only in masked observation values" ---- *)
Definition row_agree (a b : trow) : Prop :=
  t_sample a = t_sample b /\ t_plate a = t_plate b /\ t_treats a = t_treats b /\
  t_mask a = t_mask b /\ (t_mask a = true -> t_obs a = t_obs b).
Definition same_except_masked (s1 s2 : list trow) : Prop := Forall2 row_agree s1 s2.

(* boolean counterpart of [same_except_masked] on the projections, for the wire *)
Definition oval_eqb (a b : oval) : bool :=
  match a, b with
  | OFin p, OFin q => qeqb p q
  | ONaN, ONaN => true
  | OInf x, OInf y => Bool.eqb x y
  | _, _ => false
  end.
Definition drow_eqb (a b : drow) : bool :=
  (d_sample a =? d_sample b) && (d_plate a =? d_plate b) && Zlist_eqb (d_treats a) (d_treats b)
  && Bool.eqb (d_mask a) (d_mask b)
  && match d_obs a, d_obs b with
     | None, None => true
     | Some x, Some y => oval_eqb x y
     | _, _ => false
     end.
Fixpoint drows_eqb (a b : list drow) : bool :=
  match a, b with
  | [], [] => true
  | x :: a', y :: b' => drow_eqb x y && drows_eqb a' b'
  | _, _ => false
  end.

(* ---- the interaction model's lookup table (a dict keyed by (sample id, treatment id)) ---- *)
Definition lkey := (Z * Z)%type.
Definition lookup := list (lkey * oval).       (* kept sorted by key, keys unique *)
Definition lkey_cmp (a b : lkey) : comparison :=
  match fst a ?= fst b with Eq => snd a ?= snd b | c => c end.
Fixpoint lk_set (k : lkey) (v : oval) (l : lookup) : lookup :=
  match l with
  | [] => [(k, v)]
  | (k', v') :: r =>
      match lkey_cmp k k' with
      | Lt => (k, v) :: l
      | Eq => (k, v) :: r
      | Gt => (k', v') :: lk_set k v r
      end
  end.
(* dict.update *)
Definition lk_update (old new : lookup) : lookup :=
  fold_left (fun acc kv => lk_set (fst kv) (snd kv) acc) new old.

Definition count_ctrl (tr : list Z) : nat := length (filter (Z.eqb CONTROL_SENTINEL_VALUE) tr).
(* np.sort(row)[-1] *)
Definition zmax_list (l : list Z) : Z := fold_right Z.max (hd 0 l) l.

(* create_single_treatment_effect_map(sample_ids, treatment_ids, observation); callers have
   checked arity >= 2.  The mask of the rows is NOT consulted (as coded). *)
Definition is_single (arity : nat) (r : trow) : bool := Nat.eqb (count_ctrl (t_treats r)) (arity - 1).
Definition single_matches (s t : Z) (r : trow) : bool :=
  (zmax_list (t_treats r) =? t) && (t_sample r =? s).
Definition single_effect_map (arity : nat) (rows : list trow) : lookup :=
  let singles := filter (is_single arity) rows in
  let us := sort_uniq Z.compare (map t_sample rows) in
  let ut := sort_uniq Z.compare (concat (map t_treats rows)) in
  flat_map (fun s =>
    flat_map (fun t =>
      if t =? CONTROL_SENTINEL_VALUE then [((s, t), OFin 1%Qc)]
      else match filter (single_matches s t) singles with
           | [] => []
           | m => [((s, t), omean (map t_obs m))]
           end) ut) us.

Record istate := { i_lookup : lookup; i_train : list trip }.
Definition istate0 : istate := {| i_lookup := []; i_train := [] |}.

Section Train.
Variable orc : oracle.
Variable r32 : Qc -> oval.          (* astype(np.float32) on a finite double *)

Definition cast32 (v : oval) : oval := match v with OFin q => r32 q | _ => v end.

(* scipy.special.logit on a float32 value *)
Definition ologit (v : oval) : oval :=
  match v with
  | OFin p =>
      if qltb p 0 then ONaN
      else if qeqb p 0 then OInf true
      else if qltb 1 p then ONaN
      else if qeqb p 1 then OInf false
      else OFin (orc ORC_LOGIT p)
  | _ => ONaN
  end.

(* ---- SparseDrugCombo ---- *)
Definition sdc_transform (v : oval) : oval := ologit (oclip (cast32 v)).

Definition sdc_trip (r : trow) : result trip :=
  match nth_error (t_treats r) 0, nth_error (t_treats r) 1 with
  | Some d1, Some d2 =>
      Ok {| tr_y := sdc_transform (t_obs r); tr_cl := t_sample r; tr_d1 := d1; tr_d2 := d2 |}
  | _, _ => Err 4
  end.

(* _add_observations on a model that already holds [st] *)
Definition sdc_inner (st : list trip) (rows : list trow) : result (list trip) :=
  if negb (forallb (fun r => o_nonneg (t_obs r)) rows) then Err 2
  else if existsb (fun r => o_isnan (sdc_transform (t_obs r))) rows then Err 3
  else dor new <- res_map_all sdc_trip (filter t_mask rows); Ok (st ++ new).

Definition sdc_add (st : list trip) (rows : list trow) : result (list trip) :=
  add_observations (sdc_inner st) rows.

(* train_model.main up to the sampler: a fresh model, trained on subset_observed() *)
Definition train_sdc (rows : list trow) : result (list trip) :=
  match train_input rows with
  | Some o => sdc_add [] o
  | None => Ok []
  end.

(* ---- SparseDrugComboInteraction ---- *)
Section Interaction.
Variables fixed_mask guard_neg guard_nan : bool.

(* arity = data.treatment_ids.shape[1] *)
Definition combo_sel (arity : nat) (r : trow) : bool :=
  Nat.eqb (count_ctrl (t_treats r)) (if fixed_mask then 0%nat else arity).

Definition int_transform (v : oval) : oval := ologit (cast32 v).

Definition int_trip (r : trow) : trip :=
  {| tr_y := int_transform (t_obs r); tr_cl := t_sample r;
     tr_d1 := nth 0 (t_treats r) 0; tr_d2 := nth 1 (t_treats r) 0 |}.

Definition int_inner (st : istate) (arity : nat) (rows : list trow) : result istate :=
  if negb (Nat.eqb arity 2) then Err 4
  else if guard_neg && negb (forallb (fun r => o_nonneg (t_obs r)) rows) then Err 2
  else
    let sel := filter (combo_sel arity) rows in
    if guard_nan && existsb (fun r => o_isnan (int_transform (t_obs r))) sel then Err 3
    else Ok {| i_lookup := lk_update (i_lookup st) (single_effect_map arity rows);
               i_train := i_train st ++ map int_trip (filter t_mask sel) |}.

Definition int_add (st : istate) (arity : nat) (rows : list trow) : result istate :=
  add_observations (int_inner st arity) rows.

Definition train_int (arity : nat) (rows : list trow) : result istate :=
  match train_input rows with
  | Some o => int_add istate0 arity o
  | None => Ok istate0
  end.
End Interaction.
End Train.

(* ======== vocabulary of the source translations (harness/src_functions.py, entries C04_*;
   Generated/SrcTrain.v).  No proofs here. ======== *)

(* the float32 cast as a parameter type *)
Definition cast_fn : Type := Qc -> oval.

(* a.all() / a.any() on a bool array *)
Definition all_true (l : list bool) : bool := forallb (fun b => b) l.
Definition any_true (l : list bool) : bool := existsb (fun b => b) l.

(* np.clip(x, a_min=lo, a_max=hi) elementwise: NaN propagates, infinities are clipped *)
Definition oclip_at (lo hi : Qc) (v : oval) : oval :=
  match v with
  | OFin q => OFin (qclip lo hi q)
  | ONaN => ONaN
  | OInf true => OFin lo
  | OInf false => OFin hi
  end.

(* zip(a, b, c, d) / zip(a, b, c, d, e): stops at the shortest *)
Fixpoint zip4 {A B C D : Type} (a : list A) (b : list B) (c : list C) (d : list D) : list (A * B * C * D) :=
  match a, b, c, d with
  | x :: a', y :: b', z :: c', w :: d' => (x, y, z, w) :: zip4 a' b' c' d'
  | _, _, _, _ => []
  end.
Fixpoint zip5 {A B C D E : Type} (a : list A) (b : list B) (c : list C) (d : list D) (e : list E)
  : list (A * B * C * D * E) :=
  match a, b, c, d, e with
  | x :: a', y :: b', z :: c', w :: d', u :: e' => (x, y, z, w, u) :: zip5 a' b' c' d' e'
  | _, _, _, _, _ => []
  end.

(* row[i] on one row of treatment ids (a 1-d integer array): a negative index counts from the end,
   out of range is an IndexError (tag 4) *)
Definition id_at (l : list Z) (i : Z) : result Z :=
  let j := if i <? 0 then i + Z.of_nat (length l) else i in
  if j <? 0 then Err 4
  else match nth_error l (Z.to_nat j) with Some a => Ok a | None => Err 4 end.

(* a[mask]: the entries where the boolean mask is True *)
Fixpoint select {A : Type} (mask : list bool) (l : list A) : list A :=
  match mask, l with
  | b :: m', x :: l' => if b then x :: select m' l' else select m' l'
  | _, _ => []
  end.
(* a[mask, i] for a 2-d id array: column i of the selected rows *)
Definition column (i : nat) (rows : list (list Z)) : list Z := map (fun t => nth i t 0) rows.
(* np.sum(a == CONTROL_SENTINEL_VALUE, axis=1): controls per row *)
Definition ctrl_counts (rows : list (list Z)) : list Z := map (fun t => Z.of_nat (count_ctrl t)) rows.
(* a == v elementwise on an integer array; a & b elementwise on bool arrays *)
Definition eq_vec (a : list Z) (v : Z) : list bool := map (fun x => x =? v) a.
Fixpoint and_vec (a b : list bool) : list bool :=
  match a, b with
  | x :: a', y :: b' => (x && y) :: and_vec a' b'
  | _, _ => []
  end.
(* np.sort(a, axis=1)[:, -1]: the largest id of each row *)
Definition row_maxima (rows : list (list Z)) : list Z := map zmax_list rows.
(* the value 1.0 *)
Definition oone : oval := OFin 1%Qc.

(* ---- LegacySparseDrugCombo(Interaction)Impl: the training arrays and the index dictionaries ----
   y / cline / dd1 / dd2 are Python lists, cline_idxs / dd1_idxs / dd2_idxs are defaultdict(list):
   insertion-ordered association lists id -> list of row numbers *)
Record legacy := {
  lg_y : list oval; lg_cline : list Z; lg_dd1 : list Z; lg_dd2 : list Z;
  lg_cline_idxs : list (Z * list Z); lg_dd1_idxs : list (Z * list Z); lg_dd2_idxs : list (Z * list Z)
}.
Definition set_lg_y (o : legacy) (v : list oval) : legacy :=
  {| lg_y := v; lg_cline := lg_cline o; lg_dd1 := lg_dd1 o; lg_dd2 := lg_dd2 o;
     lg_cline_idxs := lg_cline_idxs o; lg_dd1_idxs := lg_dd1_idxs o; lg_dd2_idxs := lg_dd2_idxs o |}.
Definition set_lg_cline (o : legacy) (v : list Z) : legacy :=
  {| lg_y := lg_y o; lg_cline := v; lg_dd1 := lg_dd1 o; lg_dd2 := lg_dd2 o;
     lg_cline_idxs := lg_cline_idxs o; lg_dd1_idxs := lg_dd1_idxs o; lg_dd2_idxs := lg_dd2_idxs o |}.
Definition set_lg_dd1 (o : legacy) (v : list Z) : legacy :=
  {| lg_y := lg_y o; lg_cline := lg_cline o; lg_dd1 := v; lg_dd2 := lg_dd2 o;
     lg_cline_idxs := lg_cline_idxs o; lg_dd1_idxs := lg_dd1_idxs o; lg_dd2_idxs := lg_dd2_idxs o |}.
Definition set_lg_dd2 (o : legacy) (v : list Z) : legacy :=
  {| lg_y := lg_y o; lg_cline := lg_cline o; lg_dd1 := lg_dd1 o; lg_dd2 := v;
     lg_cline_idxs := lg_cline_idxs o; lg_dd1_idxs := lg_dd1_idxs o; lg_dd2_idxs := lg_dd2_idxs o |}.
Definition set_lg_cline_idxs (o : legacy) (v : list (Z * list Z)) : legacy :=
  {| lg_y := lg_y o; lg_cline := lg_cline o; lg_dd1 := lg_dd1 o; lg_dd2 := lg_dd2 o;
     lg_cline_idxs := v; lg_dd1_idxs := lg_dd1_idxs o; lg_dd2_idxs := lg_dd2_idxs o |}.
Definition set_lg_dd1_idxs (o : legacy) (v : list (Z * list Z)) : legacy :=
  {| lg_y := lg_y o; lg_cline := lg_cline o; lg_dd1 := lg_dd1 o; lg_dd2 := lg_dd2 o;
     lg_cline_idxs := lg_cline_idxs o; lg_dd1_idxs := v; lg_dd2_idxs := lg_dd2_idxs o |}.
Definition set_lg_dd2_idxs (o : legacy) (v : list (Z * list Z)) : legacy :=
  {| lg_y := lg_y o; lg_cline := lg_cline o; lg_dd1 := lg_dd1 o; lg_dd2 := lg_dd2 o;
     lg_cline_idxs := lg_cline_idxs o; lg_dd1_idxs := lg_dd1_idxs o; lg_dd2_idxs := v |}.

(* what the index dictionaries must be: for every id of a column, in order of first occurrence,
   the ascending list of the positions (row numbers from 0) at which the column holds it *)
Fixpoint positions_from (i : Z) (k : Z) (col : list Z) : list Z :=
  match col with
  | [] => []
  | c :: r => if c =? k then i :: positions_from (i + 1) k r else positions_from (i + 1) k r
  end.
Definition positions (k : Z) (col : list Z) : list Z := positions_from 0 k col.
Definition first_occurrences (col : list Z) : list Z :=
  fold_left (fun acc c => if existsb (Z.eqb c) acc then acc else acc ++ [c]) col [].
Definition index_dict (col : list Z) : list (Z * list Z) :=
  map (fun k => (k, positions k col)) (first_occurrences col).

(* the legacy object that holds the training rows [st] (one [trip] per _update call, in order) *)
Definition legacy_of (st : list trip) : legacy :=
  {| lg_y := map tr_y st; lg_cline := map tr_cl st; lg_dd1 := map tr_d1 st; lg_dd2 := map tr_d2 st;
     lg_cline_idxs := index_dict (map tr_cl st); lg_dd1_idxs := index_dict (map tr_d1 st);
     lg_dd2_idxs := index_dict (map tr_d2 st) |}.

(* ======== ComboGridFactorModel._add_observations (models/grid_combo.py; the variational grid model - not an MCMC model, but a
   shipped BayesianModel subclass selectable with --model).  Vocabulary of its source translation (harness/src_functions.py
   C04_GRID_ADD -> Generated/SrcTrainGrid.v) and the hand model.  No proofs here.
   The object's six growing numpy arrays are six lists.  grid_helper.unpack_data(data, drugname2idx, use_mask=True) is a
   PRIMITIVE of the translation: it is row-wise over the rows selected by data.observation_mask and reads a row's sample id and
   treatment names / doses (= its treatment ids, C01) - so its meaning is [unpack_cols u data] for an arbitrary per-row
   function [u] (sample id, treatment ids) -> (sample id, drug id 1, drug id 2, log10 dose 1, log10 dose 2) over an arbitrary
   type C of log-concentrations.  The harness checks that reading on the implementation (row-wise, masked rows only, value-blind). *)
Definition urow (C : Type) : Type := (Z * Z * Z * C * C)%type.
Definition unpack_fn (C : Type) : Type := Z -> list Z -> urow C.
Definition unpack_cols {C : Type} (u : unpack_fn C) (data : list trow) : list Z * list Z * list Z * list C * list C :=
  let rs := map (fun r => u (t_sample r) (t_treats r)) (filter t_mask data) in
  (map (fun x => match x with (s, _, _, _, _) => s end) rs,
   map (fun x => match x with (_, a, _, _, _) => a end) rs,
   map (fun x => match x with (_, _, b, _, _) => b end) rs,
   map (fun x => match x with (_, _, _, c, _) => c end) rs,
   map (fun x => match x with (_, _, _, _, d) => d end) rs).

(* the state of the grid model's training arrays: one entry per trained row *)
Record gtrip (C : Type) := { gt_u : urow C; gt_y : oval }.
Arguments gt_u {C}. Arguments gt_y {C}.
Definition grid_cols {C : Type} (st : list (gtrip C)) : list Z * list C * list C * list Z * list Z * list oval :=
  (map (fun t => match gt_u t with (s, _, _, _, _) => s end) st,
   map (fun t => match gt_u t with (_, _, _, c, _) => c end) st,
   map (fun t => match gt_u t with (_, _, _, _, d) => d end) st,
   map (fun t => match gt_u t with (_, a, _, _, _) => a end) st,
   map (fun t => match gt_u t with (_, _, b, _, _) => b end) st,
   map gt_y st).

(* np.clip(y, 0.0, 1.0) *)
Definition oclip01 (v : oval) : oval := oclip_at 0%Qc 1%Qc v.

Definition grid_trip {C : Type} (u : unpack_fn C) (r : trow) : gtrip C :=
  {| gt_u := u (t_sample r) (t_treats r); gt_y := oclip01 (t_obs r) |}.

(* _add_observations on a model that already holds [st]: refuses a negative or NaN observation (NaN >= 0 is False), then one
   entry per row with mask, in order *)
Definition grid_inner {C : Type} (u : unpack_fn C) (st : list (gtrip C)) (rows : list trow) : result (list (gtrip C)) :=
  if negb (forallb (fun r => o_nonneg (t_obs r)) rows) then Err 2
  else Ok (st ++ map (grid_trip u) (filter t_mask rows)).
Definition grid_add {C : Type} (u : unpack_fn C) (st : list (gtrip C)) (rows : list trow) : result (list (gtrip C)) :=
  add_observations (grid_inner u st) rows.
Definition train_grid {C : Type} (u : unpack_fn C) (rows : list trow) : result (list (gtrip C)) :=
  match train_input rows with
  | Some o => grid_add u [] o
  | None => Ok []
  end.
