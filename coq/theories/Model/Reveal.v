(* C03 / C12 model, part 1: the operations of the simulation lifecycle on a screen.
   Transcribes, each AS THE CODE CONSTRUCTS THE NEW Screen (which keyword arguments the call
   site passes to Screen(...)):
     batchie.retrospective.mask_screen      Screen(names, doses, observations, sample_names, plate_names, control,
                                                   observation_mask = zeros)          -- plus the parent's two mappings
     batchie.retrospective.unmask_screen    same with observation_mask = ones          -- plus the parent's two mappings
     batchie.retrospective.reveal_plates    reveal_mask = isin(screen.plate_ids, plate_ids); guards on
                                            screen.observations[reveal_mask] (all == 0, incl. the empty
                                            selection since np.all([]) is True  ->  ValueError; then, PER
                                            selected plate (np.unique(screen.plate_ids[reveal_mask])), all of
                                            that plate's values == 0 -> the same ValueError [fix fx5]; any NaN
                                            -> ValueError); Screen(..., observation_mask = old | reveal_mask)
                                                                                       -- plus the parent's two mappings
     batchie.data.Screen.save_h5 / load_h5  load_h5 calls Screen(...) with the stored rows, observations,
                                            observation_mask AND the stored treatment_mapping / sample_mapping
     batchie.data.Screen.set_observed       in-place: _observations[sel] = values; _observation_mask[sel] = True
                                            (no constructor call, no plate check)
     batchie.cli.extract_screen_metadata    plate counters (loop over screen.plates, Plate.is_observed)
   reveal_plates takes ONE screen (the partially masked screen, which carries the real observation values in
   its observation array); the plate ids it selects by are that screen's own plate_ids, i.e. the rank of the
   plate name among the plate names occurring in THAT screen (plate ids are re-derived from the names on
   every construction; they are not carried by any mapping argument).
   [variant] says, per function, whether the call site passes the parent's treatment_mapping /
   sample_mapping.  [carry_mappings true] is the code as it stands (/repo e414171; C03_source_variant_unique proves it of
   the translated source); [carry_mappings false] is the construction before that repair, kept to be refuted.
   Abstracted: HDF5 storage itself (dataset write -> read returns the same array; that is C02's subject);
   mapping id arrays of an existing Screen have an integer dtype (hence the flag [true]).
   Error tags (continuing Model/Encode.v): 8 all revealed values zero (or none selected) or a selected plate all zero, 9 NaN among
   revealed values, 10 selection length <> size, 11 value count does not fit the selection.
   No proofs here. *)
From Coq Require Import ZArith List Bool.
From Batchie Require Import Lib.Sexp Generated.Consts Model.Encode Model.Screen.
Import ListNotations.
Open Scope Z_scope.

Record variant := { carry_reveal : bool; carry_mask : bool; carry_unmask : bool }.
Definition carry_mappings (b : bool) : variant :=
  {| carry_reveal := b; carry_mask := b; carry_unmask := b |}.

Definition with_mask (b : bool) (r : row) : row :=
  {| r_sample := r_sample r; r_plate := r_plate r; r_treats := r_treats r; r_obs := r_obs r; r_mask := b |}.
Definition with_obs (o : Z) (r : row) : row :=
  {| r_sample := r_sample r; r_plate := r_plate r; r_treats := r_treats r; r_obs := o; r_mask := true |}.

(* the mapping arguments a call site passes *)
Definition tmap_arg (carry : bool) (s : screen) : option (tmapping * bool) :=
  if carry then Some (s_tmap s, true) else None.
Definition smap_arg (carry : bool) (s : screen) : option (nmapping * bool) :=
  if carry then Some (s_smap s, true) else None.

(* arr[bool_vector] *)
Fixpoint select {A} (sel : list bool) (l : list A) : list A :=
  match sel, l with
  | b :: sel', a :: l' => if b then a :: select sel' l' else select sel' l'
  | _, _ => []
  end.

Definition mem_Z (x : Z) (l : list Z) : bool := existsb (Z.eqb x) l.

(* Screen(..., observations = screen.observations, observation_mask = <masks>, [mappings]) *)
Definition rebuild (carry : bool) (s : screen) (rows : list row) : result screen :=
  mk_screen rows (s_arity s) (s_ctrl s) (tmap_arg carry s) (smap_arg carry s) true true.

Definition mask_screen (v : variant) (s : screen) : result screen :=
  rebuild (carry_mask v) s (map (with_mask false) (s_rows s)).

Definition unmask_screen (v : variant) (s : screen) : result screen :=
  rebuild (carry_unmask v) s (map (with_mask true) (s_rows s)).

(* np.isin(screen.plate_ids, plate_ids) *)
Definition reveal_sel (s : screen) (ids : list Z) : list bool :=
  map (fun pid => mem_Z pid ids) (s_pids s).
(* screen.observations[reveal_mask] *)
Definition revealed_values (s : screen) (ids : list Z) : list Z :=
  map r_obs (select (reveal_sel s ids) (s_rows s)).
(* observation_mask | reveal_mask *)
Definition reveal_rows (s : screen) (ids : list Z) : list row :=
  map (fun rb => with_mask (r_mask (fst rb) || snd rb) (fst rb)) (combine (s_rows s) (reveal_sel s ids)).

(* screen.observations[screen.plate_ids == pid]: the stored values of ONE plate *)
Definition plate_values (s : screen) (pid : Z) : list Z :=
  map r_obs (select (map (fun p => p =? pid) (s_pids s)) (s_rows s)).
(* np.unique(screen.plate_ids[reveal_mask]): the plates of the screen that the ids name, each once, ascending *)
Definition revealed_plate_ids (s : screen) (ids : list Z) : list Z :=
  sort_uniq Z.compare (select (reveal_sel s ids) (s_pids s)).
(* the zero guard of the code as repaired (fix fx5): nothing selected / all selected values zero (the joint test, kept: it
   is what refuses the empty selection), or SOME selected plate whose own stored values are all zero *)
Definition reveal_zero_guard (s : screen) (ids : list Z) : bool :=
  forallb obs_is_zero (revealed_values s ids)
  || existsb (fun pid => forallb obs_is_zero (plate_values s pid)) (revealed_plate_ids s ids).

Definition reveal_plates (v : variant) (s : screen) (ids : list Z) : result screen :=
  if reveal_zero_guard s ids then Err 8
  else if existsb obs_is_nan (revealed_values s ids) then Err 9
  else rebuild (carry_reveal v) s (reveal_rows s ids).

(* the code BEFORE fix fx5: the zero guard looked at the union of the selected rows only, so an all-zero plate named
   together with a plate holding a non-zero value was revealed.  Kept only as the subject of
   C12_reveal_refuses_zero_per_plate_refuted; nothing else mentions it. *)
Definition reveal_plates_joint (v : variant) (s : screen) (ids : list Z) : result screen :=
  if forallb obs_is_zero (revealed_values s ids) then Err 8
  else if existsb obs_is_nan (revealed_values s ids) then Err 9
  else rebuild (carry_reveal v) s (reveal_rows s ids).

(* save_h5 followed by load_h5 *)
Definition save_load (s : screen) : result screen :=
  mk_screen (s_rows s) (s_arity s) (s_ctrl s) (Some (s_tmap s, true)) (Some (s_smap s, true)) true true.

(* ---- the lifecycle operations and a history ---- *)
Inductive op := Reveal (ids : list Z) | Mask | Unmask | SaveLoad.

Definition step (v : variant) (s : screen) (o : op) : result screen :=
  match o with
  | Reveal ids => reveal_plates v s ids
  | Mask => mask_screen v s
  | Unmask => unmask_screen v s
  | SaveLoad => save_load s
  end.

(* fold_left step ops s0 in the result monad: the first refusal ends the history *)
Definition history (v : variant) (ops : list op) (s0 : screen) : result screen :=
  fold_left (fun acc o => dor s <- acc; step v s o) ops (Ok s0).

(* ---- Screen.set_observed(selection_mask, observations): numpy boolean-mask assignment ---- *)
Fixpoint assign (sel : list bool) (vals : list Z) (rows : list row) : list row :=
  match sel, rows with
  | b :: sel', r :: rows' =>
      if b then
        match vals with
        | x :: vals' => with_obs x r :: assign sel' vals' rows'
        | [] => r :: assign sel' [] rows'
        end
      else r :: assign sel' vals rows'
  | _, _ => rows
  end.

Definition count_true (sel : list bool) : nat := length (filter (fun b => b) sel).

Definition set_observed (s : screen) (sel : list bool) (vals : list Z) : result screen :=
  if negb (Nat.eqb (length sel) (length (s_rows s))) then Err 10
  else
    let k := count_true sel in
    let vals' :=
      if Nat.eqb (length vals) k then Some vals
      else match vals with [x] => Some (repeat x k) | _ => None end in       (* broadcasting of one value *)
    match vals' with
    | None => Err 11
    | Some vs =>
        Ok {| s_rows := assign sel vs (s_rows s); s_arity := s_arity s; s_ctrl := s_ctrl s;
              s_tmap := s_tmap s; s_smap := s_smap s; s_pmap := s_pmap s;
              s_tids := s_tids s; s_sids := s_sids s; s_pids := s_pids s |}
    end.

(* ---- extract_screen_metadata: counters over screen.plates ---- *)
Definition unique_plate_ids (s : screen) : list Z := sort_uniq Z.compare (s_pids s).
(* Plate.is_observed = np.all(observation_mask[plate_ids == pid]) *)
Definition plate_observed (s : screen) (pid : Z) : bool :=
  forallb (fun rp => negb (snd rp =? pid) || r_mask (fst rp)) (combine (s_rows s) (s_pids s)).
Definition n_plates (s : screen) : nat := length (unique_plate_ids s).
Definition n_unobserved_plates (s : screen) : nat :=
  length (filter (fun pid => negb (plate_observed s pid)) (unique_plate_ids s)).
Definition n_observed_plates (s : screen) : nat :=
  length (filter (plate_observed s) (unique_plate_ids s)).
(* the plates a reveal newly observes: distinct plate ids of the screen that are named in [ids]
   and were not observed before *)
Definition newly_revealed (s : screen) (ids : list Z) : list Z :=
  filter (fun pid => negb (plate_observed s pid) && mem_Z pid ids) (unique_plate_ids s).
(* Screen.n_unique_samples / n_unique_treatments (of the rows, not of the experiment space) *)
Definition n_unique_samples_rows (s : screen) : nat := length (sort_uniq Z.compare (s_sids s)).
Definition n_unique_treatments_rows (s : screen) : nat :=
  length (sort_uniq Z.compare
            (filter (fun i => negb (i =? CONTROL_SENTINEL_VALUE)) (concat (s_tids s)))).

(* ==== vocabulary of the source-translation link for C12 / C03 ====
   (harness/src_functions.py C12_*, generated file Generated/SrcReveal.v, proofs Proofs/C12Source.v)
   A Python Screen object is a [screen].  Its array attributes are the COLUMNS of its rows, one entry per
   experiment; a 2-d array carries its second dimension (so that an empty screen still has an arity).
   Observation arrays are float64 bit patterns (Model/Screen.v).  The numpy calls below have their list
   meaning for arrays of equal length, which is the invariant of the arrays of one Screen object (its
   constructor refuses anything else: "All arrays must have the same number of experiments"); on lists of
   different lengths - where numpy raises - zip_rows / np_or / select stop at the shorter one. *)
Definition names2d := (nat * list (list name))%type.      (* treatment_names: (shape[1], rows) *)
Definition doses2d := (nat * list (list Z))%type.         (* treatment_doses: dose keys *)
Definition tmap_t := (tmapping * bool)%type.              (* a treatment_mapping argument with the flag "its id array has an integer dtype" *)
Definition smap_t := (nmapping * bool)%type.

(* attribute reads screen.<name> *)
Definition col_tnames (s : screen) : names2d := (s_arity s, map (fun r => map fst (r_treats r)) (s_rows s)).
Definition col_tdoses (s : screen) : doses2d := (s_arity s, map (fun r => map snd (r_treats r)) (s_rows s)).
Definition col_samples (s : screen) : list name := map r_sample (s_rows s).
Definition col_plates (s : screen) : list name := map r_plate (s_rows s).
Definition col_obs (s : screen) : list Z := map r_obs (s_rows s).
Definition col_mask (s : screen) : list bool := map r_mask (s_rows s).
Definition screen_size (s : screen) : Z := Z.of_nat (length (s_rows s)).      (* screen.size *)
(* screen.treatment_mapping / screen.sample_mapping of an existing Screen: integer ids *)
Definition attr_tmap (s : screen) : tmap_t := (s_tmap s, true).
Definition attr_smap (s : screen) : smap_t := (s_smap s, true).

(* numpy, one call each *)
Definition np_isin (a l : list Z) : list bool := map (fun x => mem_Z x l) a.            (* np.isin(a, l) *)
Definition np_eq_zero (x : list Z) : list bool := map obs_is_zero x.                    (* x == 0, x a float array *)
Definition np_eq_Z (a : list Z) (p : Z) : list bool := map (fun x => x =? p) a.         (* a == p, a an int array, p an int *)
Definition np_isnan (x : list Z) : list bool := map obs_is_nan x.                       (* np.isnan(x) *)
Definition np_all (b : list bool) : bool := forallb (fun x => x) b.                     (* np.all(b); True for the empty array *)
Definition np_any (b : list bool) : bool := existsb (fun x => x) b.                     (* np.any(b) *)
Definition np_or (a b : list bool) : list bool := map (fun p => fst p || snd p) (combine a b).   (* a | b *)
Definition np_full {A} (x : A) (n : Z) : list A := repeat x (Z.to_nat n).               (* np.ones(n) / np.zeros(n) *)

(* Screen(treatment_names=, treatment_doses=, sample_names=, plate_names=, observations=, observation_mask=,
          control_treatment_name=, treatment_mapping=, sample_mapping=): row i is made of the i-th entries of the arrays;
   an argument that is not passed is None (control_treatment_name: the default "") *)
Fixpoint zip_rows (tn : list (list name)) (td : list (list Z)) (sn pn : list name) (ob : list Z) (mk : list bool)
  : list row :=
  match tn, td, sn, pn, ob, mk with
  | a :: tn', b :: td', c :: sn', d :: pn', e :: ob', f :: mk' =>
      {| r_sample := c; r_plate := d; r_treats := combine a b; r_obs := e; r_mask := f |} :: zip_rows tn' td' sn' pn' ob' mk'
  | _, _, _, _, _, _ => []
  end.

Definition py_screen (tnames : names2d) (tdoses : doses2d) (samples plates : list name)
    (obs : option (list Z)) (mask : option (list bool)) (ctrl : option name)
    (tmap : option tmap_t) (smap : option smap_t) : result screen :=
  let n := length samples in
  let ob := match obs with Some o => o | None => repeat 0 n end in            (* overwritten by mk_screen when not given *)
  let mk := match mask with Some m => m | None => repeat false n end in
  mk_screen (zip_rows (snd tnames) (snd tdoses) samples plates ob mk) (fst tnames)
            (match ctrl with Some c => c | None => [] end) tmap smap
            (match obs with Some _ => true | None => false end) (match mask with Some _ => true | None => false end).

(* ---- Screen.set_observed: numpy boolean-mask assignment on the two arrays it writes ---- *)
(* a[m] = vs, one value per selected position, consumed from the left *)
Fixpoint mask_put {A} (m : list bool) (vs : list A) (a : list A) : list A :=
  match m, a with
  | b :: m', x :: a' =>
      if b then match vs with
                | v :: vs' => v :: mask_put m' vs' a'
                | [] => x :: mask_put m' [] a'
                end
      else x :: mask_put m' vs a'
  | _, _ => a
  end.
(* a[m] = v, v an array: IndexError (tag 10) when the mask's length is not the array's; v must have as many values as m
   selects, or exactly one (broadcast); otherwise ValueError (tag 11) *)
Definition np_mask_assign {A} (a : list A) (m : list bool) (v : list A) : result (list A) :=
  if negb (Nat.eqb (length m) (length a)) then Err 10
  else
    let k := count_true m in
    if Nat.eqb (length v) k then Ok (mask_put m v a)
    else match v with
         | [x] => Ok (mask_put m (repeat x k) a)
         | _ => Err 11
         end.
(* a[m] = x, x a scalar *)
Definition np_mask_fill {A} (a : list A) (m : list bool) (x : A) : result (list A) :=
  if negb (Nat.eqb (length m) (length a)) then Err 10
  else Ok (mask_put m (repeat x (count_true m)) a).

(* the screen whose _observations / _observation_mask arrays are [ob] / [mk], everything else as in s *)
Definition with_cols (o : Z) (b : bool) (r : row) : row :=
  {| r_sample := r_sample r; r_plate := r_plate r; r_treats := r_treats r; r_obs := o; r_mask := b |}.
Fixpoint put_cols (rows : list row) (ob : list Z) (mk : list bool) : list row :=
  match rows, ob, mk with
  | r :: rows', o :: ob', b :: mk' => with_cols o b r :: put_cols rows' ob' mk'
  | _, _, _ => []
  end.
Definition set_cols (s : screen) (ob : list Z) (mk : list bool) : screen :=
  {| s_rows := put_cols (s_rows s) ob mk; s_arity := s_arity s; s_ctrl := s_ctrl s;
     s_tmap := s_tmap s; s_smap := s_smap s; s_pmap := s_pmap s;
     s_tids := s_tids s; s_sids := s_sids s; s_pids := s_pids s |}.

(* ---- Screen.__init__, the two statement runs that decide the observation mask ---- *)
Definition np_eq_name (a : list name) (x : name) : list bool := map (fun y => name_eqb y x) a.      (* a == x, a a string array *)
Definition np_eq_bool (a : list bool) (b : bool) : list bool := map (fun y => Bool.eqb y b) a.      (* a == b, a a bool array *)

