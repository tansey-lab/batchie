(* List lemmas shared by several proofs.  The last part is about the two list traversals of Lib/Sexp.v: res_map_all
   (the first error aborts) and opt_map_all. *)
From Coq Require Import List Arith ZArith Lia Permutation Sorted.
From Batchie Require Import Lib.Sexp.
Import ListNotations.
Local Open Scope nat_scope.

Lemma firstn_skipn_app {A} (l : list A) x y :
  firstn x l ++ firstn y (skipn x l) = firstn (x + y) l.
Proof.
  revert l; induction x as [|x IH]; intros l; cbn [firstn skipn app Nat.add].
  - reflexivity.
  - destruct l as [|a l]; cbn [firstn skipn app].
    + now rewrite firstn_nil.
    + now rewrite IH.
Qed.

Lemma skipn_skipn {A} (l : list A) x y : skipn y (skipn x l) = skipn (x + y) l.
Proof.
  revert l; induction x as [|x IH]; intros l; cbn [skipn Nat.add]; [reflexivity|].
  destruct l as [|a l]; [now rewrite skipn_nil|apply IH].
Qed.

(* consecutive slices along monotone cut points concatenate to the enclosing slice *)
Lemma concat_slices {A} (l : list A) (f : nat -> nat) :
  (forall k, f k <= f (S k)) ->
  forall m a,
    concat (map (fun k => firstn (f (S k) - f k) (skipn (f k) l)) (seq a m))
    = firstn (f (a + m) - f a) (skipn (f a) l).
Proof.
  intros Hmono m; induction m as [|m IH]; intros a; cbn [seq map concat].
  - now rewrite Nat.add_0_r, Nat.sub_diag.
  - rewrite IH.
    assert (Hle : forall j, f (S a) <= f (S a + j)).
    { induction j as [|j IHj]; [now rewrite Nat.add_0_r|].
      rewrite Nat.add_succ_r. etransitivity; [exact IHj|apply Hmono]. }
    specialize (Hle m). specialize (Hmono a).
    replace (skipn (f (S a)) l) with (skipn (f (S a) - f a) (skipn (f a) l))
      by (rewrite skipn_skipn; f_equal; lia).
    rewrite firstn_skipn_app. f_equal. rewrite Nat.add_succ_r. change (S a + m) with (S (a + m)) in *. lia.
Qed.

Lemma NoDup_app_inv {A} (l1 l2 : list A) :
  NoDup (l1 ++ l2) -> NoDup l1 /\ NoDup l2 /\ (forall x, In x l1 -> In x l2 -> False).
Proof.
  induction l1 as [|a l1 IH]; cbn [app]; intros H.
  - repeat split; [constructor|exact H|intros x []].
  - inversion H as [|? ? Hn Hnd]; subst. destruct (IH Hnd) as (H1 & H2 & H3).
    repeat split; [constructor; [|exact H1]|exact H2|].
    + intros Hin; apply Hn, in_or_app; now left.
    + intros x [->|Hx] Hx2; [apply Hn, in_or_app; now right|eapply H3; eassumption].
Qed.

Lemma NoDup_concat_disjoint {A} (ls : list (list A)) i j (x : A) :
  NoDup (concat ls) -> i <> j -> In x (nth i ls []) -> In x (nth j ls []) -> False.
Proof.
  revert i j; induction ls as [|l ls IH]; intros i j Hnd Hij Hi Hj.
  - destruct i; destruct j; contradiction.
  - cbn [concat] in Hnd. destruct (NoDup_app_inv _ _ Hnd) as (_ & Hnd' & Hdis).
    assert (Hcross : forall k, In x l -> In x (nth k ls []) -> False).
    { intros k Hl Hk. apply (Hdis x Hl).
      apply in_concat. exists (nth k ls []). split; [|exact Hk].
      destruct (Nat.lt_ge_cases k (length ls)) as [Hlt|Hge]; [now apply nth_In|].
      rewrite nth_overflow in Hk by exact Hge. contradiction. }
    destruct i as [|i], j as [|j]; cbn [nth] in Hi, Hj.
    + congruence.
    + eapply Hcross; eassumption.
    + eapply Hcross; eassumption.
    + eapply (IH i j); auto.
Qed.

Lemma In_firstn {A} (l : list A) k x : In x (firstn k l) -> In x l.
Proof. intros H. rewrite <- (firstn_skipn k l). apply in_or_app. now left. Qed.
Lemma In_skipn {A} (l : list A) k x : In x (skipn k l) -> In x l.
Proof. intros H. rewrite <- (firstn_skipn k l). apply in_or_app. now right. Qed.

Lemma nth_map_lt {A B} (f : A -> B) (l : list A) (d : B) (d' : A) j :
  j < length l -> nth j (map f l) d = f (nth j l d').
Proof.
  intros Hj. rewrite nth_indep with (d' := f d') by (now rewrite map_length). apply map_nth.
Qed.

Lemma nth_map_seq0 {A} (f : nat -> A) (d : A) c k : k < c -> nth k (map f (seq 0 c)) d = f k.
Proof.
  intros Hk. rewrite (nth_map_lt f (seq 0 c) d 0) by (now rewrite seq_length). now rewrite seq_nth.
Qed.

(* a function injective on the members of a duplicate-free list maps it to a duplicate-free list *)
Lemma NoDup_map_inj_in {A B} (f : A -> B) (l : list A) :
  (forall x y, In x l -> In y l -> f x = f y -> x = y) -> NoDup l -> NoDup (map f l).
Proof.
  intros Hinj Hnd. induction Hnd as [|a l Hnot Hnd IH]; cbn [map]; constructor.
  - intros Hin. apply in_map_iff in Hin as (y & Hy & Hyl). apply Hnot.
    rewrite (Hinj a y); [exact Hyl|now left|now right|now symmetry].
  - apply IH. intros x y Hx Hy. apply Hinj; now right.
Qed.

Lemma combine_fst_snd {A B} (l : list (A * B)) : combine (map fst l) (map snd l) = l.
Proof. induction l as [|[a b] l IH]; cbn [map combine fst snd]; [reflexivity | now rewrite IH]. Qed.

Lemma list_eq_map_nth {A} (l : list A) d : l = map (fun i => nth i l d) (seq 0 (length l)).
Proof.
  apply nth_ext with (d := d) (d' := d); [now rewrite map_length, seq_length|].
  intros i Hi. now rewrite nth_map_seq0.
Qed.

Lemma NoDup_app_intro {A} (l1 l2 : list A) :
  NoDup l1 -> NoDup l2 -> (forall x, In x l1 -> In x l2 -> False) -> NoDup (l1 ++ l2).
Proof.
  intros H1 H2 Hd. induction H1 as [|a l1 Ha H1 IH]; cbn [app]; [exact H2|].
  constructor.
  - rewrite in_app_iff. intros [H|H]; [contradiction|]. apply (Hd a); [now left|exact H].
  - apply IH. intros x Hx. apply Hd. now right.
Qed.

Lemma seq_sorted a n : StronglySorted lt (seq a n).
Proof.
  revert a; induction n as [|n IH]; intros a; cbn [seq]; constructor; [apply IH|].
  apply Forall_forall. intros x Hx. apply in_seq in Hx. lia.
Qed.

Lemma StronglySorted_lt_NoDup l : StronglySorted Z.lt l -> NoDup l.
Proof.
  induction 1 as [|a l _ IH Ha]; constructor; [|exact IH].
  intros Hin. rewrite Forall_forall in Ha. specialize (Ha a Hin). lia.
Qed.

Lemma of_nat_eqb a b : (Z.of_nat a =? Z.of_nat b)%Z = (a =? b).
Proof. destruct (Z.eqb_spec (Z.of_nat a) (Z.of_nat b)), (Nat.eqb_spec a b); (reflexivity || lia). Qed.

Lemma forallb_ext {A} (p q : A -> bool) l : (forall x, p x = q x) -> forallb p l = forallb q l.
Proof. intros H. induction l as [|a l IH]; cbn [forallb]; [reflexivity|]. now rewrite H, IH. Qed.

Lemma StronglySorted_filter {A} (R : A -> A -> Prop) f l : StronglySorted R l -> StronglySorted R (filter f l).
Proof.
  induction 1 as [|a l Hs IH Hf]; cbn [filter]; [constructor|]. destruct (f a); [|exact IH].
  constructor; [exact IH|]. rewrite Forall_forall in *. intros x Hx. apply Hf. now apply filter_In in Hx.
Qed.

Lemma concat_length_uniform {A} (n : nat) (ls : list (list A)) :
  Forall (fun l => length l = n) ls -> length (concat ls) = length ls * n.
Proof.
  induction 1 as [|l ls Hl Hall IH]; [reflexivity|]. cbn [concat length]. rewrite app_length, IH, Hl. lia.
Qed.

Lemma nth_app_repeat {A} (d : A) l n k : nth k (l ++ repeat d n) d = nth k l d.
Proof.
  destruct (Nat.lt_ge_cases k (length l)) as [Hlt|Hge].
  - now apply app_nth1.
  - rewrite app_nth2, nth_repeat by exact Hge. symmetry. now apply nth_overflow.
Qed.

Lemma map_combine {A B} : forall (a : list A) (b : list B), length a = length b ->
  map fst (combine a b) = a /\ map snd (combine a b) = b.
Proof.
  induction a as [|x a IH]; intros [|y b] L; try discriminate; [now split|].
  destruct (IH b) as [E1 E2]; [now injection L|]. cbn [combine map fst snd]. now rewrite E1, E2.
Qed.

Lemma combine_map_fst {A B C} (h : A -> B) (s : list A) (l : list C) :
  combine (map h s) l = map (fun p => (h (fst p), snd p)) (combine s l).
Proof.
  revert l. induction s as [|a s IH]; intros l; cbn [map combine]; [reflexivity|].
  destruct l as [|c l]; cbn [map combine fst snd]; [reflexivity|]. now rewrite IH.
Qed.

Lemma combine_map_same {A B C} (f : A -> B) (g : A -> C) l : combine (map f l) (map g l) = map (fun x => (f x, g x)) l.
Proof. induction l as [|a l IH]; cbn [map combine]; [reflexivity | now rewrite IH]. Qed.

Lemma nth_repeat_in {A} (x d : A) n : forall i, i < n -> nth i (repeat x n) d = x.
Proof.
  induction n as [|n IH]; intros [|i] Hi; cbn [repeat nth]; try lia; [reflexivity|apply IH; lia].
Qed.

Lemma filter_true {A} (l : list A) : filter (fun _ => true) l = l.
Proof. induction l as [|a l IH]; cbn [filter]; [reflexivity | now rewrite IH]. Qed.

Lemma filter_length_perm {A} (f : A -> bool) l l' :
  Permutation l l' -> length (filter f l) = length (filter f l').
Proof.
  induction 1 as [|x l l' _ IH|x y l|l l' l'' _ IH1 _ IH2]; cbn [filter].
  - reflexivity.
  - destruct (f x); cbn [length]; now rewrite IH.
  - destruct (f x), (f y); reflexivity.
  - congruence.
Qed.

Lemma forallb_false_iff {A} (f : A -> bool) l :
  forallb f l = false <-> exists x, In x l /\ f x = false.
Proof.
  induction l as [|a l IH]; cbn [forallb In].
  - split; [discriminate|intros (x & [] & _)].
  - rewrite Bool.andb_false_iff, IH. split.
    + intros [E|(x & Hx & E)]; [exists a|exists x]; auto.
    + intros (x & [<-|Hx] & E); [now left|right; now exists x].
Qed.

Lemma filter_map_comm {A B} (f : B -> bool) (h : A -> B) l :
  filter f (map h l) = map h (filter (fun a => f (h a)) l).
Proof.
  induction l as [|a l IH]; cbn [map filter]; [reflexivity|].
  destruct (f (h a)); cbn [map]; now rewrite IH.
Qed.

Lemma filter_length_map {A B} (f : B -> bool) (h : A -> B) l :
  length (filter f (map h l)) = length (filter (fun a => f (h a)) l).
Proof. now rewrite filter_map_comm, map_length. Qed.

Lemma filter_filter {A} (f g : A -> bool) l :
  filter f (filter g l) = filter (fun x => andb (g x) (f x)) l.
Proof.
  induction l as [|a l IH]; cbn [filter]; [reflexivity|].
  destruct (g a); cbn [filter andb]; [destruct (f a)|]; now rewrite IH.
Qed.

Lemma existsb_eqb_In {A} (eqb : A -> A -> bool) :
  (forall a b, eqb a b = true <-> a = b) -> forall x l, existsb (eqb x) l = true <-> In x l.
Proof.
  intros Heq x l. rewrite existsb_exists. split.
  - intros (y & Hy & E). apply Heq in E. now subst.
  - intros H. exists x. split; [exact H|now apply Heq].
Qed.

Lemma existsb_ext_in {A} (f g : A -> bool) l : (forall x, In x l -> f x = g x) -> existsb f l = existsb g l.
Proof.
  induction l as [|x r IH]; intros H; cbn [existsb]; [reflexivity|].
  rewrite (H x (or_introl eq_refl)), IH; [reflexivity|]. intros y Hy. apply H. now right.
Qed.

Lemma map_repeat {A B} (f : A -> B) (x : A) n : map f (repeat x n) = repeat (f x) n.
Proof. induction n as [|n IH]; cbn [repeat map]; [reflexivity | now rewrite IH]. Qed.

Lemma forallb_map {A B} (f : A -> B) (p : B -> bool) (l : list A) : forallb p (map f l) = forallb (fun x => p (f x)) l.
Proof. induction l as [|a l IH]; [reflexivity|]. cbn [map forallb]. now rewrite IH. Qed.

Lemma existsb_map {A B} (f : A -> B) (p : B -> bool) (l : list A) : existsb p (map f l) = existsb (fun x => p (f x)) l.
Proof. induction l as [|a l IH]; [reflexivity|]. cbn [map existsb]. now rewrite IH. Qed.

Lemma map_const_repeat {A B} (b : B) (l : list A) : map (fun _ => b) l = repeat b (length l).
Proof. induction l as [|a l IH]; cbn [map length repeat]; [reflexivity|now rewrite IH]. Qed.

Lemma map_fst_combine {A B} : forall (a : list A) (b : list B), length a = length b -> map fst (combine a b) = a.
Proof. intros a b H. apply (map_combine a b H). Qed.

(* res_map_all and opt_map_all *)
Lemma res_map_all_ok {A B} (f : A -> result B) (g : A -> B) l :
  (forall x, In x l -> f x = Ok (g x)) -> res_map_all f l = Ok (map g l).
Proof.
  induction l as [|a l IH]; intros H; cbn [res_map_all map]; [reflexivity|].
  rewrite (H a (or_introl eq_refl)). cbn [res_bind]. rewrite IH by (intros x Hx; apply H; now right).
  reflexivity.
Qed.

Lemma res_map_all_ext_in {A B} (f g : A -> result B) l :
  (forall a, In a l -> f a = g a) -> res_map_all f l = res_map_all g l.
Proof.
  induction l as [|a l IH]; intros H; [reflexivity|].
  cbn [res_map_all]. rewrite (H a) by now left. rewrite IH; [reflexivity|].
  intros b Hb. apply H. now right.
Qed.

Lemma res_map_all_ext {A B} (f g : A -> result B) : (forall a, f a = g a) -> forall l, res_map_all f l = res_map_all g l.
Proof. intros H l. apply res_map_all_ext_in. intros a _. apply H. Qed.

Lemma opt_map_all_length {A B} (f : A -> option B) l r : opt_map_all f l = Some r -> length r = length l.
Proof.
  revert r; induction l as [|a l IH]; intros r; cbn [opt_map_all]; [now intros [= <-]|].
  destruct (f a); [|discriminate]. destruct (opt_map_all f l) as [r'|]; [|discriminate].
  intros [= <-]. cbn [length]. now rewrite (IH r').
Qed.

Lemma opt_map_all_total {A B} (f : A -> option B) l :
  (forall x, In x l -> f x <> None) -> exists r, opt_map_all f l = Some r.
Proof.
  induction l as [|a l IH]; intros H; cbn [opt_map_all]; [now exists []|].
  destruct (f a) as [b|] eqn:E; [|exfalso; apply (H a); [now left|exact E]].
  destruct IH as [r Hr]; [intros x Hx; apply H; now right|]. rewrite Hr. now eexists.
Qed.

Lemma res_map_all_map {A B C} (f : B -> result C) (g : A -> B) l :
  res_map_all f (map g l) = res_map_all (fun x => f (g x)) l.
Proof. induction l as [|x l IH]; cbn [map res_map_all]; [reflexivity|now rewrite IH]. Qed.

Lemma res_map_all_length {A B} (g : A -> result B) : forall l l', res_map_all g l = Ok l' -> length l' = length l.
Proof.
  induction l as [|a l IH]; intros l' H; cbn [res_map_all] in H; [now inversion H|].
  destruct (g a); cbn [res_bind] in H; [|discriminate].
  destruct (res_map_all g l) as [bs|]; cbn [res_bind] in H; [|discriminate].
  inversion H. cbn [length]. now rewrite (IH bs eq_refl).
Qed.

Lemma res_map_all_Forall2 {A B} (f : A -> result B) : forall l l',
  res_map_all f l = Ok l' -> Forall2 (fun a b => f a = Ok b) l l'.
Proof.
  induction l as [|a l IH]; intros l' H; cbn [res_map_all] in H.
  - inversion H. constructor.
  - destruct (f a) as [b|t] eqn:Ea; cbn [res_bind] in H; [|discriminate].
    destruct (res_map_all f l) as [bs|t]; cbn [res_bind] in H; [|discriminate].
    inversion H; subst. constructor; [exact Ea|now apply IH].
Qed.

Lemma res_map_all_Forall {A B} (f : A -> result B) (P : B -> Prop) l : forall rs,
  res_map_all f l = Ok rs -> (forall a b, In a l -> f a = Ok b -> P b) -> Forall P rs.
Proof.
  induction l as [|a l IH]; intros rs H HP; cbn [res_map_all] in H.
  - inversion H; constructor.
  - unfold res_bind in H. destruct (f a) as [b|] eqn:Ea; [|discriminate].
    destruct (res_map_all f l) as [bs|] eqn:El; [|discriminate].
    inversion H; subst. constructor.
    + eapply HP; [now left|eassumption].
    + apply IH; [reflexivity|]. intros a' b' Hin. apply HP. now right.
Qed.
