(* Order / sum lemmas over Qc used by the numeric proofs. *)
From Coq Require Import ZArith List QArith Qcanon Lia Lqa Permutation.
From Batchie Require Import Lib.Num.
Import ListNotations.
Open Scope Qc_scope.

Lemma Qc_sq_nonneg (x : Qc) : 0 <= x * x.
Proof.
  unfold Qcle, Qcmult; cbn [this Q2Qc]; rewrite !Qred_correct. generalize (this x); intros q. nra.
Qed.

Lemma Qc_add_nonneg (x y : Qc) : 0 <= x -> 0 <= y -> 0 <= x + y.
Proof.
  unfold Qcle, Qcplus; cbn [this Q2Qc]; rewrite !Qred_correct. intros; lra.
Qed.

Lemma Qc_mul_nonneg (x y : Qc) : 0 <= x -> 0 <= y -> 0 <= x * y.
Proof.
  unfold Qcle, Qcmult; cbn [this Q2Qc]; rewrite !Qred_correct. intros; nra.
Qed.

Lemma Qc_inv_nonneg (x : Qc) : 0 <= x -> 0 <= / x.
Proof.
  unfold Qcle, Qcinv; cbn [this Q2Qc]; rewrite !Qred_correct. apply Qinv_le_0_compat.
Qed.

Lemma qsum_nonneg (l : list Qc) : Forall (fun x => 0 <= x) l -> 0 <= qsum l.
Proof.
  induction 1 as [|x l Hx Hl IH]; cbn [qsum fold_right]; [apply Qcle_refl|].
  now apply Qc_add_nonneg.
Qed.

Lemma qlen_nonneg {A} (l : list A) : 0 <= qlen l.
Proof.
  unfold qlen, Qcle; cbn [this Q2Qc]; rewrite !Qred_correct.
  unfold Qle; simpl. lia.
Qed.

Lemma qsum_zero (l : list Qc) : Forall (fun x => x = 0) l -> qsum l = 0.
Proof.
  induction 1 as [|x l Hx Hl IH]; cbn [qsum fold_right]; [reflexivity|].
  fold (qsum l). rewrite Hx, IH. ring.
Qed.

Lemma Qc_mul_pos (x y : Qc) : 0 < x -> 0 < y -> 0 < x * y.
Proof. unfold Qclt, Qcmult. cbn [this Q2Qc]. rewrite !Qred_correct. intros; nra. Qed.

Lemma qsum_nil : qsum [] = 0.
Proof. reflexivity. Qed.
Lemma qsum_cons x l : qsum (x :: l) = x + qsum l.
Proof. reflexivity. Qed.

Lemma qsum_app l1 l2 : qsum (l1 ++ l2) = qsum l1 + qsum l2.
Proof.
  induction l1 as [|x l1 IH]; cbn [app]; rewrite ?qsum_cons, ?qsum_nil; [ring|].
  rewrite IH. ring.
Qed.

Lemma qsum_perm l l' : Permutation l l' -> qsum l = qsum l'.
Proof.
  induction 1 as [|x l l' _ IH|x y l|l l' l'' _ IH1 _ IH2]; rewrite ?qsum_cons.
  - reflexivity.
  - now rewrite IH.
  - ring.
  - congruence.
Qed.

Lemma qsum_map_ext {A} (f g : A -> Qc) l : (forall x, In x l -> f x = g x) -> qsum (map f l) = qsum (map g l).
Proof. intros H. f_equal. now apply map_ext_in. Qed.
