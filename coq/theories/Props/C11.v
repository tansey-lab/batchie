(* C11 - Retrospective preparation conserves experiments; the hold-out split partitions.
   Statements only: a proof is `exact <lemma from Proofs/>` (or a split into such), a concrete example is closed by evaluation.
   Vocabulary: [strip r] = experiment minus its plate label (sample, treatments, observation, mask);
   [unobserved]/[observed] = the two parts generate_plates / smooth_plates split the screen into;
   [draw] streams are the recorded answers of rng.permutation / rng.choice / heappop / argsort. *)
From Coq Require Import ZArith List Bool Permutation.
From Batchie Require Import Lib.Sexp Model.Encode Model.Screen Model.Retro Model.Pairwise Model.RetroHoldout
  Model.RetroInit Proofs.C11Lib Proofs.C11Gen Proofs.C11Smooth Proofs.C11Select Proofs.C11Holdout Proofs.C11Init
  Generated.SrcRetro Proofs.C11Source Proofs.C11Source_Holdout Proofs.C13SampleSeg Proofs.C13SparseTerm Generated.SrcRetroGen Proofs.C13Source
  Proofs.C13Source_Holdout Proofs.C13SourcePairwise.
Import ListNotations.

(* ---- the models are what the source says NOW ----
   `src_*` (Generated/SrcRetro.v) are WHOLE functions of /repo's current working tree, re-translated statement by
   statement on every run (harness/py2gal.py, configurations in harness/src_functions.py); each equals the
   hand-written model for ALL inputs, so the theorems below are theorems about the translated source.
   Trusted: the translator and the primitives listed in the configurations (Model/Retro.v, last section). *)

(* RetrospectivePlateGenerator.generate_plates (core.py): split into unobserved / observed, `is None` checks,
   to_screen, recombination new ++ observed - for EVERY inner generator f (the abstract self._generate_plates),
   in particular the shipped ones the conservation theorems are about *)
Theorem C11_model_is_source_generate_plates : forall rows ds,
  (forall f : inner, src_generate_plates f rows ds = wrap f rows ds) /\
  (forall g, src_generate_plates (generate_inner g) rows ds = generate_plates g rows ds).
Proof. exact src_generate_plates_is_model. Qed.
Print Assumptions C11_model_is_source_generate_plates.

(* RetrospectivePlateSmoother.smooth_plates (core.py), likewise *)
Theorem C11_model_is_source_smooth_plates : forall rows ds,
  (forall f : inner, src_smooth_plates f rows ds = wrap f rows ds) /\
  (forall sm, src_smooth_plates (smooth_inner sm) rows ds = smooth_plates sm rows ds).
Proof. exact src_smooth_plates_is_model. Qed.
Print Assumptions C11_model_is_source_smooth_plates.

(* MergeMinPlateSmoother._get_plate_sample_id (retrospective.py): the `len(...) > 1` test, the raise, the `[0]`;
   on the plate named p of the screen (a Plate is its selection vector) it is the model's [plate_sample] *)
Theorem C11_model_is_source_merge_min_get_plate_sample_id : forall rows p,
  src_merge_min_get_plate_sample_id rows (plate_vec p rows) = plate_sample p rows.
Proof. exact src_get_plate_sample_id_is_model. Qed.
Print Assumptions C11_model_is_source_merge_min_get_plate_sample_id.

(* MergeMinPlateSmoother._smooth_plates (retrospective.py): the loop over the samples, the comprehension building the
   heap (through the translated _get_plate_sample_id), the `while True:` with its two `break`s (len <= 1; sum of the two
   smallest sizes > min_size), the two heappops, the merge of the second smallest WITH the smallest, the push.
   The `while` is translated into recursion on the explicit fuel [fuel] (Err 97 if it ran out, which is not a Python
   behaviour); with more fuel than the screen has experiments (e.g. fuel = S (length rows)) the translation equals
   the model for every min_size, screen and answer stream - the model's own fuel (the heap size) is sufficient *)
Theorem C11_model_is_source_merge_min_smooth_plates : forall min_size rows ds fuel,
  length rows < fuel ->
  src_merge_min_smooth_plates min_size rows ds fuel = merge_min min_size rows ds.
Proof. exact src_merge_min_is_model. Qed.
Print Assumptions C11_model_is_source_merge_min_smooth_plates.

(* MergeTopBottomPlateSmoother._get_plate_sample_id (same text as MergeMin's, translated on its own) *)
Theorem C11_model_is_source_merge_tb_get_plate_sample_id : forall rows p,
  src_merge_tb_get_plate_sample_id rows (plate_vec p rows) = plate_sample p rows.
Proof. exact src_tb_get_plate_sample_id_is_model. Qed.
Print Assumptions C11_model_is_source_merge_tb_get_plate_sample_id.

(* MergeTopBottomPlateSmoother._smooth_plates (retrospective.py): the loop over the samples, `for i in
   range(self.n_iterations)` with its `break` at <= 1 plates, the comprehension, the sort by size, halfway =
   floor(len / 2), the zip of the first half with the reversed list's first half, bigger.merge(smaller) for each
   pair - equal to the model for every n_iterations and screen (no fuel: both loops are `for` loops) *)
Theorem C11_model_is_source_merge_tb_smooth_plates : forall n_iter rows,
  src_merge_tb_smooth_plates n_iter rows = merge_tb n_iter rows.
Proof. exact src_merge_tb_is_model. Qed.
Print Assumptions C11_model_is_source_merge_tb_smooth_plates.

(* create_plate_balanced_holdout_set_among_masked_plates (retrospective.py): the range check and its raise, the
   all-false selection vector, the loop over the plates, `if plate.is_observed: continue`, the count
   math.ceil(plate.size * fraction), the rng.choice of that many of the plate's indices, the update
   selection_vector[indices] = True, the two Screen(...) calls (rows not selected; rows selected, marked observed),
   the returned pair - equal to the model for every fraction num/den, count mode, screen and answer stream *)
Theorem C11_model_is_source_create_plate_balanced_holdout_set_among_masked_plates : forall num den counts rows ds,
  src_balanced_holdout num den counts rows ds = holdout_balanced num den counts rows ds.
Proof. exact src_balanced_holdout_is_model. Qed.
Print Assumptions C11_model_is_source_create_plate_balanced_holdout_set_among_masked_plates.

(* create_random_holdout (retrospective.py): the range check and its raise, the all-false selection vector, the single
   rng.choice of math.ceil(screen.size * fraction) of all row numbers, selection_vector[indices] = True, the two Screen(...)
   calls, the returned pair - equal to [holdout_random] (the subject of C11_random_holdout_partition) for every fraction
   num/den, count mode, screen and answer stream *)
Theorem C11_model_is_source_create_random_holdout : forall num den count rows ds,
  src_random_holdout num den count rows ds = holdout_random num den count rows ds.
Proof. exact src_random_holdout_is_model. Qed.
Print Assumptions C11_model_is_source_create_random_holdout.

(* the shipped generators and smoothers, the initial plate and the combination filter - the subjects of
   C11_generator_conserves, C11_smoother_sub, C11_size_smoothers_keep_rows, C11_initial_plate_conserves, C11_filter_sub:
   the same links as in Props/C13.v (see the comments there; Generated/SrcRetroGen.v, proofs in Proofs/C13Source.v) *)
Theorem C11_model_is_source_sample_segregating_generate_plates : forall mx rows ds, (0 <= mx)%Z ->
  src_sample_seg_generate_plates mx rows ds = sample_seg_checked mx rows ds /\
  (ss_contract mx rows (sample_names rows) ds -> src_sample_seg_generate_plates mx rows ds = sample_seg true mx rows ds) /\
  (ss_contract mx (unobserved rows) (sample_names (unobserved rows)) ds ->
   src_generate_plates (src_sample_seg_generate_plates mx) rows ds = generate_plates (GSampleSeg true mx) rows ds).
Proof. exact link_sample_segregating_generate_plates. Qed.
Print Assumptions C11_model_is_source_sample_segregating_generate_plates.

Theorem C11_model_is_source_sample_segregating_generate_plates_negative_max : forall mx rows ds, (mx < 0)%Z ->
  match sample_seg true mx rows ds with
  | Ok r => src_sample_seg_generate_plates mx rows ds = Ok r
  | Err _ => exists t, src_sample_seg_generate_plates mx rows ds = Err t
  end.
Proof. exact src_sample_seg_negative_max. Qed.
Print Assumptions C11_model_is_source_sample_segregating_generate_plates_negative_max.

Theorem C11_model_is_source_plate_permutation_generate_plates : forall force rows ds,
  src_plate_permutation_generate_plates force rows ds = plate_perm (match force with Some l => l | None => [] end) rows ds /\
  src_generate_plates (src_plate_permutation_generate_plates force) rows ds
  = generate_plates (GPerm (match force with Some l => l | None => [] end)) rows ds.
Proof. exact link_plate_permutation_generate_plates. Qed.
Print Assumptions C11_model_is_source_plate_permutation_generate_plates.

Theorem C11_model_is_source_fixed_size_smooth_plates : forall t rows ds,
  src_fixed_size_smooth_plates t rows ds = size_smooth t rows ds /\
  src_smooth_plates (src_fixed_size_smooth_plates t) rows ds = smooth_plates (SFixed t) rows ds.
Proof. exact link_fixed_size_smooth_plates. Qed.
Print Assumptions C11_model_is_source_fixed_size_smooth_plates.

Theorem C11_model_is_source_optimal_size_smooth_plates : forall rows ds,
  src_optimal_size_smooth_plates rows ds = optimal_smooth rows ds /\
  src_smooth_plates src_optimal_size_smooth_plates rows ds = smooth_plates SOptimal rows ds.
Proof. exact link_optimal_size_smooth_plates. Qed.
Print Assumptions C11_model_is_source_optimal_size_smooth_plates.

Theorem C11_model_is_source_nplate_smooth_plates : forall m rows ds,
  (forall p, src_nplate_get_plate_sample_id rows (plate_vec p rows) = dor nm <- plate_sample p rows; Ok (sample_id_z rows nm)) /\
  src_nplate_smooth_plates m rows = nplate true m rows /\
  src_smooth_plates (fun s d => dor r <- src_nplate_smooth_plates m s; Ok (r, d)) rows ds = smooth_plates (SNPlate true m) rows ds.
Proof. exact link_nplate_smooth_plates. Qed.
Print Assumptions C11_model_is_source_nplate_smooth_plates.

Theorem C11_model_is_source_ensemble_smooth_plates : forall ms n m rows ds fuel, length rows < fuel ->
  src_ensemble_smooth_plates ms n m rows ds fuel = ensemble true ms n m rows ds /\
  src_smooth_plates (fun s d => src_ensemble_smooth_plates ms n m s d fuel) rows ds = smooth_plates (SEnsemble true ms n m) rows ds.
Proof. exact link_ensemble_smooth_plates. Qed.
Print Assumptions C11_model_is_source_ensemble_smooth_plates.

Theorem C11_model_is_source_sparse_cover_generate_and_unmask_initial_plate : forall ctrl reveal rows ds fuel,
  length ds < fuel \/ ndistinct (all_tids ctrl rows) < fuel ->
  (forall f : initial_inner,
     src_generate_and_unmask_initial_plate f rows ds = if negb (forallb r_mask rows) then Err 8%Z else f rows ds) /\
  src_sparse_cover ctrl reveal rows ds fuel = sparse_cover_inner ctrl reveal rows ds /\
  src_generate_and_unmask_initial_plate (fun s d => src_sparse_cover ctrl reveal s d fuel) rows ds = sparse_cover ctrl reveal rows ds.
Proof. exact link_sparse_cover_generate_and_unmask_initial_plate. Qed.
Print Assumptions C11_model_is_source_sparse_cover_generate_and_unmask_initial_plate.

Theorem C11_model_is_source_sparse_cover_terminates : forall ctrl reveal rows ds,
  forallb r_mask rows = true ->
  sc_contract ctrl rows (sample_names rows) [] ds ->
  length (sample_names rows) + ndistinct (all_tids ctrl rows) <= length ds ->
  exists out ds',
    src_generate_and_unmask_initial_plate
      (fun s d => src_sparse_cover ctrl reveal s d (S (ndistinct (all_tids ctrl rows)))) rows ds = Ok (out, ds').
Proof. exact src_sparse_cover_terminates. Qed.
Print Assumptions C11_model_is_source_sparse_cover_terminates.

Theorem C11_model_is_source_filter_dataset_to_treatments_that_appear_in_at_least_one_combo : forall ctrl arity rows,
  src_combo_filter ctrl arity rows = combo_filter ctrl arity rows.
Proof. exact src_combo_filter_is_model. Qed.
Print Assumptions C11_model_is_source_filter_dataset_to_treatments_that_appear_in_at_least_one_combo.

Theorem C11_model_is_source_pairwise_generate_plates : forall ctrl subset anchor rows ds,
  (argsort_ok anchor (length (unique_ids ctrl (filter (is_combo ctrl) rows))) ds ->
   src_pairwise_generate_plates ctrl subset anchor rows ds = pairwise ctrl subset anchor rows ds) /\
  (argsort_ok anchor (length (unique_ids ctrl (filter (is_combo ctrl) (unobserved rows)))) ds ->
   src_generate_plates (src_pairwise_generate_plates ctrl subset anchor) rows ds
   = generate_plates (GPairwise ctrl subset anchor) rows ds).
Proof. exact link_pairwise_generate_plates. Qed.
Print Assumptions C11_model_is_source_pairwise_generate_plates.

(* every shipped generator (PlatePermutation, SampleSegregating in both variants, Pairwise), every
   oracle answer: the output is new ++ (observed input rows, unchanged, still observed), the new rows
   are all unobserved and, minus plate labels, a permutation of the unobserved input rows *)
Theorem C11_generator_conserves : forall g rows ds out ds',
  generate_plates g rows ds = Ok (out, ds') ->
  exists nu, out = nu ++ observed rows
             /\ Forall (fun r => r_mask r = false) nu
             /\ Permutation (map strip nu) (map strip (unobserved rows)).
Proof. exact generator_conserves. Qed.
Print Assumptions C11_generator_conserves.

(* generic skeleton: whatever labels a generator computes (any labelling oracle, which may look at
   position and row), relabelling leaves every row minus its label unchanged, in order *)
Theorem C11_relabel_conserves : forall (labels : nat -> row -> name) rows,
  map strip (map (fun ir => set_plate (labels (fst ir) (snd ir)) (snd ir)) (enum_from 0 rows)) = map strip rows.
Proof. exact relabel_any_conserves. Qed.
Print Assumptions C11_relabel_conserves.

(* every shipped smoother (MergeMin, MergeTopBottom, FixedSize, OptimalSize, NPlatePerCellLine in both
   variants, BatchieEnsemble), every oracle answer: sub-multiset, observed part unchanged *)
Theorem C11_smoother_sub : forall sm rows ds out ds',
  smooth_plates sm rows ds = Ok (out, ds') ->
  exists nu, out = nu ++ observed rows
             /\ Forall (fun r => r_mask r = false) nu
             /\ exists rest, Permutation (map strip nu ++ rest) (map strip (unobserved rows)).
Proof. exact smoother_sub. Qed.
Print Assumptions C11_smoother_sub.

(* generic skeleton: ANY boolean row selection yields a sub-multiset of untouched rows *)
Theorem C11_select_sub : forall (v : bvec) (rows : list row), exists rest, Permutation (vselect v rows ++ rest) rows.
Proof. exact select_any_sub. Qed.
Print Assumptions C11_select_sub.

Theorem C11_merge_smoothers_relabel_only : forall rows ds out ds',
  (forall ms, merge_min ms rows ds = Ok (out, ds') -> map strip out = map strip rows) /\
  (forall n, merge_tb n rows = Ok out -> map strip out = map strip rows).
Proof. exact merge_smoothers_relabel_only. Qed.
Print Assumptions C11_merge_smoothers_relabel_only.

Theorem C11_size_smoothers_keep_rows : forall rows ds out ds',
  (forall t, size_smooth t rows ds = Ok (out, ds') -> exists v : bvec, out = vselect v rows) /\
  (optimal_smooth rows ds = Ok (out, ds') -> exists v : bvec, out = vselect v rows) /\
  (forall fx m, nplate fx m rows = Ok out -> exists v : bvec, out = vselect v rows).
Proof. exact size_smoothers_keep_rows. Qed.
Print Assumptions C11_size_smoothers_keep_rows.

(* plate-balanced hold-out, every fraction, every oracle answer: held is held0 marked observed and
   train ++ held0 is the input as a multiset - plate labels AND masks included, so train keeps its mask *)
Theorem C11_holdout_partition : forall num den counts rows ds train held ds',
  holdout_balanced num den counts rows ds = Ok (train, held, ds') ->
  exists held0,
    held = map (set_mask true) held0 /\ Permutation (train ++ held0) rows /\
    Forall (fun r => r_mask r = true) held /\ exists v : bvec, train = vselect v rows.
Proof. exact holdout_partition. Qed.
Print Assumptions C11_holdout_partition.

(* under numpy's choice contract: exactly ceil(fraction * size_p) rows of each unobserved plate p,
   none of any other plate (exact mode) *)
Theorem C11_holdout_counts : forall num den rows ds train held ds',
  holdout_balanced num den None rows ds = Ok (train, held, ds') ->
  choice_contract rows ds ->
  forall p,
    (In p (unobserved_plates rows) ->
       Z.of_nat (plate_count p held) = ceil_frac (plate_count p rows) num den) /\
    (~ In p (unobserved_plates rows) -> plate_count p held = 0).
Proof. exact holdout_counts. Qed.
Print Assumptions C11_holdout_counts.

(* oracle mode: the supplied values of math.ceil(size * fraction), in plate order *)
Theorem C11_holdout_counts_oracle : forall num den cs rows ds train held ds',
  holdout_balanced num den (Some cs) rows ds = Ok (train, held, ds') ->
  choice_contract rows ds ->
  map (fun q => Z.of_nat (plate_count q held)) (unobserved_plates rows)
    = firstn (length (unobserved_plates rows)) cs /\
  forall p, ~ In p (unobserved_plates rows) -> plate_count p held = 0.
Proof. exact holdout_counts_oracle. Qed.
Print Assumptions C11_holdout_counts_oracle.

(* ceil_frac is the ceiling: the least n with n * den >= size * num *)
Theorem C11_ceil_frac_spec : forall size num den,
  let n := ceil_frac size num den in
  (Zpos den * (n - 1) < Z.of_nat size * num <= Zpos den * n)%Z.
Proof. exact ceil_frac_spec. Qed.
Print Assumptions C11_ceil_frac_spec.

Theorem C11_random_holdout_partition : forall num den count rows ds train held ds',
  holdout_random num den count rows ds = Ok (train, held, ds') ->
  exists held0 idx,
    held = map (set_mask true) held0 /\ Permutation (train ++ held0) rows /\
    ds = DInts idx :: ds' /\
    Z.of_nat (length idx) = match count with Some c => c | None => ceil_frac (length rows) num den end /\
    (NoDup idx -> (forall i, In i idx -> (i < length rows)%nat) -> length held = length idx).
Proof. exact random_holdout_partition. Qed.
Print Assumptions C11_random_holdout_partition.

Theorem C11_initial_plate_conserves : forall ctrl reveal rows ds out ds',
  sparse_cover ctrl reveal rows ds = Ok (out, ds') -> map core out = map core rows.
Proof. exact initial_plate_conserves. Qed.
Print Assumptions C11_initial_plate_conserves.

Theorem C11_filter_sub : forall ctrl arity rows out,
  combo_filter ctrl arity rows = Ok out -> exists f, out = filter f rows.
Proof. exact filter_sub. Qed.
Print Assumptions C11_filter_sub.

(* ---- non-vacuity: concrete runs ---- *)
Definition mkrow (s p : Z) (o : Z) (m : bool) : row :=
  {| r_sample := [s]; r_plate := [p]; r_treats := [([97], 1); ([98], 2)]%Z; r_obs := o; r_mask := m |}.
Definition ex_rows : list row :=
  [mkrow 65 1 10 false; mkrow 65 1 11 false; mkrow 66 2 12 false; mkrow 66 2 13 false; mkrow 66 2 14 false;
   mkrow 67 3 15 true]%Z.

(* SampleSegregating (code as found), max 2: B's three experiments are split by the permutation 4,2,3 *)
Example C11_generator_example :
  option_map (fun r => map r_plate (fst r))
    (match generate_plates (GSampleSeg false 2) ex_rows [DInts [4; 2; 3]] with Ok r => Some r | Err _ => None end)
  = Some [[]; []; gen_name 0; gen_name 1; gen_name 0; [3%Z]].
Proof. vm_compute. reflexivity. Qed.

(* FixedSize 2 with the choice 4,2 out of plate 2: keeps plate 1 and two rows of plate 2 *)
Example C11_smoother_example :
  option_map (fun r => map r_obs (fst r))
    (match smooth_plates (SFixed 2) ex_rows [DInts [4; 2]] with Ok r => Some r | Err _ => None end)
  = Some [10; 11; 12; 14; 15]%Z.
Proof. vm_compute. reflexivity. Qed.

(* hold-out of 1/2: ceil(2/2)=1 of plate 1, ceil(3/2)=2 of plate 2, none of the observed plate 3;
   the answers satisfy the contract *)
Example C11_holdout_example :
  (match holdout_balanced 1 2 None ex_rows [DInts [1]; DInts [4; 2]] with
   | Ok (train, held, _) => Some (map r_obs train, map r_obs held, map r_mask held)
   | Err _ => None end)
  = Some ([10; 13; 15]%Z, [11; 12; 14]%Z, [true; true; true]).
Proof. vm_compute. reflexivity. Qed.
Example C11_holdout_contract_example : choice_contract ex_rows [DInts [1]; DInts [4; 2]].
Proof.
  unfold choice_contract. vm_compute.
  repeat constructor; eexists; (split; [reflexivity|]); split;
    try (repeat constructor; cbn; intuition congruence); intros x Hx; cbn in *; intuition.
Qed.

(* ================= the PRIMITIVES of the wrapper / hold-out / generator links are theorems =================
   (see the same section of Props/C13.v for the representation and the side conditions)  The translated Screen.combine,
   ScreenSubset.to_screen, Screen.subset / subset_unobserved / subset_observed and ScreenBase.is_observed
   (Generated/SrcViews.v, Generated/SrcPlates.v; equal to their Model/Views.v models by Props/C14.v), read through the
   representation, are [combine_screens], [Retro.to_screen], [subset_of], [Retro.subset_unobserved] / [Retro.subset_observed],
   `forallb r_mask` and [vec_observed]: the meanings the configurations C11_* / C13_* gave to those calls. *)
From Batchie Require Import Lib.PyRt Model.Views Generated.SrcViews Generated.SrcPlates
  Proofs.C14Defs Proofs.C14ToScreen Proofs.C13SourceHelpers_Base Proofs.C13SourceHelpers_Combine Proofs.C13SourceHelpers_Subset
  Proofs.C13SourceHelpers_SubsetObserved Proofs.C13SourceHelpers_Observed.

(* primitive `__a.combine(__b)` -> [combine_screens] (the wrappers, PlatePermutation, Pairwise): on two valid screens of one
   arity and control name (both descend from one screen) the translated Screen.combine is refused (mixed plate, tag 2) exactly
   when [construct] refuses the concatenated rows, and otherwise builds a fresh screen with those rows, self's first *)
Theorem C11_model_is_source_screen_combine : forall a b : pyscreen,
  screen_valid (snd a) -> screen_valid (snd b) -> s_arity (snd b) = s_arity (snd a) -> s_ctrl (snd b) = s_ctrl (snd a) ->
  res_rows (src_screen_combine a b) = combine_screens (s_rows (snd a)) (s_rows (snd b)) /\
  (forall s, src_screen_combine a b = Ok s ->
     fresh_screen s /\ s_arity s = s_arity (snd a) /\ s_ctrl s = s_ctrl (snd a)).
Proof. exact src_screen_combine_is_combine_screens. Qed.
Print Assumptions C11_model_is_source_screen_combine.

(* primitives `__s.subset(__v)` -> [subset_of] and `__s.to_screen()` -> [Retro.to_screen]: the view selects subset_of's rows;
   to_screen() of a view of a valid screen is never refused and yields a fresh screen with exactly those rows *)
Theorem C11_model_is_source_subset_to_screen :
  (forall (t : Z) (p : screen) (v : bvec), length v = screen_size p ->
     exists w, src_screen_subset (t, p) (true, v) = Ok w /\ view_rows w = subset_of (s_rows p) v /\
               v_tag w = t /\ v_parent w = p /\ v_sel w = v /\ view_ok w) /\
  (forall v : view, screen_valid (v_parent v) ->
     exists s, src_to_screen v = Ok s /\ s_rows s = Retro.to_screen (subset_of (s_rows (v_parent v)) (v_sel v)) /\
               fresh_screen s /\ s_arity s = s_arity (v_parent v) /\ s_ctrl s = s_ctrl (v_parent v)).
Proof. exact (conj src_screen_subset_is_subset_of src_to_screen_is_retro_to_screen). Qed.
Print Assumptions C11_model_is_source_subset_to_screen.

(* primitives `__s.subset_unobserved()` / `__s.subset_observed()`: None exactly when Retro's is None, else a view of the screen
   whose rows are Retro's unobserved / observed rows *)
Theorem C11_model_is_source_subset_unobserved_observed :
  (forall (t : Z) (p : screen), screen_wf p ->
     exists o, src_subset_unobserved (t, p) = Ok o /\ option_map view_rows o = Retro.subset_unobserved (s_rows p) /\
               (forall w, o = Some w -> v_tag w = t /\ v_parent w = p /\ view_ok w)) /\
  (forall (t : Z) (p : screen), screen_wf p ->
     exists o, src_subset_observed (t, p) = Ok o /\ option_map view_rows o = Retro.subset_observed (s_rows p) /\
               (forall w, o = Some w -> v_tag w = t /\ v_parent w = p /\ view_ok w)).
Proof. exact (conj src_subset_unobserved_is_retro src_subset_observed_is_retro). Qed.
Print Assumptions C11_model_is_source_subset_unobserved_observed.

(* primitives `__s.is_observed` -> `forallb r_mask` (the initial-plate wrapper) and `__p.is_observed` -> [vec_observed]
   (the balanced hold-out) *)
Theorem C11_model_is_source_is_observed :
  (forall s : pyscreen, src_screen_is_observed s = Ok (forallb r_mask (s_rows (snd s)))) /\
  (forall v : view, src_view_is_observed v = Ok (vec_observed (v_sel v) (s_rows (v_parent v)))).
Proof. exact src_is_observed_is_retro. Qed.
Print Assumptions C11_model_is_source_is_observed.

(* non-vacuity: the wrapper's own sequence on the example screen through the translated helpers - split, to_screen both
   parts, recombine unobserved-first - against the Retro primitives on the rows *)
Example C11_helpers_example :
  match mk_screen ex_rows 2 [] None None true true with
  | Ok s =>
      match (dor u <- src_subset_unobserved (0%Z, s); dor o <- src_subset_observed (0%Z, s);
             dor u' <- unwrap u; dor o' <- unwrap o; dor us <- src_to_screen u'; dor os <- src_to_screen o';
             dor c <- src_screen_combine (1%Z, us) (2%Z, os); Ok (s_rows us, s_rows os, s_rows c)) with
      | Ok (ur, orr, cr) =>
          Some ur = Retro.subset_unobserved ex_rows /\ Some orr = Retro.subset_observed ex_rows /\
          Ok cr = combine_screens ur orr
      | Err _ => False
      end
  | Err _ => False
  end.
Proof. vm_compute. repeat split. Qed.

(* ---- the prepare wrapper's get_args() does not touch the plain arguments ----
   `src_pr_get_args` is the WHOLE function get_args of /repo's current batchie/cli/prepare_retrospective_simulation.py, re-translated on
   every run (configuration ARGS_GET_ARGS_PR -> Generated/SrcCliArgs.v; parser.parse_args() is the primitive that yields the raw
   namespace).  Whatever the class lookups do, the namespace main() receives carries the plain argparse results unchanged - so the
   float given as --holdout-fraction is the fraction create_plate_balanced_holdout_set_among_masked_plates receives
   (C03_model_is_source_cli_prepare_retrospective_simulation: the hold-out is taken last, with args.holdout_fraction). *)
From Batchie Require Model.Cli Proofs.C03SourceArgs Generated.SrcCliArgs.
Theorem C11_model_is_source_cli_args_holdout_fraction_unchanged :
  forall (Cls F O : Type) (I : Cli.introspect Cls) (P : Cli.pyprims F O) (raw a : Cli.pr_ns Cls F O),
  SrcCliArgs.src_pr_get_args Cls F O I P raw = Ok a ->
  Cli.pr_holdout_fraction (Cli.pr_plain a) = Cli.pr_holdout_fraction (Cli.pr_plain raw).
Proof. exact C03SourceArgs.src_pr_get_args_holdout. Qed.
Print Assumptions C11_model_is_source_cli_args_holdout_fraction_unchanged.

(* ---- the argparse option tables: get_parser() of prepare_retrospective_simulation, re-read from /repo on every run by the fail-closed reader
   harness/argparse_reader.py (Generated/SrcParser_<command>.v; a get_parser that is not a plain sequence of literal
   parser.add_argument calls is refused and these theorems stop compiling).  What the argument records of Model/Cli.v assume of
   the namespace parse_args() yields - the premise of the C??_model_is_source_cli_* links - is provided by the declared options:
   Cli.declares = the attribute is the dest of EXACTLY ONE option, which stores the assumed kind of value and can be None exactly
   where the record has an option type; Cli.dests_derived = the dest the reader computed is argparse's derivation from the flags;
   Cli.dests_distinct = no dest and no flag is declared twice; Cli.seed_declared = --seed is an int option with a non-negative int
   default (get_prng_from_seed_argument never sees None); Cli.coordinates_int = --n-chunks / --chunk-index / --n-chains /
   --chain-index are int options that are never None; Cli.params_kv = every --*-param option accumulates through KVAppendAction;
   Cli.fraction_declared = --holdout-fraction is a float option with a default in [0, 1]. ---- *)

From Batchie Require Model.Cli Proofs.C18Parser Generated.SrcParser_prepare_retrospective_simulation Proofs.C18SourceParser_prepare_retrospective_simulation.
Theorem C11_source_parser_prepare_retrospective_simulation_fraction :
  Cli.fraction_declared SrcParser_prepare_retrospective_simulation.src_parser_prepare_retrospective_simulation.
Proof. exact C18SourceParser_prepare_retrospective_simulation.parser_prepare_retrospective_simulation_fraction. Qed.
Print Assumptions C11_source_parser_prepare_retrospective_simulation_fraction.

Theorem C11_source_parser_prepare_retrospective_simulation_fields :
  forall f, In f (Cli.pr_fields ++ Cli.logging_fields) -> Cli.declares SrcParser_prepare_retrospective_simulation.src_parser_prepare_retrospective_simulation f.
Proof. exact C18SourceParser_prepare_retrospective_simulation.parser_prepare_retrospective_simulation_fields. Qed.
Print Assumptions C11_source_parser_prepare_retrospective_simulation_fields.

Theorem C11_source_parser_prepare_retrospective_simulation_dests_derived :
  Cli.dests_derived SrcParser_prepare_retrospective_simulation.src_parser_prepare_retrospective_simulation.
Proof. exact C18SourceParser_prepare_retrospective_simulation.parser_prepare_retrospective_simulation_dests_derived. Qed.
Print Assumptions C11_source_parser_prepare_retrospective_simulation_dests_derived.
