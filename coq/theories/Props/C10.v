(* C10 — Posterior-sample collections persist exactly and keep chain-major order.
   Statements only: a proof is `exact <lemma from Proofs/>` (or a split into such), a concrete example is closed by evaluation.
   A sample is a pair (private parameters, shared parameters) of opaque values (P * S); a holder
   is (declared size, samples); see Model/Thetas.v. *)
From Coq Require Import ZArith List Permutation Decimal.
From Batchie Require Import Lib.Sexp Model.Thetas Proofs.C10Sort Proofs.C10Thetas Proofs.C10Witness.
From Batchie Require Import Generated.SrcThetas Proofs.C10Source.
Import ListNotations.
Open Scope Z_scope.

(* ---- tie to the code ----
   The methods of batchie.core.ThetaHolder are re-translated into Gallina from /repo's current source on every
   run (harness/py2gal.py -> Generated/SrcThetas.v: their branches, raises, arithmetic, the loop of concat, the
   attribute stores).  The translation works on holder OBJECTS o = (class id, attribute values): py_class o is
   the class (0 = ThetaHolder itself), snd o the model's holder (declared size = self._n_thetas, samples =
   self.thetas).  Each theorem states, for ALL inputs, what the translated method does in terms of the
   hand-written model's function on the attribute values, so every theorem below about get_theta / add_theta /
   is_complete / combine_holders / concat_holders is a theorem about the translated source. *)

(* ThetaHolder.__init__(n): declared size n, no samples, whatever the fresh instance was *)
Theorem C10_model_is_source_init : forall (P S : Type) (self : pyobj P S) n,
  src_init P S self n = Ok (py_class self, empty_holder P S n).
Proof. exact src_init_is_model. Qed.
Print Assumptions C10_model_is_source_init.

(* the property n_thetas reads the declared size *)
Theorem C10_model_is_source_n_thetas : forall (P S : Type) (self : pyobj P S),
  src_n_thetas P S self = Ok (h_declared (snd self)).
Proof. exact src_n_thetas_is_model. Qed.
Print Assumptions C10_model_is_source_n_thetas.

(* get_theta: the bound check, its raise, and the list indexing self.thetas[step_index] (Python semantics:
   a negative index would count from the end, an index past the end would be an IndexError - neither is
   reachable behind the check) *)
Theorem C10_model_is_source_get_theta : forall (P S : Type) (self : pyobj P S) i,
  src_get_theta P S self i = get_theta P S (snd self) i.
Proof. exact src_get_theta_is_model. Qed.
Print Assumptions C10_model_is_source_get_theta.

(* add_theta mutates self: the translation denotes the new value of self (same class) *)
Theorem C10_model_is_source_add_theta : forall (P S : Type) (self : pyobj P S) t,
  src_add_theta P S self t = (dor h <- add_theta P S (snd self) t; Ok (py_class self, h)).
Proof. exact src_add_theta_is_model. Qed.
Print Assumptions C10_model_is_source_add_theta.

Theorem C10_model_is_source_is_complete : forall (P S : Type) (self : pyobj P S),
  src_is_complete P S self = Ok (is_complete P S (snd self)).
Proof. exact src_is_complete_is_model. Qed.
Print Assumptions C10_model_is_source_is_complete.

(* combine: refuses objects of different classes (the guard the model leaves out), otherwise returns a NEW
   instance of ThetaHolder itself holding the model's combination *)
Theorem C10_model_is_source_combine : forall (P S : Type) (a b : pyobj P S),
  src_combine P S a b
  = if py_class a =? py_class b then Ok (as_obj (combine_holders P S (snd a) (snd b))) else Err 6.
Proof. exact src_combine_is_model. Qed.
Print Assumptions C10_model_is_source_combine.

(* concat (its two length tests, instances[0], the loop over instances[1:] with the class guard and
   first = first.combine(instance)) on any list of instances of ThetaHolder itself - every holder in the tree *)
Theorem C10_model_is_source_concat : forall (P S : Type) (hs : list (holder P S)),
  src_concat P S (map as_obj hs) = (dor h <- concat_holders P S hs; Ok (as_obj h)).
Proof. exact src_concat_is_model. Qed.
Print Assumptions C10_model_is_source_concat.

(* load_h5 and save_h5 are translated too, with the h5py / dict plumbing as configured primitives (the list is in
   harness/src_functions.py C10_LOAD / C10_SAVE and in the harness ASSUMPTIONS); what the translation contributes is
   the skeleton: the n_thetas attribute, the empty-holder refusal, shared parameters taken from sample 0, one group
   per enumerate index named str(i), sorted(..., key=int) over the group names, the loop in that order with
   g[name] and add_theta, the returned holder.

   load_h5 on any file whose private_params group has no two members of the same name (true of every HDF5 file) *)
Theorem C10_model_is_source_load_h5 : forall (P S : Type) (h5 : file P S),
  NoDup (map fst (f_groups h5)) ->
  src_load_h5 P S h5 = (dor h <- load P S h5; Ok (as_obj h)).
Proof. exact src_load_h5_is_model. Qed.
Print Assumptions C10_model_is_source_load_h5.

(* save_h5 returns nothing: its translation denotes what has been written (h5w); read back as a file (h5_close:
   all parts present, members in h5py's name order) it is the model's save, for every object *)
Theorem C10_model_is_source_save_h5 : forall (P S : Type) (self : pyobj P S),
  (dor w <- src_save_h5 P S self; h5_close w) = save P S (snd self).
Proof. exact src_save_h5_is_model. Qed.
Print Assumptions C10_model_is_source_save_h5.

(* the round trip through the two translated methods is the model's save_load (no side condition: the names
   save_h5 writes are distinct), so C10_load_save* are theorems about the translated source *)
Theorem C10_model_is_source_save_load : forall (P S : Type) (self : pyobj P S),
  (dor w <- src_save_h5 P S self; dor f <- h5_close w; src_load_h5 P S f)
  = (dor h <- save_load P S (snd self); Ok (as_obj h)).
Proof. exact src_save_load_is_model. Qed.
Print Assumptions C10_model_is_source_save_load.

(* ---- persistence ---- *)

(* save then load gives back the same holder: declared size, number, order and value of every
   sample, for every non-empty holder within its declared size whose samples agree on their
   shared parameters (always true when S = unit, i.e. for SparseDrugComboMCMCSample) *)
Theorem C10_load_save : forall (P S : Type) (h : holder P S),
  h_thetas h <> [] ->
  Z.of_nat (length (h_thetas h)) <= h_declared h ->
  (forall t u, In t (h_thetas h) -> In u (h_thetas h) -> snd t = snd u) ->
  save_load P S h = Ok h.
Proof. exact load_save. Qed.
Print Assumptions C10_load_save.

(* the property's wording: all n >= 1, a complete holder of n samples *)
Theorem C10_load_save_complete : forall (P S : Type) (n : nat) (ts : list (theta P S)),
  (1 <= n)%nat -> length ts = n ->
  (forall t u, In t ts -> In u ts -> snd t = snd u) ->
  save_load P S {| h_declared := Z.of_nat n; h_thetas := ts |}
  = Ok {| h_declared := Z.of_nat n; h_thetas := ts |}.
Proof. exact load_save_complete. Qed.
Print Assumptions C10_load_save_complete.

(* without the side condition: exactly what comes back *)
Theorem C10_load_save_general : forall (P S : Type) (h : holder P S) t0 r,
  h_thetas h = t0 :: r ->
  Z.of_nat (length (h_thetas h)) <= h_declared h ->
  save_load P S h
  = Ok {| h_declared := h_declared h; h_thetas := map (fun t => (fst t, snd t0)) (h_thetas h) |}.
Proof. exact save_load_general_explicit. Qed.
Print Assumptions C10_load_save_general.

Theorem C10_load_save_mixed_shared_refuted : exists h : holder Z Z,
  h_thetas h <> [] /\ Z.of_nat (length (h_thetas h)) <= h_declared h /\ save_load Z Z h <> Ok h.
Proof. exact mixed_shared_refuted. Qed.
Print Assumptions C10_load_save_mixed_shared_refuted.

Theorem C10_save_load_fixed_point : forall (P S : Type) (h h' : holder P S),
  save_load P S h = Ok h' -> save_load P S h' = Ok h'.
Proof. exact save_load_fixed_point. Qed.
Print Assumptions C10_save_load_fixed_point.

(* the file holds exactly the groups "0" .. "n-1" (in h5py's order), and int(str k) = k *)
Theorem C10_file_keys : forall (P S : Type) (h : holder P S) f,
  save P S h = Ok f ->
  Permutation (map fst (f_groups f)) (map key_of_index (seq 0 (length (h_thetas h)))) /\
  forall k, index_of_key (key_of_index k) = k.
Proof. intros P S h f H. split; [exact (file_keys P S h f H) | exact index_of_key_of_index]. Qed.
Print Assumptions C10_file_keys.

(* sorting by int(key), as load_h5 does, undoes ANY iteration order of those groups *)
Theorem C10_numeric_sort_restores_order : forall (P : Type) (xs : list P) (gs : list (Decimal.uint * P)),
  Permutation gs (map (fun it => (key_of_index (fst it), snd it)) (enumerate xs)) ->
  map snd (numsort P gs) = xs.
Proof. exact numeric_sort_restores_order. Qed.
Print Assumptions C10_numeric_sort_restores_order.

(* ---- concatenation and chain ids ---- *)

Theorem C10_concat_chain_major : forall (P S : Type) (hs : list (holder P S)),
  hs <> [] ->
  concat_holders P S hs
  = Ok {| h_declared := fold_right Z.add 0 (map h_declared hs); h_thetas := concat (map h_thetas hs) |}.
Proof. exact concat_chain_major. Qed.
Print Assumptions C10_concat_chain_major.

(* complete holders: the labels evaluate_model builds, paired with the concatenated samples, are
   exactly "every sample with the number of the chain it came from", chain by chain *)
Theorem C10_chain_ids_aligned : forall (P S : Type) (hs : list (holder P S)),
  (forall h, In h hs -> Z.of_nat (length (h_thetas h)) = h_declared h) ->
  combine (chain_ids P S hs) (concat (map h_thetas hs))
  = concat (map (fun ih => map (pair (Z.of_nat (fst ih))) (h_thetas (snd ih))) (enumerate hs)).
Proof. exact chain_ids_aligned. Qed.
Print Assumptions C10_chain_ids_aligned.

Theorem C10_chain_ids_position : forall (P S : Type) (hs : list (holder P S)) (p : nat),
  (forall h, In h hs -> Z.of_nat (length (h_thetas h)) = h_declared h) ->
  (p < length (concat (map h_thetas hs)))%nat ->
  exists c h off,
    nth_error (chain_ids P S hs) p = Some (Z.of_nat c) /\
    nth_error hs c = Some h /\
    p = (length (concat (map h_thetas (firstn c hs))) + off)%nat /\
    (off < length (h_thetas h))%nat /\
    nth_error (concat (map h_thetas hs)) p = nth_error (h_thetas h) off.
Proof. exact chain_ids_position. Qed.
Print Assumptions C10_chain_ids_position.

Theorem C10_chain_ids_aligned_partial_refuted : exists hs : list (holder Z unit),
  (forall h, In h hs -> Z.of_nat (length (h_thetas h)) <= h_declared h) /\
  combine (chain_ids Z unit hs) (concat (map h_thetas hs))
  <> concat (map (fun ih => map (pair (Z.of_nat (fst ih))) (h_thetas (snd ih))) (enumerate hs)).
Proof. exact chain_ids_partial_misaligned. Qed.
Print Assumptions C10_chain_ids_aligned_partial_refuted.

(* the pipeline of evaluate_model.main (concat, chain_ids, one prediction column per
   range(n_thetas) index via get_theta, ModelEvaluation's length check): if it succeeds, the
   columns are labelled correctly ... *)
Theorem C10_evaluate_labels : forall (P S : Type) (hs : list (holder P S)) l,
  (forall h, In h hs -> Z.of_nat (length (h_thetas h)) <= h_declared h) ->
  evaluate P S hs = Ok l ->
  l = concat (map (fun ih => map (pair (Z.of_nat (fst ih))) (h_thetas (snd ih))) (enumerate hs)).
Proof. exact evaluate_labels. Qed.
Print Assumptions C10_evaluate_labels.

(* ... on complete non-empty chains written to files and loaded back it does succeed ... *)
Theorem C10_evaluate_complete : forall (P S : Type) (hs : list (holder P S)),
  hs <> [] ->
  (forall h, In h hs -> Z.of_nat (length (h_thetas h)) = h_declared h /\ h_thetas h <> [] /\
                        forall t u, In t (h_thetas h) -> In u (h_thetas h) -> snd t = snd u) ->
  evaluate_files P S hs
  = Ok (concat (map (fun ih => map (pair (Z.of_nat (fst ih))) (h_thetas (snd ih))) (enumerate hs))).
Proof. exact evaluate_files_complete_uniform. Qed.
Print Assumptions C10_evaluate_complete.

(* ... and a partially filled chain is refused, not mislabelled *)
Theorem C10_evaluate_partial_refused : forall (P S : Type) (hs : list (holder P S)) h,
  (forall h, In h hs -> Z.of_nat (length (h_thetas h)) <= h_declared h) ->
  In h hs -> Z.of_nat (length (h_thetas h)) < h_declared h ->
  evaluate P S hs = Err 2.
Proof. exact evaluate_partial_refused. Qed.
Print Assumptions C10_evaluate_partial_refused.

(* ---- refusals ---- *)

Theorem C10_add_beyond_declared_refused : forall (P S : Type) (h : holder P S) t,
  h_declared h <= Z.of_nat (length (h_thetas h)) -> add_theta P S h t = Err 1.
Proof. exact add_beyond_declared_refused. Qed.
Print Assumptions C10_add_beyond_declared_refused.

Theorem C10_add_within_declared : forall (P S : Type) (h : holder P S) t,
  Z.of_nat (length (h_thetas h)) < h_declared h ->
  add_theta P S h t = Ok {| h_declared := h_declared h; h_thetas := h_thetas h ++ [t] |}.
Proof. exact add_within_declared. Qed.
Print Assumptions C10_add_within_declared.

Theorem C10_get_out_of_range_refused : forall (P S : Type) (h : holder P S) i,
  i < 0 \/ Z.of_nat (length (h_thetas h)) <= i -> get_theta P S h i = Err 2.
Proof. exact get_out_of_range_refused. Qed.
Print Assumptions C10_get_out_of_range_refused.

Theorem C10_get_in_range : forall (P S : Type) (h : holder P S) (i : nat) t,
  nth_error (h_thetas h) i = Some t -> get_theta P S h (Z.of_nat i) = Ok t.
Proof. exact get_in_range. Qed.
Print Assumptions C10_get_in_range.

Theorem C10_save_empty_refused : forall (P S : Type) (h : holder P S),
  h_thetas h = [] -> save P S h = Err 4.
Proof. exact save_empty_refused. Qed.
Print Assumptions C10_save_empty_refused.

Theorem C10_concat_nothing_refused : forall (P S : Type), concat_holders P S [] = Err 3.
Proof. exact concat_nothing_refused. Qed.
Print Assumptions C10_concat_nothing_refused.

(* outside the API (thetas assigned directly): more groups than the n_thetas attribute *)
Theorem C10_load_overfull_refused : forall (P S : Type) (h : holder P S),
  h_thetas h <> [] -> Z.of_nat (length (h_thetas h)) > h_declared h -> save_load P S h = Err 1.
Proof. exact save_load_overfull. Qed.
Print Assumptions C10_load_overfull_refused.

(* ---- non-vacuity: concrete instances ---- *)

Definition ex12 : holder Z Z :=
  {| h_declared := 12; h_thetas := map (fun k => (100 + Z.of_nat k, 7)) (seq 0 12) |}.

(* the saved file of 12 samples is iterated "0" "1" "10" "11" "2" ... (NOT numeric order) *)
Example C10_ex_file_order :
  match save Z Z ex12 with
  | Ok f => map (fun g => (map Z.of_nat (digits (fst g)), snd g)) (f_groups f)
  | Err _ => []
  end
  = [([0], 100); ([1], 101); ([1; 0], 110); ([1; 1], 111); ([2], 102); ([3], 103); ([4], 104);
     ([5], 105); ([6], 106); ([7], 107); ([8], 108); ([9], 109)].
Proof. vm_compute. reflexivity. Qed.

Example C10_ex_load_save_12 : save_load Z Z ex12 = Ok ex12.
Proof. vm_compute. reflexivity. Qed.

Example C10_ex_partial : save_load Z Z {| h_declared := 5; h_thetas := [(1, 0); (2, 0)] |}
                         = Ok {| h_declared := 5; h_thetas := [(1, 0); (2, 0)] |}.
Proof. vm_compute. reflexivity. Qed.

Example C10_ex_evaluate :
  evaluate_files Z Z [ {| h_declared := 2; h_thetas := [(1, 0); (2, 0)] |}; ex12;
                       {| h_declared := 1; h_thetas := [(3, 9)] |} ]
  = Ok ([(0, (1, 0)); (0, (2, 0))] ++ map (fun k => (1, (100 + Z.of_nat k, 7))) (seq 0 12) ++ [(2, (3, 9))]).
Proof. vm_compute. reflexivity. Qed.

Example C10_ex_evaluate_partial :
  evaluate_files Z Z [ {| h_declared := 3; h_thetas := [(1, 0); (2, 0)] |}; {| h_declared := 1; h_thetas := [(3, 0)] |} ]
  = Err 2.
Proof. vm_compute. reflexivity. Qed.

Example C10_ex_refusals :
  add_theta Z Z {| h_declared := 1; h_thetas := [(1, 0)] |} (2, 0) = Err 1 /\
  get_theta Z Z {| h_declared := 1; h_thetas := [(1, 0)] |} 1 = Err 2 /\
  get_theta Z Z {| h_declared := 1; h_thetas := [(1, 0)] |} (-1) = Err 2 /\
  get_theta Z Z {| h_declared := 1; h_thetas := [(1, 0)] |} 0 = Ok (1, 0) /\
  save Z Z (empty_holder Z Z 3) = Err 4.
Proof. vm_compute. repeat split; reflexivity. Qed.

(* ---- the command-line wrapper evaluate_model.main is what the source says NOW ----
   `src_cli_evaluate_model` is the whole function main of /repo's current batchie/cli/evaluate_model.py, re-translated on every run
   (configuration CLI_EVALUATE_MODEL -> Generated/SrcCli.v).  Cli.chain_ids_of: file i of --thetas, in ARGUMENT order, contributes its
   declared size (n_thetas) many copies of i; the holders are concatenated in the same order.
   Model/Cli.v: the parsed arguments are a record of the plain argparse results (get_args() is not translated), `L` is a
   record of the library functions the wrapper calls over abstract types (each component stands for the library function
   of that name with its parameter list; `*_load_*` = what loading the file at a path yields), a main() denotes the list
   of (path, content) files it writes, Err = the exception that ends it.  The links hold for EVERY such record. *)
From Batchie Require Lib.PyRt Model.Cli Generated.SrcCli Proofs.C10SourceCli.
Theorem C10_model_is_source_cli_evaluate_model : forall (Scr Th Pr PrT Ob Nm Ev : Type) (L : Cli.ev_lib Scr Th Pr PrT Ob Nm Ev) (a : Cli.ev_args),
  SrcCli.src_cli_evaluate_model Scr Th Pr PrT Ob Nm Ev L a
  = Cli.cli_evaluate_model L a.
Proof. exact C10SourceCli.src_cli_evaluate_model_is_model. Qed.
Print Assumptions C10_model_is_source_cli_evaluate_model.

Example C10_example_cli_chain_ids : Cli.chain_ids_of (fun n : Z => n) [2; 0; 3]%Z = [0; 0; 2; 2; 2]%Z.
Proof. vm_compute. reflexivity. Qed.

(* ---- what a sample IS: the dict methods of the two shipped sample classes, and Theta.equals ----
   Model/Thetas.v keeps a sample opaque: a pair (private, shared) of the two dicts its class exports; the ThetaHolder links
   above took `t.private_parameters_dict()` / `t.shared_parameters_dict()` / `C.from_dicts(...)` as PRIMITIVES (fst / snd / the pair).
   Here these methods themselves are re-translated from /repo on every run (harness/src_functions.py C10D_*, Generated/SrcThetaDicts.v)
   and linked to Model/ThetaDicts.v: a parameter dict is an insertion-ordered list (key, value) with string keys (a key = the list
   of its code points; `key "W"` is that list) and values of four kinds (PArr a float ndarray, PNum a float scalar, PInts / PNums
   the exported id / value columns); A (arrays) and F (floats) are abstract, every theorem holds for ALL of them.  Error tags:
   93 TypeError of cls( **d), 94 KeyError, 95 = a dict value of another kind than the class writes under that key (outside the
   model: Python does not check; no dict obtained from a sample reaches it). *)
From Batchie Require Lib.PyRt Model.ThetaDicts Generated.SrcThetaDicts Proofs.C10SourceDicts.
Import Lib.PyRt Model.ThetaDicts Generated.SrcThetaDicts.
From Coq Require String.
Import String.StringSyntax.
Local Open Scope string_scope.
Open Scope Z_scope.

(* SparseDrugComboMCMCSample.private_parameters_dict (`return self.__dict__`: the dataclass fields in declaration order - the
   translator reads the field list from the class body): W, W0, V2, V1, V0 as arrays, alpha, precision as scalars, each under its own name *)
Theorem C10_model_is_source_sc_private_parameters_dict : forall (A F : Type) (t : sc_sample A F),
  src_sc_private_parameters_dict A F t = Ok (sc_private t).
Proof. exact C10SourceDicts.src_sc_private_is_model. Qed.
Print Assumptions C10_model_is_source_sc_private_parameters_dict.

(* Theta.shared_parameters_dict, which SparseDrugComboMCMCSample inherits (checked: it defines none): the empty dict, for an object of any class *)
Theorem C10_model_is_source_theta_shared_parameters_dict : forall (A F T : Type) (t : T),
  src_theta_shared_parameters_dict A F T t = Ok (no_shared A F).
Proof. exact C10SourceDicts.src_theta_shared_is_model. Qed.
Print Assumptions C10_model_is_source_theta_shared_parameters_dict.

(* SparseDrugComboMCMCSample.from_dicts (`cls( **private_params)`): exactly the seven field names, in any order, each value of its
   field's kind; shared_params is not read *)
Theorem C10_model_is_source_sc_from_dicts : forall (A F : Type) (p s : pdict A F),
  src_sc_from_dicts A F p s = sc_from_dicts A F p s.
Proof. exact C10SourceDicts.src_sc_from_dicts_is_model. Qed.
Print Assumptions C10_model_is_source_sc_from_dicts.

Theorem C10_model_is_source_in_private_parameters_dict : forall (A F : Type) (t : in_sample A F),
  src_in_private_parameters_dict A F t = Ok (in_private t).
Proof. exact C10SourceDicts.src_in_private_is_model. Qed.
Print Assumptions C10_model_is_source_in_private_parameters_dict.

(* SparseDrugComboInteractionMCMCSample.shared_parameters_dict: the single-effect table exported as three parallel arrays - sample
   ids, treatment ids, values - rows in the dict's iteration order *)
Theorem C10_model_is_source_in_shared_parameters_dict : forall (A F : Type) (t : in_sample A F),
  src_in_shared_parameters_dict A F t = Ok (in_shared t).
Proof. exact C10SourceDicts.src_in_shared_is_model. Qed.
Print Assumptions C10_model_is_source_in_shared_parameters_dict.

(* ... and from_dicts: dict(zip(zip(keys1, keys2), vals)) and cls(single_effect_lookup=..., **private_params) *)
Theorem C10_model_is_source_in_from_dicts : forall (A F : Type) (p s : pdict A F),
  src_in_from_dicts A F p s = in_from_dicts A F p s.
Proof. exact C10SourceDicts.src_in_from_dicts_is_model. Qed.
Print Assumptions C10_model_is_source_in_from_dicts.

(* from_dicts(private_parameters_dict(t), shared_parameters_dict(t)) = t, through the TRANSLATED methods, for every sample *)
Theorem C10_source_sc_roundtrip : forall (A F : Type) (t : sc_sample A F),
  (dor p <- src_sc_private_parameters_dict A F t;
   dor s <- src_theta_shared_parameters_dict A F (sc_sample A F) t;
   src_sc_from_dicts A F p s) = Ok t.
Proof. exact C10SourceDicts.src_sc_roundtrip. Qed.
Print Assumptions C10_source_sc_roundtrip.

(* the interaction class: for every sample whose table has distinct keys - a fact about every Python dict *)
Theorem C10_source_in_roundtrip : forall (A F : Type) (t : in_sample A F),
  NoDup (map fst (in_lookup t)) ->
  (dor p <- src_in_private_parameters_dict A F t;
   dor s <- src_in_shared_parameters_dict A F t;
   src_in_from_dicts A F p s) = Ok t.
Proof. exact C10SourceDicts.src_in_roundtrip. Qed.
Print Assumptions C10_source_in_roundtrip.

(* the empty table: three empty columns out, the empty dict back *)
Theorem C10_source_in_roundtrip_empty_table : forall (A F : Type) (w v2 : A) (pr : F),
  let t := {| in_W := w; in_V2 := v2; in_precision := pr; in_lookup := [] |} in
  in_shared t = [(key "single_effect_lookup_keys1", PInts []); (key "single_effect_lookup_keys2", PInts []);
                 (key "single_effect_lookup_vals", PNums [])]
  /\ in_from_dicts A F (in_private t) (in_shared t) = Ok t.
Proof. exact C10SourceDicts.in_roundtrip_empty_table. Qed.
Print Assumptions C10_source_in_roundtrip_empty_table.

(* the file does not keep the order of a dict's entries (reading a group gives the attributes, then the datasets by name):
   from_dicts returns the sample from ANY dicts that are the same finite maps as its two dicts ... *)
Theorem C10_from_dicts_any_entry_order : forall (A F : Type),
  (forall (t : sc_sample A F) (p s : pdict A F), dict_equiv A F p (sc_private t) -> sc_from_dicts A F p s = Ok t) /\
  (forall (t : in_sample A F) (p s : pdict A F), NoDup (map fst (in_lookup t)) ->
     dict_equiv A F p (in_private t) -> dict_equiv A F s (in_shared t) -> in_from_dicts A F p s = Ok t).
Proof. intros A F. split; [exact (C10SourceDicts.sc_from_dicts_of_equiv A F) | exact (C10SourceDicts.in_from_dicts_of_equiv A F)]. Qed.
Print Assumptions C10_from_dicts_any_entry_order.

(* ... and only from those: whatever dict from_dicts accepts is (as a finite map) the private dict of the sample it returns *)
Theorem C10_sc_from_dicts_only_of_private : forall (A F : Type) (p s : pdict A F) (t : sc_sample A F),
  sc_from_dicts A F p s = Ok t -> dict_equiv A F p (sc_private t).
Proof. exact C10SourceDicts.sc_from_dicts_only_of_private. Qed.
Print Assumptions C10_sc_from_dicts_only_of_private.

(* consistency with the ThetaHolder links: with P = S = pdict and the representation sample_theta t = (private dict, shared dict),
   the meanings C10_SAVE / C10_LOAD gave to the three calls - fst t, snd t, the pair - are what the translated methods of the
   sample's class compute (src_private_of / src_shared_of / src_from_dicts_as dispatch on the class of t, Proofs/C10SourceDicts.v) *)
Theorem C10_source_save_primitives_are_translations : forall (A F : Type) (t : sample A F),
  C10SourceDicts.src_private_of A F t = Ok (fst (sample_theta A F t)) /\
  C10SourceDicts.src_shared_of A F t = Ok (snd (sample_theta A F t)).
Proof.
  intros A F t. split; [exact (C10SourceDicts.save_prim_private_is_source A F t) | exact (C10SourceDicts.save_prim_shared_is_source A F t)].
Qed.
Print Assumptions C10_source_save_primitives_are_translations.

Theorem C10_source_load_primitive_is_translation : forall (A F : Type) (t : sample A F),
  C10SourceDicts.table_ok A F t ->
  C10SourceDicts.src_from_dicts_as A F t (fst (sample_theta A F t)) (snd (sample_theta A F t)) = Ok t.
Proof. exact C10SourceDicts.load_prim_from_dicts_is_source. Qed.
Print Assumptions C10_source_load_primitive_is_translation.

(* end to end through translated code only: a non-empty collection within its declared size whose samples share their shared
   parameters, written by the translated save_h5, read back as a file, loaded by the translated load_h5, every loaded pair turned
   into a sample by the translated from_dicts of its class: the declared size and the samples, in order *)
Theorem C10_source_samples_persist : forall (A F : Type) (n : Z) (ts : list (sample A F)),
  ts <> [] -> Z.of_nat (length ts) <= n ->
  (forall t u, In t ts -> In u ts -> sample_shared A F t = sample_shared A F u) ->
  (forall t, In t ts -> C10SourceDicts.table_ok A F t) ->
  (dor w <- src_save_h5 (pdict A F) (pdict A F) (C10SourceDicts.holder_of A F n ts);
   dor f <- h5_close w;
   dor o <- src_load_h5 (pdict A F) (pdict A F) f;
   dor back <- res_map_all (fun tt' : sample A F * theta (pdict A F) (pdict A F) =>
                              C10SourceDicts.src_from_dicts_as A F (fst tt') (fst (snd tt')) (snd (snd tt')))
                           (combine ts (attr_thetas o));
   Ok (attr_n_thetas o, back))
  = Ok (n, ts).
Proof. exact C10SourceDicts.src_samples_persist. Qed.
Print Assumptions C10_source_samples_persist.

(* Theta.equals (the class test, the two pairs of dicts, the loops over d1.items() with `k not in d2` and the three comparison
   branches, the early returns), for ANY class of samples given by its class test and its two dict methods, any array / float
   comparison functions aeqb (np.array_equal) / feqb (==) *)
Theorem C10_model_is_source_theta_equals :
  forall (A F : Type) (aeqb : A -> A -> bool) (feqb : F -> F -> bool)
         (T : Type) (same : T -> T -> bool) (priv shar : T -> result (pdict A F)) (a b : T),
  src_theta_equals A F aeqb feqb T same priv shar a b = theta_equals A F aeqb feqb same priv shar a b.
Proof. exact C10SourceDicts.src_theta_equals_is_model. Qed.
Print Assumptions C10_model_is_source_theta_equals.

(* on the shipped samples, dispatching to the translated dict methods: the model equality - field by field, the tables row by row
   in iteration order, false across classes; never an exception *)
Theorem C10_source_equals_is_sample_eqb :
  forall (A F : Type) (aeqb : A -> A -> bool) (feqb : F -> F -> bool) (a b : sample A F),
  src_theta_equals A F aeqb feqb (sample A F) (same_class A F) (C10SourceDicts.src_private_of A F) (C10SourceDicts.src_shared_of A F) a b
  = Ok (sample_eqb A F aeqb feqb a b).
Proof. exact C10SourceDicts.src_equals_is_sample_eqb. Qed.
Print Assumptions C10_source_equals_is_sample_eqb.

(* equals is true exactly when the two samples are of one class and their dict representations agree entry by entry: same
   keys in the same order, arrays agreeing under aeqb, scalars and the value column under feqb, the id columns exactly *)
Theorem C10_source_equals_true_iff_dicts_agree :
  forall (A F : Type) (aeqb : A -> A -> bool) (feqb : F -> F -> bool) (a b : sample A F),
  src_theta_equals A F aeqb feqb (sample A F) (same_class A F) (C10SourceDicts.src_private_of A F) (C10SourceDicts.src_shared_of A F) a b
  = Ok true
  <-> same_class A F a b = true
      /\ pdict_agree A F aeqb feqb (sample_private A F a) (sample_private A F b)
      /\ pdict_agree A F aeqb feqb (sample_shared A F a) (sample_shared A F b).
Proof. exact C10SourceDicts.src_equals_true_iff_agree. Qed.
Print Assumptions C10_source_equals_true_iff_dicts_agree.

(* where == and np.array_equal decide equality of the values (NOT a fact about all inputs: it excludes NaN, which equals itself
   under neither, and takes -0.0 and 0.0 as one value): equals is true exactly when the two samples have the same dict
   representation *)
Theorem C10_source_equals_true_iff_same_representation :
  forall (A F : Type) (aeqb : A -> A -> bool) (feqb : F -> F -> bool),
  (forall x y, aeqb x y = true <-> x = y) -> (forall x y, feqb x y = true <-> x = y) ->
  forall a b : sample A F,
  src_theta_equals A F aeqb feqb (sample A F) (same_class A F) (C10SourceDicts.src_private_of A F) (C10SourceDicts.src_shared_of A F) a b
  = Ok true
  <-> sample_theta A F a = sample_theta A F b.
Proof. exact C10SourceDicts.src_equals_true_iff_same_representation. Qed.
Print Assumptions C10_source_equals_true_iff_same_representation.

(* non-vacuity: arrays and floats as integers *)
Definition ex_in (v : Z) (tb : table Z) : sample Z Z := SInter {| in_W := 1; in_V2 := 2; in_precision := v; in_lookup := tb |}.
Example C10_ex_shared_dict :
  sample_shared Z Z (ex_in 5 [((0, 3), 70); ((1, -1), 10)])
  = [(key "single_effect_lookup_keys1", PInts [0; 1]); (key "single_effect_lookup_keys2", PInts [3; -1]);
     (key "single_effect_lookup_vals", PNums [70; 10])].
Proof. vm_compute. reflexivity. Qed.
Example C10_ex_equals :
  let eq := src_theta_equals Z Z Z.eqb Z.eqb (sample Z Z) (same_class Z Z) (C10SourceDicts.src_private_of Z Z) (C10SourceDicts.src_shared_of Z Z) in
  eq (ex_in 5 [((0, 3), 70)]) (ex_in 5 [((0, 3), 70)]) = Ok true /\
  eq (ex_in 5 [((0, 3), 70)]) (ex_in 6 [((0, 3), 70)]) = Ok false /\
  eq (ex_in 5 [((0, 3), 70)]) (ex_in 5 [((0, 3), 71)]) = Ok false /\
  eq (ex_in 5 [((0, 3), 70); ((1, 3), 9)]) (ex_in 5 [((1, 3), 9); ((0, 3), 70)]) = Ok false /\
  eq (ex_in 5 []) (SCombo {| sc_W := 1; sc_W0 := 1; sc_V2 := 2; sc_V1 := 1; sc_V0 := 1; sc_alpha := 1; sc_precision := 5 |}) = Ok false.
Proof. vm_compute. repeat split; reflexivity. Qed.
Example C10_ex_from_dicts_refuses :
  sc_from_dicts Z Z [(key "W", PArr 1)] [] = Err 93 /\
  in_from_dicts Z Z [(key "W", PArr 1); (key "V2", PArr 2); (key "precision", PNum 3); (key "alpha", PNum 4)]
                    (sample_shared Z Z (ex_in 5 [])) = Err 93 /\
  in_from_dicts Z Z [(key "W", PArr 1); (key "V2", PArr 2); (key "precision", PNum 3)] [] = Err 94.
Proof. vm_compute. repeat split; reflexivity. Qed.

(* ---- the remaining small functions of core.py (Generated/SrcCoreSmall.v, Generated/SrcInits.v) ---- *)
From Batchie Require Generated.SrcCoreSmall Generated.SrcInits Proofs.C10Source_Iter Proofs.C10Source_EvaluateAll
  Proofs.C10Source_Init_BayesianModel Proofs.C10Source_Init_Metric.

(* ThetaHolder.__iter__ (a generator: the list it yields): the stored samples, in their order *)
Theorem C10_model_is_source_iter : forall (P S : Type) (self : pyobj P S),
  SrcCoreSmall.src_holder_iter P S self = Ok (attr_thetas self).
Proof. exact C10Source_Iter.src_holder_iter_is_thetas. Qed.
Print Assumptions C10_model_is_source_iter.

(* Metric.evaluate_all: iterating the holder runs the translated __iter__; the abstract method evaluate is ANY function that may
   raise: the values of the stored samples in their order, the first exception aborting (np.array of the list: the same values) *)
Theorem C10_model_is_source_evaluate_all : forall (P S V : Type) (ev : theta P S -> result V) (h : pyobj P S),
  SrcCoreSmall.src_metric_evaluate_all P S V ev h = res_map_all ev (attr_thetas h).
Proof. exact C10Source_EvaluateAll.src_metric_evaluate_all_is_map. Qed.
Print Assumptions C10_model_is_source_evaluate_all.

(* BayesianModel.__init__ / Metric.__init__ store their argument (the stored object is opaque) *)
Theorem C10_model_is_source_bayesian_model_init : forall (Sp : Type) (experiment_space : Sp),
  SrcInits.src_bayesian_model_init Sp experiment_space = Ok experiment_space.
Proof. exact C10Source_Init_BayesianModel.src_bayesian_model_init_stores. Qed.
Print Assumptions C10_model_is_source_bayesian_model_init.

Theorem C10_model_is_source_metric_init : forall (Mo : Type) (model : Mo), SrcInits.src_metric_init Mo model = Ok model.
Proof. exact C10Source_Init_Metric.src_metric_init_stores. Qed.
Print Assumptions C10_model_is_source_metric_init.

(* ---- SimulationTracker (core.py; Generated/SrcTracker.v; vocabulary Model/Tracker.v).  J = a JSON-native value; the object is the
   triple of its attributes, the JSON file is None (nothing written) or Some (the object it holds).  No code of src/batchie uses
   the class. ---- *)
From Batchie Require Model.Tracker Generated.SrcTracker Proofs.C10Source_Tracker.

Theorem C10_model_is_source_tracker_init : forall (J : Type) (o : Tracker.pytracker J) (a b c : J),
  SrcTracker.src_tracker_init J o a b c = Ok (a, b, c).
Proof. exact C10Source_Tracker.src_tracker_init_stores. Qed.
Print Assumptions C10_model_is_source_tracker_init.

(* save writes ONE JSON object: the three attributes under their names *)
Theorem C10_model_is_source_tracker_save : forall (J : Type) (t : Tracker.pytracker J),
  SrcTracker.src_tracker_save J t = Ok (Some (Tracker.tracker_dict t)).
Proof. exact C10Source_Tracker.src_tracker_save_writes_dict. Qed.
Print Assumptions C10_model_is_source_tracker_save.

(* load(save(t)) = t, whatever the fresh instance cls.__new__ makes *)
Theorem C10_model_is_source_tracker_save_load : forall (J : Type) (blank t : Tracker.pytracker J),
  (dor f <- SrcTracker.src_tracker_save J t; SrcTracker.src_tracker_load J blank f) = Ok t.
Proof. exact C10Source_Tracker.src_tracker_save_load. Qed.
Print Assumptions C10_model_is_source_tracker_save_load.

(* load binds by name (any key order); it refuses an empty file (95) and an object whose keys are not exactly the three parameters
   (TypeError of cls( **data ), 93) *)
Theorem C10_model_is_source_tracker_load_any_order : forall (J : Type) (blank : Tracker.pytracker J) (a b c : J),
  SrcTracker.src_tracker_load J blank
    (Some [(Tracker.tkey_of "seed", c); (Tracker.tkey_of "plate_ids_selected", a); (Tracker.tkey_of "losses", b)]) = Ok (a, b, c).
Proof. exact C10Source_Tracker.src_tracker_load_any_order. Qed.
Print Assumptions C10_model_is_source_tracker_load_any_order.

Theorem C10_model_is_source_tracker_load_refuses : forall (J : Type) (blank : Tracker.pytracker J) (x : J),
  SrcTracker.src_tracker_load J blank None = Err 95 /\
  SrcTracker.src_tracker_load J blank (Some [(Tracker.tkey_of "seed", x); (Tracker.tkey_of "extra", x)]) = Err 93 /\
  SrcTracker.src_tracker_load J blank (Some [(Tracker.tkey_of "seed", x); (Tracker.tkey_of "losses", x)]) = Err 93.
Proof. exact C10Source_Tracker.src_tracker_load_refuses. Qed.
Print Assumptions C10_model_is_source_tracker_load_refuses.

(* ---- the two models of evaluate_model.main are one ----
   C10_evaluate_labels / _complete / _partial_refused above speak of the hand model Thetas.evaluate;
   C10_model_is_source_cli_evaluate_model links the translated main() to Cli.cli_evaluate_model for an ABSTRACT library record.
   Here the record is instantiated with the Thetas model (Proofs/C10CliInstance.v thetas_ev_lib: load = any function of the path,
   concat = concat_holders, n_thetas = the declared size, predict_viability_all = one column per get_theta(k), k in
   range(n_thetas), .T = identity on the column list, ModelEvaluation = its length check pairing chain ids with columns), so the
   chain-major theorems are theorems about the TRANSLATED main(). *)
From Batchie Require Import Model.Cli Generated.SrcCli Proofs.C10CliInstance.

Theorem C10_source_cli_evaluate_is_thetas_evaluate : forall (P S : Type) (loadf : Cli.path -> result (holder P S)) (a : Cli.ev_args),
  SrcCli.src_cli_evaluate_model _ _ _ _ _ _ _ (thetas_ev_lib P S loadf) a
  = dor hs <- res_map_all loadf (Cli.ev_thetas a); dor l <- evaluate P S hs; Ok [(Cli.ev_output a, l)].
Proof. exact src_cli_evaluate_is_thetas_evaluate. Qed.
Print Assumptions C10_source_cli_evaluate_is_thetas_evaluate.

(* the files named by --thetas being what save_h5 wrote for the chains hs, read by load_h5 in argument order: for complete
   non-empty chains the translated main() writes exactly one evaluation whose columns are all of the first chain in step order,
   then the second, ..., each labelled with the position of its chain on the command line *)
Theorem C10_source_cli_evaluate_complete : forall (P S : Type) (loadf : Cli.path -> result (holder P S)) (a : Cli.ev_args) (hs : list (holder P S)),
  res_map_all loadf (Cli.ev_thetas a) = res_map_all (save_load P S) hs ->
  hs <> [] ->
  (forall h, In h hs -> Z.of_nat (length (h_thetas h)) = h_declared h /\ h_thetas h <> [] /\
                        forall t u, In t (h_thetas h) -> In u (h_thetas h) -> snd t = snd u) ->
  SrcCli.src_cli_evaluate_model _ _ _ _ _ _ _ (thetas_ev_lib P S loadf) a
  = Ok [(Cli.ev_output a, concat (map (fun ih => map (pair (Z.of_nat (fst ih))) (h_thetas (snd ih))) (enumerate hs)))].
Proof. exact src_cli_evaluate_complete. Qed.
Print Assumptions C10_source_cli_evaluate_complete.

(* not vacuous: two chain files given in the order (second, first) *)
Example C10_source_cli_evaluate_example :
  let h1 : holder Z unit := {| h_declared := 2; h_thetas := [(10, tt); (11, tt)] |} in
  let h2 : holder Z unit := {| h_declared := 1; h_thetas := [(20, tt)] |} in
  let loadf := fun p : Cli.path => match p with [1] => Ok h1 | [2] => Ok h2 | _ => Err 30 end in
  SrcCli.src_cli_evaluate_model _ _ _ _ _ _ _ (thetas_ev_lib Z unit loadf) (Cli.mk_ev_args [] [[2]; [1]] [7])
  = Ok [([7], [(0, (20, tt)); (1, (10, tt)); (1, (11, tt))])].
Proof. vm_compute. reflexivity. Qed.
