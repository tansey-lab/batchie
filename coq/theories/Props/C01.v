(* C01 — Screen identifiers are a faithful, dense encoding of names and doses.
   Statements only: a proof is `exact <lemma from Proofs/>` (or a split into such), a concrete example is closed by evaluation.
   [mk_screen rows arity ctrl tmap smap obs_given mask_given = Ok s] is "s can be constructed". *)
From Coq Require Import ZArith List Bool.
From Batchie Require Import Lib.Sexp Lib.PyRt Generated.Consts Model.Encode Model.Screen Model.Persist
  Proofs.C01Encode Proofs.C01Screen Proofs.C01Props Generated.SrcArithC01
  Generated.SrcEncode Generated.SrcScreenIds Generated.SrcSpaceMethods Proofs.C01Source Proofs.C01SourceInit.
Import ListNotations.
Open Scope Z_scope.

(* the sentinel the model uses is the one the source defines today *)
Theorem C01_sentinel_from_source : CONTROL_SENTINEL_VALUE = -1.
Proof. exact sentinel_is_minus_one. Qed.
Print Assumptions C01_sentinel_from_source.

(* the model's control test is the source's: `dose_is_zero | treatment_is_control` with the
   comparison operator of `dose_is_zero` translated from the source on every run *)
Theorem C01_control_test_from_source : forall ctrl k,
  is_control ctrl k = src_dose_is_control (snd k) || name_eqb (fst k) ctrl.
Proof. intros ctrl k. reflexivity. Qed.
Print Assumptions C01_control_test_from_source.

(* every experiment's stored treatment id is the mapping's id of exactly that (name, dose) *)
Theorem C01_decode_treatments : forall rows a ctrl tm sm og mg s,
  mk_screen rows a ctrl tm sm og mg = Ok s ->
  s_tids s = map (fun r => map (tid_of (s_tmap s)) (r_treats r)) (s_rows s) /\
  forall k, row_keys s k -> In (k, tid_of (s_tmap s) k) (s_tmap s).
Proof. exact decode_treatments. Qed.
Print Assumptions C01_decode_treatments.

Theorem C01_decode_samples : forall rows a ctrl tm sm og mg s,
  mk_screen rows a ctrl tm sm og mg = Ok s ->
  s_sids s = map (fun r => nid_of (s_smap s) (r_sample r)) (s_rows s) /\
  forall r, In r (s_rows s) -> In (r_sample r, nid_of (s_smap s) (r_sample r)) (s_smap s).
Proof. exact decode_samples. Qed.
Print Assumptions C01_decode_samples.

Theorem C01_decode_plates : forall rows a ctrl tm sm og mg s,
  mk_screen rows a ctrl tm sm og mg = Ok s ->
  s_pids s = map (fun r => nid_of (s_pmap s) (r_plate r)) (s_rows s) /\
  forall r, In r (s_rows s) -> In (r_plate r, nid_of (s_pmap s) (r_plate r)) (s_pmap s).
Proof. exact decode_plates. Qed.
Print Assumptions C01_decode_plates.

(* sentinel exactly when the name is the control name or the dose is not positive *)
Theorem C01_control_iff : forall rows a ctrl sm og mg s,
  mk_screen rows a ctrl None sm og mg = Ok s ->
  forall k, row_keys s k ->
  (tid_of (s_tmap s) k = CONTROL_SENTINEL_VALUE <-> (snd k <= 0 \/ fst k = ctrl)).
Proof. exact control_iff. Qed.
Print Assumptions C01_control_iff.

(* the non-control treatment ids in use are exactly 0 .. (experiment-space size - 1) *)
Theorem C01_treatment_ids_dense : forall rows a ctrl sm og mg s,
  mk_screen rows a ctrl None sm og mg = Ok s ->
  forall z, (exists k, row_keys s k /\ tid_of (s_tmap s) k = z /\ z <> CONTROL_SENTINEL_VALUE)
            <-> 0 <= z < space_n_treatments s.
Proof. exact treatment_ids_dense. Qed.
Print Assumptions C01_treatment_ids_dense.

(* equal non-control ids iff equal (name, dose) *)
Theorem C01_treatment_ids_injective : forall rows a ctrl sm og mg s,
  mk_screen rows a ctrl None sm og mg = Ok s ->
  forall k1 k2, row_keys s k1 -> row_keys s k2 ->
  tid_of (s_tmap s) k1 <> CONTROL_SENTINEL_VALUE ->
  (tid_of (s_tmap s) k1 = tid_of (s_tmap s) k2 <-> k1 = k2).
Proof. exact treatment_ids_injective. Qed.
Print Assumptions C01_treatment_ids_injective.

Theorem C01_sample_ids_dense : forall rows a ctrl tm og mg s,
  mk_screen rows a ctrl tm None og mg = Ok s ->
  forall z, (exists r, In r (s_rows s) /\ nid_of (s_smap s) (r_sample r) = z) <-> 0 <= z < space_n_samples s.
Proof. exact sample_ids_dense. Qed.
Print Assumptions C01_sample_ids_dense.

Theorem C01_sample_ids_injective : forall rows a ctrl tm og mg s,
  mk_screen rows a ctrl tm None og mg = Ok s ->
  forall r1 r2, In r1 (s_rows s) -> In r2 (s_rows s) ->
  (nid_of (s_smap s) (r_sample r1) = nid_of (s_smap s) (r_sample r2) <-> r_sample r1 = r_sample r2).
Proof. exact sample_ids_injective. Qed.
Print Assumptions C01_sample_ids_injective.

Theorem C01_plate_ids_dense : forall rows a ctrl tm sm og mg s,
  mk_screen rows a ctrl tm sm og mg = Ok s ->
  forall z, (exists r, In r (s_rows s) /\ nid_of (s_pmap s) (r_plate r) = z)
            <-> 0 <= z < Z.of_nat (length (sort_uniq name_cmp (map r_plate rows))).
Proof. exact plate_ids_dense. Qed.
Print Assumptions C01_plate_ids_dense.

Theorem C01_plate_ids_injective : forall rows a ctrl tm sm og mg s,
  mk_screen rows a ctrl tm sm og mg = Ok s ->
  forall r1 r2, In r1 (s_rows s) -> In r2 (s_rows s) ->
  (nid_of (s_pmap s) (r_plate r1) = nid_of (s_pmap s) (r_plate r2) <-> r_plate r1 = r_plate r2).
Proof. exact plate_ids_injective. Qed.
Print Assumptions C01_plate_ids_injective.

(* a supplied mapping is followed verbatim (C01_decode_* then says the ids are its ids) *)
Theorem C01_supplied_verbatim : forall rows a ctrl m b sm og mg s,
  mk_screen rows a ctrl (Some (m, b)) sm og mg = Ok s ->
  s_tmap s = m /\ zero_indexed b (map snd m) = true.
Proof. exact supplied_verbatim. Qed.
Print Assumptions C01_supplied_verbatim.

Theorem C01_supplied_samples_verbatim : forall rows a ctrl tm m b og mg s,
  mk_screen rows a ctrl tm (Some (m, b)) og mg = Ok s ->
  s_smap s = m /\ zero_indexed b (map snd m) = true.
Proof. exact supplied_samples_verbatim. Qed.
Print Assumptions C01_supplied_samples_verbatim.

(* ... or rejected: not dense *)
Theorem C01_supplied_not_dense_rejected : forall rows a ctrl m b sm og mg,
  forallb (fun r => Nat.eqb (length (r_treats r)) a) rows = true ->
  negb og && mg = false -> plate_uniform (norm_rows og mg rows) = true ->
  zero_indexed b (map snd m) = false ->
  mk_screen rows a ctrl (Some (m, b)) sm og mg = Err 3.
Proof. exact supplied_not_dense_rejected. Qed.
Print Assumptions C01_supplied_not_dense_rejected.

(* ... or rejected: does not cover the data *)
Theorem C01_supplied_uncovered_rejected : forall rows a ctrl m b sm og mg k r,
  forallb (fun r => Nat.eqb (length (r_treats r)) a) rows = true ->
  In r rows -> In k (r_treats r) -> ~ In k (map fst m) ->
  forall s, mk_screen rows a ctrl (Some (m, b)) sm og mg <> Ok s.
Proof. exact supplied_uncovered_rejected. Qed.
Print Assumptions C01_supplied_uncovered_rejected.

(* what "dense" means for a supplied id array *)
Theorem C01_zero_indexed_spec : forall ids,
  zero_indexed true ids = true <->
  exists u : nat, forall z, In z ids <-> ((z = -1 /\ In (-1) ids) \/ 0 <= z < Z.of_nat u).
Proof. exact zero_indexed_spec. Qed.
Print Assumptions C01_zero_indexed_spec.

(* the mappings a screen builds are accepted back, on any rows they cover, unchanged:
   so the same (name, dose) / name gets the same id in the sub-screen (lemma C02/C03 stand on) *)
Theorem C01_superset_stable : forall rows a ctrl og mg s sub,
  mk_screen rows a ctrl None None og mg = Ok s ->
  forallb (fun r => Nat.eqb (length (r_treats r)) a) sub = true ->
  plate_uniform sub = true ->
  (forall r k, In r sub -> In k (r_treats r) -> row_keys s k) ->
  (forall r, In r sub -> In (r_sample r) (map r_sample (s_rows s))) ->
  exists s', mk_screen sub a ctrl (Some (s_tmap s, true)) (Some (s_smap s, true)) true true = Ok s'
             /\ s_tmap s' = s_tmap s /\ s_smap s' = s_smap s /\ s_rows s' = sub.
Proof. exact superset_stable. Qed.
Print Assumptions C01_superset_stable.

(* the experiment-space sizes strictly bound every id *)
Theorem C01_treatment_ids_bounded : forall rows a ctrl tm sm og mg s k,
  mk_screen rows a ctrl tm sm og mg = Ok s -> row_keys s k ->
  match tm with Some (_, b) => b = true | None => True end ->
  tid_of (s_tmap s) k < space_n_treatments s.
Proof. exact treatment_ids_bounded. Qed.
Print Assumptions C01_treatment_ids_bounded.

Theorem C01_sample_ids_bounded : forall rows a ctrl tm og mg s r,
  mk_screen rows a ctrl tm None og mg = Ok s -> In r (s_rows s) ->
  nid_of (s_smap s) (r_sample r) < space_n_samples s.
Proof. exact sample_ids_bounded. Qed.
Print Assumptions C01_sample_ids_bounded.

Theorem C01_sample_ids_bounded_supplied : forall rows a ctrl tm m og mg s r,
  mk_screen rows a ctrl tm (Some (m, true)) og mg = Ok s -> NoDup (map fst m) -> In r (s_rows s) ->
  nid_of (s_smap s) (r_sample r) < space_n_samples s.
Proof. exact sample_ids_bounded_supplied. Qed.
Print Assumptions C01_sample_ids_bounded_supplied.

(* non-vacuity: a concrete screen with control by name, control by dose, a repeated key,
   arity 2, names "" / "a" / "b" (code points), control name "" *)
Definition ex_rows : list row :=
  [ {| r_sample := [115]; r_plate := [112]; r_treats := [([97], 5); ([98], 7)]; r_obs := 1; r_mask := true |};
    {| r_sample := [116]; r_plate := [112]; r_treats := [([97], 5); ([], 7)]; r_obs := 2; r_mask := true |};
    {| r_sample := [115]; r_plate := [113]; r_treats := [([98], 0); ([98], 7)]; r_obs := 3; r_mask := false |} ].

Example C01_example_constructs :
  exists s, mk_screen ex_rows 2 [] None None true true = Ok s
            /\ s_tids s = [[0; 1]; [0; -1]; [-1; 1]] /\ s_sids s = [0; 1; 0] /\ s_pids s = [0; 0; 1]
            /\ space_n_treatments s = 2 /\ space_n_samples s = 2.
Proof. eexists. vm_compute. repeat split. Qed.

Example C01_example_reuse :
  exists s s', mk_screen ex_rows 2 [] None None true true = Ok s
    /\ mk_screen (tl ex_rows) 2 [] (Some (s_tmap s, true)) (Some (s_smap s, true)) true true = Ok s'
    /\ s_tids s' = [[0; -1]; [-1; 1]] /\ s_sids s' = [1; 0] /\ s_tmap s' = s_tmap s.
Proof. do 2 eexists. vm_compute. repeat split. Qed.

Example C01_example_gap_rejected :
  mk_screen ex_rows 2 [] (Some ([(([97], 5), 0); (([98], 7), 2); (([], 7), -1); (([98], 0), -1)], true)) None true true = Err 3.
Proof. vm_compute. reflexivity. Qed.

(* ---- the model is the source: whole functions of batchie/data.py, re-translated from /repo on every run
   (harness/py2gal.py, configurations C01_* of harness/src_functions.py, Generated/SrcEncode.v and SrcScreenIds.v).
   Every numpy / pandas call is ONE primitive with a list meaning (end of Model/Encode.v, Model/Screen.v); the order and
   wiring of the calls, the branches, the raises and the None handling are the translation's. ---- *)

(* numpy_array_is_0_indexed_integers on an id array (integer dtype?, values) is [zero_indexed] *)
Theorem C01_model_is_source_numpy_array_is_0_indexed_integers : forall (isint : bool) (ids : list Z),
  src_numpy_array_is_0_indexed_integers (isint, ids) = Ok (zero_indexed isint ids).
Proof. exact src_valid_ids_is_model. Qed.
Print Assumptions C01_model_is_source_numpy_array_is_0_indexed_integers.

(* encode_treatment_arrays_to_0_indexed_ids, for ALL arguments (arrays of different lengths: pandas' ValueError, tag 15):
   it is [encode_treatments] on the zipped (name, dose) keys, returning the merged id column (no NaN: all Some) and the
   mapping's three columns.  Hypothesis: a supplied mapping is key-unique (true of every mapping batchie builds; with a
   repeated key pandas' merge would duplicate rows where the model takes the first match) *)
Theorem C01_model_is_source_encode_treatment_arrays :
  forall (names : list name) (doses : list Z) (ctrl : name) (existing : option tmap_py),
  match existing with Some t => NoDup (map fst (tmap_py_rows t)) | None => True end ->
  src_encode_treatment_arrays names doses ctrl existing
  = if negb (Nat.eqb (length names) (length doses)) then Err 15
    else if match existing with Some t => negb (tmap_py_aligned t) | None => false end then Err 15
    else dor r <- encode_treatments (combine names doses) ctrl (option_map tmap_py_rows existing);
         Ok (map Some (fst r), map (fun e => fst (fst e)) (snd r), map (fun e => snd (fst e)) (snd r), map snd (snd r)).
Proof. exact src_encode_treatments_is_model. Qed.
Print Assumptions C01_model_is_source_encode_treatment_arrays.

(* the `else` branch of that function, statement by statement (drop_duplicates, sort_values, reset_index, the two control
   tests, `|`, cumsum, index - cumsum, the sentinel override by label, the two `del`s) builds exactly [build_tmapping] *)
Theorem C01_model_is_source_assign : forall (ctrl : name) (keys : list tkey),
  map snd (src_built_frame ctrl (df_fresh keys)) = build_tmapping ctrl keys.
Proof. exact src_built_frame_rows. Qed.
Print Assumptions C01_model_is_source_assign.

(* the constant src_dose_is_control (Generated/SrcArithC01.v) is the comparison the translation applies to the
   dose column: redundant now, and consistent *)
Theorem C01_model_is_source_dose_test_consistent : forall doses : list Z,
  series_le0 doses = map src_dose_is_control doses.
Proof. exact src_dose_is_control_consistent. Qed.
Print Assumptions C01_model_is_source_dose_test_consistent.

(* encode_1d_array_to_0_indexed_ids, for all arguments, is [encode_names] (same hypothesis) *)
Theorem C01_model_is_source_encode_1d_array : forall (names : list name) (existing : option smap_py),
  match existing with Some t => NoDup (map fst (smap_py_rows t)) | None => True end ->
  src_encode_1d_array names existing
  = if match existing with Some t => negb (smap_py_aligned t) | None => false end then Err 15
    else dor r <- encode_names names (option_map smap_py_rows existing) 6;
         Ok (map Some (fst r), map fst (snd r), map snd (snd r)).
Proof. exact src_encode_1d_is_model. Qed.
Print Assumptions C01_model_is_source_encode_1d_array.

(* Screen.__init__, first statement: the attribute the id statements read is the parameter *)
Theorem C01_model_is_source_init_control_name : forall c : name, src_init_control_name c = Ok c.
Proof. exact src_init_control_name_is_param. Qed.
Print Assumptions C01_model_is_source_init_control_name.

(* Screen.__init__, the id-encoding statements (column-major flatten of both 2-d arrays for any arity, validation of the
   supplied mappings, the three encoder calls with the existing_mapping each receives, split / vstack / T, the stores):
   on the arrays of a constructor call they ARE the id part of [mk_screen], read back by [stored_ids].
   Hypotheses: arity > 0 (for shape[1] = 0 numpy's concatenate raises where the model builds an empty screen - the
   model is more permissive there; the harness generates arity 1-3), supplied mappings key-unique *)
Theorem C01_model_is_source_init_ids : forall rows a c tm sm,
  (0 < a)%nat ->
  match tm with Some (m, _) => NoDup (map fst m) | None => True end ->
  match sm with Some (m, _) => NoDup (map fst m) | None => True end ->
  (dor s <- mk_screen rows a c tm sm true true; Ok (stored_ids s))
  = if negb (forallb (fun r => Nat.eqb (length (r_treats r)) a) rows) then Err 1
    else if negb (plate_uniform rows) then Err 2
    else src_init_ids (names_arr a rows) (doses_arr a rows) (map r_sample rows) (map r_plate rows)
                      (tmap_arg_py tm) (smap_arg_py sm) c.
Proof. exact src_init_ids_is_model. Qed.
Print Assumptions C01_model_is_source_init_ids.

(* the whole constructor model, whatever the call passes: refuse ragged rows; the two translated observation-mask runs
   (the C12_model_is_source_init theorems); then the translated id run on the rows they leave *)
Theorem C01_model_is_source_init : forall rows a c tm sm og mg,
  (0 < a)%nat ->
  match tm with Some (m, _) => NoDup (map fst m) | None => True end ->
  match sm with Some (m, _) => NoDup (map fst m) | None => True end ->
  (dor s <- mk_screen rows a c tm sm og mg; Ok (stored_ids s))
  = if negb (forallb (fun r => Nat.eqb (length (r_treats r)) a) rows) then Err 1
    else dor rows' <- C12Source.src_mask_rules rows og mg;
         src_init_ids (names_arr a rows') (doses_arr a rows') (map r_sample rows') (map r_plate rows')
                      (tmap_arg_py tm) (smap_arg_py sm) c.
Proof. exact mk_screen_is_source_runs. Qed.
Print Assumptions C01_model_is_source_init.

(* ExperimentSpace.n_unique_samples / n_unique_treatments (the sizes every id is bounded by), on the mapping tuples a
   constructed screen stores and from_screen hands over *)
Theorem C01_model_is_source_n_unique_samples : forall s : screen,
  src_space_n_unique_samples (nmap_cols2 (s_smap s)) = Ok (space_n_samples s).
Proof. exact src_space_n_samples_is_model. Qed.
Print Assumptions C01_model_is_source_n_unique_samples.

Theorem C01_model_is_source_n_unique_treatments : forall s : screen,
  src_space_n_unique_treatments (tmap_cols3 (s_tmap s)) = Ok (space_n_treatments s).
Proof. exact src_space_n_treatments_is_model. Qed.
Print Assumptions C01_model_is_source_n_unique_treatments.

(* ---- ExperimentSpace: the constructor and the query methods (Generated/SrcSpaceMethods.v; models: last part of Model/Persist.v).
   An ExperimentSpace object is [pyspace] = its three attributes as stored; [pyspace_of sp] is the object of the model space sp. ---- *)

(* __init__ stores its three arguments, whatever the instance held before *)
Theorem C01_model_is_source_space_init : forall (o : pyspace) (tm : tmap_arrays) (sm : smap_arrays) (c : name),
  src_space_init o tm sm c = Ok (tm, sm, c).
Proof. exact src_space_init_stores. Qed.
Print Assumptions C01_model_is_source_space_init.

(* the constructor-call primitive of the from_screen / load_h5 links (C02: arrays_space) is this constructor *)
Theorem C01_model_is_source_space_init_arrays : forall (tm : tmap_arrays) (sm : smap_arrays) (c : name) (sp : space),
  arrays_space tm sm c = Ok sp -> src_space_init blank_pyspace tm sm c = Ok (pyspace_of sp).
Proof. exact arrays_space_is_src_init. Qed.
Print Assumptions C01_model_is_source_space_init_arrays.

Theorem C01_model_is_source_n_unique_treatment_types : forall sp : space,
  src_space_n_unique_treatment_types (pyspace_of sp) = Ok (space_n_treatment_types sp).
Proof. exact src_space_n_treatment_types_is_model. Qed.
Print Assumptions C01_model_is_source_n_unique_treatment_types.

Theorem C01_model_is_source_n_unique_doses : forall sp : space,
  src_space_n_unique_doses (pyspace_of sp) = Ok (space_n_doses sp).
Proof. exact src_space_n_doses_is_model. Qed.
Print Assumptions C01_model_is_source_n_unique_doses.

Theorem C01_model_is_source_doses_for_treatment : forall (sp : space) (nm : name),
  src_space_doses_for_treatment (pyspace_of sp) nm = Ok (space_doses_for_treatment sp nm).
Proof. exact src_space_doses_for_treatment_is_model. Qed.
Print Assumptions C01_model_is_source_doses_for_treatment.

Theorem C01_model_is_source_treatment_ids_from_treatment_name : forall (sp : space) (nm : name),
  src_space_treatment_ids_from_treatment_name (pyspace_of sp) nm = Ok (space_treatment_ids_of_name sp nm).
Proof. exact src_space_treatment_ids_from_name_is_model. Qed.
Print Assumptions C01_model_is_source_treatment_ids_from_treatment_name.

Theorem C01_model_is_source_sample_id_from_sample_name : forall (sp : space) (nm : name),
  src_space_sample_id_from_sample_name (pyspace_of sp) nm = space_sample_id sp nm.
Proof. exact src_space_sample_id_is_model. Qed.
Print Assumptions C01_model_is_source_sample_id_from_sample_name.

Theorem C01_model_is_source_sample_name_from_sample_id : forall (sp : space) (i : Z),
  src_space_sample_name_from_sample_id (pyspace_of sp) i = space_sample_name sp i.
Proof. exact src_space_sample_name_is_model. Qed.
Print Assumptions C01_model_is_source_sample_name_from_sample_id.

(* what the translated methods answer on the space from_screen builds for a constructed screen.
   The two sample lookups are mutually inverse (a supplied sample mapping must not repeat a name or an id) ... *)
Theorem C01_space_sample_lookups_inverse : forall rows a ctrl tm sm og mg s,
  mk_screen rows a ctrl tm sm og mg = Ok s ->
  match sm with Some (m, _) => NoDup (map fst m) /\ NoDup (map snd m) | None => True end ->
  forall nm i,
  src_space_sample_id_from_sample_name (pyspace_of (space_of_screen s)) nm = Ok i
  <-> src_space_sample_name_from_sample_id (pyspace_of (space_of_screen s)) i = Ok nm.
Proof. exact src_sample_lookups_inverse. Qed.
Print Assumptions C01_space_sample_lookups_inverse.

(* ... every sample of the screen has an id, the one its experiments carry ... *)
Theorem C01_space_sample_id_of_row : forall rows a ctrl tm sm og mg s,
  mk_screen rows a ctrl tm sm og mg = Ok s ->
  match sm with Some (m, _) => NoDup (map fst m) /\ NoDup (map snd m) | None => True end ->
  forall r, In r (s_rows s) ->
  src_space_sample_id_from_sample_name (pyspace_of (space_of_screen s)) (r_sample r) = Ok (nid_of (s_smap s) (r_sample r)).
Proof. exact src_sample_id_of_row. Qed.
Print Assumptions C01_space_sample_id_of_row.

(* ... and an id the lookup returns lies below n_unique_samples *)
Theorem C01_space_sample_id_bounded : forall rows a ctrl tm og mg s nm i,
  mk_screen rows a ctrl tm None og mg = Ok s ->
  src_space_sample_id_from_sample_name (pyspace_of (space_of_screen s)) nm = Ok i -> 0 <= i < space_n_samples s.
Proof. exact src_sample_id_bounded. Qed.
Print Assumptions C01_space_sample_id_bounded.

(* the ids of a treatment name are the sentinel or lie below n_unique_treatments *)
Theorem C01_space_treatment_ids_bounded : forall rows a ctrl tm sm og mg s nm i,
  mk_screen rows a ctrl tm sm og mg = Ok s ->
  match tm with Some (_, b) => b = true | None => True end ->
  In i (space_treatment_ids_of_name (space_of_screen s) nm) ->
  i = CONTROL_SENTINEL_VALUE \/ 0 <= i < space_n_treatments s.
Proof. exact space_treatment_ids_of_name_bounded. Qed.
Print Assumptions C01_space_treatment_ids_bounded.

(* the doses of a treatment name: exactly the non-zero doses of the mapping rows of that name *)
Theorem C01_space_doses_for_treatment_spec : forall (sp : space) (nm : name) (d : Z),
  In d (space_doses_for_treatment sp nm) <-> (d <> 0 /\ In (nm, d) (map fst (sp_tmap sp))).
Proof. exact space_doses_for_treatment_spec. Qed.
Print Assumptions C01_space_doses_for_treatment_spec.

(* non-vacuity of the links: the translated functions run on the example above *)
Example C01_example_source_valid_ids :
  src_numpy_array_is_0_indexed_integers (true, [1; -1; 0; 1]) = Ok true /\
  src_numpy_array_is_0_indexed_integers (true, [2; -1; 0]) = Ok false /\
  src_numpy_array_is_0_indexed_integers (false, [0; 1]) = Ok false.
Proof. vm_compute. repeat split. Qed.

Example C01_example_source_encode :
  src_encode_treatment_arrays [[97]; [98]; []; [98]; [97]] [5; 7; 7; 0; 5] [] None
  = Ok ([Some 0; Some 1; Some (-1); Some (-1); Some 0], [[]; [97]; [98]; [98]], [7; 5; 0; 7], [-1; 0; -1; 1]).
Proof. vm_compute. reflexivity. Qed.

Example C01_example_source_init :
  exists ids, src_init_ids (names_arr 2 ex_rows) (doses_arr 2 ex_rows) (map r_sample ex_rows) (map r_plate ex_rows) None None []
              = Ok ids /\ snd (fst (fst (fst (fst ids)))) = (2%nat, [[Some 0; Some 1]; [Some 0; Some (-1)]; [Some (-1); Some 1]]).
Proof. eexists. vm_compute. split; reflexivity. Qed.

(* the translated ExperimentSpace methods run: names "a" "b", control "", doses 5 7 0; samples "s" "t" *)
Definition ex_space : space :=
  {| sp_tmap := [(([], 7), -1); (([97], 5), 0); (([98], 0), -1); (([98], 7), 1); (([98], 5), 2)];
     sp_smap := [([115], 0); ([116], 1)]; sp_ctrl := [] |}.
Example C01_example_source_space :
  src_space_n_unique_treatment_types (pyspace_of ex_space) = Ok 2 /\
  src_space_n_unique_doses (pyspace_of ex_space) = Ok 2 /\
  src_space_doses_for_treatment (pyspace_of ex_space) [98] = Ok [5; 7] /\
  src_space_treatment_ids_from_treatment_name (pyspace_of ex_space) [98] = Ok [-1; 1; 2] /\
  src_space_sample_id_from_sample_name (pyspace_of ex_space) [116] = Ok 1 /\
  src_space_sample_name_from_sample_id (pyspace_of ex_space) 0 = Ok [115] /\
  src_space_sample_id_from_sample_name (pyspace_of ex_space) [117] = Err 36.
Proof. vm_compute. repeat split. Qed.

(* ---- the DECODE direction and supplied batchie-made mappings (Proofs/C01Decode.v) ---- *)
From Batchie Require Import Proofs.C01Decode.

(* the mapping a screen builds lists exactly the (name, dose) pairs of its rows, each once *)
Theorem C01_mapping_keys_are_row_keys : forall rows a ctrl sm og mg s,
  mk_screen rows a ctrl None sm og mg = Ok s ->
  NoDup (map fst (s_tmap s)) /\ forall k, In k (map fst (s_tmap s)) <-> row_keys s k.
Proof. exact mapping_keys_are_row_keys. Qed.
Print Assumptions C01_mapping_keys_are_row_keys.

(* ... and decodes: an id of the mapping is the sentinel exactly on controls, a non-control id belongs to exactly one
   (name, dose), and looking a (name, dose) up returns the id stored with it - with C01_decode_treatments: an experiment's
   non-control id decodes through the mapping to EXACTLY that experiment's (name, dose) *)
Theorem C01_mapping_decodes : forall rows a ctrl sm og mg s,
  mk_screen rows a ctrl None sm og mg = Ok s ->
  (forall k id, In (k, id) (s_tmap s) -> (id = CONTROL_SENTINEL_VALUE <-> (snd k <= 0 \/ fst k = ctrl))) /\
  (forall k1 k2 id, In (k1, id) (s_tmap s) -> In (k2, id) (s_tmap s) -> id <> CONTROL_SENTINEL_VALUE -> k1 = k2) /\
  (forall k id, In (k, id) (s_tmap s) -> tid_of (s_tmap s) k = id).
Proof. exact mapping_decodes. Qed.
Print Assumptions C01_mapping_decodes.

Theorem C01_sample_mapping_decodes : forall rows a ctrl tm og mg s,
  mk_screen rows a ctrl tm None og mg = Ok s ->
  NoDup (map fst (s_smap s)) /\ (forall n, In n (map fst (s_smap s)) <-> exists r, In r (s_rows s) /\ r_sample r = n) /\
  (forall n1 n2 id, In (n1, id) (s_smap s) -> In (n2, id) (s_smap s) -> n1 = n2).
Proof. exact sample_mapping_decodes. Qed.
Print Assumptions C01_sample_mapping_decodes.

(* a screen constructed WITH the mapping batchie built for another screen (same control name; any rows, arity, flags):
   construction succeeding already means the data is covered; the sentinel clause and equal-ids-iff-equal-keys hold on it *)
Theorem C01_control_iff_supplied : forall rows a ctrl sm og mg s,
  mk_screen rows a ctrl None sm og mg = Ok s ->
  forall sub a' b sm' og' mg' s',
  mk_screen sub a' ctrl (Some (s_tmap s, b)) sm' og' mg' = Ok s' ->
  forall k, row_keys s' k ->
  (tid_of (s_tmap s') k = CONTROL_SENTINEL_VALUE <-> (snd k <= 0 \/ fst k = ctrl)).
Proof. exact control_iff_supplied. Qed.
Print Assumptions C01_control_iff_supplied.

Theorem C01_treatment_ids_injective_supplied : forall rows a ctrl sm og mg s,
  mk_screen rows a ctrl None sm og mg = Ok s ->
  forall sub a' b sm' og' mg' s',
  mk_screen sub a' ctrl (Some (s_tmap s, b)) sm' og' mg' = Ok s' ->
  forall k1 k2, row_keys s' k1 -> row_keys s' k2 ->
  tid_of (s_tmap s') k1 <> CONTROL_SENTINEL_VALUE ->
  (tid_of (s_tmap s') k1 = tid_of (s_tmap s') k2 <-> k1 = k2).
Proof. exact treatment_ids_injective_supplied. Qed.
Print Assumptions C01_treatment_ids_injective_supplied.

(* its ids are the superset screen's ids of the same (name, dose), below the superset's space size, which is also its own *)
Theorem C01_ids_of_superset_supplied : forall rows a ctrl sm og mg s,
  mk_screen rows a ctrl None sm og mg = Ok s ->
  forall sub a' b sm' og' mg' s',
  mk_screen sub a' ctrl (Some (s_tmap s, b)) sm' og' mg' = Ok s' ->
  forall k, row_keys s' k ->
  tid_of (s_tmap s') k = tid_of (s_tmap s) k /\ tid_of (s_tmap s') k < space_n_treatments s /\
  space_n_treatments s' = space_n_treatments s.
Proof. exact ids_of_superset_supplied. Qed.
Print Assumptions C01_ids_of_superset_supplied.

Theorem C01_sample_ids_injective_supplied : forall rows a ctrl tm og mg s,
  mk_screen rows a ctrl tm None og mg = Ok s ->
  forall sub a' ctrl' tm' b og' mg' s',
  mk_screen sub a' ctrl' tm' (Some (s_smap s, b)) og' mg' = Ok s' ->
  forall r1 r2, In r1 (s_rows s') -> In r2 (s_rows s') ->
  (nid_of (s_smap s') (r_sample r1) = nid_of (s_smap s') (r_sample r2) <-> r_sample r1 = r_sample r2).
Proof. exact sample_ids_injective_supplied. Qed.
Print Assumptions C01_sample_ids_injective_supplied.
