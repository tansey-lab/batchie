(* C04 — Masked observations never influence training, scoring or selection.
   Statements only: a proof is `exact <lemma from Proofs/>` (or a split into such), a concrete example is closed by evaluation.
   [orc] is every logit, [r32] every float32 cast.  The interaction model has three switches
   (fixed_mask, guard_neg, guard_nan); all true = as coded in /repo since 49949ee (C04_source_variant_unique), all false = the
   logic before that repair, see Model/Train.v. *)
From Coq Require Import ZArith List Bool QArith Qcanon.
From Coq Require Import Sorted.
From Batchie Require Import Lib.Sexp Lib.Num Lib.PyRt Generated.Consts Generated.ConstsClip Generated.SrcTrain Model.Encode Model.Screen Model.Train
  Model.TrainScreen Proofs.C04Train Proofs.C04Screen Proofs.C04Source Proofs.C04SourceC20.
From Batchie Require Model.Synergy.
Import ListNotations.
Open Scope Z_scope.

(* ---- non-interference of the training data ---- *)
Theorem C04_train_noninterference_sdc : forall orc r32 s1 s2,
  same_except_masked s1 s2 -> train_sdc orc r32 s1 = train_sdc orc r32 s2.
Proof. exact train_sdc_noninterference. Qed.
Print Assumptions C04_train_noninterference_sdc.

(* lookup table and training arrays; as coded and for every repair *)
Theorem C04_train_noninterference_interaction : forall orc r32 fixed_mask guard_neg guard_nan arity s1 s2,
  same_except_masked s1 s2 ->
  train_int orc r32 fixed_mask guard_neg guard_nan arity s1 = train_int orc r32 fixed_mask guard_neg guard_nan arity s2.
Proof. exact train_int_noninterference. Qed.
Print Assumptions C04_train_noninterference_interaction.

(* ---- trained on exactly the observed rows, each once, in order, transformed as documented ---- *)
Theorem C04_trained_exactly_once_sdc : forall orc r32 rows,
  (forall tr, train_sdc orc r32 rows = Ok tr ->
     tr = map (fun r => {| tr_y := ologit orc (oclip (cast32 r32 (t_obs r))); tr_cl := t_sample r;
                           tr_d1 := nth 0 (t_treats r) 0; tr_d2 := nth 1 (t_treats r) 0 |})
              (filter t_mask rows)) /\
  ((forall r, In r rows -> t_mask r = true ->
      o_nonneg (t_obs r) = true /\ o_isnan (sdc_transform orc r32 (t_obs r)) = false /\
      (2 <= length (t_treats r))%nat) ->
   exists tr, train_sdc orc r32 rows = Ok tr).
Proof. exact sdc_exactly_once_full. Qed.
Print Assumptions C04_trained_exactly_once_sdc.

(* the transform is logit(clip(cast y, lo, hi)), finite, with the bounds read from the source *)
Theorem C04_sdc_transform_documented : forall orc r32 v,
  (forall q, cast32 r32 v = OFin q ->
     sdc_transform orc r32 v = OFin (orc ORC_LOGIT (qclip (q_of_pair OBS_CLIP_LO) (q_of_pair OBS_CLIP_HI) q))) /\
  (cast32 r32 v = OInf false -> sdc_transform orc r32 v = OFin (orc ORC_LOGIT (q_of_pair OBS_CLIP_HI))) /\
  (cast32 r32 v = OInf true -> sdc_transform orc r32 v = OFin (orc ORC_LOGIT (q_of_pair OBS_CLIP_LO))) /\
  (cast32 r32 v = ONaN -> sdc_transform orc r32 v = ONaN).
Proof. exact sdc_transform_documented. Qed.
Print Assumptions C04_sdc_transform_documented.

(* interaction model with the repaired mask: exactly the observed rows without a control id *)
Theorem C04_trained_exactly_once_interaction : forall orc r32 guard_neg guard_nan arity rows st,
  train_int orc r32 true guard_neg guard_nan arity rows = Ok st ->
  i_train st = map (fun r => {| tr_y := ologit orc (cast32 r32 (t_obs r)); tr_cl := t_sample r;
                                tr_d1 := nth 0 (t_treats r) 0; tr_d2 := nth 1 (t_treats r) 0 |})
                   (filter (fun r => t_mask r && Nat.eqb (count_ctrl (t_treats r)) 0) rows).
Proof. exact train_int_exactly_once. Qed.
Print Assumptions C04_trained_exactly_once_interaction.

(* the lookup: built from the observed rows only; a non-control entry is the mean of the
   single-agent rows (all ids but one are control) of that sample and treatment *)
Theorem C04_single_effect_documented : forall orc r32 fixed_mask guard_neg guard_nan arity rows st,
  train_int orc r32 fixed_mask guard_neg guard_nan arity rows = Ok st ->
  (i_lookup st = lk_update [] (single_effect_map arity (filter t_mask rows))
   \/ (existsb t_mask rows = false /\ i_lookup st = [])) /\
  forall obs s t v, In ((s, t), v) (single_effect_map arity obs) ->
    (t = CONTROL_SENTINEL_VALUE /\ v = OFin 1%Qc) \/
    (t <> CONTROL_SENTINEL_VALUE /\
     filter (fun r => is_single arity r && single_matches s t r) obs <> [] /\
     v = omean (map t_obs (filter (fun r => is_single arity r && single_matches s t r) obs))).
Proof. exact single_effect_documented_full. Qed.
Print Assumptions C04_single_effect_documented.

(* AS CODED the interaction model trains on the all-control row and on no combination row *)
Definition ids_of (t : trip) : Z * Z * Z := (tr_cl t, tr_d1 t, tr_d2 t).
Definition orc_id : oracle := fun _ x => x.
Definition half : Qc := Q2Qc (1 # 2).
Definition w_rows : list trow :=
  [ {| t_sample := 0; t_plate := 0; t_treats := [0; -1]; t_obs := OFin half; t_mask := true |};
    {| t_sample := 0; t_plate := 0; t_treats := [-1; 1]; t_obs := OFin half; t_mask := true |};
    {| t_sample := 0; t_plate := 0; t_treats := [0; 1]; t_obs := OFin (Q2Qc (1 # 4)); t_mask := true |};
    {| t_sample := 0; t_plate := 0; t_treats := [-1; -1]; t_obs := OFin half; t_mask := true |};
    {| t_sample := 0; t_plate := 1; t_treats := [0; 1]; t_obs := OFin (Q2Qc (3 # 4)); t_mask := false |} ].

Theorem C04_trained_exactly_once_interaction_refuted :
  exists orc r32 arity rows st,
    train_int orc r32 false false false arity rows = Ok st /\
    map ids_of (i_train st) = [(0, -1, -1)] /\
    map ids_of (map (int_trip orc r32) (filter (fun r => t_mask r && Nat.eqb (count_ctrl (t_treats r)) 0) rows))
      = [(0, 0, 1)].
Proof.
  exists orc_id, OFin, 2%nat, w_rows. eexists. split; [vm_compute; reflexivity|].
  split; vm_compute; reflexivity.
Qed.
Print Assumptions C04_trained_exactly_once_interaction_refuted.

(* ---- refusal ---- *)
Theorem C04_refuses_masked : forall (S : Type) (inner : list trow -> result S) rows r,
  In r rows -> t_mask r = false -> add_observations inner rows = Err 1.
Proof. exact add_observations_refuses_masked. Qed.
Print Assumptions C04_refuses_masked.

Theorem C04_refuses_negative_nan_sdc : forall orc r32 rows r,
  In r rows -> (o_negative (t_obs r) = true \/ t_obs r = ONaN) ->
  (forall st, exists t, sdc_add orc r32 st rows = Err t) /\
  (t_mask r = true -> exists t, train_sdc orc r32 rows = Err t).
Proof. exact refuses_negative_nan_sdc_full. Qed.
Print Assumptions C04_refuses_negative_nan_sdc.

Theorem C04_refuses_negative_nan_interaction : forall orc r32 fixed_mask guard_nan arity rows r,
  In r rows -> (o_negative (t_obs r) = true \/ t_obs r = ONaN) ->
  (forall st, exists t, int_add orc r32 fixed_mask true guard_nan st arity rows = Err t) /\
  (t_mask r = true -> exists t, train_int orc r32 fixed_mask true guard_nan arity rows = Err t).
Proof. exact refuses_negative_nan_int_full. Qed.
Print Assumptions C04_refuses_negative_nan_interaction.

(* AS CODED: a negative observation is accepted, and becomes a NaN training target *)
Theorem C04_refuses_negative_interaction_refuted :
  exists orc r32 arity rows r st,
    In r rows /\ t_mask r = true /\ o_negative (t_obs r) = true /\
    int_add orc r32 false false false istate0 arity rows = Ok st /\
    map (fun t => o_isnan (tr_y t)) (i_train st) = [true].
Proof.
  exists orc_id, OFin, 2%nat.
  exists [ {| t_sample := 0; t_plate := 0; t_treats := [-1; -1]; t_obs := OFin (Q2Qc (-3 # 1)); t_mask := true |} ].
  eexists. eexists. split; [left; reflexivity|].
  split; [reflexivity|]. split; [vm_compute; reflexivity|].
  split; vm_compute; reflexivity.
Qed.
Print Assumptions C04_refuses_negative_interaction_refuted.

(* AS CODED: a NaN observation (here on a single-agent row) is accepted and lands in the lookup *)
Theorem C04_refuses_nan_interaction_refuted :
  exists orc r32 arity rows r st,
    In r rows /\ t_mask r = true /\ t_obs r = ONaN /\
    int_add orc r32 false false false istate0 arity rows = Ok st /\
    map (fun kv => (fst kv, o_isnan (snd kv))) (i_lookup st) = [((0, -1), false); ((0, 0), true)].
Proof.
  exists orc_id, OFin, 2%nat.
  exists [ {| t_sample := 0; t_plate := 0; t_treats := [0; -1]; t_obs := ONaN; t_mask := true |} ].
  eexists. eexists. split; [left; reflexivity|].
  split; [reflexivity|]. split; [reflexivity|].
  split; vm_compute; reflexivity.
Qed.
Print Assumptions C04_refuses_nan_interaction_refuted.

(* ---- downstream frame ---- *)
(* what distance / scoring / selection are given is the screen minus the masked values:
   exactly that (iff), so every function of it is blind to them, and the training input is
   one such function *)
Theorem C04_downstream_frame : forall s1 s2,
  (same_except_masked s1 s2 <-> downstream_input s1 = downstream_input s2) /\
  (same_except_masked s1 s2 ->
     forall (A : Type) (f : list drow -> A), f (downstream_input s1) = f (downstream_input s2)) /\
  train_input s1 = view_train_input (downstream_input s1).
Proof. exact downstream_frame_full. Qed.
Print Assumptions C04_downstream_frame.

(* ---- the same over the shared Screen model (names, doses, bit patterns): two argument lists
   of the Screen constructor that differ only in masked observation values are accepted or
   rejected alike, and the constructed screens give equal training data and projections ---- *)
Theorem C04_screen_noninterference : forall orc r32 fixed_mask guard_neg guard_nan rows1 rows2 arity ctrl tm sm s1,
  Forall2 name_row_agree rows1 rows2 ->
  mk_screen rows1 arity ctrl tm sm true true = Ok s1 ->
  exists s2, mk_screen rows2 arity ctrl tm sm true true = Ok s2 /\
    train_sdc orc r32 (trows_of_screen s1) = train_sdc orc r32 (trows_of_screen s2) /\
    train_int orc r32 fixed_mask guard_neg guard_nan arity (trows_of_screen s1)
      = train_int orc r32 fixed_mask guard_neg guard_nan arity (trows_of_screen s2) /\
    downstream_input (trows_of_screen s1) = downstream_input (trows_of_screen s2).
Proof. exact screen_noninterference. Qed.
Print Assumptions C04_screen_noninterference.

(* ---- non-vacuity ---- *)
Definition w_rows' : list trow :=
  [ {| t_sample := 0; t_plate := 0; t_treats := [0; -1]; t_obs := OFin half; t_mask := true |};
    {| t_sample := 0; t_plate := 0; t_treats := [-1; 1]; t_obs := OFin half; t_mask := true |};
    {| t_sample := 0; t_plate := 0; t_treats := [0; 1]; t_obs := OFin (Q2Qc (1 # 4)); t_mask := true |};
    {| t_sample := 0; t_plate := 0; t_treats := [-1; -1]; t_obs := OFin half; t_mask := true |};
    {| t_sample := 0; t_plate := 1; t_treats := [0; 1]; t_obs := ONaN; t_mask := false |} ].

Example C04_hypothesis_satisfiable : same_except_masked w_rows w_rows' /\ w_rows <> w_rows'.
Proof.
  split.
  - unfold w_rows, w_rows'. repeat constructor; cbn; discriminate.
  - intros H. apply (f_equal (fun l => map (fun r => o_isnan (t_obs r)) l)) in H. vm_compute in H. discriminate.
Qed.

(* SparseDrugCombo trains on the four observed rows; the repaired interaction model on the
   one combination row *)
Example C04_sdc_example :
  option_map (map ids_of) (match train_sdc orc_id OFin w_rows with Ok t => Some t | Err _ => None end)
  = Some [(0, 0, -1); (0, -1, 1); (0, 0, 1); (0, -1, -1)].
Proof. vm_compute. reflexivity. Qed.
Example C04_interaction_repaired_example :
  option_map (fun st => map ids_of (i_train st))
    (match train_int orc_id OFin true true true 2 w_rows with Ok t => Some t | Err _ => None end)
  = Some [(0, 0, 1)].
Proof. vm_compute. reflexivity. Qed.
Example C04_refusal_example :
  train_int orc_id OFin true true true 2
    [ {| t_sample := 0; t_plate := 0; t_treats := [-1; -1]; t_obs := OFin (Q2Qc (-3 # 1)); t_mask := true |} ] = Err 2
  /\ sdc_add orc_id OFin [] w_rows = Err 1.
Proof. split; vm_compute; reflexivity. Qed.

(* the bridge on a concrete pair: 0.5 observed; masked 0.75 vs NaN bits *)
Definition w_name_rows (masked_bits : Z) : list row :=
  [ {| r_sample := [120]; r_plate := [112]; r_treats := [([97], 1); ([98], 1)]; r_obs := 4602678819172646912; r_mask := true |};
    {| r_sample := [120]; r_plate := [113]; r_treats := [([97], 1); ([98], 1)]; r_obs := masked_bits; r_mask := false |} ].
Example C04_screen_example :
  match mk_screen (w_name_rows 4604930618986332160) 2 [] None None true true,
        mk_screen (w_name_rows 9221120237041090560) 2 [] None None true true with
  | Ok s1, Ok s2 =>
      map (fun r => (t_sample r, t_plate r, t_treats r, t_mask r)) (trows_of_screen s1)
        = [(0, 0, [0; 1], true); (0, 1, [0; 1], false)]
      /\ map (fun r => o_isnan (t_obs r)) (trows_of_screen s1) = [false; false]
      /\ map (fun r => o_isnan (t_obs r)) (trows_of_screen s2) = [false; true]
      /\ map (fun r => match t_obs r with OFin q => Some (this q) | _ => None end) (trows_of_screen s1)
           = [Some (1 # 2)%Q; Some (3 # 4)%Q]
  | _, _ => False
  end.
Proof. vm_compute. repeat split; reflexivity. Qed.

(* ---- source-translation links: the functions below are re-translated from /repo into Gallina on every run
   (Generated/SrcTrain.v, harness/py2gal.py with the configurations C04_* of harness/src_functions.py) and the
   hand-written model of Model/Train.v is proved EQUAL to the translation for all inputs.  The wrapped legacy sampler
   object is Train.legacy (its four Python lists and three defaultdict(list)); [legacy_of st] is the object holding the
   training rows st: the four lists are the columns of st, each index dictionary lists every id of its column in order
   of first occurrence with the ascending row numbers that hold it. ---- *)

(* BayesianModel.add_observations, for EVERY model class (inner = its _add_observations, any state type) *)
Theorem C04_model_is_source_add_observations :
  forall (S : Type) (inner : S -> list trow -> result S) (self : S) (rows : list trow),
  src_add_observations S inner self rows = add_observations (inner self) rows.
Proof. exact src_add_observations_is_model. Qed.
Print Assumptions C04_model_is_source_add_observations.

(* LegacySparseDrugComboImpl._update and LegacySparseDrugComboInteractionImpl._update (and n_obs) *)
Theorem C04_model_is_source_legacy_update : forall st y cl d1 d2,
  src_legacy_update (legacy_of st) y cl d1 d2 = Ok (legacy_of (st ++ [mk_trip y cl d1 d2])) /\
  src_legacy_int_update (legacy_of st) y cl d1 d2 = Ok (legacy_of (st ++ [mk_trip y cl d1 d2])) /\
  src_legacy_n_obs (legacy_of st) = Ok (Z.of_nat (length st)) /\
  src_legacy_int_n_obs (legacy_of st) = Ok (Z.of_nat (length st)).
Proof.
  intros st y cl d1 d2.
  exact (conj (src_legacy_update_is_model st y cl d1 d2) (conj (src_legacy_int_update_is_model st y cl d1 d2)
              (src_legacy_n_obs_is_model st))).
Qed.
Print Assumptions C04_model_is_source_legacy_update.

(* any number of _update calls on a fresh object: the lists are the columns of the calls and the index dictionaries
   are the positions of each id (one entry per id, in order of first occurrence; ascending row numbers from 0) *)
Theorem C04_model_is_source_legacy_index_invariant : forall calls : list trip,
  (res_fold (fun w t => src_legacy_update w (tr_y t) (tr_cl t) (tr_d1 t) (tr_d2 t)) calls (legacy_of []) = Ok (legacy_of calls)) /\
  (res_fold (fun w t => src_legacy_int_update w (tr_y t) (tr_cl t) (tr_d1 t) (tr_d2 t)) calls (legacy_of []) = Ok (legacy_of calls)) /\
  let w := legacy_of calls in
  lg_y w = map tr_y calls /\ lg_cline w = map tr_cl calls /\ lg_dd1 w = map tr_d1 calls /\ lg_dd2 w = map tr_d2 calls /\
  lg_cline_idxs w = index_dict (lg_cline w) /\ lg_dd1_idxs w = index_dict (lg_dd1 w) /\ lg_dd2_idxs w = index_dict (lg_dd2 w) /\
  (forall col k l, In (k, l) (index_dict col) <-> In k col /\ l = positions k col) /\
  (forall col, NoDup (map fst (index_dict col))) /\
  (forall col k j, In j (positions k col) <-> 0 <= j /\ nth_error col (Z.to_nat j) = Some k) /\
  (forall col k, StronglySorted Z.lt (positions k col)).
Proof. exact legacy_index_invariant. Qed.
Print Assumptions C04_model_is_source_legacy_index_invariant.

(* SparseDrugCombo._add_observations, on every reachable wrapped object *)
Theorem C04_model_is_source_sdc_add_observations : forall orc r32 (st : list trip) (rows : list trow),
  src_sdc_add_observations orc r32 (legacy_of st) rows = dor t <- sdc_inner orc r32 st rows; Ok (legacy_of t).
Proof. exact src_sdc_add_observations_is_model. Qed.
Print Assumptions C04_model_is_source_sdc_add_observations.

(* the public entry point: translated guard around the translated _add_observations = sdc_add *)
Theorem C04_model_is_source_sdc_add : forall orc r32 st rows,
  src_add_observations legacy (src_sdc_add_observations orc r32) (legacy_of st) rows
  = dor t <- sdc_add orc r32 st rows; Ok (legacy_of t).
Proof. exact src_sdc_add_is_model. Qed.
Print Assumptions C04_model_is_source_sdc_add.

(* create_single_treatment_effect_map on the three columns of any row list *)
Theorem C04_model_is_source_create_single_treatment_effect_map : forall (arity : nat) (rows : list trow),
  src_create_single_treatment_effect_map oval oone omean arity (map t_sample rows) (map t_treats rows) (map t_obs rows)
  = if Z.of_nat arity <? 2 then Err 4 else Ok (single_effect_map arity rows).
Proof. exact src_single_effect_map_is_model. Qed.
Print Assumptions C04_model_is_source_create_single_treatment_effect_map.

(* the same translated function at exact rationals (O = Qc, one = 1, mean = qmean) is C20's column-level model
   Synergy.effect_map, on every n x arity id array with two 1-d arrays of n entries (C20's model also covers
   misaligned arrays = numpy's IndexError, which the translation's mask primitive does not represent; it tags the
   arity ValueError 1 where the C04 models use 4) *)
Theorem C04_model_is_source_create_single_treatment_effect_map_c20 :
  forall (arity : nat) (sids : list Z) (tids : list (list Z)) (obs : list Qc),
  Forall (fun row => length row = arity) tids -> length sids = length tids -> length obs = length tids ->
  src_create_single_treatment_effect_map Qc 1%Qc qmean arity sids tids obs
  = if Nat.ltb arity 2 then Err 4 else Synergy.effect_map arity sids tids obs.
Proof. exact src_single_effect_map_is_c20_model. Qed.
Print Assumptions C04_model_is_source_create_single_treatment_effect_map_c20.

(* SparseDrugComboInteraction._add_observations = the interaction model with ALL repair switches true *)
Theorem C04_model_is_source_interaction_add_observations : forall orc r32 (arity : nat) (st : istate) (rows : list trow),
  src_int_add_observations orc r32 arity (i_lookup st) (legacy_of (i_train st)) rows
  = dor s <- int_inner orc r32 true true true st arity rows; Ok (i_lookup s, legacy_of (i_train s)).
Proof. exact src_int_add_observations_is_model. Qed.
Print Assumptions C04_model_is_source_interaction_add_observations.

Theorem C04_model_is_source_interaction_add : forall orc r32 arity st rows,
  src_add_observations (lookup * legacy)
    (fun self d => src_int_add_observations orc r32 arity (fst self) (snd self) d)
    (i_lookup st, legacy_of (i_train st)) rows
  = dor s <- int_add orc r32 true true true st arity rows; Ok (i_lookup s, legacy_of (i_train s)).
Proof. exact src_int_add_is_model. Qed.
Print Assumptions C04_model_is_source_interaction_add.

(* the translation determines the switches: no other variant of the interaction model equals the source *)
Theorem C04_source_variant_unique : forall fixed_mask guard_neg guard_nan : bool,
  (forall orc r32 arity st rows,
     src_int_add_observations orc r32 arity (i_lookup st) (legacy_of (i_train st)) rows
     = dor s <- int_inner orc r32 fixed_mask guard_neg guard_nan st arity rows; Ok (i_lookup s, legacy_of (i_train s)))
  <-> (fixed_mask = true /\ guard_neg = true /\ guard_nan = true).
Proof. exact int_source_variant_unique. Qed.
Print Assumptions C04_source_variant_unique.

(* non-vacuity: the translated functions run on the witness rows; the second call continues the row numbering *)
Example C04_source_example :
  (match src_add_observations legacy (src_sdc_add_observations orc_id OFin) (legacy_of []) (filter t_mask w_rows) with
   | Ok w => Some (lg_cline w, lg_dd1 w, lg_dd2 w, lg_dd1_idxs w)
   | Err _ => None
   end) = Some ([0; 0; 0; 0], [0; -1; 0; -1], [-1; 1; 1; -1], [(0, [0; 2]); (-1, [1; 3])])
  /\ (match (dor w <- src_sdc_add_observations orc_id OFin (legacy_of []) (filter t_mask w_rows);
             src_sdc_add_observations orc_id OFin w (filter t_mask w_rows)) with
      | Ok w => Some (lg_dd1_idxs w)
      | Err _ => None
      end) = Some [(0, [0; 2; 4; 6]); (-1, [1; 3; 5; 7])]
  /\ src_add_observations legacy (src_sdc_add_observations orc_id OFin) (legacy_of []) w_rows = Err 1
  /\ (match src_int_add_observations orc_id OFin 2 [] (legacy_of []) (filter t_mask w_rows) with
      | Ok p => Some (map fst (fst p), lg_cline (snd p), lg_dd1 (snd p), lg_dd2 (snd p))
      | Err _ => None
      end) = Some ([(0, -1); (0, 0); (0, 1)], [0], [0], [1]).
Proof. vm_compute. repeat split; reflexivity. Qed.

(* ---- the command-line wrapper train_model.main is what the source says NOW ----
   `src_cli_train_model` is the whole function main of /repo's current batchie/cli/train_model.py, re-translated on every run
   (configuration CLI_TRAIN_MODEL -> Generated/SrcCli.v): the model built on ExperimentSpace.from_screen of the loaded screen is handed
   add_observations(screen.subset_observed()) - the OBSERVED subset only, nothing when it is None - then sample(...) with the seed /
   chain arguments, and the result is saved.
   Model/Cli.v: the parsed arguments are a record of the plain argparse results (get_args() is not translated), `L` is a
   record of the library functions the wrapper calls over abstract types (each component stands for the library function
   of that name with its parameter list; `*_load_*` = what loading the file at a path yields), a main() denotes the list
   of (path, content) files it writes, Err = the exception that ends it.  The links hold for EVERY such record. *)
From Batchie Require Lib.PyRt Model.Cli Generated.SrcCli Proofs.C04SourceCli.
Theorem C04_model_is_source_cli_train_model : forall (Scr Sub Sp Pa Mo Th : Type) (L : Cli.tm_lib Scr Sub Sp Pa Mo Th) (params : Pa) (a : Cli.tm_args),
  SrcCli.src_cli_train_model Scr Sub Sp Pa Mo Th L params a
  = Cli.cli_train_model L params a.
Proof. exact C04SourceCli.src_cli_train_model_is_model. Qed.
Print Assumptions C04_model_is_source_cli_train_model.

(* ---- the argument-handling glue of train_model is what the source says NOW ----
   `src_tm_get_args` is the WHOLE function get_args of /repo's current batchie/cli/train_model.py (parser.parse_args() is the primitive that
   yields the raw namespace; the statements after it - class lookup by name, required-argument annotations, cast of the KEY=VALUE
   parameters - are translated), `src_cli_train_model_cmd` is main() once more as a whole command, in which get_args() is the translated
   get_args and `args.model_cls( **args.model_params)` is `construct` on the two namespace attributes; both re-translated on every run (configurations
   ARGS_GET_ARGS_TM / ARGS_CMD_TM -> Generated/SrcCliArgs.v).  Model: the last part of Model/Cli.v; `I` = introspection.get_class /
   get_required_init_args_with_annotations (linked to their own translations in Props/C18.v), `P` = s.lower(), int(s), float(s), the call of
   another annotation object; cast_dict_to_type is the translated function (Props/C18.v).  The statements hold for EVERY such record. *)
From Batchie Require Proofs.C04SourceArgs Proofs.C18SourceIntrospect Generated.SrcCliArgs.
Theorem C04_model_is_source_cli_args_get_args : forall (Cls F O : Type) (I : Cli.introspect Cls) (P : Cli.pyprims F O)
  (raw : Cli.tm_ns Cls F O),
  SrcCliArgs.src_tm_get_args Cls F O I P raw = Cli.tm_get_args I P raw.
Proof. exact C04SourceArgs.src_tm_get_args_is_model. Qed.
Print Assumptions C04_model_is_source_cli_args_get_args.

(* the whole command: tm_construct of C04_model_is_source_cli_train_model IS the class found under the name --model, instantiated
   with the cast --model-param values to which main() has added the experiment space *)
Theorem C04_model_is_source_cli_args_train_model :
  forall (Cls F O : Type) (I : Cli.introspect Cls) (P : Cli.pyprims F O) (Scr Sub Sp Mo Th : Type)
         (construct : Cls -> list (Cli.str * Cli.pval F O) -> result Mo)
         (L : Cli.tm_lib Scr Sub Sp (list (Cli.str * Cli.pval F O)) Mo Th) (raw : Cli.tm_ns Cls F O),
  SrcCliArgs.src_cli_train_model_cmd Cls F O I P Scr Sub Sp Mo Th construct L raw
  = Cli.cli_train_model_cmd I P construct L raw.
Proof. exact C04SourceArgs.src_cli_train_model_cmd_is_model. Qed.
Print Assumptions C04_model_is_source_cli_args_train_model.

Theorem C04_model_is_source_cli_args_train_model_world :
  forall (Mod Obj F O : Type) (W : Cli.pyworld Mod Obj) (P : Cli.pyprims F O) (Scr Sub Sp Mo Th : Type)
         (construct : Obj -> list (Cli.str * Cli.pval F O) -> result Mo)
         (L : Cli.tm_lib Scr Sub Sp (list (Cli.str * Cli.pval F O)) Mo Th) (raw : Cli.tm_ns Obj F O),
  SrcCliArgs.src_cli_train_model_cmd Obj F O (C18SourceIntrospect.introspect_src W) P Scr Sub Sp Mo Th construct L raw
  = Cli.cli_train_model_cmd (Cli.introspect_of W) P construct L raw.
Proof. exact C04SourceArgs.src_cli_train_model_cmd_world. Qed.
Print Assumptions C04_model_is_source_cli_args_train_model_world.

(* ---- the argparse option tables: get_parser() of train_model, re-read from /repo on every run by the fail-closed reader
   harness/argparse_reader.py (Generated/SrcParser_<command>.v; a get_parser that is not a plain sequence of literal
   parser.add_argument calls is refused and these theorems stop compiling).  What the argument records of Model/Cli.v assume of
   the namespace parse_args() yields - the premise of the C??_model_is_source_cli_* links - is provided by the declared options:
   Cli.declares = the attribute is the dest of EXACTLY ONE option, which stores the assumed kind of value and can be None exactly
   where the record has an option type; Cli.dests_derived = the dest the reader computed is argparse's derivation from the flags;
   Cli.dests_distinct = no dest and no flag is declared twice; Cli.seed_declared = --seed is an int option with a non-negative int
   default (get_prng_from_seed_argument never sees None); Cli.coordinates_int = --n-chunks / --chunk-index / --n-chains /
   --chain-index are int options that are never None; Cli.params_kv = every --*-param option accumulates through KVAppendAction;
   Cli.fraction_declared = --holdout-fraction is a float option with a default in [0, 1]. ---- *)

From Batchie Require Model.Cli Proofs.C18Parser Generated.SrcParser_train_model Proofs.C18SourceParser_train_model.
Theorem C04_source_parser_train_model_fields :
  forall f, In f (Cli.tm_fields ++ Cli.logging_fields) -> Cli.declares SrcParser_train_model.src_parser_train_model f.
Proof. exact C18SourceParser_train_model.parser_train_model_fields. Qed.
Print Assumptions C04_source_parser_train_model_fields.

Theorem C04_source_parser_train_model_dests_derived :
  Cli.dests_derived SrcParser_train_model.src_parser_train_model.
Proof. exact C18SourceParser_train_model.parser_train_model_dests_derived. Qed.
Print Assumptions C04_source_parser_train_model_dests_derived.

Theorem C04_source_parser_train_model_dests_distinct :
  Cli.dests_distinct SrcParser_train_model.src_parser_train_model.
Proof. exact C18SourceParser_train_model.parser_train_model_dests_distinct. Qed.
Print Assumptions C04_source_parser_train_model_dests_distinct.

Theorem C04_source_parser_train_model_seed :
  Cli.seed_declared SrcParser_train_model.src_parser_train_model.
Proof. exact C18SourceParser_train_model.parser_train_model_seed. Qed.
Print Assumptions C04_source_parser_train_model_seed.

Theorem C04_source_parser_train_model_coordinates :
  Cli.coordinates_int SrcParser_train_model.src_parser_train_model.
Proof. exact C18SourceParser_train_model.parser_train_model_coordinates. Qed.
Print Assumptions C04_source_parser_train_model_coordinates.

Theorem C04_source_parser_train_model_params :
  Cli.params_kv SrcParser_train_model.src_parser_train_model.
Proof. exact C18SourceParser_train_model.parser_train_model_params. Qed.
Print Assumptions C04_source_parser_train_model_params.

(* ==== the downstream clause: posterior samples, distance matrix, scores, selected plate ====
   Model/Downstream.v: the input of every downstream stage as a function of the projection `downstream_input`, and one whole
   iteration of the loop (`loop_iteration`: training -> sampler sweeps against recorded draws -> distance chunks, save, load,
   concat, dense -> score chunks, save, load, concat -> selection with no policy or KPerSamplePlatePolicy k) composed of the
   stage models of C08 / C07 / C06 / C16, for ANY prediction function of (posterior sample, row ids), ANY metric, ANY scorer.
   Proofs/C04DownSrc.v: the same stages as the TRANSLATED functions of /repo (the src_ definitions), applied to the same projections. *)
From Batchie Require Import Model.Downstream Proofs.C04Down Proofs.C04DownSrc.
From Batchie Require Model.Scores Model.Policy Model.Gibbs Model.DistMat Generated.SrcScoring Generated.SrcScoringPolicy
  Generated.SrcDistMat Generated.SrcGibbs Proofs.C06SourceCliScores Proofs.C07SourcePipeline.

(* what score_chunk / select_next_plate, the policy, the predictions and training read of a screen are functions of the
   projection *)
Theorem C04_downstream_views_factor : forall rows,
  scores_screen_of rows = dn_scores_screen (downstream_input rows) /\
  policy_plates_of rows = dn_policy_plates (downstream_input rows) /\
  pred_rows_of rows = dn_pred_rows (downstream_input rows) /\
  train_input rows = dn_train (downstream_input rows).
Proof. exact views_factor_full. Qed.
Print Assumptions C04_downstream_views_factor.

(* one whole iteration: posterior samples, dense distance matrix, combined scores and the selected plate are identical *)
Theorem C04_loop_noninterference : forall (V : Type) (vzero : V) predict metric scorer orc r32 (c : loop_cfg) s1 s2,
  same_except_masked s1 s2 ->
  loop_iteration V vzero predict metric scorer orc r32 c s1 = loop_iteration V vzero predict metric scorer orc r32 c s2.
Proof. exact loop_iteration_noninterference. Qed.
Print Assumptions C04_loop_noninterference.

(* ... because every stage reads the projection only (training through subset_observed of it) *)
Theorem C04_loop_reads_projection : forall (V : Type) (vzero : V) predict metric scorer orc r32 (c : loop_cfg) rows,
  loop_iteration V vzero predict metric scorer orc r32 c rows =
  (dor th <- (match dn_train (downstream_input rows) with
              | Some o => dor t <- sdc_add orc r32 [] o;
                          match gibbs_data t with
                          | None => Err 3
                          | Some d => match run_sweeps (lc_g c) d orc (lc_s0 c) (lc_vals c) with
                                      | Some th => Ok th | None => Err 9 end
                          end
              | None => match run_sweeps (lc_g c) {| Gibbs.d_y := []; Gibbs.d_cl := []; Gibbs.d_dd1 := []; Gibbs.d_dd2 := [] |}
                                orc (lc_s0 c) (lc_vals c) with
                        | Some th => Ok th | None => Err 9 end
              end);
   dor dm <- loop_dist V vzero predict metric c th (downstream_input rows);
   dor h <- loop_scores V scorer c th dm (downstream_input rows);
   dor sel <- loop_select c h (downstream_input rows);
   Ok (th, dm, h, sel)).
Proof. exact loop_iteration_factors. Qed.
Print Assumptions C04_loop_reads_projection.

(* the posterior samples come from sweeps on exactly the documented training data of the observed rows *)
Theorem C04_loop_thetas_from_observed : forall orc r32 (c : loop_cfg) rows th,
  loop_thetas orc r32 c rows = Ok th ->
  exists t d, train_sdc orc r32 rows = Ok t /\ gibbs_data t = Some d /\
    t = map (fun r => {| tr_y := ologit orc (oclip (cast32 r32 (t_obs r))); tr_cl := t_sample r;
                         tr_d1 := nth 0 (t_treats r) 0; tr_d2 := nth 1 (t_treats r) 0 |}) (filter t_mask rows) /\
    Gibbs.d_cl d = map t_sample (filter t_mask rows) /\
    run_sweeps (lc_g c) d orc (lc_s0 c) (lc_vals c) = Some th.
Proof. exact loop_thetas_data. Qed.
Print Assumptions C04_loop_thetas_from_observed.

(* ---- the same of the translated source, stage by stage ---- *)
(* training as train_model.main calls it: translated guard around the translated _add_observations on a fresh object *)
Theorem C04_source_train_stage : forall orc r32 rows,
  src_stage_train orc r32 rows = dor t <- train_sdc orc r32 rows; Ok (legacy_of t).
Proof. exact src_stage_train_is_model. Qed.
Print Assumptions C04_source_train_stage.

(* the interaction model's training stage: (lookup, wrapped object) = the fully repaired train_int; equal for both screens *)
Theorem C04_source_train_stage_interaction : forall orc r32 arity rows,
  src_stage_train_int orc r32 arity rows
  = dor s <- train_int orc r32 true true true arity rows; Ok (i_lookup s, legacy_of (i_train s)).
Proof. exact src_stage_train_int_is_model. Qed.
Print Assumptions C04_source_train_stage_interaction.

Theorem C04_source_train_stage_interaction_noninterference : forall orc r32 arity s1 s2, same_except_masked s1 s2 ->
  src_stage_train_int orc r32 arity s1 = src_stage_train_int orc r32 arity s2.
Proof. exact src_stage_train_int_noninterference. Qed.
Print Assumptions C04_source_train_stage_interaction_noninterference.

(* posterior samples: the translated mcmc_step (Generated/SrcGibbs.v), its blocks run by ANY runner that is handed the data
   the translated training stored (C08's translated blocks are one), against any recorded draws *)
Theorem C04_source_thetas_noninterference : forall run orc r32 s0 vals s1 s2, same_except_masked s1 s2 ->
  src_stage_thetas run orc r32 s0 vals s1 = src_stage_thetas run orc r32 s0 vals s2.
Proof. exact src_stage_thetas_noninterference. Qed.
Print Assumptions C04_source_thetas_noninterference.

Theorem C04_source_thetas_data : forall run orc r32 s0 vals rows,
  src_stage_thetas run orc r32 s0 vals rows =
  dor t <- train_sdc orc r32 rows;
  match gibbs_data t with
  | None => Err 3
  | Some d => match src_sweeps run d 0 s0 vals with Some th => Ok th | None => Err 9 end
  end.
Proof. exact src_stage_thetas_data. Qed.
Print Assumptions C04_source_thetas_data.

(* distance matrix: C07's composition of the translated calculate_pairwise_distance_matrix_on_predictions / save / load / concat /
   to_dense, predictions any function of (sample, row ids) *)
Theorem C04_source_distance_noninterference : forall (V : Type) (vzero : V) visz (T : Type) (dflt : T) predict metric th s1 s2 c order,
  same_except_masked s1 s2 ->
  src_stage_dist V vzero visz T dflt predict metric th s1 c order = src_stage_dist V vzero visz T dflt predict metric th s2 c order.
Proof. exact src_stage_dist_noninterference. Qed.
Print Assumptions C04_source_distance_noninterference.

(* scores: translated score_chunk per chunk, file round trip, translated ChunkedScoresHolder.concat - any scorer, chunk count,
   chunk order, batch *)
Theorem C04_source_scores_noninterference : forall scorer s1 s2 rng batch n order, same_except_masked s1 s2 ->
  src_stage_scores scorer s1 rng batch n order = src_stage_scores scorer s2 rng batch n order.
Proof. exact src_stage_scores_noninterference. Qed.
Print Assumptions C04_source_scores_noninterference.

Theorem C04_source_scores_stage : forall (V : Type) (scorer : list Gibbs.st -> list (list V) -> Scores.scorer_fn) c th dm rows rng,
  src_stage_scores (scorer th dm) rows rng (lc_batch c) (lc_schunks c) (lc_sorder c)
  = loop_scores V scorer c th dm (downstream_input rows).
Proof. exact src_stage_scores_is_model. Qed.
Print Assumptions C04_source_scores_stage.

(* selection: translated select_next_plate with no policy / any policy function ... *)
Theorem C04_source_select_noninterference : forall policy h s1 s2 batch rng, same_except_masked s1 s2 ->
  src_stage_select policy h s1 batch rng = src_stage_select policy h s2 batch rng.
Proof. exact src_stage_select_noninterference. Qed.
Print Assumptions C04_source_select_noninterference.

Theorem C04_source_select_stage : forall policy h rows batch rng,
  src_stage_select policy h rows batch rng = Scores.select_next policy (dn_scores_screen (downstream_input rows)) batch h.
Proof. exact src_stage_select_is_model. Qed.
Print Assumptions C04_source_select_stage.

(* ... and with KPerSamplePlatePolicy(k): C16's translation, a Plate = (id, sample ids of its rows), is_observed = all mask bits *)
Theorem C04_source_select_k_noninterference : forall k h s1 s2 batch rng, same_except_masked s1 s2 ->
  src_stage_select_k k h s1 batch rng = src_stage_select_k k h s2 batch rng.
Proof. exact src_stage_select_k_noninterference. Qed.
Print Assumptions C04_source_select_k_noninterference.

(* the whole iteration composed of the translations *)
Theorem C04_source_loop_noninterference : forall (V : Type) (vzero : V) visz run predict metric scorer orc r32 (c : loop_cfg) s1 s2,
  same_except_masked s1 s2 ->
  src_loop_iteration V vzero visz run predict metric scorer orc r32 c s1
  = src_loop_iteration V vzero visz run predict metric scorer orc r32 c s2.
Proof. exact src_loop_iteration_noninterference. Qed.
Print Assumptions C04_source_loop_noninterference.

(* ---- the four command-line steps: the translated main() functions (Generated/SrcCli.v) run on two file systems whose
   screens differ only behind the mask write the same files.  train_model: any model class / sampler; the other three
   with the library calls standing for the translated library functions. ---- *)
Theorem C04_source_cli_train_model_noninterference :
  forall Sp Pa Mo Th fs1 fs2 from_ids set_space construct new_holder add_obs sample params a, fs_agree fs1 fs2 ->
  SrcCli.src_cli_train_model _ _ Sp Pa Mo Th (tm_lib_fs Sp Pa Mo Th fs1 from_ids set_space construct new_holder add_obs sample) params a
  = SrcCli.src_cli_train_model _ _ Sp Pa Mo Th (tm_lib_fs Sp Pa Mo Th fs2 from_ids set_space construct new_holder add_obs sample) params a.
Proof. exact src_cli_train_model_noninterference. Qed.
Print Assumptions C04_source_cli_train_model_noninterference.

(* with SparseDrugCombo, what sampling.sample is handed holds exactly the training trips of the observed rows *)
Theorem C04_source_cli_train_model_sdc :
  forall Sp Pa X Th fs from_ids set_space (construct : Pa -> result X) new_holder sample orc r32 params a,
  SrcCli.src_cli_train_model _ _ Sp Pa (X * legacy) Th
    (tm_lib_fs Sp Pa (X * legacy) Th fs from_ids set_space (fun pa => dor x <- construct pa; Ok (x, legacy_of [])) new_holder
       (fun m d => dor w <- SrcTrain.src_add_observations legacy (SrcTrain.src_sdc_add_observations orc r32) (snd m) d; Ok (fst m, w))
       sample) params a
  = dor s <- fs (Cli.tm_data a);
    dor sp <- from_ids (pred_rows_of s);
    dor x <- construct (set_space params sp);
    dor holder <- new_holder (Cli.tm_n_samples a);
    dor t <- train_sdc orc r32 s;
    dor results <- sample (x, legacy_of t) holder (Cli.tm_seed a) (Some (Cli.tm_n_chains a)) (Some (Cli.tm_chain_index a))
                     (Some (Cli.tm_n_burnin a)) (Some (Cli.tm_thin a)) (Cli.tm_progress a);
    Ok [(Cli.tm_output a, results)].
Proof. exact src_cli_train_model_sdc_trains. Qed.
Print Assumptions C04_source_cli_train_model_sdc.

Theorem C04_source_cli_calculate_distance_matrix_noninterference :
  forall (V : Type) (vzero : V) visz (T : Type) (dflt : T) predict fs1 fs2 load_thetas mk_metric a, fs_agree fs1 fs2 ->
  SrcCli.src_cli_calculate_distance_matrix _ _ _ _ (cd_lib_fs V vzero visz T dflt predict fs1 load_thetas mk_metric) a
  = SrcCli.src_cli_calculate_distance_matrix _ _ _ _ (cd_lib_fs V vzero visz T dflt predict fs2 load_thetas mk_metric) a.
Proof. exact src_cli_calculate_distance_matrix_noninterference. Qed.
Print Assumptions C04_source_cli_calculate_distance_matrix_noninterference.

Theorem C04_source_cli_calculate_scores_noninterference :
  forall (Th Dm : Type) fs1 fs2 mk_scorer load_thetas concat_thetas load_dist concat_dist mix a, fs_agree fs1 fs2 ->
  SrcCli.src_cli_calculate_scores _ _ _ _ _ _
    (C06SourceCliScores.cs_scores_lib Th Dm (scores_fs fs1) mk_scorer load_thetas concat_thetas load_dist concat_dist) mix a
  = SrcCli.src_cli_calculate_scores _ _ _ _ _ _
    (C06SourceCliScores.cs_scores_lib Th Dm (scores_fs fs2) mk_scorer load_thetas concat_thetas load_dist concat_dist) mix a.
Proof. exact src_cli_calculate_scores_noninterference. Qed.
Print Assumptions C04_source_cli_calculate_scores_noninterference.

Theorem C04_source_cli_select_next_plate_noninterference : forall fs1 fs2 mk_policy load_scores mix a, fs_agree fs1 fs2 ->
  SrcCli.src_cli_select_next_plate _ _ _ _ (C06SourceCliScores.sn_scores_lib (scores_fs fs1) mk_policy load_scores) mix a
  = SrcCli.src_cli_select_next_plate _ _ _ _ (C06SourceCliScores.sn_scores_lib (scores_fs fs2) mk_policy load_scores) mix a.
Proof. exact src_cli_select_next_plate_noninterference. Qed.
Print Assumptions C04_source_cli_select_next_plate_noninterference.

(* non-vacuity: on the witness screens (observed plate 0, masked plate 1 holding 0.75 / NaN) the translated stages run: the
   size-like scorer is handed plate 1 with its row, the holder has one slot, plate 1 is selected - without a policy and with
   KPerSamplePlatePolicy(1); with k = 2 the only sample has too few plates and nothing is eligible *)
Example C04_source_downstream_example :
  let sc : Scores.scorer_fn := fun ps => map (fun p => (fst p, Z.of_nat (length (snd p)))) ps in
  match src_stage_scores sc w_rows (Some tt) [] 2 [0; 1], src_stage_scores sc w_rows' (Some tt) [] 2 [0; 1] with
  | Ok h, Ok h' =>
      Scores.h_slots h = [(1, 1)] /\ h' = h /\
      src_stage_select None h w_rows [] (Some tt) = Ok (Some 1) /\
      src_stage_select_k 1 h w_rows' [] (Some tt) = Ok (Some 1) /\
      src_stage_select_k 2 h w_rows [] (Some tt) = Ok None /\
      policy_plates_of w_rows' = [((0, [0; 0; 0; 0]), true); ((1, [0]), false)]
  | _, _ => False
  end.
Proof. vm_compute. repeat split; reflexivity. Qed.

(* ==== the third shipped BayesianModel subclass: ComboGridFactorModel (models/grid_combo.py; variational, selectable with --model).
   `src_grid_add_observations` is its whole method _add_observations re-translated on every run (configuration C04_GRID_ADD ->
   Generated/SrcTrainGrid.v); the six numpy arrays of the object are six lists, [grid_cols st] the object holding the training
   entries st; grid_helper.unpack_data(use_mask=True) is a primitive: row-wise over the rows with mask, by ANY per-row function u
   of (sample id, treatment ids) - Model/Train.v, last part. ==== *)
From Batchie Require Import Generated.SrcTrainGrid Proofs.C04SourceGrid.

Theorem C04_model_is_source_grid_add_observations : forall (C : Type) (u : unpack_fn C) (st : list (gtrip C)) (rows : list trow),
  (let '(s, c, e, d, f, y) := grid_cols st in src_grid_add_observations C u s c e d f y rows)
  = dor t <- grid_inner u st rows; Ok (grid_cols t).
Proof. exact src_grid_add_observations_is_model. Qed.
Print Assumptions C04_model_is_source_grid_add_observations.

Theorem C04_model_is_source_grid_add : forall (C : Type) (u : unpack_fn C) (st : list (gtrip C)) (rows : list trow),
  src_add_observations _
    (fun (self : list Z * list C * list C * list Z * list Z * list oval) d =>
       let '(s, c, e, dd, f, y) := self in src_grid_add_observations C u s c e dd f y d)
    (grid_cols st) rows
  = dor t <- grid_add u st rows; Ok (grid_cols t).
Proof. exact src_grid_add_is_model. Qed.
Print Assumptions C04_model_is_source_grid_add.

Theorem C04_train_noninterference_grid : forall (C : Type) (u : unpack_fn C) s1 s2,
  same_except_masked s1 s2 -> train_grid u s1 = train_grid u s2.
Proof. exact train_grid_noninterference. Qed.
Print Assumptions C04_train_noninterference_grid.

(* one entry per observed row, in order: the row's unpacked ids / concentrations and clip(y, 0, 1); accepted whenever no observed
   value is negative or NaN *)
Theorem C04_trained_exactly_once_grid : forall (C : Type) (u : unpack_fn C) rows,
  (forall t, train_grid u rows = Ok t ->
     t = map (fun r => {| gt_u := u (t_sample r) (t_treats r); gt_y := oclip_at 0%Qc 1%Qc (t_obs r) |}) (filter t_mask rows)) /\
  ((forall r, In r rows -> t_mask r = true -> o_nonneg (t_obs r) = true) -> exists t, train_grid u rows = Ok t).
Proof. exact train_grid_exactly_once. Qed.
Print Assumptions C04_trained_exactly_once_grid.

Theorem C04_refuses_grid : forall (C : Type) (u : unpack_fn C) (st : list (gtrip C)) rows r, In r rows ->
  (t_mask r = false -> grid_add u st rows = Err 1) /\
  ((o_negative (t_obs r) = true \/ t_obs r = ONaN) ->
     (exists t, grid_add u st rows = Err t) /\ (t_mask r = true -> exists t, train_grid u rows = Err t)).
Proof.
  exact (fun C u st rows r Hi => conj (grid_refuses_masked C u st rows r Hi) (grid_refuses_negative_nan C u st rows r Hi)).
Qed.
Print Assumptions C04_refuses_grid.

Example C04_grid_example :
  let u : unpack_fn unit := fun s t => (s, nth 0 t 0, nth 1 t 0, tt, tt) in
  option_map (map (fun t => (gt_u t, match gt_y t with OFin q => Some (this q) | _ => None end)))
    (match train_grid u w_rows' with Ok t => Some t | Err _ => None end)
  = Some [((0, 0, -1, tt, tt), Some (1 # 2)%Q); ((0, -1, 1, tt, tt), Some (1 # 2)%Q); ((0, 0, 1, tt, tt), Some (1 # 4)%Q);
          ((0, -1, -1, tt, tt), Some (1 # 2)%Q)]
  /\ (let '(s, c, e, d, f, y) := grid_cols (C := unit) [] in src_grid_add_observations unit u s c e d f y w_rows') = Err 2.
Proof. vm_compute. split; reflexivity. Qed.

(* ==== "the data handed to the model": the observed subset's rows are identical (C04_downstream_frame, train_input); its
   computed attribute single_treatment_effects is NOT, as coded - the parent's table is built from all rows, masked included
   (witness: an observed single-agent well 0.5 and a masked replicate holding 0.5 / 1 give the observed row the effect 0.5 / 0.75).
   No shipped model reads the attribute, so the training arrays and everything downstream are unaffected; computed from the
   observed rows only it would be blind. ==== *)
From Batchie Require Import Proofs.C04View.
Theorem C04_handed_view_single_effects_refuted :
  exists arity s1 s2, same_except_masked s1 s2 /\
    subset_observed_single_effects arity s1 = Some [[OFin v_half; OFin 1%Qc]] /\
    subset_observed_single_effects arity s2 = Some [[OFin (Q2Qc (3 # 4)); OFin 1%Qc]].
Proof. exact handed_view_single_effects_refuted. Qed.
Print Assumptions C04_handed_view_single_effects_refuted.

Theorem C04_handed_view_single_effects_repaired : forall arity s1 s2, same_except_masked s1 s2 ->
  subset_observed_single_effects_repaired arity s1 = subset_observed_single_effects_repaired arity s2.
Proof. exact handed_view_single_effects_repaired. Qed.
Print Assumptions C04_handed_view_single_effects_repaired.
