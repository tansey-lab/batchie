(* C19 — The orchestration script resumes correctly after an interruption at any point.
   Statements only: a proof is `exact <lemma from Proofs/>` (or a split into such), a concrete example is closed by evaluation.

   Vocabulary (Model/Orchestrate.v):
     script_run md fixed bs n f sched   run the script from tree f along a crash schedule: one entry
                                        per call of run_next_* (how many events happen before the
                                        crash, and the adversary's publication order); the operator
                                        removes a directory exactly when the script names it
     fixed                              false = examine without, true = with the one-line repair (an iteration
                                        directory without plate directories is skipped); which one /repo's script is
                                        is PROVED from its translation: C19_model_is_source_examine_determines_fixed
     completed f                        the steps whose directory holds the marker, in (iteration, plate)
                                        order, each with its files AND the command that produced them
     ideal md bs n k                    the first k steps of the execution that is never interrupted
     entry_ok e                         the order names every file kind and names the marker last

     invocation md fixed bs n f sched   ONE invocation of the script = the while-loop of main(): calls of
                                        run_next_* are repeated while the previous one returned True
                                        (call_returns: retrospective True after a launch / False when the
                                        last completed step's metadata says no plates remain; prospective
                                        current_plate_idx < batch_size - 1); r_end says how it ended
     op_screen md bs f                  index of the screen file the operator passes as --screen to an
                                        invocation started on tree f (prospective: one new file per batch)
     script_session md fixed bs n f s   script_run cut into invocations; every record keeps i_screen, the
                                        operator screen that invocation was given (SInput in its launches)
     launches_of recs                   every launch of a session as (step, operator screen, command)
     ideal_stamped md bs c              the c-th launch of the never-interrupted execution: step (c/bs, c mod bs),
                                        operator screen c/bs (prospective) resp. 0, command ideal_launch md bs c
     launch_key g                       Some (step, command, pipeline exit status = 0) of a launch, None otherwise

   The property as written (no hypothesis on the order, fixed = false) is FALSE of the faithful model:
   see the two `_refuted` theorems at the end; both witnesses are replayed on the real script by
   harness/c19.py.  It is proved below under exactly the two hypotheses that exclude them. *)
From Coq Require Import ZArith List Bool.
From Batchie Require Import Model.Orchestrate Proofs.C19Base Proofs.C19Canon Proofs.C19Step Proofs.C19Main
  Proofs.C19Invocation Proofs.C19InvocationThm Generated.SrcOrchestrate Proofs.C19Source
  Generated.SrcOrchMain Proofs.C19SourceMain Generated.SrcOrchCmd Proofs.C19SourceCmd
  Generated.SrcOrchInit Proofs.C19Source_ValidateInitial
  Generated.SrcOrchArgs Proofs.C19Source_GetArgs Proofs.C19Source_GetArgsMain
  Generated.SrcOrchPaths Proofs.C19Source_Paths Generated.SrcOrchCmdClosed Proofs.C19Source_CmdClosed
  Proofs.C19Progress Proofs.C19Torn Proofs.C19TornResume Proofs.C19Async
  Model.NfFiles Generated.SrcNfOutputs Proofs.C19Nf.
From Batchie Require Model.Cli Generated.SrcParser_select_next_plate.
Import ListNotations.

(* For EVERY crash schedule (any number of crashes, at any event of any call), batch size, number of
   plates and mode: the completed steps - with their launch inputs and their recorded selections -
   are exactly the first k steps of the uninterrupted execution. *)
Theorem C19_resume_correct : forall md (bs n : nat) fixed,
  (1 <= bs)%nat -> (1 <= n)%nat -> fixed = true \/ bs = 1%nat ->
  forall sched, Forall (fun e => entry_ok e = true) sched ->
  let f := fst (script_run md fixed (Z.of_nat bs) n [] sched) in
  completed f = ideal md bs n (length (completed f)) /\
  (md = Retro -> (length (completed f) <= n)%nat).
Proof. exact resume_correct. Qed.
Print Assumptions C19_resume_correct.

Theorem C19_resume_correct_retro_prefix_of_crash_free : forall (bs n : nat) fixed sched,
  (1 <= bs)%nat -> (1 <= n)%nat -> fixed = true \/ bs = 1%nat ->
  Forall (fun e => entry_ok e = true) sched ->
  let f := fst (script_run Retro fixed (Z.of_nat bs) n [] sched) in
  completed f = firstn (length (completed f)) (crash_free Retro bs n).
Proof. exact resume_correct_retro. Qed.
Print Assumptions C19_resume_correct_retro_prefix_of_crash_free.

(* One more call (or operator action) from ANY tree reachable by a crash schedule: the completed steps
   stay as they are (same files, same command) and at most the next one is added; if a command is
   launched it is the uninterrupted run's command for the first step that is not complete - never a
   completed step (nothing is executed twice), never a later index (nothing is skipped), with the
   uninterrupted run's inputs; a directory the operator is told to remove is never a completed one;
   the script never fails in a way that does not name a directory. *)
Theorem C19_step_safe : forall md (bs n : nat) fixed,
  (1 <= bs)%nat -> (1 <= n)%nat -> fixed = true \/ bs = 1%nat ->
  forall sched e, Forall (fun e => entry_ok e = true) sched -> entry_ok e = true ->
  let f := fst (script_run md fixed (Z.of_nat bs) n [] sched) in
  let r := attempt md fixed (Z.of_nat bs) n f e in
  exists c,
    completed f = ideal md bs n c /\
    (completed (fst r) = ideal md bs n c \/ completed (fst r) = ideal md bs n (S c)) /\
    match snd r with
    | GLaunch s l _ _ => s = step_of bs c /\ l = ideal_launch md bs c /\ ~ In s (map fst (completed f))
    | GNamed _ s => ~ In s (map fst (completed f))
    | GFail _ => False
    | _ => True
    end.
Proof. exact step_safe. Qed.
Print Assumptions C19_step_safe.

(* the invariant behind both: completed steps form a lexicographic prefix with the ideal contents; at
   most one incomplete directory, at the next index (or an empty next iteration directory) *)
Theorem C19_invariant : forall md (bs n : nat) fixed,
  (1 <= bs)%nat -> (1 <= n)%nat -> fixed = true \/ bs = 1%nat ->
  forall sched, Forall (fun e => entry_ok e = true) sched ->
  exists c x, fst (script_run md fixed (Z.of_nat bs) n [] sched) = canon md bs n c x
              /\ okx c x /\ (md = Retro -> (c <= n)%nat).
Proof. exact invariant. Qed.
Print Assumptions C19_invariant.

(* the closed form `crash_free` IS the run without interruption (prospective: one invocation = one batch) *)
Theorem C19_uninterrupted_is_crash_free : forall md (bs n : nat) fixed e,
  (1 <= bs)%nat -> (1 <= n)%nat -> fixed = true \/ bs = 1%nat ->
  entry_ok e = true -> (4 + length (e_order e) <= e_k e)%nat -> (md = Prosp -> (bs <= n)%nat) ->
  completed (fst (script_run md fixed (Z.of_nat bs) n []
                    (repeat e (match md with Retro => n | Prosp => bs end))))
  = crash_free md bs n.
Proof. exact uninterrupted_is_crash_free. Qed.
Print Assumptions C19_uninterrupted_is_crash_free.

(* in the uninterrupted retrospective run every step after the first starts from the advanced screen
   of its immediate predecessor; indices advance lexicographically without gaps *)
Theorem C19_inputs_from_predecessor : forall (bs c : nat),
  match ideal_launch Retro bs (S c) with
  | LFirst sp _ => sp = SFile (step_of bs c) KAdvanced
  | LNext sp _ _ => sp = SFile (step_of bs c) KAdvanced
  | _ => False
  end.
Proof. exact inputs_from_predecessor. Qed.
Print Assumptions C19_inputs_from_predecessor.

Theorem C19_step_of_successor : forall (bs n c : nat), (1 <= bs)%nat ->
  step_of bs (S c) = (if (snd (step_of bs c) >=? Z.of_nat bs - 1)%Z
                      then ((fst (step_of bs c) + 1)%Z, 0%Z)
                      else (fst (step_of bs c), (snd (step_of bs c) + 1)%Z)).
Proof. exact step_of_successor. Qed.
Print Assumptions C19_step_of_successor.

(* ---- the invocation boundary: when main() stops, and which operator screen each launch reads ---- *)

(* a session is the script_run of the same schedule cut where main() returns or dies: the theorems above
   speak about sessions (same final tree, same calls in the same order) *)
Theorem C19_session_is_script_run : forall md fixed bs n f sched,
  fst (script_session md fixed bs n f sched) = fst (script_run md fixed bs n f sched) /\
  concat (map i_calls (snd (script_session md fixed bs n f sched))) = snd (script_run md fixed bs n f sched).
Proof. exact session_is_script_run. Qed.
Print Assumptions C19_session_is_script_run.

(* For EVERY crash schedule: each launch ever made - step s, by an invocation that was given operator screen
   r, command l - is a launch of the never-interrupted execution: s = step c, l = its command, and r = the
   screen the never-interrupted execution runs step c with (prospective: step (i, j) always reads screen i).
   Prospective: all launches of one invocation belong to the iteration whose screen the operator supplied,
   i.e. the iteration that was current when the invocation started - an invocation never crosses a batch
   boundary. *)
Theorem C19_invocation_never_crosses_batch : forall (bs n : nat) fixed,
  (1 <= bs)%nat -> (1 <= n)%nat -> fixed = true \/ bs = 1%nat ->
  forall md sched, Forall (fun e => entry_ok e = true) sched ->
  let recs := snd (script_session md fixed (Z.of_nat bs) n [] sched) in
  (forall s r l, In (s, r, l) (launches_of recs) -> exists c, (s, r, l) = ideal_stamped md bs c) /\
  (md = Prosp ->
   Forall (fun rc => forall s l ps ok, In (GLaunch s l ps ok) (i_calls rc) -> fst s = i_screen rc) recs).
Proof. exact invocation_stays_in_batch. Qed.
Print Assumptions C19_invocation_never_crosses_batch.

(* on every reachable tree the operator's screen index is the iteration the script is about to work on
   (or the iteration of the directory it asks the operator to remove) *)
Theorem C19_operator_screen_is_current_iteration : forall (bs n : nat) fixed,
  (1 <= bs)%nat -> (1 <= n)%nat -> fixed = true \/ bs = 1%nat ->
  forall md sched, Forall (fun e => entry_ok e = true) sched ->
  let f := fst (script_run md fixed (Z.of_nat bs) n [] sched) in
  match examine fixed (Z.of_nat bs) f with
  | XOk (i, _, _, _) => op_screen Prosp (Z.of_nat bs) f = i
  | XNamed _ s => op_screen Prosp (Z.of_nat bs) f = fst s
  end.
Proof. exact operator_screen_is_current_iteration. Qed.
Print Assumptions C19_operator_screen_is_current_iteration.

(* the never-interrupted prospective execution of q batches: q invocations; invocation k is given screen k,
   makes exactly bs calls and returns; its launches are ideal_stamped 0 .. q*bs-1 *)
Theorem C19_uninterrupted_prospective_session : forall (bs n : nat) fixed,
  (1 <= bs)%nat -> (1 <= n)%nat -> fixed = true \/ bs = 1%nat ->
  forall e q, entry_ok e = true -> (4 + length (e_order e) <= e_k e)%nat -> (bs <= n)%nat ->
  let sr := script_session Prosp fixed (Z.of_nat bs) n [] (repeat e (q * bs)) in
  completed (fst sr) = ideal Prosp bs n (q * bs)
  /\ launches_of (snd sr) = map (ideal_stamped Prosp bs) (seq 0 (q * bs))
  /\ map i_screen (snd sr) = map Z.of_nat (seq 0 q)
  /\ Forall (fun rc => length (i_calls rc) = bs /\ i_end rc = IReturned) (snd sr).
Proof. exact uninterrupted_session_prosp. Qed.
Print Assumptions C19_uninterrupted_prospective_session.

(* prospective: from ANY reachable tree with c completed steps on which the script does not ask for a
   directory to be removed, an invocation that is not interrupted performs exactly bs - c mod bs calls -
   bs from a batch boundary, bs - j after an interruption at plate j - all successful launches of the steps
   c .. up to the end of the current batch, then returns; the remaining schedule is untouched *)
Theorem C19_invocation_finishes_batch_and_stops : forall (bs n : nat) fixed,
  (1 <= bs)%nat -> (1 <= n)%nat -> fixed = true \/ bs = 1%nat ->
  forall sched0 e rest, Forall (fun e => entry_ok e = true) sched0 ->
  entry_ok e = true -> (4 + length (e_order e) <= e_k e)%nat -> (bs <= n)%nat ->
  let f := fst (script_run Prosp fixed (Z.of_nat bs) n [] sched0) in
  let c := length (completed f) in
  let m := (bs - c mod bs)%nat in
  (forall w s, plan_of Prosp fixed (Z.of_nat bs) f <> PNamed w s) ->
  let r := invocation Prosp fixed (Z.of_nat bs) n f (repeat e m ++ rest) in
  r_end r = IReturned /\ r_rest r = rest
  /\ map launch_key (r_calls r) = map (ideal_key Prosp bs) (seq c m)
  /\ completed (r_fs r) = ideal Prosp bs n (c + m).
Proof. exact invocation_finishes_batch. Qed.
Print Assumptions C19_invocation_finishes_batch_and_stops.

(* retrospective, ANY tree: a call returns False exactly when the metadata of the last completed step, as
   examine reads it back, says that no unobserved plates remain *)
Theorem C19_retro_call_returns_false_iff_no_plates_remain : forall fixed bs n f e,
  call_returns Retro bs (snd (attempt Retro fixed bs n f e)) = Some false <->
  exists i j m scr, examine fixed bs f = XOk (i, j, Some m, scr) /\ (m <= 0)%Z.
Proof. exact retro_returns_false_iff. Qed.
Print Assumptions C19_retro_call_returns_false_iff_no_plates_remain.

(* retrospective, reachable trees: an invocation that returns has completed all n steps of the never-interrupted
   run (never before), every call before the returning one was a successful launch; and once all n steps are
   complete every invocation is a single call that returns and changes nothing *)
Theorem C19_retro_invocation_stops_iff_finished : forall (bs n : nat) fixed,
  (1 <= bs)%nat -> (1 <= n)%nat -> fixed = true \/ bs = 1%nat ->
  forall sched0 sched, Forall (fun e => entry_ok e = true) sched0 -> Forall (fun e => entry_ok e = true) sched ->
  let f := fst (script_run Retro fixed (Z.of_nat bs) n [] sched0) in
  let r := invocation Retro fixed (Z.of_nat bs) n f sched in
  (r_end r = IReturned ->
     completed (r_fs r) = crash_free Retro bs n /\
     exists pre, r_calls r = pre ++ [GDone] /\ Forall (fun g => exists s l ps, g = GLaunch s l ps true) pre) /\
  (completed f = crash_free Retro bs n -> sched <> [] ->
     r_calls r = [GDone] /\ r_end r = IReturned /\ r_fs r = f).
Proof. exact retro_invocation_stops. Qed.
Print Assumptions C19_retro_invocation_stops_iff_finished.

(* the never-interrupted retrospective invocation: n successful launches, then one call that returns False *)
Theorem C19_uninterrupted_retrospective_invocation : forall (bs n : nat) fixed,
  (1 <= bs)%nat -> (1 <= n)%nat -> fixed = true \/ bs = 1%nat ->
  forall e e' rest, entry_ok e = true -> (4 + length (e_order e) <= e_k e)%nat ->
  let r := invocation Retro fixed (Z.of_nat bs) n [] (repeat e n ++ e' :: rest) in
  completed (r_fs r) = crash_free Retro bs n /\ r_end r = IReturned /\ r_rest r = rest
  /\ map launch_key (r_calls r) = map (ideal_key Retro bs) (seq 0 n) ++ [None].
Proof. exact uninterrupted_invocation_retro. Qed.
Print Assumptions C19_uninterrupted_retrospective_invocation.

(* ---- the unrestricted statement is false of the faithful model ---- *)

(* (i) examine as it is today (fixed = false), batch size 2, 4 plates, marker last everywhere: a crash
   between the two makedirs levels leaves iter_1 empty; the 4th call launches step (0,1), which was
   complete after the 3rd, and it is not complete afterwards. *)
Theorem C19_resume_refuted_empty_iter :
  exists sched k s l ps ok,
    Forall (fun e => entry_ok e = true) sched /\
    In s (map fst (completed (fst (script_run Retro false 2 4 [] (firstn k sched))))) /\
    nth k (snd (script_run Retro false 2 4 [] sched)) GDone = GLaunch s l ps ok /\
    ~ In s (map fst (completed (fst (script_run Retro false 2 4 [] sched)))).
Proof. exact resume_refuted_empty_iter. Qed.
Print Assumptions C19_resume_refuted_empty_iter.

(* (ii) even with the repair: prospective mode, an order that respects data dependence but publishes
   the metadata (computed from the INPUT screen) first, pipeline crash after one file: step (0,0) is
   taken as complete without a selection. *)
Theorem C19_resume_refuted_marker_early :
  exists sched,
    Forall (fun e => covers (e_order e) = true /\ dep_ok (LProsp SInput) (e_order e) = true) sched /\
    let f := fst (script_run Prosp true 1 3 [] sched) in
    completed f <> ideal Prosp 1 3 (length (completed f)) /\
    exists d, In ((0, 0)%Z, d) (completed f) /\ f_selected d = None.
Proof. exact resume_refuted_marker_early. Qed.
Print Assumptions C19_resume_refuted_marker_early.

(* ---- non-vacuity ---- *)
Example C19_full_entry_ok : entry_ok full = true.
Proof. vm_compute. reflexivity. Qed.

(* a schedule with five crashes (before rmtree, between the makedirs levels, before the launch, twice
   inside the pipeline) satisfies the hypotheses, and the repaired script finishes with crash_free *)
Example C19_five_crashes :
  let sched := [full; mke 2 all_kinds; mke 0 all_kinds; mke 6 all_kinds; full; full; mke 3 all_kinds; full; full;
                mke 5 [KTest; KTraining; KThetas; KDist; KSelected; KAdvanced; KMeta]; full; full; full; full] in
  forallb entry_ok sched = true /\
  completed (fst (script_run Retro true 2 4 [] sched)) = crash_free Retro 2 4.
Proof. vm_compute. split; reflexivity. Qed.

(* the repaired examine on the witness of (i): nothing is re-run *)
Example C19_repaired_on_witness :
  completed (fst (script_run Retro true 2 4 [] (witness_empty_iter ++ [full; full]))) = crash_free Retro 2 4.
Proof. vm_compute. reflexivity. Qed.

(* the unrepaired examine is fine for batch size 1 (covered by the hypothesis `fixed = true \/ bs = 1`) *)
Example C19_unrepaired_bs1 :
  completed (fst (script_run Retro false 1 3 [] [full; mke 2 all_kinds; full; mke 2 all_kinds; full; full]))
  = crash_free Retro 1 3.
Proof. vm_compute. reflexivity. Qed.

(* ---- non-vacuity, invocation level ---- *)
(* prospective, batch size 3, 4 plates.  Invocation 0 (screen 0) completes (0,0) and is interrupted inside the
   pipeline run of (0,1); invocation 1 (screen 0) is told to remove iter_0/plate_1; invocation 2 (screen 0)
   runs exactly the 2 remaining steps (0,1), (0,2) and returns; invocation 3 is given screen 1 and runs (1,0),
   (1,1) until the schedule ends. *)
Example C19_session_after_crash_mid_batch :
  let recs := snd (script_session Prosp true 3 4 [] [full; mke 5 all_kinds; full; full; full; full; full]) in
  map i_screen recs = [0; 0; 0; 1]%Z /\
  map (fun rc => length (i_calls rc)) recs = [2; 1; 2; 2]%nat /\
  map i_end recs = [IRaised; IRaised; IReturned; IExhausted] /\
  map (fun t => (fst (fst t), snd (fst t))) (launches_of recs)
  = [((0, 0), 0); ((0, 1), 0); ((0, 1), 0); ((0, 2), 0); ((1, 0), 1); ((1, 1), 1)]%Z.
Proof. vm_compute. repeat split; reflexivity. Qed.

(* the hypothesis of C19_invocation_finishes_batch_and_stops is satisfiable in the middle of a batch, and the
   conclusion is what the model computes: after a crash before the launch of plate 1 (and the operator's
   removal of the directory) the rerun makes 3 - 1 = 2 calls *)
Example C19_rerun_mid_batch_two_calls :
  let f := fst (script_run Prosp true 3 4 [] [full; mke 3 all_kinds; full]) in
  length (completed f) = 1%nat /\ plan_of Prosp true 3 f <> PNamed 1 (0, 1)%Z /\
  let r := invocation Prosp true 3 4 f [full; full; full; full] in
  length (r_calls r) = 2%nat /\ r_end r = IReturned /\ length (r_rest r) = 2%nat.
Proof. vm_compute. repeat split; try reflexivity. discriminate. Qed.

(* retrospective, batch size 2, 3 plates: one invocation makes 3 launches and a 4th call that returns *)
Example C19_retro_invocation_returns :
  let r := invocation Retro true 2 3 [] [full; full; full; full; full] in
  map (call_returns Retro 2) (r_calls r) = [Some true; Some true; Some true; Some false] /\
  r_end r = IReturned /\ length (r_rest r) = 1%nat.
Proof. vm_compute. repeat split; reflexivity. Qed.

(* ---- source-translation links: the model IS the script ----
   src_* (Generated/SrcOrchestrate.v) are whole functions of /repo's nextflow/scripts/batchie.py, re-translated into Gallina
   by harness/py2gal.py on every run (configurations C19_* in harness/src_functions.py).  A path the script holds is the
   model value it denotes (the output directory = the tree with the set of job directories whose marker file is unreadable,
   a globbed iteration directory = (index, its plate directories), a globbed plate directory = ((i, j), its files), the job
   directory validate_job_dir_and_return_meta is given = the marker files its glob matches); exceptions live in Orchestrate.sres (SNamed = a RuntimeError naming a
   job directory, as XNamed).  Trusted: the translator and the primitives listed in harness/c19.py EXPLANATION. *)

(* examine_output_dir_to_determine_current_iteration, the whole function: the two filtered and numerically sorted globs,
   the loop over iteration directories with its `continue` on one without plate directories, `current_plate_idx = 0`,
   the enumerate loop with the two raises and the directory they name, the three Optionals, the leaked loop variable
   plate_dir that get_screen_from_job_output is applied to, the next-step arithmetic and both returns - run on a WORLD
   tf = (tree, set of job directories whose screen_metadata.json exists but cannot be read), where the translated
   validate_job_dir_and_return_meta is handed the marker files its glob finds there (marker_dir_of: a torn one, the whole one
   the tree records, none) - equal to the model's examine_t with BOTH repairs (tfix = true: an unreadable marker is a missing
   marker; fixed = true), for EVERY tree, torn set and batch size.  up_meta: the metadata the translation hands on is the
   loaded document (a dict with the key n_unobserved_plates) of the entry the model hands on; the answer is never TRaised
   (C19_torn_repaired_never_raises) *)
Theorem C19_model_is_source_examine_on_torn_worlds : forall (tf : tfs) (bs : Z),
  src_examine tf bs = sres_of_tres (tres_map up_meta (examine_t true true bs tf)).
Proof. exact src_examine_is_model_t. Qed.
Print Assumptions C19_model_is_source_examine_on_torn_worlds.

(* without torn markers: the model's examine with fixed = true *)
Theorem C19_model_is_source_examine : forall (f : fs) (bs : Z),
  src_examine (f, []) bs = sres_of_xres (xres_map up_meta (examine true bs f)).
Proof. exact src_examine_is_model. Qed.
Print Assumptions C19_model_is_source_examine.

(* the translation determines the model parameters: the source is the examine with both repairs and no other *)
Theorem C19_model_is_source_examine_determines_fixed : forall fixed,
  (forall f bs, src_examine (f, []) bs = sres_of_xres (xres_map up_meta (examine fixed bs f))) <-> fixed = true.
Proof. exact src_examine_determines_fixed. Qed.
Print Assumptions C19_model_is_source_examine_determines_fixed.

Theorem C19_model_is_source_examine_determines_repairs : forall tfix fixed,
  (forall tf bs, src_examine tf bs = sres_of_tres (tres_map up_meta (examine_t tfix fixed bs tf))) <-> tfix = true /\ fixed = true.
Proof. exact src_examine_determines_repairs. Qed.
Print Assumptions C19_model_is_source_examine_determines_repairs.

(* ... and differs from the unrepaired ones: on the tree of C19_resume_refuted_empty_iter's witness, and on the world the
   witness of C19_resume_refuted_torn_marker leaves behind (where the script before the repair raised out of examine) *)
Theorem C19_model_is_source_examine_not_unrepaired :
  src_examine (tree_empty_iter, []) 2 <> sres_of_xres (xres_map up_meta (examine false 2 tree_empty_iter)).
Proof. exact src_examine_not_unrepaired. Qed.
Print Assumptions C19_model_is_source_examine_not_unrepaired.

Theorem C19_model_is_source_examine_not_raising_on_torn_marker :
  src_examine world_torn_marker 1 <> sres_of_tres (tres_map up_meta (examine_t false true 1 world_torn_marker)) /\
  src_examine world_torn_marker 1 = SNamed 1 (1, 0)%Z.
Proof. split; [exact src_examine_not_raising_on_torn|vm_compute; reflexivity]. Qed.
Print Assumptions C19_model_is_source_examine_not_raising_on_torn_marker.

(* run_next_retrospective_step, the whole function, called with the operator's screen (SInput): it returns
   (return value, the file-system actions in program order ending in the launch) or raises - SNamed as examine did, or
   SRaised done why after the actions `done` - exactly as the model's plan says (result_of_plan reads a plan as such a
   result: PDone = `return False` before anything is touched; a plan ending in a launch = `return True` after it; a plan
   ending in AFail why = that exception after the three directory actions).  The translated function calls the translated
   examine; everything it reads from the output directory it reads from the tree as it is at that moment
   (tree_after f done), in particular the test screen and the thetas are looked for AFTER the job directory has been
   cleared and re-created.  Stated here on a world without torn markers (f, []); the general statement follows. *)
Theorem C19_model_is_source_run_next_retrospective_step : forall (f : fs) (extra : eargs) (bs : Z),
  src_run_next_retrospective_step (f, []) SInput extra bs = result_of_plan Retro bs (plan_of Retro true bs f).
Proof. exact src_run_next_retro_is_model. Qed.
Print Assumptions C19_model_is_source_run_next_retrospective_step.

(* run_next_prospective_step, the whole function: the same, its return value is current_plate_idx < batch_size - 1 *)
Theorem C19_model_is_source_run_next_prospective_step : forall (f : fs) (extra : eargs) (bs : Z),
  src_run_next_prospective_step (f, []) SInput extra bs = result_of_plan Prosp bs (plan_of Prosp true bs f).
Proof. exact src_run_next_prosp_is_model. Qed.
Print Assumptions C19_model_is_source_run_next_prospective_step.

(* both on a world with torn markers (the two theorems above are the case of the empty torn set): step_result_t - the translated
   examine decides whether a directory is named, a torn marker's like a missing marker's; if none is named the call is the
   model's plan on the tree component, exactly how attempt_t is built.  meta["n_unobserved_plates"] (KeyError / TypeError in
   jget_nup) never raises: the metadata examine hands on is a dict with that key *)
Theorem C19_model_is_source_run_next_steps_on_torn_worlds : forall md (tf : tfs) (extra : eargs) (bs : Z),
  src_run_next md tf extra bs = step_result_t true md true bs tf.
Proof. exact src_run_next_is_model_t. Qed.
Print Assumptions C19_model_is_source_run_next_steps_on_torn_worlds.

(* the value handed back to main(): whenever the model's call_returns says that a call returned b (it was not interrupted,
   the script did not raise, the pipeline's exit status was 0), b is what the translated function returns *)
Theorem C19_model_is_source_call_returns : forall md bs n f e extra b,
  call_returns md bs (snd (attempt md true bs n f e)) = Some b ->
  exists acts, src_run_next md (f, []) extra bs = SOk (b, acts).
Proof. exact call_returns_is_source. Qed.
Print Assumptions C19_model_is_source_call_returns.

Theorem C19_model_is_source_call_returns_on_torn_worlds : forall md bs n tf te extra b,
  call_returns md bs (snd (attempt_t true md true bs n tf te)) = Some b ->
  exists acts, src_run_next md tf extra bs = SOk (b, acts).
Proof. exact call_returns_is_source_t. Qed.
Print Assumptions C19_model_is_source_call_returns_on_torn_worlds.

(* non-vacuity: on the tree of the refutation witness (batch size 2, steps (0,0), (0,1) complete, iter_1 empty) the translated
   retrospective step clears and re-creates iter_1/plate_0 and launches it from the advanced screen of (0,1) *)
Example C19_source_step_on_witness :
  src_run_next_retrospective_step (tree_empty_iter, []) SInput [] 2
  = SOk (true, [ARmTree (1, 0); AMkIter 1; AMkPlate (1, 0);
                ALaunch (1, 0) (LFirst (SFile (0, 1) KAdvanced) (SFile (0, 0) KTraining))])%Z.
Proof. vm_compute. reflexivity. Qed.

(* ---- the helper functions examine and run_next_* call are the translated ones (src_examine / src_run_next_* above call
   src_get_screen_from_job_output etc., not a primitive); each equals the model definition the theorems above use.  A glob
   for one file name under a job directory is a model primitive (at most one match: the <name> level is abstracted); the
   tests for "no match", the preference of advanced_screen.h5 over training.screen.h5, the [0], the None returns, the
   loop over the selected_plate files and the ValueError come from the translation. *)
Theorem C19_model_is_source_get_screen_from_job_output : forall p : plate_path,
  src_get_screen_from_job_output p = SOk (screen_of (Some p)).
Proof. exact src_get_screen_is_model. Qed.
Print Assumptions C19_model_is_source_get_screen_from_job_output.

(* validate_job_dir_and_return_meta since the repair, for EVERY list of marker files its glob may match, whatever they hold (a
   file is the JSON document in it, or None when json.load raises ValueError): None without a match; else the first match
   decides - the document if it is a dict with the key n_unobserved_plates, None if the file is unreadable, if the document
   is no dict, if the key is missing.  The try / except ValueError, the isinstance / `in` test with its short-circuit `or` (the
   key test is an exception of the model on anything but a dict: never reached) and the returns come from the translation; in a world (tree, torn set) that is: None for a torn marker, else the metadata the tree records *)
Theorem C19_model_is_source_validate_job_dir_and_return_meta : forall d : marker_dir,
  src_validate_job_dir_and_return_meta d
  = SOk (match d with Some (JDict (Some m)) :: _ => Some (JDict (Some m)) | _ => None end).
Proof. exact src_validate_is_model. Qed.
Print Assumptions C19_model_is_source_validate_job_dir_and_return_meta.

Theorem C19_model_is_source_validate_job_dir_in_world : forall torn (p : plate_path),
  src_validate_job_dir_and_return_meta (marker_dir_of torn p)
  = SOk (if is_torn torn (fst p) then None else option_map whole_meta (f_meta (snd p))).
Proof. exact src_validate_in_world. Qed.
Print Assumptions C19_model_is_source_validate_job_dir_in_world.

Example C19_source_validate_examples :
  src_validate_job_dir_and_return_meta [] = SOk None /\
  src_validate_job_dir_and_return_meta [None] = SOk None /\                              (* torn: json.load raises *)
  src_validate_job_dir_and_return_meta [Some JOther] = SOk None /\                       (* a JSON list, number, null *)
  src_validate_job_dir_and_return_meta [Some (JDict None)] = SOk None /\                 (* a dict without the key *)
  src_validate_job_dir_and_return_meta [Some (JDict (Some 3%Z)); None] = SOk (Some (JDict (Some 3%Z))).
Proof. repeat split; reflexivity. Qed.

(* it globs for training.screen.h5 (as the model's LFirst command says) *)
Theorem C19_model_is_source_get_test_screen_from_job_output : forall (f : fs) (s : step),
  src_get_test_screen_from_job_output (f, s) = SOk (if has_training f s then Some (SFile s KTraining) else None).
Proof. exact src_get_test_screen_is_model. Qed.
Print Assumptions C19_model_is_source_get_test_screen_from_job_output.

Theorem C19_model_is_source_get_theta_and_dist_chunks : forall (done : list action) (f : fs) (s : step),
  src_get_theta_and_dist_chunks done (f, s) = if has_thetas_dist f s then SOk s else SRaised done 2.
Proof. exact src_get_thetas_is_model. Qed.
Print Assumptions C19_model_is_source_get_theta_and_dist_chunks.

(* None when no selection is recorded: the command then has no --excludes (next_cmd) *)
Theorem C19_model_is_source_get_selected_plates : forall (f : fs) (i : Z),
  src_get_selected_plates (f, i) = SOk (match selected_plates f i with [] => None | l => Some l end).
Proof. exact src_get_selected_is_model. Qed.
Print Assumptions C19_model_is_source_get_selected_plates.

(* ---- main(): the mode dispatch and the while-loop, translated (Generated/SrcOrchMain.v, configuration C19_MAIN) ----
   src_main n fuel argv extra w is main() run in the world w = (output directory, crash schedule that is left, calls so far):
   `args, remaining_args = get_args()` yields (argv, extra); args.mode selects which TRANSLATED function the variable run_next
   holds (src_run_next_retrospective_step / src_run_next_prospective_step); the while-loop (recursion on `fuel`, Orchestrate.mwhile)
   calls it in the world (world_call: the function runs on the tree as it is now, the next schedule entry decides how far it
   gets, exactly the rule of `attempt`; the value it hands back is the one the translated function returns) and leaves the loop
   when `not should_run_again`.  mres_of_ires reads the model's invocation record as main()'s outcome: MOk world when the last
   call returned False (IReturned), MEnd IRaised world when a call did not return (an exception propagates out of main()),
   MEnd IExhausted world when the observation ends. *)

(* for sufficient fuel - at least the number of times the loop body is started - main() IS the model's invocation, for EVERY
   tree, schedule, batch size, operator arguments: same final tree, same remaining schedule, same calls, same end *)
Theorem C19_model_is_source_main : forall md n fuel argv extra f sched calls0,
  a_mode argv = modename_of md ->
  (iterations (invocation md true (a_batch_size argv) n f sched) <= fuel)%nat ->
  src_main n fuel argv extra (mkw f sched calls0)
  = mres_of_ires calls0 (invocation md true (a_batch_size argv) n f sched).
Proof. exact src_main_is_invocation. Qed.
Print Assumptions C19_model_is_source_main.

(* a --mode argparse's `choices` would not admit: ValueError before any call, the world is untouched *)
Theorem C19_model_is_source_main_unknown_mode : forall n fuel argv extra w z,
  a_mode argv = NOther z -> src_main n fuel argv extra w = MEnd IRaised w.
Proof. exact src_main_unknown_mode. Qed.
Print Assumptions C19_model_is_source_main_unknown_mode.

(* the observation window bounds the loop: more fuel than schedule entries is always sufficient *)
Theorem C19_model_is_source_main_observation_window : forall md n fuel argv extra f sched calls0,
  a_mode argv = modename_of md -> (length sched < fuel)%nat ->
  src_main n fuel argv extra (mkw f sched calls0)
  = mres_of_ires calls0 (invocation md true (a_batch_size argv) n f sched).
Proof. exact src_main_is_invocation_window. Qed.
Print Assumptions C19_model_is_source_main_observation_window.

(* NO fuel hypothesis on reachable trees: from any tree a crash schedule leads to, for ANY further schedule (however long),
   fuel = call_bound (retrospective: steps not yet completed + 1 <= n + 1; prospective: what is left of the current batch
   <= batch size) suffices - the model bounds the number of calls main() makes *)
Theorem C19_model_is_source_main_fuel_discharged : forall (bs n : nat), (1 <= bs)%nat -> (1 <= n)%nat ->
  forall md sched0 sched argv extra calls0 fuel,
  Forall (fun e => entry_ok e = true) sched0 -> Forall (fun e => entry_ok e = true) sched ->
  a_mode argv = modename_of md -> a_batch_size argv = Z.of_nat bs ->
  let f := fst (script_run md true (Z.of_nat bs) n [] sched0) in
  (match md with Retro => S (n - length (completed f)) | Prosp => bs - length (completed f) mod bs end <= fuel)%nat ->
  src_main n fuel argv extra (mkw f sched calls0)
  = mres_of_ires calls0 (invocation md true (Z.of_nat bs) n f sched).
Proof. exact src_main_fuel_discharged. Qed.
Print Assumptions C19_model_is_source_main_fuel_discharged.

(* C19_invocation_finishes_batch_and_stops, said of the translated main() with fuel = the batch size: it returns normally
   after exactly bs - c mod bs calls, the successful launches of the steps c .. to the end of the current batch, and leaves the
   rest of the schedule untouched *)
Theorem C19_model_is_source_main_finishes_batch_and_stops : forall (bs n : nat), (1 <= bs)%nat -> (1 <= n)%nat ->
  forall sched0 e rest argv extra fuel,
  Forall (fun e => entry_ok e = true) sched0 -> entry_ok e = true -> (4 + length (e_order e) <= e_k e)%nat -> (bs <= n)%nat ->
  a_mode argv = NProspective -> a_batch_size argv = Z.of_nat bs -> (bs <= fuel)%nat ->
  let f := fst (script_run Prosp true (Z.of_nat bs) n [] sched0) in
  let c := length (completed f) in
  let m := (bs - c mod bs)%nat in
  (forall w s, plan_of Prosp true (Z.of_nat bs) f <> PNamed w s) ->
  exists w', src_main n fuel argv extra (mkw f (repeat e m ++ rest) []) = MOk w'
    /\ w_sched w' = rest
    /\ map launch_key (w_calls w') = map (ideal_key Prosp bs) (seq c m)
    /\ completed (w_fs w') = ideal Prosp bs n (c + m).
Proof. exact src_main_finishes_batch. Qed.
Print Assumptions C19_model_is_source_main_finishes_batch_and_stops.

(* C19_retro_invocation_stops_iff_finished, said of the translated main() with fuel = n + 1, for ANY schedule: a main() that
   returns normally has completed all n steps and every call before the returning one was a successful launch; once all n steps
   are complete main() makes one call, changes nothing and returns *)
Theorem C19_model_is_source_main_retro_stops_iff_finished : forall (bs n : nat), (1 <= bs)%nat -> (1 <= n)%nat ->
  forall sched0 sched argv extra fuel,
  Forall (fun e => entry_ok e = true) sched0 -> Forall (fun e => entry_ok e = true) sched ->
  a_mode argv = NRetrospective -> a_batch_size argv = Z.of_nat bs -> (S n <= fuel)%nat ->
  let f := fst (script_run Retro true (Z.of_nat bs) n [] sched0) in
  (forall w', src_main n fuel argv extra (mkw f sched []) = MOk w' ->
     completed (w_fs w') = crash_free Retro bs n /\
     exists pre, w_calls w' = pre ++ [GDone] /\ Forall (fun g => exists s l ps, g = GLaunch s l ps true) pre) /\
  (completed f = crash_free Retro bs n -> sched <> [] ->
     exists w', src_main n fuel argv extra (mkw f sched []) = MOk w' /\ w_fs w' = f /\ w_calls w' = [GDone]).
Proof. exact src_main_retro_stops. Qed.
Print Assumptions C19_model_is_source_main_retro_stops_iff_finished.

(* what world_call (the one primitive of main()'s configuration that is not a name) says of a call, in the model's terms: the
   model's attempt on the current tree, and the value call_returns says it hands back *)
Theorem C19_model_is_source_main_call_is_attempt : forall md n f sched calls0 extra bs,
  world_call n (src_stepfn md) (mkw f sched calls0) OutDir SInput extra bs
  = match sched with
    | [] => MEnd IExhausted (mkw f [] calls0)
    | e :: rest =>
        let a := attempt md true bs n f e in
        let w1 := mkw (fst a) rest (calls0 ++ [snd a]) in
        match call_returns md bs (snd a) with Some v => MOk (v, w1) | None => MEnd IRaised w1 end
    end.
Proof. exact world_call_is_attempt. Qed.
Print Assumptions C19_model_is_source_main_call_is_attempt.

(* non-vacuity: the translated main(), retrospective, batch size 2, 3 plates, never interrupted, fuel 4: three launches and a
   fourth call that returns False; main() returns with one schedule entry left (cf. C19_retro_invocation_returns) *)
Example C19_source_main_retro_returns :
  match src_main 3 4 (mka NRetrospective 2) [] (mkw [] [full; full; full; full; full] []) with
  | MOk w => map (call_returns Retro 2) (w_calls w) = [Some true; Some true; Some true; Some false]
             /\ length (w_sched w) = 1%nat /\ completed (w_fs w) = crash_free Retro 2 3
  | _ => False
  end.
Proof. vm_compute. repeat split; reflexivity. Qed.

(* ... prospective, batch size 3, after a crash before the launch of plate 1 and the operator's removal of the directory: the
   translated main() with fuel 3 makes 3 - 1 = 2 calls and returns (cf. C19_rerun_mid_batch_two_calls); with fuel 1 the
   fuel runs out, which is no Python behaviour *)
Example C19_source_main_rerun_mid_batch :
  let f := fst (script_run Prosp true 3 4 [] [full; mke 3 all_kinds; full]) in
  (match src_main 4 3 (mka NProspective 3) [] (mkw f [full; full; full; full] []) with
   | MOk w => length (w_calls w) = 2%nat /\ length (w_sched w) = 2%nat
   | _ => False
   end) /\
  src_main 4 1 (mka NProspective 3) [] (mkw f [full; full; full; full] []) = MNoFuel.
Proof. vm_compute. repeat split; reflexivity. Qed.

(* ---- the four run_* command builders, translated (Generated/SrcOrchCmd.v, configurations C19_RUN_INITIAL etc.) ----
   The translated run_next_* functions above CALL these translations (src_run_initial_plate ...), not a launch primitive.  A
   command line is the list of its words (string literals as their code points, get_main_nf_file(), screen paths, the job
   directory, ...); `+ extra_args`, the optional `--excludes=` word, the logged ' '.join (TypeError on a None item) and
   subprocess.check_call come from the translation.  check_call's meaning reads the words the way main.nf and the three
   workflows do (Orchestrate.launch_of_words: --mode selects the workflow, --initialize true/otherwise selects --screen vs
   --training_screen / --test_screen, --outdir is where the step's files are published, --thetas / --distance_matrix /
   --excludes feed NEXT_BATCH_PLATE).  launch_cmd done s (Some l) = the actions done so far followed by ALaunch s l;
   launch_cmd done s None = TypeError (why 9) after `done`. *)

(* `nextflow run main.nf --mode retrospective --screen S --name N --outdir D --initialize true -work-dir D/work` + extra words
   is the launch LInit S for the job directory D *)
Theorem C19_model_is_source_run_initial_plate : forall acts o scr nm extra,
  src_run_initial_plate acts o scr nm extra = launch_cmd acts o (option_map LInit scr).
Proof. exact src_run_initial_plate_is_model. Qed.
Print Assumptions C19_model_is_source_run_initial_plate.

(* --training_screen gets the training screen, --test_screen the test screen, --initialize false: LFirst training test *)
Theorem C19_model_is_source_run_first_batch_plate : forall acts o tr te nm extra,
  src_run_first_batch_plate acts o tr te nm extra = launch_cmd acts o (first_cmd tr te).
Proof. exact src_run_first_batch_plate_is_model. Qed.
Print Assumptions C19_model_is_source_run_first_batch_plate.

Theorem C19_model_is_source_run_first_prospective_batch_plate : forall acts o scr nm extra,
  src_run_first_prospective_batch_plate acts o scr nm extra = launch_cmd acts o (option_map LProsp scr).
Proof. exact src_run_first_prospective_batch_plate_is_model. Qed.
Print Assumptions C19_model_is_source_run_first_prospective_batch_plate.

(* --mode next_plate --reveal true --screen S --thetas <t>/*/thetas*.h5 --distance_matrix <t>/*/distance_matrix_chunk*.h5
   ... [--excludes=ids]: LNext S t ids (no --excludes word when excludes is None).  Both glob patterns are those of ONE
   directory t: at the two call sites they are the two entries of the dict get_theta_and_dist_chunks(t) returned *)
Theorem C19_model_is_source_run_subsequent_batch_plate : forall acts o scr t nm extra excl,
  src_run_subsequent_batch_plate acts o scr (TGlob t) (DGlob t) nm extra excl = launch_cmd acts o (next_cmd scr t excl).
Proof. exact src_run_subsequent_batch_plate_is_model. Qed.
Print Assumptions C19_model_is_source_run_subsequent_batch_plate.

(* non-vacuity: a concrete command line; and what check_call's meaning is sensitive to - thetas and distance chunks of two
   different directories are no launch of the model *)
Example C19_source_run_subsequent_example :
  src_run_subsequent_batch_plate [AMkIter 1] (1, 2) (Some SInput) (TGlob (1, 0)) (DGlob (1, 0)) tt [7; 8] (Some [3; 4])
  = SOk [AMkIter 1; ALaunch (1, 2) (LNext SInput (1, 0) [3; 4])]
  /\ src_run_subsequent_batch_plate [] (1, 2) (Some SInput) (TGlob (1, 0)) (DGlob (0, 0)) tt [] None = SRaised [] 8
  /\ src_run_subsequent_batch_plate [] (1, 2) None (TGlob (1, 0)) (DGlob (1, 0)) tt [] None = SRaised [] 9.
Proof. vm_compute. repeat split; reflexivity. Qed.

(* ---- dir_sort_key, translated: `int(os.path.basename(x).split("_")[1])` over path NAMES (list of components, each a string).
   examine's configuration gives `dir_sort_key(x)` and `sorted(l, key=dir_sort_key)` the meaning iter_index / plate_index on
   the model value of the path; these theorems tie that primitive to the source: on the name "<out>/iter_<i>" (resp.
   "<out>/iter_<i>/plate_<j>", <i> the decimal numeral of a natural number) the translated function returns that index *)
Theorem C19_model_is_source_dir_sort_key : forall (dir : fspath) (pre : str) (i : nat),
  Forall (fun c => c <> 95%Z) pre -> src_dir_sort_key (dir ++ [numbered pre i]) = SOk (Z.of_nat i).
Proof. exact src_dir_sort_key_numbered. Qed.
Print Assumptions C19_model_is_source_dir_sort_key.

Theorem C19_model_is_source_dir_sort_key_iter_index : forall (out : fspath) (d : iter_path),
  (0 <= fst d)%Z -> src_dir_sort_key (iter_pathname out d) = SOk (iter_index d).
Proof. exact src_dir_sort_key_is_iter_index. Qed.
Print Assumptions C19_model_is_source_dir_sort_key_iter_index.

Theorem C19_model_is_source_dir_sort_key_plate_index : forall (out : fspath) (p : plate_path),
  (0 <= snd (fst p))%Z -> src_dir_sort_key (plate_pathname out p) = SOk (plate_index p).
Proof. exact src_dir_sort_key_is_plate_index. Qed.
Print Assumptions C19_model_is_source_dir_sort_key_plate_index.

(* non-vacuity: "out/iter_12" has key 12 (numeric, two digits); a name without "_" is an IndexError, "iter_x" a ValueError *)
Example C19_source_dir_sort_key_examples :
  src_dir_sort_key [[111; 117; 116]; [105; 116; 101; 114; 95; 49; 50]]%Z = SOk 12%Z
  /\ src_dir_sort_key [[105; 116; 101; 114]]%Z = SRaised [] 98%Z
  /\ src_dir_sort_key [[105; 116; 101; 114; 95; 120]]%Z = SRaised [] 7%Z
  /\ iter_pathname [[111; 117; 116]]%Z (12%Z, []) = [[111; 117; 116]; [105; 116; 101; 114; 95; 49; 50]]%Z.
Proof. vm_compute. repeat split; reflexivity. Qed.

(* ---- validate_initial_output_dir_and_get_result_files_as_dict, the whole function (Generated/SrcOrchInit.v, configuration
   C19_VALIDATE_INITIAL; proofs: Proofs/C19Source_ValidateInitial.v).  It is handed the job directory of the initial step; the
   three globs are model primitives as for the other helpers, everything else - `len(training) == 0 or len(metadata) == 0`,
   the three [0] reads in their order, the `with open ... json.load`, which value sits under which key of the dict - comes from
   the translation.  The model value: None when training.screen.h5 or screen_metadata.json is missing; an IndexError
   (SRaised [] 98) when those two are there and test.screen.h5 is not; otherwise the record of the three. *)
Theorem C19_model_is_source_validate_initial_output_dir : forall p : plate_path,
  src_validate_initial p = validate_initial p.
Proof. exact src_validate_initial_is_model. Qed.
Print Assumptions C19_model_is_source_validate_initial_output_dir.

(* which files must exist: the translated function returns the dict EXACTLY when test.screen.h5, training.screen.h5 and
   screen_metadata.json (Orchestrate.initial_required) are all in the directory, and the dict names that directory's own two
   screens and carries the metadata stored there *)
Theorem C19_model_is_source_validate_initial_accepts_iff : forall (p : plate_path) (r : initial_files),
  src_validate_initial p = SOk (Some r) <->
  forallb (produced (snd p)) [KTest; KTraining; KMeta] = true /\ if_test r = SFile (fst p) KTest
  /\ if_training r = SFile (fst p) KTraining /\ f_meta (snd p) = Some (if_meta r).
Proof. exact src_validate_initial_accepts_iff. Qed.
Print Assumptions C19_model_is_source_validate_initial_accepts_iff.

(* what it raises: nothing but the IndexError of `test_screen_glob[0]`, exactly when only the test screen is missing, before
   anything is touched; a missing training screen or metadata file is the None return; it never names a directory *)
Theorem C19_model_is_source_validate_initial_raises_iff : forall (p : plate_path) done why,
  src_validate_initial p = SRaised done why <->
  produced (snd p) KTraining && produced (snd p) KMeta = true /\ produced (snd p) KTest = false /\ done = [] /\ why = 98%Z.
Proof. exact src_validate_initial_raises_iff. Qed.
Print Assumptions C19_model_is_source_validate_initial_raises_iff.

Theorem C19_model_is_source_validate_initial_none_iff : forall p : plate_path,
  src_validate_initial p = SOk None <-> produced (snd p) KTraining && produced (snd p) KMeta = false.
Proof. exact src_validate_initial_none_iff. Qed.
Print Assumptions C19_model_is_source_validate_initial_none_iff.

Theorem C19_model_is_source_validate_initial_never_names : forall (p : plate_path) w s,
  src_validate_initial p <> SNamed w s.
Proof. exact src_validate_initial_never_names. Qed.
Print Assumptions C19_model_is_source_validate_initial_never_names.

(* the model's notion of a complete initial step: a run of the initial workflow that the model counts as complete
   (complete_run: every file `expected` of LInit published - the three required ones are among them) leaves a directory the
   translated function accepts ... *)
Theorem C19_model_is_source_validate_initial_complete_run : forall md sc (p : plate_path),
  complete_run md (LInit sc) (snd p) = true ->
  exists m, f_meta (snd p) = Some m /\
            src_validate_initial p = SOk (Some (mkif (SFile (fst p) KTest) (SFile (fst p) KTraining) m)).
Proof. exact src_validate_initial_complete_run. Qed.
Print Assumptions C19_model_is_source_validate_initial_complete_run.

(* ... and on EVERY tree the retrospective script reaches (any crash schedule, marker last, repaired examine or batch size 1)
   a job directory iter_0/plate_0 that carries the completion marker is accepted: the dict names its test and training screen
   and says n - 1 plates are unobserved - never None, never the IndexError *)
Theorem C19_model_is_source_validate_initial_on_reachable_trees : forall (bs n : nat) fixed,
  (1 <= bs)%nat -> (1 <= n)%nat -> fixed = true \/ bs = 1%nat ->
  forall sched, Forall (fun e => entry_ok e = true) sched ->
  let f := fst (script_run Retro fixed (Z.of_nat bs) n [] sched) in
  forall p : plate_path, In p (completed f) -> fst p = (0, 0)%Z ->
  src_validate_initial p = SOk (Some (mkif (SFile (0, 0)%Z KTest) (SFile (0, 0)%Z KTraining) (Z.of_nat n - 1)%Z)).
Proof. exact src_validate_initial_on_reachable_trees. Qed.
Print Assumptions C19_model_is_source_validate_initial_on_reachable_trees.

(* each required file missing in turn, the others present *)
Example C19_source_validate_initial_each_missing :
  let d tr te me := (((0, 0)%Z, mkp tr te true true (Some 0%Z) (Some [1; 2]%Z) me None) : plate_path) in
  src_validate_initial (d (Some [0; 1; 2]%Z) true (Some 2%Z))
    = SOk (Some (mkif (SFile (0, 0)%Z KTest) (SFile (0, 0)%Z KTraining) 2%Z)) /\
  src_validate_initial (d None true (Some 2%Z)) = SOk None /\
  src_validate_initial (d (Some [0; 1; 2]%Z) true None) = SOk None /\
  src_validate_initial (d (Some [0; 1; 2]%Z) false (Some 2%Z)) = SRaised [] 98%Z /\
  src_validate_initial (d None false None) = SOk None.
Proof. vm_compute. repeat split; reflexivity. Qed.

(* ---- get_args(), the whole function (Generated/SrcOrchArgs.v, configuration C19_GET_ARGS; proofs: Proofs/C19Source_GetArgs.v and,
   for the composition with main(), Proofs/C19Source_GetArgsMain.v).  The parser object is its option table: each
   parser.add_argument(...) call appends the entry its own arguments denote (option string, type= / choices=, required=, default=);
   parser.parse_known_args() is the model of argparse, Orchestrate.parse_known_args, applied to the table BUILT BY THE TRANSLATION
   and the command line.  Strings are lists of code points.  why = 64: an argparse error (usage message, exit status 2);
   why = 90: a spelling of argparse the model does not represent (--opt=value, abbreviations, -h, negative numbers, ...; not a
   Python behaviour). *)

(* the table the four add_argument calls build is Orchestrate.orch_options - --screen str required, --batch-size int default 1,
   --mode choices [retrospective; prospective] required, --outdir str required - and get_args is argparse on it, for EVERY
   command line *)
Theorem C19_model_is_source_get_args : forall cmdline : list str,
  src_get_args cmdline = parse_known_args orch_options cmdline.
Proof. exact src_get_args_is_model. Qed.
Print Assumptions C19_model_is_source_get_args.

(* the tie to main(): every args.<x> the translated main() reads - args.mode and args.batch_size (fields of C19_MAIN),
   args.outdir and args.screen (under os.path.abspath) - is an attribute of EVERY namespace the translated get_args returns, with
   the type the model of main() assumes: mode is one of the two names main() dispatches on, batch_size an int (1 when
   --batch-size is not on the command line), outdir and screen strings; and the namespace has exactly the attributes argparse
   derives from the four option strings *)
Theorem C19_model_is_source_get_args_gives_main_args : forall cmdline ns extra,
  src_get_args cmdline = SOk (ns, extra) ->
  exists (md : mode) (b : Z) (scr out : str),
    margs_of_ns ns = Some (mka (modename_of md) b)
    /\ ns_get D_screen ns = Some (VStr scr) /\ ns_get D_outdir ns = Some (VStr out)
    /\ map fst ns = map o_dest orch_options
    /\ (~ In L_batch_size cmdline -> b = 1%Z).
Proof. exact src_get_args_gives_main_args. Qed.
Print Assumptions C19_model_is_source_get_args_gives_main_args.

(* the remaining arguments (handed to nextflow as extra_args): each stood on the command line and none is one of the script's
   own option strings - what launch_of_words assumes of the operator's extra words *)
Theorem C19_model_is_source_get_args_remaining : forall cmdline ns extra,
  src_get_args cmdline = SOk (ns, extra) ->
  forall w, In w extra -> In w cmdline /\ ~ In w (map o_flag orch_options).
Proof. exact src_get_args_remaining. Qed.
Print Assumptions C19_model_is_source_get_args_remaining.

(* get_args composed with main(): C19_model_is_source_main* take the parsed arguments as given and assume
   a_mode argv = modename_of md.  Whatever the command line, when the translated get_args returns, the record main() reads off
   the namespace satisfies that hypothesis for some mode md, and main() (fuel > schedule length) IS the model's invocation in
   mode md with the batch size of the command line (1 by default) *)
Theorem C19_model_is_source_get_args_then_main : forall cmdline ns remaining,
  src_get_args cmdline = SOk (ns, remaining) ->
  exists (md : mode) (argv : margs),
    margs_of_ns ns = Some argv /\ a_mode argv = modename_of md
    /\ (~ In L_batch_size cmdline -> a_batch_size argv = 1%Z)
    /\ forall n fuel extra f sched calls0, (length sched < fuel)%nat ->
         src_main n fuel argv extra (mkw f sched calls0)
         = mres_of_ires calls0 (invocation md true (a_batch_size argv) n f sched).
Proof. exact src_get_args_then_main. Qed.
Print Assumptions C19_model_is_source_get_args_then_main.

(* so the `else: raise ValueError("Unknown mode")` of main() (C19_model_is_source_main_unknown_mode) cannot be reached from a
   command line *)
Theorem C19_model_is_source_get_args_mode_known : forall cmdline ns remaining argv z,
  src_get_args cmdline = SOk (ns, remaining) -> margs_of_ns ns = Some argv -> a_mode argv <> NOther z.
Proof. exact src_get_args_mode_known. Qed.
Print Assumptions C19_model_is_source_get_args_mode_known.

Section GetArgsExamples.
Import Coq.Strings.String.
Local Open Scope string_scope.
Local Definition cl (l : list string) : list str := map lit l.
(* options in any order, the operator's extra words handed on in order; --batch-size defaults to 1 *)
Example C19_source_get_args_examples :
  src_get_args (cl ["-resume"; "--outdir"; "out"; "--mode"; "prospective"; "--max_cpus"; "8"; "--screen"; "s.h5"])
    = SOk ([(D_screen, VStr (lit "s.h5")); (D_batch_size, VInt 1); (D_mode, VStr L_prospective); (D_outdir, VStr (lit "out"))],
           cl ["-resume"; "--max_cpus"; "8"]) /\
  src_get_args (cl ["--screen"; "a"; "--batch-size"; "3"; "--screen"; "b"; "--mode"; "retrospective"; "--outdir"; "o"])
    = SOk ([(D_screen, VStr (lit "b")); (D_batch_size, VInt 3); (D_mode, VStr L_retrospective); (D_outdir, VStr (lit "o"))], []) /\
  src_get_args (cl ["--screen"; "a"; "--mode"; "next_plate"; "--outdir"; "o"]) = SRaised [] 64%Z /\      (* not one of the choices *)
  src_get_args (cl ["--screen"; "a"; "--mode"; "prospective"]) = SRaised [] 64%Z /\                       (* --outdir is required *)
  src_get_args (cl ["--screen"; "a"; "--mode"; "prospective"; "--outdir"; "o"; "--batch-size"; "two"]) = SRaised [] 64%Z /\
  src_get_args (cl ["--screen"; "a"; "--mode"; "prospective"; "--outdir"]) = SRaised [] 64%Z /\           (* expected one argument *)
  src_get_args (cl ["--screen"; "a"; "--mode=prospective"; "--outdir"; "o"]) = SRaised [] 90%Z.           (* not represented *)
Proof. vm_compute. repeat split; reflexivity. Qed.
End GetArgsExamples.

(* ---- the path helpers (Generated/SrcOrchPaths.v, configurations C19_PATH_*; proofs: Proofs/C19Source_Paths.v).  An absolute path
   is the list of its components; __file__ is a parameter (the path os.path.realpath resolves it to); os.path.dirname / join /
   abspath are model primitives (all but the last component / append the relative names / drop "." and let ".." remove the
   component before it); the literals "..", "nextflow.config", "main.nf", the nesting of the calls and which helper builds on
   which come from the translation (a helper calling another calls its translation). *)
Theorem C19_model_is_source_get_script_location : forall f : pyfile, src_get_script_location f = SOk (script_location f).
Proof. exact src_get_script_location_is_model. Qed.
Print Assumptions C19_model_is_source_get_script_location.

Theorem C19_model_is_source_get_nextflow_dir : forall f : pyfile, src_get_nextflow_dir f = SOk (nextflow_dir f).
Proof. exact src_get_nextflow_dir_is_model. Qed.
Print Assumptions C19_model_is_source_get_nextflow_dir.

Theorem C19_model_is_source_get_base_config : forall f : pyfile, src_get_base_config f = SOk (base_config f).
Proof. exact src_get_base_config_is_model. Qed.
Print Assumptions C19_model_is_source_get_base_config.

Theorem C19_model_is_source_get_repository_root : forall f : pyfile, src_get_repository_root f = SOk (repository_root f).
Proof. exact src_get_repository_root_is_model. Qed.
Print Assumptions C19_model_is_source_get_repository_root.

Theorem C19_model_is_source_get_main_nf_file : forall f : pyfile, src_get_main_nf_file f = SOk (main_nf_file f).
Proof. exact src_get_main_nf_file_is_model. Qed.
Print Assumptions C19_model_is_source_get_main_nf_file.

(* where they point: for a script that lies where the repository keeps it, root/nextflow/scripts/batchie.py (root any path as
   realpath returns one: no ".", "..", empty component), the translated helpers give root/nextflow/scripts, root/nextflow,
   root/nextflow.config, root itself and root/main.nf *)
Theorem C19_model_is_source_paths_in_checkout : forall root : fspath, clean_path root ->
  src_get_script_location (script_in root) = SOk (root ++ [S_nextflow; S_scripts]) /\
  src_get_nextflow_dir (script_in root) = SOk (root ++ [S_nextflow]) /\
  src_get_base_config (script_in root) = SOk (root ++ [S_nextflow_config]) /\
  src_get_repository_root (script_in root) = SOk root /\
  src_get_main_nf_file (script_in root) = SOk (root ++ [S_main_nf]).
Proof. exact src_paths_in_checkout. Qed.
Print Assumptions C19_model_is_source_paths_in_checkout.

(* ---- the command builders once more, CLOSED over the translated path helpers (Generated/SrcOrchCmdClosed.v, configurations
   C19_RUN_*_CLOSED; proofs: Proofs/C19Source_CmdClosed.v): get_main_nf_file() and get_repository_root() are calls of the
   translations above; a path put on the command line is the word word_of_file root (WMainNf exactly for root/main.nf, the
   pipeline the model describes).  For a script that lies in the checkout at root the builders denote the model's launches: no
   opaque word for main.nf is left. *)
Theorem C19_model_is_source_run_initial_plate_closed : forall root : fspath, clean_path root ->
  forall acts o scr nm extra,
  src_run_initial_plate_closed root (script_in root) acts o scr nm extra = launch_cmd acts o (option_map LInit scr).
Proof. exact src_run_initial_plate_closed_is_model. Qed.
Print Assumptions C19_model_is_source_run_initial_plate_closed.

Theorem C19_model_is_source_run_first_batch_plate_closed : forall root : fspath, clean_path root ->
  forall acts o tr te nm extra,
  src_run_first_batch_plate_closed root (script_in root) acts o tr te nm extra = launch_cmd acts o (first_cmd tr te).
Proof. exact src_run_first_batch_plate_closed_is_model. Qed.
Print Assumptions C19_model_is_source_run_first_batch_plate_closed.

Theorem C19_model_is_source_run_first_prospective_batch_plate_closed : forall root : fspath, clean_path root ->
  forall acts o scr nm extra,
  src_run_first_prospective_batch_plate_closed root (script_in root) acts o scr nm extra = launch_cmd acts o (option_map LProsp scr).
Proof. exact src_run_first_prospective_batch_plate_closed_is_model. Qed.
Print Assumptions C19_model_is_source_run_first_prospective_batch_plate_closed.

Theorem C19_model_is_source_run_subsequent_batch_plate_closed : forall root : fspath, clean_path root ->
  forall acts o scr t nm extra excl,
  src_run_subsequent_batch_plate_closed root (script_in root) acts o scr (TGlob t) (DGlob t) nm extra excl
  = launch_cmd acts o (next_cmd scr t excl).
Proof. exact src_run_subsequent_batch_plate_closed_is_model. Qed.
Print Assumptions C19_model_is_source_run_subsequent_batch_plate_closed.

Section PathExamples.
Import Coq.Strings.String.
Local Open Scope string_scope.
(* the hypothesis is satisfiable; and it matters where the script lies: from one directory deeper the third word is another
   file and the command is no launch of the model (why = 8) *)
Example C19_source_paths_example :
  clean_path (map lit ["srv"; "batchie"]) /\
  src_get_main_nf_file (script_in (map lit ["srv"; "batchie"])) = SOk (map lit ["srv"; "batchie"; "main.nf"]) /\
  src_get_base_config (script_in (map lit ["srv"; "batchie"])) = SOk (map lit ["srv"; "batchie"; "nextflow.config"]) /\
  src_run_initial_plate_closed [] (S_scripts :: script_in []) [] (0, 0)%Z (Some SInput) tt [] = SRaised [] 8%Z.
Proof. split; [repeat constructor; discriminate | vm_compute; repeat split; reflexivity]. Qed.
End PathExamples.

(* ---- progress of the retrospective mode after a crash ("rerunning it ... continues the simulation") ---- *)

(* From ANY tree a crash schedule leads to, with c completed steps: after m further calls that are not interrupted (any
   marker-last orders) at least min n (c + m - 1) steps are complete - every call completes the next step, except that the
   first may be spent on naming the incomplete directory, which the operator removes - and the completed steps are still
   exactly the first ones of the never-interrupted run. *)
Theorem C19_retro_progress : forall (bs n : nat) fixed,
  (1 <= bs)%nat -> (1 <= n)%nat -> fixed = true \/ bs = 1%nat ->
  forall sched0 es, Forall (fun e => entry_ok e = true) sched0 ->
  Forall (fun e => entry_ok e = true /\ (4 + length (e_order e) <= e_k e)%nat) es ->
  let f := fst (script_run Retro fixed (Z.of_nat bs) n [] sched0) in
  let f' := fst (script_run Retro fixed (Z.of_nat bs) n f es) in
  completed f' = ideal Retro bs n (length (completed f')) /\
  (Nat.min n (length (completed f) + length es - 1) <= length (completed f') <= n)%nat.
Proof. exact retro_progress. Qed.
Print Assumptions C19_retro_progress.

(* ... so n - c + 1 uninterrupted calls after ANY crash history end in the never-interrupted run *)
Theorem C19_retro_rerun_finishes : forall (bs n : nat) fixed,
  (1 <= bs)%nat -> (1 <= n)%nat -> fixed = true \/ bs = 1%nat ->
  forall sched0 es, Forall (fun e => entry_ok e = true) sched0 ->
  Forall (fun e => entry_ok e = true /\ (4 + length (e_order e) <= e_k e)%nat) es ->
  let f := fst (script_run Retro fixed (Z.of_nat bs) n [] sched0) in
  (n + 1 <= length (completed f) + length es)%nat ->
  completed (fst (script_run Retro fixed (Z.of_nat bs) n f es)) = crash_free Retro bs n.
Proof. exact retro_rerun_finishes. Qed.
Print Assumptions C19_retro_rerun_finishes.

(* the hypotheses are satisfiable after a crash inside the pipeline run of step (0,1): 1 completed, the first rerun names
   iter_0/plate_1, four more finish *)
Example C19_retro_progress_after_crash :
  let f := fst (script_run Retro true 2 4 [] [full; mke 6 all_kinds]) in
  length (completed f) = 1%nat /\
  map (fun g => match g with GNamed _ _ => 1 | GLaunch _ _ _ true => 2 | _ => 0 end)
      (snd (script_run Retro true 2 4 f [full; full; full; full])) = [1; 2; 2; 2].
Proof. vm_compute. split; reflexivity. Qed.

(* ---- torn completion markers: a published file does NOT appear atomically (Model/Orchestrate.v, section "torn completion
   markers") ----
   script_run_t tfix ...  the run on worlds (tree, set of steps whose screen_metadata.json exists but cannot be read) along
   entries that may say "the interruption comes while the last file is being published".  tfix = true is the script of /repo
   (an unreadable marker counts as no marker: validate_job_dir_and_return_meta catches json.load's ValueError) - PROVED from
   its translation: C19_model_is_source_examine_determines_repairs; tfix = false is the script before that repair (json.load's
   exception escapes from examine), kept for the refutation witness. *)

(* conservative extension: no torn marker and no tearing entry = the model above *)
Theorem C19_torn_model_conservative : forall tfix md fixed bs n sched f,
  script_run_t tfix md fixed bs n (f, []) (map whole sched) =
  let r := script_run md fixed bs n f sched in ((fst r, []), snd r).
Proof. exact script_run_t_conservative. Qed.
Print Assumptions C19_torn_model_conservative.

(* THE PROPERTY on worlds with torn markers, for the script as it is (tfix = true), at full strength: for EVERY schedule -
   any number of interruptions, at any event of any call, each possibly DURING the publication of a file - batch size, number
   of plates and mode: the completed steps, with their launch inputs and recorded selections, are exactly the first k steps of
   the uninterrupted execution, and no call ever ends in an exception that names no directory *)
Theorem C19_torn_resume_correct : forall md (bs n : nat) fixed,
  (1 <= bs)%nat -> (1 <= n)%nat -> fixed = true \/ bs = 1%nat ->
  forall sched, Forall (fun te => entry_ok (te_e te) = true) sched ->
  let r := script_run_t true md fixed (Z.of_nat bs) n ([], []) sched in
  completed (fst (fst r)) = ideal md bs n (length (completed (fst (fst r)))) /\
  (md = Retro -> (length (completed (fst (fst r))) <= n)%nat) /\
  (forall w, ~ In (GFail w) (snd r)).
Proof. exact resume_correct_t. Qed.
Print Assumptions C19_torn_resume_correct.

(* C19_step_safe on worlds with torn markers: one more call from ANY world such a schedule leads to keeps the completed steps,
   adds at most the next one, launches only the uninterrupted run's command for the first step that is not complete, names
   only directories that are not complete, never fails without naming one *)
Theorem C19_torn_step_safe : forall md (bs n : nat) fixed,
  (1 <= bs)%nat -> (1 <= n)%nat -> fixed = true \/ bs = 1%nat ->
  forall sched te, Forall (fun te => entry_ok (te_e te) = true) sched -> entry_ok (te_e te) = true ->
  let tf := fst (script_run_t true md fixed (Z.of_nat bs) n ([], []) sched) in
  let r := attempt_t true md fixed (Z.of_nat bs) n tf te in
  exists c,
    completed (fst tf) = ideal md bs n c /\
    (completed (fst (fst r)) = ideal md bs n c \/ completed (fst (fst r)) = ideal md bs n (S c)) /\
    match snd r with
    | GLaunch s l _ _ => s = step_of bs c /\ l = ideal_launch md bs c /\ ~ In s (map fst (completed (fst tf)))
    | GNamed _ s => ~ In s (map fst (completed (fst tf)))
    | GFail _ => False
    | _ => True
    end.
Proof. exact step_safe_t. Qed.
Print Assumptions C19_torn_step_safe.

(* a torn marker costs one call: a world such a schedule leads to holds at most one torn marker, in the directory of the first
   step that is not complete, and the next call - whatever its entry - names exactly that directory as "invalid structure";
   the operator removes it, no torn marker is left, no completed step is lost *)
Theorem C19_torn_marker_is_named : forall md (bs n : nat) fixed,
  (1 <= bs)%nat -> (1 <= n)%nat -> fixed = true \/ bs = 1%nat ->
  forall sched te, Forall (fun te => entry_ok (te_e te) = true) sched ->
  let tf := fst (script_run_t true md fixed (Z.of_nat bs) n ([], []) sched) in
  snd tf = [] \/
  (exists c, snd tf = [step_of bs c] /\ completed (fst tf) = ideal md bs n c /\
             let r := attempt_t true md fixed (Z.of_nat bs) n tf te in
             snd r = GNamed 1 (step_of bs c) /\ snd (fst r) = [] /\ completed (fst (fst r)) = ideal md bs n c).
Proof. exact torn_marker_is_named. Qed.
Print Assumptions C19_torn_marker_is_named.

(* "rerunning it continues the simulation" on worlds with torn markers (C19_retro_progress / C19_retro_rerun_finishes): after m
   further calls that are not interrupted at least min n (c + m - 1) steps are complete - the one call that names the torn
   directory is the call an incomplete directory costs anyway - and no torn marker is left; n - c + 1 such calls end in the
   never-interrupted run *)
Theorem C19_torn_retro_progress : forall (bs n : nat) fixed,
  (1 <= bs)%nat -> (1 <= n)%nat -> fixed = true \/ bs = 1%nat ->
  forall sched0 es, Forall (fun te => entry_ok (te_e te) = true) sched0 ->
  Forall (fun e => entry_ok e = true /\ (4 + length (e_order e) <= e_k e)%nat) es ->
  let tf := fst (script_run_t true Retro fixed (Z.of_nat bs) n ([], []) sched0) in
  let tf' := fst (script_run_t true Retro fixed (Z.of_nat bs) n tf (map whole es)) in
  completed (fst tf') = ideal Retro bs n (length (completed (fst tf'))) /\
  (Nat.min n (length (completed (fst tf)) + length es - 1) <= length (completed (fst tf')) <= n)%nat /\
  (es <> [] -> snd tf' = []).
Proof. exact retro_progress_t. Qed.
Print Assumptions C19_torn_retro_progress.

Theorem C19_torn_retro_rerun_finishes : forall (bs n : nat) fixed,
  (1 <= bs)%nat -> (1 <= n)%nat -> fixed = true \/ bs = 1%nat ->
  forall sched0 es, Forall (fun te => entry_ok (te_e te) = true) sched0 ->
  Forall (fun e => entry_ok e = true /\ (4 + length (e_order e) <= e_k e)%nat) es ->
  let tf := fst (script_run_t true Retro fixed (Z.of_nat bs) n ([], []) sched0) in
  (n + 1 <= length (completed (fst tf)) + length es)%nat ->
  completed (fst (fst (script_run_t true Retro fixed (Z.of_nat bs) n tf (map whole es)))) = crash_free Retro bs n.
Proof. exact retro_rerun_finishes_t. Qed.
Print Assumptions C19_torn_retro_rerun_finishes.

(* with the repair an unreadable marker IS a missing marker: on a well-formed world examine answers as the model's examine on
   the tree component (so the torn directory is named and removed, and the theorems of the atomic model apply to what
   follows); whatever the world, it answers so or names a directory holding a torn marker, and never raises *)
Theorem C19_torn_repaired_is_missing_marker : forall fixed bs tf, torn_wf tf ->
  examine_t true fixed bs tf = tres_of_xres (examine fixed bs (fst tf)).
Proof. exact examine_t_repaired_is_missing. Qed.
Print Assumptions C19_torn_repaired_is_missing_marker.

Theorem C19_torn_repaired_names_torn_or_is_examine : forall fixed bs tf,
  examine_t true fixed bs tf = tres_of_xres (examine fixed bs (fst tf)) \/
  exists s, examine_t true fixed bs tf = TNamed 1 s /\ is_torn (snd tf) s = true.
Proof. exact examine_t_repaired_cases. Qed.
Print Assumptions C19_torn_repaired_names_torn_or_is_examine.

Theorem C19_torn_repaired_never_raises : forall fixed bs tf w, examine_t true fixed bs tf <> TRaised w.
Proof. exact examine_t_repaired_never_raises. Qed.
Print Assumptions C19_torn_repaired_never_raises.

(* the witness of the refutation below under the repair: the torn directory is named, the run completes *)
Example C19_torn_witness_repaired :
  let r := script_run_t true Retro true 1 3 ([], []) (witness_torn ++ [full_t; full_t; full_t; full_t]) in
  snd (fst r) = [] /\ completed (fst (fst r)) = crash_free Retro 1 3 /\ nth 2 (snd r) GDone = GNamed 1 (1, 0)%Z.
Proof. exact torn_witness_repaired. Qed.

(* an interruption in the pipeline's own wrap-up AFTER its last publication (tearing entry with k - 4 = number of files + 1): the
   step counts as complete, the call does not return (exit status not 0), the rerun goes on with the next step *)
Example C19_torn_late_death :
  let r := script_run_t true Retro true 1 3 ([], []) [full_t; mkte (mke 10 canon_order) true; full_t; full_t] in
  completed (fst (fst r)) = crash_free Retro 1 3 /\ snd (fst r) = [] /\
  map (call_returns Retro 1) (snd r) = [Some true; None; Some true; Some false].
Proof. vm_compute. repeat split; reflexivity. Qed.

(* -- the script BEFORE the repair (tfix = false), kept as the witness of what the repair removed -- *)

(* on a well-formed world the old script raises (JSONDecodeError, names nothing) EXACTLY when the first problem examine
   meets is a directory with a torn marker - where a missing marker would have been named "invalid structure" *)
Theorem C19_torn_examine_raises_iff : forall fixed bs tf w, torn_wf tf ->
  (examine_t false fixed bs tf = TRaised w <->
   w = 70%Z /\ exists s, examine fixed bs (fst tf) = XNamed 1 s /\ is_torn (snd tf) s = true).
Proof. exact examine_t_raises_iff. Qed.
Print Assumptions C19_torn_examine_raises_iff.

(* a raising examine strands the script: every further call, whatever its entry, raises again, touches nothing, names nothing *)
Theorem C19_torn_raise_is_permanent : forall tfix md fixed bs n tf w,
  examine_t tfix fixed bs tf = TRaised w ->
  forall sched, script_run_t tfix md fixed bs n tf sched = (tf, repeat (GFail w) (length sched)).
Proof. exact torn_stuck. Qed.
Print Assumptions C19_torn_raise_is_permanent.

(* REFUTED for the script before the repair: "interrupted during a pipeline run with partially published outputs, rerunning
   continues the simulation".  Retrospective, batch size 1, 3 plates, marker last in every order: the run of step (1,0) is
   interrupted while its last file, the marker, is being published.  From then on EVERY rerun (any number k) fails with the
   same exception, no directory is ever named, step (1,0) is never completed.  (C19_torn_resume_correct is the statement this
   witness contradicts, with tfix = false for true.) *)
Theorem C19_resume_refuted_torn_marker :
  exists sched,
    Forall (fun te => entry_ok (te_e te) = true) sched /\
    forall k,
      let r := script_run_t false Retro true 1 3 ([], []) (sched ++ repeat (whole full) k) in
      snd (fst r) = [(1, 0)%Z] /\
      completed (fst (fst r)) = ideal Retro 1 3 1 /\
      skipn 2 (snd r) = repeat (GFail 70) k /\
      (forall w s, ~ In (GNamed w s) (snd r)).
Proof. exists witness_torn. exact torn_marker_strands. Qed.
Print Assumptions C19_resume_refuted_torn_marker.

(* the prospective variant of the witness (batch size 2, the marker of (0,1) torn) *)
Example C19_torn_witness_prospective :
  let r := script_run_t false Prosp true 2 3 ([], []) ([full_t; mkte (mke 7 canon_order) true] ++ repeat full_t 3) in
  snd (fst r) = [(0, 1)%Z] /\ skipn 2 (snd r) = repeat (GFail 70) 3.
Proof. exact torn_witness_prospective. Qed.

(* ---- the marker published before advanced_screen.h5 (asynchronous publishing; outside `entry_ok`) ---- *)

(* REFUTED without marker_last in RETROSPECTIVE mode too: every file kind is published, the order puts the marker before
   advanced_screen.h5, the run of (0,0) is interrupted between the two.  (0,0) counts as complete; get_screen_from_job_output
   falls back to training.screen.h5, so step (1,0) is started from the screen BEFORE plate 0 was revealed - not the output of
   its predecessor - and records the selection of plate 0 a second time. *)
Theorem C19_resume_refuted_marker_before_advanced :
  exists sched,
    Forall (fun e => covers (e_order e) = true) sched /\
    let r := script_run Retro true 1 3 [] sched in
    nth 1 (snd r) GDone = GLaunch (1, 0)%Z (LFirst (SFile (0, 0)%Z KTraining) (SFile (0, 0)%Z KTraining))
                                   [KThetas; KDist; KSelected; KAdvanced; KMeta] true /\
    ideal_launch Retro 1 1 = LFirst (SFile (0, 0)%Z KAdvanced) (SFile (0, 0)%Z KTraining) /\
    (exists d0 d1, get_plate (fst r) (0, 0)%Z = Some d0 /\ get_plate (fst r) (1, 0)%Z = Some d1 /\
                   f_selected d0 = Some 0%Z /\ f_selected d1 = Some 0%Z /\ f_advanced d0 = None) /\
    completed (fst r) <> ideal Retro 1 3 (length (completed (fst r))).
Proof. exact resume_refuted_marker_before_advanced. Qed.
Print Assumptions C19_resume_refuted_marker_before_advanced.

(* the same inside a batch (batch size 2, plate 1): no screen is found at all, the call raises a TypeError that names nothing,
   and however often the script is rerun no further step is ever completed *)
Theorem C19_marker_before_advanced_strands :
  Forall (fun e => covers (e_order e) = true) stuck_sched /\
  nth 2 (snd (script_run Retro true 2 4 [] stuck_sched)) GDone = GFail 9 /\
  forall m, map fst (completed (fst (script_run Retro true 2 4 [] (stuck_sched ++ repeat full m)))) = [(0, 0); (0, 1)]%Z.
Proof. exact marker_before_advanced_strands. Qed.
Print Assumptions C19_marker_before_advanced_strands.

(* ---- the nextflow side, read from /repo/nextflow on every run (harness/nf_reader.py -> Generated/SrcNfOutputs.v) ----
   nf_outputs      (process, pattern of its output: block under ${prefix}/, file name its script block writes)
   script_globs    what the translated helpers glob for, taken from the primitives of their configurations
   kind_pattern / kind_process / kind_levels (Model/NfFiles.v): the file name, process and depth the model's kinds denote *)

(* every file kind of the model is published by the process the model attributes it to: the module's output pattern matches the
   name its script block writes, and the pattern the script globs for matches that name too *)
Theorem C19_nf_outputs_are_what_the_script_globs : forall k,
  exists pat written, In (kind_process k, pat, written) nf_outputs /\
                      NfFiles.glob_match pat written = true /\ NfFiles.glob_match (kind_pattern k) written = true.
Proof. exact nf_outputs_are_what_the_script_globs. Qed.
Print Assumptions C19_nf_outputs_are_what_the_script_globs.

(* a published name is matched by the glob of ONE kind only *)
Theorem C19_nf_written_names_unambiguous : forall proc pat written k1 k2,
  In (proc, pat, written) nf_outputs ->
  NfFiles.glob_match (kind_pattern k1) written = true -> NfFiles.glob_match (kind_pattern k2) written = true -> k1 = k2.
Proof. exact nf_written_names_unambiguous. Qed.
Print Assumptions C19_nf_written_names_unambiguous.

(* the globs of the translated helpers are exactly the model's patterns, at the model's directory depth, and every kind is globbed for *)
Theorem C19_script_globs_are_kind_patterns :
  (forall pat code lv, In (pat, code, lv) script_globs ->
     exists k, kind_of_code code = Some k /\ pat = kind_pattern k /\ lv = kind_levels k) /\
  (forall k, exists code, kind_of_code code = Some k /\ In (kind_pattern k, code, kind_levels k) script_globs).
Proof. split; [exact script_globs_are_kind_patterns|exact script_globs_cover_every_kind]. Qed.
Print Assumptions C19_script_globs_are_kind_patterns.

(* every configuration that sets publishDir sets it to the --outdir the script passes; every module writes one level below it *)
Theorem C19_nf_publish_dir_is_outdir :
  nf_publish_dirs <> [] /\ Forall (fun c => snd c = publish_setting) nf_publish_dirs /\ nf_prefix = publish_prefix.
Proof. exact nf_publish_dir_is_outdir. Qed.
Print Assumptions C19_nf_publish_dir_is_outdir.

(* how --excludes=a,b reaches the policy: split on the separator the script joins with; handed on as the tuple element the
   sub-workflow picks for SELECT_NEXT_PLATE's `excludes` input; passed blank-separated after a flag that select_next_plate's own
   parser (Generated/SrcParser_select_next_plate.v) declares with nargs='+' type=int, dest batch_plate_id *)
Theorem C19_nf_excludes_chain :
  nf_excludes_tokenize = excludes_sep /\
  (exists pos, index_of nf_excludes_index nf_select_picks 0 = Some pos /\ nth_str pos nf_select_inputs = S_excludes) /\
  nf_excludes_join = S_blank /\
  match flag_option (Cli.str_of_string nf_excludes_flag) SrcParser_select_next_plate.src_parser_select_next_plate with
  | Some o => Cli.o_type o = Some Cli.TInt /\ Cli.o_nargs o = Some Cli.NPlus /\ Cli.o_action o = Cli.ActStore /\
              Cli.opt_dest o = Cli.str_of_string S_batch_plate_id
  | None => False
  end.
Proof. exact nf_excludes_chain. Qed.
Print Assumptions C19_nf_excludes_chain.
