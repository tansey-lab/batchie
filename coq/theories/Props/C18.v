(* C18 — Randomised steps are deterministic in their inputs and the given generator/seed.
   Statements only: a proof is `exact <lemma from Proofs/>` (or a split into such), a concrete example is closed by evaluation.

   What these theorems are about: the MODEL of a randomised step (Model/RandProg.v), a program that
   can obtain randomness only by asking its generator.  They say that such a step is a function of
   (inputs, answers consumed), whatever serves the answers, and that it frames out any global
   generator state.  That the IMPLEMENTATION is such a step (makes no hidden draws) is not proved
   in general; it is checked at run time by harness/c18.py (trace conformance + trapping), level `other`.
   For FOUR functions it is a theorem (last part of this file, `C18_model_is_source_*`): their source is
   re-translated on every run into a program of this very type (Generated/SrcRand.v), in which a request can
   only come from a call on the function's own generator argument, and the hand-written program is proved
   equal to the translation. *)
From Coq Require Import ZArith List Bool.
From Batchie Require Import Lib.Sexp Lib.PyRt Model.RandProg Proofs.C18RandProg Generated.SrcRand Proofs.C18Source.
Import ListNotations.
Open Scope Z_scope.

(* output and request trace depend on the program and the consumed prefix of the answers only *)
Theorem C18_explicit_stream : forall (Req Ans Out : Type) (p : prog Req Ans Out) a o rs,
  run p a = Ok (o, rs) ->
  forall a', firstn (length rs) a' = firstn (length rs) a -> run p a' = Ok (o, rs).
Proof. exact (@run_prefix). Qed.
Print Assumptions C18_explicit_stream.

(* executing against ANY generator state machine is replaying the answers it gave *)
Theorem C18_exec_is_replay : forall (Req Ans Out S : Type) (gen : S -> Req -> Ans * S) (p : prog Req Ans Out) s,
  run p (o_answers (exec gen p s)) = Ok (o_out (exec gen p s), o_reqs (exec gen p s))
  /\ length (o_answers (exec gen p s)) = length (o_reqs (exec gen p s)).
Proof. exact (@exec_is_replay). Qed.
Print Assumptions C18_exec_is_replay.

(* two worlds of any kind that gave the same answers produced the same output and request trace *)
Theorem C18_answers_determine_run :
  forall (Req Ans Out S1 S2 : Type) (g1 : S1 -> Req -> Ans * S1) (g2 : S2 -> Req -> Ans * S2)
         (p : prog Req Ans Out) s1 s2,
  o_answers (exec g1 p s1) = o_answers (exec g2 p s2) ->
  o_out (exec g1 p s1) = o_out (exec g2 p s2) /\ o_reqs (exec g1 p s1) = o_reqs (exec g2 p s2).
Proof. exact (@answers_determine_run). Qed.
Print Assumptions C18_answers_determine_run.

(* identically seeded generator (same transition function, equal state): everything is equal,
   including the final generator state *)
Theorem C18_replay_deterministic :
  forall (Req Ans Out S : Type) (g1 g2 : S -> Req -> Ans * S) (p : prog Req Ans Out) s1 s2,
  (forall s r, g1 s r = g2 s r) -> s1 = s2 -> exec g1 p s1 = exec g2 p s2.
Proof. exact (@replay_deterministic). Qed.
Print Assumptions C18_replay_deterministic.

(* world = (own generator state, global generator state); if every request is served by the own
   generator, the global state is returned untouched and has no influence *)
Theorem C18_frame :
  forall (Req Ans Out S G : Type) (gen : S -> Req -> Ans * S) (wstep : S * G -> Req -> Ans * (S * G))
         (p : prog Req Ans Out),
  (forall s g r, wstep (s, g) r = (fst (gen s r), (snd (gen s r), g))) ->
  forall s g,
    o_out (exec wstep p (s, g)) = o_out (exec gen p s)
    /\ o_reqs (exec wstep p (s, g)) = o_reqs (exec gen p s)
    /\ o_answers (exec wstep p (s, g)) = o_answers (exec gen p s)
    /\ o_final (exec wstep p (s, g)) = (o_final (exec gen p s), g).
Proof. exact (@frame). Qed.
Print Assumptions C18_frame.

(* the quantifier of the property: two runs, any prior global state, any global activity in between *)
Theorem C18_two_runs_interleaved :
  forall (Req Ans Out S G : Type) (gen : S -> Req -> Ans * S) (wstep : S * G -> Req -> Ans * (S * G))
         (p : prog Req Ans Out) (perturb : G -> G),
  (forall s g r, wstep (s, g) r = (fst (gen s r), (snd (gen s r), g))) ->
  forall s g,
    let run1 := exec wstep p (s, g) in
    let run2 := exec wstep p (s, perturb (snd (o_final run1))) in
    o_out run1 = o_out run2 /\ o_reqs run1 = o_reqs run2 /\ o_answers run1 = o_answers run2
    /\ fst (o_final run1) = fst (o_final run2)
    /\ snd (o_final run1) = g /\ snd (o_final run2) = perturb g.
Proof. exact (@two_runs_interleaved). Qed.
Print Assumptions C18_two_runs_interleaved.

(* pipelines that thread one generator through several steps consume the stream left to right *)
Theorem C18_bind_sequential :
  forall (Req Ans A B : Type) (p : prog Req Ans A) (f : A -> prog Req Ans B) a1 a2 x r1 y r2,
  run p a1 = Ok (x, r1) -> length a1 = length r1 -> run (f x) a2 = Ok (y, r2) ->
  run (bind p f) (a1 ++ a2) = Ok (y, r1 ++ r2).
Proof. exact (@bind_sequential). Qed.
Print Assumptions C18_bind_sequential.

Theorem C18_for_each_trace :
  forall (Req Ans A B : Type) (rq : A -> Req) (post : A -> Ans -> B) l answers,
  (length l <= length answers)%nat ->
  run (for_each (fun x => Draw (rq x) (fun a => Ret (post x a))) l) answers
  = Ok (map (fun xa => post (fst xa) (snd xa)) (combine l answers), map rq l).
Proof. exact (@for_each_trace). Qed.
Print Assumptions C18_for_each_trace.

(* the mirrored operations *)
Theorem C18_random_scorer_trace : forall plates answers,
  (length plates <= length answers)%nat ->
  run (random_scorer_prog plates) answers
  = Ok (map (fun xa => (fst xa, hd 0 (snd xa))) (combine plates answers),
        map (fun _ => RRandom) plates).
Proof. exact random_scorer_trace. Qed.
Print Assumptions C18_random_scorer_trace.

Theorem C18_balanced_holdout_trace : forall plates num den answers out reqs,
  run (balanced_holdout_prog plates num den) answers = Ok (out, reqs) ->
  reqs = map (balanced_holdout_req num den) (filter (fun pl => negb (snd pl)) plates).
Proof. exact balanced_holdout_trace. Qed.
Print Assumptions C18_balanced_holdout_trace.

(* the hypothesis of C18_frame is necessary: a step served from the GLOBAL component (the legacy
   Gibbs sampler's np.random.normal / np.random.gamma) depends on it and perturbs it *)
Theorem C18_global_draws_refuted :
  exists (p : prog req ans Z) (ggen : Z -> req -> ans * Z) (s g1 g2 : Z),
    o_out (exec (from_global ggen) p (s, g1)) <> o_out (exec (from_global ggen) p (s, g2))
    /\ snd (o_final (exec (from_global ggen) p (s, g1))) <> g1.
Proof. exact global_draws_refuted. Qed.
Print Assumptions C18_global_draws_refuted.

(* ---------------------------------------------------------------- non-vacuity *)

(* random scorer on plates 3,1: answers consumed in plate order; a third answer is ignored *)
Example C18_random_scorer_example :
  run (random_scorer_prog [3; 1]) [[50]; [70]; [90]] = Ok ([(3, 50); (1, 70)], [RRandom; RRandom]).
Proof. vm_compute. reflexivity. Qed.
Example C18_random_scorer_short_example : run (random_scorer_prog [3; 1]) [[50]] = Err 1.
Proof. vm_compute. reflexivity. Qed.

(* balanced hold-out: plates {0,2} unobserved, {1} observed, {3,4,5} unobserved, fraction 1/2 *)
Example C18_balanced_holdout_example :
  run (balanced_holdout_prog [([0; 2], false); ([1], true); ([3; 4; 5], false)] 1 2) [[2]; [5; 3]]
  = Ok ([2; 3; 5], [RChoice [0; 2] 1 false; RChoice [3; 4; 5] 2 false]).
Proof. vm_compute. reflexivity. Qed.
Example C18_balanced_holdout_contract_example :
  answers_ok [RChoice [0; 2] 1 false; RChoice [3; 4; 5] 2 false] [[2]; [5; 3]] = true
  /\ answers_ok [RChoice [0; 2] 1 false; RChoice [3; 4; 5] 2 false] [[2]; [5; 5]] = false.
Proof. vm_compute. split; reflexivity. Qed.

Example C18_random_holdout_example :
  run (random_holdout_prog 5 1 2) [[4; 0; 2]] = Ok ([0; 2; 4], [RChoice [0; 1; 2; 3; 4] 3 false]).
Proof. vm_compute. reflexivity. Qed.

Example C18_dbal_subsample_example :
  run (dbal_subsample_prog 8 30) [[1; 2; 3]] = Ok (Ok [1; 2; 3], [RChoiceN 56 30 false])
  /\ run (dbal_subsample_prog 2 30) [] = Ok (Err 4, []).
Proof. vm_compute. split; reflexivity. Qed.

(* the frame hypothesis is satisfiable (own_only) and the conclusion is non-trivial: a counter
   generator as own state, any global value *)
Example C18_frame_hypothesis_example :
  forall (s g : Z) (r : req), own_only counter_gen (s, g) r = (fst (counter_gen s r), (snd (counter_gen s r), g)).
Proof. exact (@own_only_is_own req ans Z Z counter_gen). Qed.
Example C18_frame_example :
  exec (own_only counter_gen) (random_scorer_prog [3; 1]) (10, 77)
  = mk_outcome [(3, 10); (1, 11)] [RRandom; RRandom] [[10]; [11]] (12, 77).
Proof. vm_compute. reflexivity. Qed.
(* ... and the same program served from the global state reads and moves it *)
Example C18_leak_example :
  exec (from_global counter_gen) (random_scorer_prog [3; 1]) (10, 77)
  = mk_outcome [(3, 77); (1, 78)] [RRandom; RRandom] [[77]; [78]] (10, 79).
Proof. vm_compute. reflexivity. Qed.

(* sequential composition: scorer on [3] then on [1] with one stream = scorer on [3;1] *)
Example C18_bind_example :
  run (bind (random_scorer_prog [3]) (fun x => bind (random_scorer_prog [1]) (fun y => Ret (x ++ y)))) [[50]; [70]]
  = Ok ([(3, 50); (1, 70)], [RRandom; RRandom]).
Proof. vm_compute. reflexivity. Qed.

(* ---------------------------------------------------------------- source-translation links
   Generated/SrcRand.v is the translation (harness/py2gal.py, configurations C18_* of harness/src_functions.py) of
     RandomScorer.score, create_random_holdout, create_plate_balanced_holdout_set_among_masked_plates (whole functions)
     and of the statement run of dbal_fast_gauss_scoring_vectorized that sub-samples the theta triples
   into programs of type [rprog T] = [prog req ans (result T)].  The translator is fail-closed: the only primitives that
   contain a request are the three calls on the function's own generator argument (rng.random(), rng.choice(array, k,
   replace=False), rng.choice(n, size=k, replace=False)); a call of a module-level numpy.random function, of an
   argument-less default_rng(), or any other undeclared call inside such a function is refused and these theorems are not
   re-established.  Being of type [prog], the translated source is subject to every theorem above (explicit stream,
   exec = replay, frame, two interleaved runs) directly; the links below say in addition that it is the hand-written
   program the trace theorems and the trace conformance are about.
   [prog_eq_on okA p q]: same requests in the same order and the same output, for all answers admitted by okA. *)

(* what program equality means for replay and for execution against a generator *)
Theorem C18_prog_eq_replay : forall (Req Ans Out : Type) (p q : prog Req Ans Out),
  prog_eq_on any_answer p q -> forall answers, run p answers = run q answers.
Proof. exact peq_run_any. Qed.
Print Assumptions C18_prog_eq_replay.

Theorem C18_prog_eq_replay_valid : forall (Req Ans : Type) (okA : Req -> Ans -> bool) (Out : Type) (p q : prog Req Ans Out),
  prog_eq_on okA p q ->
  forall answers o rs, run p answers = Ok (o, rs) -> all_ok okA rs answers = true -> run q answers = Ok (o, rs).
Proof. exact (@peq_run). Qed.
Print Assumptions C18_prog_eq_replay_valid.

Theorem C18_prog_eq_exec : forall (Req Ans : Type) (okA : Req -> Ans -> bool) (Out S : Type) (gen : S -> Req -> Ans * S)
                                  (p q : prog Req Ans Out),
  (forall s r, okA r (fst (gen s r)) = true) -> prog_eq_on okA p q -> forall s, exec gen p s = exec gen q s.
Proof. exact (@peq_exec). Qed.
Print Assumptions C18_prog_eq_exec.

(* RandomScorer.score; [plates] = the keys of the dict in iteration order, pairwise distinct in every reachable call *)
Theorem C18_model_is_source_random_scorer : forall plates, NoDup plates ->
  prog_eq_on any_answer (src_random_scorer_score plates) (lift_ok (random_scorer_prog plates)).
Proof. exact src_random_scorer_is_model. Qed.
Print Assumptions C18_model_is_source_random_scorer.

(* create_random_holdout, for ANY screen type, size function and meaning of the two Screen(...) constructions;
   answers restricted to numpy's contract (rng.choice returns k distinct elements of its pool) *)
Theorem C18_model_is_source_random_holdout :
  forall (Scr : Type) (scr_size : Scr -> Z) (mk_keep mk_hold : Scr -> list bool -> result Scr) num den screen,
  prog_eq_on valid_answer
    (src_random_holdout Scr scr_size mk_keep mk_hold num den screen)
    (if (num <? 0) || (den <? num) then Ret (Err 5)
     else bind (random_holdout_prog (scr_size screen) num den)
               (fun held => Ret (holdout_finish mk_keep mk_hold screen (mask_of (scr_size screen) held)))).
Proof. exact src_random_holdout_is_model. Qed.
Print Assumptions C18_model_is_source_random_holdout.

(* create_plate_balanced_holdout_set_among_masked_plates.  Hypotheses = facts about every reachable screen (every row
   lies on exactly one plate): the plates' index lists have screen.size entries in all, each a row number *)
Theorem C18_model_is_source_balanced_holdout :
  forall (Scr : Type) (scr_size : Scr -> Z) (scr_plates : Scr -> list plate_t)
         (mk_keep mk_hold : Scr -> list bool -> result Scr) num den screen,
  scr_size screen = zlen (concat (map fst (scr_plates screen))) ->
  (forall pl i, In pl (scr_plates screen) -> In i (fst pl) -> 0 <= i < scr_size screen) ->
  prog_eq_on valid_answer
    (src_balanced_holdout_prog Scr scr_size scr_plates mk_keep mk_hold num den screen)
    (if (num <? 0) || (den <? num) then Ret (Err 5)
     else bind (balanced_holdout_prog (scr_plates screen) num den)
               (fun held => Ret (holdout_finish mk_keep mk_hold screen (mask_of (scr_size screen) held)))).
Proof. exact src_balanced_holdout_is_model. Qed.
Print Assumptions C18_model_is_source_balanced_holdout.

(* the triple sub-sampling of dbal_fast_gauss_scoring_vectorized: the same term *)
Theorem C18_model_is_source_dbal_subsample : forall n_thetas max_combos,
  src_dbal_subsample n_thetas max_combos = dbal_subsample_prog n_thetas max_combos.
Proof. exact src_dbal_subsample_is_model. Qed.
Print Assumptions C18_model_is_source_dbal_subsample.

(* FixedSizeSmoother._smooth_plates (whole method), for ANY screen type, size / plates functions and meaning of
   screen.subset(v).to_screen(); all answers *)
Theorem C18_model_is_source_fixed_size_smoother :
  forall (Scr : Type) (scr_size : Scr -> Z) (scr_plates : Scr -> list (list bool)) (mk_subset : Scr -> list bool -> result Scr)
         plate_size screen,
  prog_eq_on any_answer
    (src_fixed_size_smooth Scr scr_size scr_plates mk_subset plate_size screen)
    (bind (size_smoother_prog (scr_plates screen) (scr_size screen) plate_size) (fun v => Ret (mk_subset screen v))).
Proof. exact src_fixed_size_is_model. Qed.
Print Assumptions C18_model_is_source_fixed_size_smoother.

(* OptimalSizeSmoother._smooth_plates (whole method); the three numpy statements that pick the size are ANY request-free
   function [opt_size] of the list of plate sizes, possibly raising *)
Theorem C18_model_is_source_optimal_size_smoother :
  forall (Scr : Type) (scr_size : Scr -> Z) (scr_plates : Scr -> list (list bool)) (mk_subset : Scr -> list bool -> result Scr)
         (opt_size : list Z -> result Z) screen,
  prog_eq_on any_answer
    (src_optimal_size_smooth Scr scr_size scr_plates mk_subset opt_size screen)
    (match opt_size (map count_true (scr_plates screen)) with
     | Err e => Ret (Err e)
     | Ok t => bind (size_smoother_prog (scr_plates screen) (scr_size screen) t) (fun v => Ret (mk_subset screen v))
     end).
Proof. exact src_optimal_size_is_model. Qed.
Print Assumptions C18_model_is_source_optimal_size_smoother.

(* PlatePermutationPlateGenerator._generate_plates (whole method): everything around its ONE request is request-free, for ANY
   screen type and meaning of screen.subset(v).to_screen(), of the Screen(...) construction and of a.combine(b) *)
Theorem C18_model_is_source_plate_permutation :
  forall (Scr : Type) (scr_size : Scr -> Z) (scr_plate_names : Scr -> list Z) (mk_subset : Scr -> list bool -> result Scr)
         (mk_renamed : Scr -> list Z -> result Scr) (mk_combine : Scr -> Scr -> result Scr) force screen,
  prog_eq_on any_answer
    (src_plate_permutation Scr scr_size scr_plate_names mk_subset mk_renamed mk_combine force screen)
    (match pp_split mk_subset screen (pp_selection force (scr_plate_names screen) (scr_size screen)) with
     | Err e => Ret (Err e)
     | Ok (tp, np) => bind (plate_permutation_prog (scr_plate_names tp))
                           (fun new_names => Ret (pp_finish mk_renamed mk_combine tp np new_names))
     end).
Proof. exact src_plate_permutation_is_model. Qed.
Print Assumptions C18_model_is_source_plate_permutation.

(* SampleSegregatingPermutationPlateGenerator._generate_plates (whole method) *)
Theorem C18_model_is_source_sample_segregating :
  forall (Scr : Type) (scr_size : Scr -> Z) (scr_sample_ids : Scr -> list Z) (scr_sample_rows : Scr -> Z -> list Z)
         (mk_labelled : Scr -> list Z -> result Scr) max_plate_size screen,
  prog_eq_on any_answer
    (src_sample_segregating Scr scr_size scr_sample_ids scr_sample_rows mk_labelled max_plate_size screen)
    (bind (sample_seg_prog (map (scr_sample_rows screen) (scr_sample_ids screen)) (scr_size screen) max_plate_size)
          (fun r => Ret (match r with Ok labels => mk_labelled screen labels | Err e => Err e end))).
Proof. exact src_sample_segregating_is_model. Qed.
Print Assumptions C18_model_is_source_sample_segregating.

(* the trace theorems, now about the translated source *)
Theorem C18_source_fixed_size_smoother_trace :
  forall (Scr : Type) (scr_size : Scr -> Z) (scr_plates : Scr -> list (list bool)) (mk_subset : Scr -> list bool -> result Scr)
         plate_size screen answers out reqs,
  run (src_fixed_size_smooth Scr scr_size scr_plates mk_subset plate_size screen) answers = Ok (out, reqs) ->
  reqs = map (size_smoother_req (scr_size screen) plate_size) (filter (fun v => plate_size <? count_true v) (scr_plates screen)).
Proof. exact src_fixed_size_trace. Qed.
Print Assumptions C18_source_fixed_size_smoother_trace.

Theorem C18_source_random_scorer_trace : forall plates answers, NoDup plates ->
  (length plates <= length answers)%nat ->
  run (src_random_scorer_score plates) answers
  = Ok (Ok (map (fun xa => (fst xa, hd 0 (snd xa))) (combine plates answers)), map (fun _ => RRandom) plates).
Proof. exact src_random_scorer_trace. Qed.
Print Assumptions C18_source_random_scorer_trace.

Theorem C18_source_balanced_holdout_trace :
  forall (Scr : Type) (scr_size : Scr -> Z) (scr_plates : Scr -> list plate_t)
         (mk_keep mk_hold : Scr -> list bool -> result Scr) num den screen answers out reqs,
  scr_size screen = zlen (concat (map fst (scr_plates screen))) ->
  (forall pl i, In pl (scr_plates screen) -> In i (fst pl) -> 0 <= i < scr_size screen) ->
  (num <? 0) || (den <? num) = false ->
  run (src_balanced_holdout_prog Scr scr_size scr_plates mk_keep mk_hold num den screen) answers = Ok (out, reqs) ->
  all_ok valid_answer reqs answers = true ->
  reqs = map (balanced_holdout_req num den) (filter (fun pl => negb (snd pl)) (scr_plates screen)).
Proof. exact src_balanced_holdout_trace. Qed.
Print Assumptions C18_source_balanced_holdout_trace.

(* non-vacuity: the translations compute, and agree with the hand-written programs' examples above *)
Example C18_source_random_scorer_example :
  run (src_random_scorer_score [3; 1]) [[50]; [70]; [90]] = Ok (Ok [(3, 50); (1, 70)], [RRandom; RRandom]).
Proof. vm_compute. reflexivity. Qed.

(* a toy screen type: the screen is its observation mask; the kept / held screens are the vectors themselves *)
Example C18_source_random_holdout_example :
  run (src_random_holdout (list bool) zlen (fun _ v => Ok (map negb v)) (fun _ v => Ok v) 1 2 [false; false; false; false; false])
      [[4; 0; 2]]
  = Ok (Ok ([false; true; false; true; false], [true; false; true; false; true]), [RChoice [0; 1; 2; 3; 4] 3 false])
  /\ mask_of 5 [0; 2; 4] = [true; false; true; false; true].
Proof. vm_compute. split; reflexivity. Qed.
(* an answer outside numpy's contract (row 7 of 5) is the IndexError of the index-array store, a fraction above 1 the ValueError *)
Example C18_source_random_holdout_raises_example :
  run (src_random_holdout (list bool) zlen (fun _ v => Ok (map negb v)) (fun _ v => Ok v) 1 2 [false; false; false; false; false])
      [[7; 0; 2]] = Ok (Err 98, [RChoice [0; 1; 2; 3; 4] 3 false])
  /\ run (src_random_holdout (list bool) zlen (fun _ v => Ok (map negb v)) (fun _ v => Ok v) 3 2 [false]) [] = Ok (Err 5, []).
Proof. vm_compute. split; reflexivity. Qed.

(* the hypotheses of the balanced link are satisfiable: 6 rows on the plates {0,2}, {1} (observed), {3,4,5} *)
Example C18_source_balanced_holdout_example :
  let plates := [([0; 2], false); ([1], true); ([3; 4; 5], false)] in
  run (src_balanced_holdout_prog unit (fun _ => 6) (fun _ => plates) (fun _ v => Ok tt) (fun _ v => if nth 2 v false then Ok tt else Err 7)
                                 1 2 tt) [[2]; [5; 3]]
  = Ok (Ok (tt, tt), [RChoice [0; 2] 1 false; RChoice [3; 4; 5] 2 false])
  /\ 6 = zlen (concat (map fst plates)).
Proof. vm_compute. split; reflexivity. Qed.

Example C18_source_dbal_subsample_example :
  run (src_dbal_subsample 8 30) [[1; 2; 3]] = Ok (Ok [1; 2; 3], [RChoiceN 56 30 false])
  /\ run (src_dbal_subsample 2 30) [] = Ok (Err 4, []).
Proof. vm_compute. split; reflexivity. Qed.

(* 6 rows; plates {0,1,2}, {3,4}, {5}; size 2: the first is sub-sampled to the answer, the second kept, the third dropped *)
Example C18_source_fixed_size_example :
  let plates := [[true; true; true; false; false; false]; [false; false; false; true; true; false];
                 [false; false; false; false; false; true]] in
  run (src_fixed_size_smooth unit (fun _ => 6) (fun _ => plates) (fun _ v => if nth 5 v false then Err 7 else Ok tt) 2 tt) [[2; 0]]
  = Ok (Ok tt, [RChoice [0; 1; 2] 2 false])
  /\ run (size_smoother_prog plates 6 2) [[2; 0]] = Ok ([true; false; true; true; true; false], [RChoice [0; 1; 2] 2 false]).
Proof. vm_compute. split; reflexivity. Qed.
Example C18_source_optimal_size_example :
  let plates := [[true; true; true; false; false; false]; [false; false; false; true; true; false]] in
  run (src_optimal_size_smooth unit (fun _ => 6) (fun _ => plates) (fun _ _ => Ok tt) (fun sizes => Ok (fold_right Z.min 9 sizes)) tt) [[1; 2]]
  = Ok (Ok tt, [RChoice [0; 1; 2] 2 false])
  /\ run (src_optimal_size_smooth unit (fun _ => 6) (fun _ => plates) (fun _ _ => Ok tt) (fun _ => Err 3) tt) [] = Ok (Err 3, []).
Proof. vm_compute. split; reflexivity. Qed.

(* plate names 7 7 8 9 with 9 force-included: the names 7 7 8 of the first three rows are permuted *)
Example C18_source_plate_permutation_example :
  run (src_plate_permutation (list Z) zlen (fun s => s) (fun s v => Ok (map snd (filter fst (combine v s))))
                             (fun _ new_names => Ok new_names) (fun a b => Ok (a ++ b)) (Some [9]) [7; 7; 8; 9]) [[8; 7; 7]]
  = Ok (Ok [8; 7; 7; 9], [RPermutation [7; 7; 8]])
  /\ valid_answer (RPermutation [7; 7; 8]) [8; 7; 7] = true /\ valid_answer (RPermutation [7; 7; 8]) [8; 8; 7] = false.
Proof. vm_compute. repeat split; reflexivity. Qed.

(* samples 0 (rows 0 2 4 5 6) and 1 (rows 1 3), at most 2 rows per plate: sample 0 is permuted and split 2 + 2 + 1 *)
Example C18_source_sample_segregating_example :
  run (src_sample_segregating unit (fun _ => 7) (fun _ => [0; 1]) (fun _ i => if i =? 0 then [0; 2; 4; 5; 6] else [1; 3])
                              (fun _ labels => if nth 6 labels 0 =? 1 then Ok tt else Err 7) 2 tt) [[5; 0; 6; 2; 4]]
  = Ok (Ok tt, [RPermutation [0; 2; 4; 5; 6]])
  /\ run (sample_seg_prog [[0; 2; 4; 5; 6]; [1; 3]] 7 2) [[5; 0; 6; 2; 4]]
     = Ok (Ok [0; 3; 1; 3; 2; 0; 1], [RPermutation [0; 2; 4; 5; 6]])
  /\ run (sample_seg_prog [[0; 2; 4]] 3 0) [] = Ok (Err 94, []).
Proof. vm_compute. repeat split; reflexivity. Qed.

(* ---- the command-line wrapper calculate_scores.main is what the source says NOW ----
   `src_cli_calculate_scores` is the whole function main of /repo's current batchie/cli/calculate_scores.py and
   `src_get_prng_from_seed_argument` the whole function of cli/argument_parsing.py, re-translated on every run (harness/py2gal.py,
   configurations CLI_CALCULATE_SCORES / CLI_PRNG -> Generated/SrcCli.v).  The wrapper hands score_chunk the generator derived from
   --seed (rng = Some ..., never the library's unseeded default) - the defect repaired by 9b38441 was exactly its absence.
   Model/Cli.v: the parsed arguments are a record of the plain argparse results (get_args() is not translated), `L` is a
   record of the library functions the wrapper calls over abstract types (each component stands for the library function
   of that name with its parameter list; `*_load_*` = what loading the file at a path yields), a main() denotes the list
   of (path, content) files it writes, Err = the exception that ends it.  The links hold for EVERY such record. *)
From Batchie Require Lib.PyRt Model.Cli Generated.SrcCli Proofs.C06SourceCli.
Theorem C18_model_is_source_cli_get_prng_from_seed_argument : forall (mix : Z -> Z) (seed : Z),
  SrcCli.src_get_prng_from_seed_argument mix seed
  = Cli.prng_of_seed mix seed.
Proof. exact C06SourceCli_Prng.src_get_prng_is_model. Qed.
Print Assumptions C18_model_is_source_cli_get_prng_from_seed_argument.

Theorem C18_model_is_source_cli_calculate_scores : forall (Scr Pl Th Dm Sc H : Type) (L : Cli.cs_lib Scr Pl Th Dm Sc H) (mix : Z -> Z) (a : Cli.cs_args),
  SrcCli.src_cli_calculate_scores Scr Pl Th Dm Sc H L mix a
  = Cli.cli_calculate_scores L mix a.
Proof. exact C06SourceCli_Scores.src_cli_calculate_scores_is_model. Qed.
Print Assumptions C18_model_is_source_cli_calculate_scores.

(* ---- the argument-handling glue of the command-line wrappers is what the source says NOW ----
   How command-line strings become the class and the parameter dict that main() instantiates.  Re-translated on every run
   (harness/py2gal.py, configurations ARGS_* of harness/src_functions.py -> Generated/SrcCliArgs.v): the WHOLE functions
   str_to_bool, cast_dict_to_type and KVAppendAction.__call__ of cli/argument_parsing.py, get_class / create_instance /
   get_required_init_args_with_annotations of introspection.py, the WHOLE function get_args of cli/calculate_scores.py
   (parser.parse_args() is the primitive that yields the raw namespace) and main() once more as a whole command, in which
   get_args() is the translated get_args and `args.scorer_cls( **args.scorer_params)` is `construct` on the two namespace
   attributes.  Model: the last part of Model/Cli.v (a str = the list of its code points; dicts = insertion-ordered association
   lists; `pyprims` = s.lower(), int(s), float(s), the call of another annotation; `pyworld` = importlib / pkgutil / inspect).
   Every statement holds for EVERY record of primitives. *)
From Batchie Require Proofs.C18SourceArgs_StrBool Proofs.C18SourceArgs_Cast Proofs.C18SourceArgs_KV Proofs.C18SourceArgs_Cmd Proofs.C18Args Proofs.C18SourceIntrospect Generated.SrcCliArgs.

Theorem C18_model_is_source_cli_args_str_to_bool : forall (F O : Type) (P : Cli.pyprims F O) (s : Cli.str),
  SrcCliArgs.src_str_to_bool F O P s = Cli.str_to_bool P s.
Proof. exact (@C18SourceArgs_StrBool.src_str_to_bool_is_model). Qed.
Print Assumptions C18_model_is_source_cli_args_str_to_bool.

Theorem C18_model_is_source_cli_args_cast_dict_to_type : forall (F O : Type) (P : Cli.pyprims F O)
  (k_v_string : list (Cli.str * Cli.str)) (k_v_types : list (Cli.str * Cli.ann)),
  SrcCliArgs.src_cast_dict_to_type F O P k_v_string k_v_types = Cli.cast_dict P k_v_string k_v_types.
Proof. exact C18SourceArgs_Cast.src_cast_dict_is_model. Qed.
Print Assumptions C18_model_is_source_cli_args_cast_dict_to_type.

(* `dest` = the namespace seen at the action's destination attribute (None before the first occurrence of the option) *)
Theorem C18_model_is_source_cli_args_kv_append_action : forall (dest : option (list (Cli.str * Cli.str))) (values : list Cli.str),
  SrcCliArgs.src_kv_append dest values = Cli.kv_append dest values.
Proof. exact C18SourceArgs_KV.src_kv_append_is_model. Qed.
Print Assumptions C18_model_is_source_cli_args_kv_append_action.

Theorem C18_model_is_source_cli_args_get_args : forall (Cls F O : Type) (I : Cli.introspect Cls) (P : Cli.pyprims F O)
  (raw : Cli.cs_ns Cls F O),
  SrcCliArgs.src_cs_get_args Cls F O I P raw = Cli.cs_get_args I P raw.
Proof. exact C18SourceArgs_Cmd.src_cs_get_args_is_model. Qed.
Print Assumptions C18_model_is_source_cli_args_get_args.

(* the whole command: cs_mk_scorer of C18_model_is_source_cli_calculate_scores IS the class found under the name --scorer,
   instantiated with the --scorer-param values cast by the annotations of its required __init__ arguments *)
Theorem C18_model_is_source_cli_args_calculate_scores :
  forall (Cls F O : Type) (I : Cli.introspect Cls) (P : Cli.pyprims F O) (Scr Pl Th Dm Sc H : Type)
         (construct : Cls -> list (Cli.str * Cli.pval F O) -> result Sc) (L : Cli.cs_lib Scr Pl Th Dm Sc H) (mix : Z -> Z)
         (raw : Cli.cs_ns Cls F O),
  SrcCliArgs.src_cli_calculate_scores_cmd Cls F O I P Scr Pl Th Dm Sc H construct L mix raw
  = (dor cp <- Cli.resolve I P Cli.BScorer (Cli.cs_scorer raw) (Cli.cs_scorer_param raw);
     Cli.cli_calculate_scores (Cli.cs_with_mk L (Cli.instantiate construct (fst cp) (snd cp))) mix (Cli.cs_plain raw)).
Proof. exact C18SourceArgs_Cmd.src_cli_calculate_scores_cmd_spelled. Qed.
Print Assumptions C18_model_is_source_cli_args_calculate_scores.

Theorem C18_model_is_source_cli_args_get_class : forall (Mod Obj : Type) (W : Cli.pyworld Mod Obj)
  (package_name class_name : Cli.str) (base : Cli.base_class),
  SrcCliArgs.src_get_class Mod Obj W package_name class_name base = Cli.get_class W package_name class_name base.
Proof. exact (@C18SourceIntrospect.src_get_class_is_model). Qed.
Print Assumptions C18_model_is_source_cli_args_get_class.

Theorem C18_model_is_source_cli_args_create_instance : forall (Mod Obj : Type) (W : Cli.pyworld Mod Obj) (V Inst : Type)
  (construct : Obj -> V -> result Inst) (package_name class_name : Cli.str) (base : Cli.base_class) (kwargs : V),
  SrcCliArgs.src_create_instance Mod Obj W V Inst construct package_name class_name base kwargs
  = Cli.create_instance W construct package_name class_name base kwargs.
Proof. exact (@C18SourceIntrospect.src_create_instance_is_model). Qed.
Print Assumptions C18_model_is_source_cli_args_create_instance.

Theorem C18_model_is_source_cli_args_get_required_init_args_with_annotations :
  forall (Mod Obj : Type) (W : Cli.pyworld Mod Obj) (c : option Obj),
  SrcCliArgs.src_get_required_init_args Mod Obj W c = Cli.required_args W c.
Proof. exact (@C18SourceIntrospect.src_get_required_init_args_is_model). Qed.
Print Assumptions C18_model_is_source_cli_args_get_required_init_args_with_annotations.

(* everything from the source: the introspection record made of the translated get_class / get_required_init_args... *)
Theorem C18_model_is_source_cli_args_calculate_scores_world :
  forall (Mod Obj F O : Type) (W : Cli.pyworld Mod Obj) (P : Cli.pyprims F O) (Scr Pl Th Dm Sc H : Type)
         (construct : Obj -> list (Cli.str * Cli.pval F O) -> result Sc) (L : Cli.cs_lib Scr Pl Th Dm Sc H) (mix : Z -> Z)
         (raw : Cli.cs_ns Obj F O),
  SrcCliArgs.src_cli_calculate_scores_cmd Obj F O (C18SourceIntrospect.introspect_src W) P Scr Pl Th Dm Sc H construct L mix raw
  = Cli.cli_calculate_scores_cmd (Cli.introspect_of W) P construct L mix raw.
Proof. exact C18SourceIntrospect.src_cli_calculate_scores_cmd_world. Qed.
Print Assumptions C18_model_is_source_cli_args_calculate_scores_world.

(* -- what the linked models say (hence the source): booleans -- *)
(* an unknown spelling raises; the ten known ones (after lower()) give their value; 'no' & co. can never read as True *)
Theorem C18_cli_args_unknown_bool_raises : forall (F O : Type) (P : Cli.pyprims F O) (s : Cli.str),
  ~ In (Cli.p_lower P s) Cli.true_words -> ~ In (Cli.p_lower P s) Cli.false_words -> Cli.str_to_bool P s = Err 22.
Proof. exact (@C18Args.str_to_bool_unknown). Qed.
Print Assumptions C18_cli_args_unknown_bool_raises.

Theorem C18_cli_args_bool_spellings : forall (F O : Type) (P : Cli.pyprims F O) (s : Cli.str),
  (In (Cli.p_lower P s) Cli.true_words -> Cli.str_to_bool P s = Ok true) /\
  (In (Cli.p_lower P s) Cli.false_words -> Cli.str_to_bool P s = Ok false) /\
  (forall b, Cli.str_to_bool P s = Ok b -> In (Cli.p_lower P s) (if b then Cli.true_words else Cli.false_words)).
Proof. exact (@C18Args.bool_spellings). Qed.
Print Assumptions C18_cli_args_bool_spellings.

(* -- the converter table, entry by entry: bool through str_to_bool (NOT bool(s)), int / float / str through the builtin,
      an unannotated argument cannot be given (TypeError), any other annotation is called on the string -- *)
Theorem C18_cli_args_converter_table : forall (F O : Type) (P : Cli.pyprims F O) (v : Cli.str),
  Cli.convert P Cli.ABool v = (dor b <- Cli.str_to_bool P v; Ok (Cli.VBool b)) /\
  Cli.convert P Cli.AInt v = (dor z <- Cli.p_int P v; Ok (Cli.VInt z)) /\
  Cli.convert P Cli.AFloat v = (dor f <- Cli.p_float P v; Ok (Cli.VFloat f)) /\
  Cli.convert P Cli.AStr v = Ok (Cli.VStr v) /\
  Cli.convert P Cli.ANone v = Err 26 /\
  (forall n, Cli.convert P (Cli.AOther n) v = (dor o <- Cli.p_call_other P n v; Ok (Cli.VOther o))).
Proof. exact (@C18Args.converter_table). Qed.
Print Assumptions C18_cli_args_converter_table.

(* -- cast_dict_to_type: exactly the typed values, in the dict's order; the first failing item's exception (KeyError 25 for a KEY
      that is not a required argument, else the converter's) -- *)
Theorem C18_cli_args_cast_exact : forall (F O : Type) (P : Cli.pyprims F O) (d : list (Cli.str * Cli.str))
  (types : list (Cli.str * Cli.ann)),
  NoDup (map fst d) -> Cli.cast_dict P d types = res_map_all (C18Args.cast_item P types) d.
Proof. exact (@C18Args.cast_dict_exact). Qed.
Print Assumptions C18_cli_args_cast_exact.

(* -- KVAppendAction on one word: KEY=VALUE without further '=' is stored (a repeated KEY keeps its place, the later VALUE
      wins); a word without '=' is an ArgumentError; and - maxsplit is 2, not 1 - so is a word whose VALUE contains '=' -- *)
Theorem C18_cli_args_kv_word : forall (dest : option (list (Cli.str * Cli.str))) (k v w : Cli.str),
  (~ In 61 k -> ~ In 61 v ->
   Cli.kv_append dest [k ++ 61 :: v] = Ok (Some (kdict_set PyRt.str_eqb (opt_or_empty dest) k v))) /\
  (~ In 61 w -> Cli.kv_append dest [w] = Err 21) /\
  (~ In 61 k -> In 61 v -> Cli.kv_append dest [k ++ 61 :: v] = Err 21).
Proof. exact C18Args.kv_word_cases. Qed.
Print Assumptions C18_cli_args_kv_word.

(* -- end to end: the words KEY=VALUE ... of one option (distinct keys, no '=' inside keys or values), accumulated by the action
      in command-line order and cast by get_args(), are exactly the typed values, in command-line order -- *)
Theorem C18_cli_args_words_cast_exactly : forall (F O : Type) (P : Cli.pyprims F O) (kvs : list (Cli.str * Cli.str))
  (types : list (Cli.str * Cli.ann)),
  (forall kv, In kv kvs -> ~ In 61 (fst kv) /\ ~ In 61 (snd kv)) -> NoDup (map fst kvs) ->
  (dor d <- Cli.kv_parse None (map C18Args.kv_word kvs); Cli.cast_params P d types)
  = res_map_all (C18Args.cast_item P types) kvs.
Proof. exact (@C18Args.words_cast_exactly). Qed.
Print Assumptions C18_cli_args_words_cast_exactly.

(* -- class lookup: what get_class returns is truthy and a subclass of the requested base class; a name no module of the package
      defines ends get_args() with TypeError "The given object is not a class." (29); the required-argument table never holds
      the empty marker nor "self" -- *)
Theorem C18_cli_args_get_class_subclass : forall (Mod Obj : Type) (W : Cli.pyworld Mod Obj) (package_name class_name : Cli.str)
  (base : Cli.base_class) (o : Obj),
  Cli.get_class W package_name class_name base = Ok (Some o) ->
  Cli.w_truthy W o = true /\ Cli.w_issubclass W o base = Ok true.
Proof. exact (@C18SourceIntrospect.get_class_some). Qed.
Print Assumptions C18_cli_args_get_class_subclass.

Theorem C18_cli_args_unknown_class_is_type_error : forall (Mod Obj : Type) (W : Cli.pyworld Mod Obj) (F O : Type)
  (P : Cli.pyprims F O) (base : Cli.base_class) (name : Cli.str) (param : option (list (Cli.str * Cli.str))),
  Cli.get_class W Cli.s_batchie name base = Ok None -> Cli.resolve (Cli.introspect_of W) P base name param = Err 29.
Proof. exact (@C18SourceIntrospect.unknown_class_is_type_error). Qed.
Print Assumptions C18_cli_args_unknown_class_is_type_error.

Theorem C18_cli_args_required_args_table : forall (Mod Obj : Type) (W : Cli.pyworld Mod Obj) (c : option Obj)
  (req : list (Cli.str * Cli.ann)),
  Cli.required_args W c = Ok req -> forall k t, In (k, t) req -> t <> Cli.AEmpty /\ k <> Cli.s_self.
Proof. exact (@C18SourceIntrospect.required_args_no_empty). Qed.
Print Assumptions C18_cli_args_required_args_table.

(* concrete instances (ASCII lower-casing; int() of one digit; no floats / other annotations): "k=3" "flag=No" are cast to
   k = 3 (int), flag = False (bool); "flag=Nope" raises (22); "k=a=b" is refused by the action (21); an optional argument
   (not in the required table) is a KeyError (25) *)
Definition ex_lower (s : Cli.str) : Cli.str := map (fun c => if (65 <=? c) && (c <=? 90) then c + 32 else c) s.
Definition ex_int (s : Cli.str) : result Z :=
  match s with [c] => if (48 <=? c) && (c <=? 57) then Ok (c - 48) else Err 27 | _ => Err 27 end.
Definition ex_prims : Cli.pyprims unit unit :=
  Cli.mk_pyprims ex_lower ex_int (fun _ => Err 28) (fun _ _ => Err 26).
Definition ex_types : list (Cli.str * Cli.ann) := [([107], Cli.AInt); ([102; 108; 97; 103], Cli.ABool)].
Example C18_cli_args_example :
  (dor d <- Cli.kv_parse None [[107; 61; 51]; [102; 108; 97; 103; 61; 78; 111]]; Cli.cast_params ex_prims d ex_types)
  = Ok [([107], Cli.VInt 3); ([102; 108; 97; 103], Cli.VBool false)] /\
  (dor d <- Cli.kv_parse None [[102; 108; 97; 103; 61; 78; 111; 112; 101]]; Cli.cast_params ex_prims d ex_types) = Err 22 /\
  Cli.kv_parse None [[107; 61; 97; 61; 98]] = Err 21 /\
  (dor d <- Cli.kv_parse None [[122; 61; 51]]; Cli.cast_params ex_prims d ex_types) = Err 25 /\
  SrcCliArgs.src_str_to_bool unit unit ex_prims [89; 69; 83] = Ok true.
Proof. vm_compute. repeat split; reflexivity. Qed.

(* ---- the argparse option tables: get_parser() of calculate_scores / select_next_plate / train_model / prepare_retrospective_simulation / reveal_plate / extract_screen_metadata / calculate_distance_matrix / evaluate_model / analyze_model_evaluation, re-read from /repo on every run by the fail-closed reader
   harness/argparse_reader.py (Generated/SrcParser_<command>.v; a get_parser that is not a plain sequence of literal
   parser.add_argument calls is refused and these theorems stop compiling).  What the argument records of Model/Cli.v assume of
   the namespace parse_args() yields - the premise of the C??_model_is_source_cli_* links - is provided by the declared options:
   Cli.declares = the attribute is the dest of EXACTLY ONE option, which stores the assumed kind of value and can be None exactly
   where the record has an option type; Cli.dests_derived = the dest the reader computed is argparse's derivation from the flags;
   Cli.dests_distinct = no dest and no flag is declared twice; Cli.seed_declared = --seed is an int option with a non-negative int
   default (get_prng_from_seed_argument never sees None); Cli.coordinates_int = --n-chunks / --chunk-index / --n-chains /
   --chain-index are int options that are never None; Cli.params_kv = every --*-param option accumulates through KVAppendAction;
   Cli.fraction_declared = --holdout-fraction is a float option with a default in [0, 1]. ---- *)

From Batchie Require Model.Cli Proofs.C18Parser Generated.SrcParser_calculate_scores Proofs.C18SourceParser_calculate_scores Generated.SrcParser_select_next_plate Proofs.C18SourceParser_select_next_plate Generated.SrcParser_train_model Proofs.C18SourceParser_train_model Generated.SrcParser_prepare_retrospective_simulation Proofs.C18SourceParser_prepare_retrospective_simulation Generated.SrcParser_reveal_plate Proofs.C18SourceParser_reveal_plate Generated.SrcParser_extract_screen_metadata Proofs.C18SourceParser_extract_screen_metadata Generated.SrcParser_calculate_distance_matrix Proofs.C18SourceParser_calculate_distance_matrix Generated.SrcParser_evaluate_model Proofs.C18SourceParser_evaluate_model Generated.SrcParser_analyze_model_evaluation Proofs.C18SourceParser_analyze_model_evaluation.
Theorem C18_source_parser_calculate_scores_fields :
  forall f, In f (Cli.cs_fields ++ Cli.logging_fields) -> Cli.declares SrcParser_calculate_scores.src_parser_calculate_scores f.
Proof. exact C18SourceParser_calculate_scores.parser_calculate_scores_fields. Qed.
Print Assumptions C18_source_parser_calculate_scores_fields.

Theorem C18_source_parser_calculate_scores_dests_derived :
  Cli.dests_derived SrcParser_calculate_scores.src_parser_calculate_scores.
Proof. exact C18SourceParser_calculate_scores.parser_calculate_scores_dests_derived. Qed.
Print Assumptions C18_source_parser_calculate_scores_dests_derived.

Theorem C18_source_parser_calculate_scores_dests_distinct :
  Cli.dests_distinct SrcParser_calculate_scores.src_parser_calculate_scores.
Proof. exact C18SourceParser_calculate_scores.parser_calculate_scores_dests_distinct. Qed.
Print Assumptions C18_source_parser_calculate_scores_dests_distinct.

Theorem C18_source_parser_calculate_scores_seed :
  Cli.seed_declared SrcParser_calculate_scores.src_parser_calculate_scores.
Proof. exact C18SourceParser_calculate_scores.parser_calculate_scores_seed. Qed.
Print Assumptions C18_source_parser_calculate_scores_seed.

Theorem C18_source_parser_calculate_scores_coordinates :
  Cli.coordinates_int SrcParser_calculate_scores.src_parser_calculate_scores.
Proof. exact C18SourceParser_calculate_scores.parser_calculate_scores_coordinates. Qed.
Print Assumptions C18_source_parser_calculate_scores_coordinates.

Theorem C18_source_parser_calculate_scores_params :
  Cli.params_kv SrcParser_calculate_scores.src_parser_calculate_scores.
Proof. exact C18SourceParser_calculate_scores.parser_calculate_scores_params. Qed.
Print Assumptions C18_source_parser_calculate_scores_params.

Theorem C18_source_parser_select_next_plate_fields :
  forall f, In f (Cli.sn_fields ++ Cli.logging_fields) -> Cli.declares SrcParser_select_next_plate.src_parser_select_next_plate f.
Proof. exact C18SourceParser_select_next_plate.parser_select_next_plate_fields. Qed.
Print Assumptions C18_source_parser_select_next_plate_fields.

Theorem C18_source_parser_select_next_plate_dests_derived :
  Cli.dests_derived SrcParser_select_next_plate.src_parser_select_next_plate.
Proof. exact C18SourceParser_select_next_plate.parser_select_next_plate_dests_derived. Qed.
Print Assumptions C18_source_parser_select_next_plate_dests_derived.

Theorem C18_source_parser_select_next_plate_dests_distinct :
  Cli.dests_distinct SrcParser_select_next_plate.src_parser_select_next_plate.
Proof. exact C18SourceParser_select_next_plate.parser_select_next_plate_dests_distinct. Qed.
Print Assumptions C18_source_parser_select_next_plate_dests_distinct.

Theorem C18_source_parser_select_next_plate_seed :
  Cli.seed_declared SrcParser_select_next_plate.src_parser_select_next_plate.
Proof. exact C18SourceParser_select_next_plate.parser_select_next_plate_seed. Qed.
Print Assumptions C18_source_parser_select_next_plate_seed.

Theorem C18_source_parser_select_next_plate_params :
  Cli.params_kv SrcParser_select_next_plate.src_parser_select_next_plate.
Proof. exact C18SourceParser_select_next_plate.parser_select_next_plate_params. Qed.
Print Assumptions C18_source_parser_select_next_plate_params.

Theorem C18_source_parser_train_model_fields :
  forall f, In f (Cli.tm_fields ++ Cli.logging_fields) -> Cli.declares SrcParser_train_model.src_parser_train_model f.
Proof. exact C18SourceParser_train_model.parser_train_model_fields. Qed.
Print Assumptions C18_source_parser_train_model_fields.

Theorem C18_source_parser_train_model_dests_derived :
  Cli.dests_derived SrcParser_train_model.src_parser_train_model.
Proof. exact C18SourceParser_train_model.parser_train_model_dests_derived. Qed.
Print Assumptions C18_source_parser_train_model_dests_derived.

Theorem C18_source_parser_train_model_dests_distinct :
  Cli.dests_distinct SrcParser_train_model.src_parser_train_model.
Proof. exact C18SourceParser_train_model.parser_train_model_dests_distinct. Qed.
Print Assumptions C18_source_parser_train_model_dests_distinct.

Theorem C18_source_parser_train_model_seed :
  Cli.seed_declared SrcParser_train_model.src_parser_train_model.
Proof. exact C18SourceParser_train_model.parser_train_model_seed. Qed.
Print Assumptions C18_source_parser_train_model_seed.

Theorem C18_source_parser_train_model_coordinates :
  Cli.coordinates_int SrcParser_train_model.src_parser_train_model.
Proof. exact C18SourceParser_train_model.parser_train_model_coordinates. Qed.
Print Assumptions C18_source_parser_train_model_coordinates.

Theorem C18_source_parser_train_model_params :
  Cli.params_kv SrcParser_train_model.src_parser_train_model.
Proof. exact C18SourceParser_train_model.parser_train_model_params. Qed.
Print Assumptions C18_source_parser_train_model_params.

Theorem C18_source_parser_prepare_retrospective_simulation_fields :
  forall f, In f (Cli.pr_fields ++ Cli.logging_fields) -> Cli.declares SrcParser_prepare_retrospective_simulation.src_parser_prepare_retrospective_simulation f.
Proof. exact C18SourceParser_prepare_retrospective_simulation.parser_prepare_retrospective_simulation_fields. Qed.
Print Assumptions C18_source_parser_prepare_retrospective_simulation_fields.

Theorem C18_source_parser_prepare_retrospective_simulation_dests_derived :
  Cli.dests_derived SrcParser_prepare_retrospective_simulation.src_parser_prepare_retrospective_simulation.
Proof. exact C18SourceParser_prepare_retrospective_simulation.parser_prepare_retrospective_simulation_dests_derived. Qed.
Print Assumptions C18_source_parser_prepare_retrospective_simulation_dests_derived.

Theorem C18_source_parser_prepare_retrospective_simulation_dests_distinct :
  Cli.dests_distinct SrcParser_prepare_retrospective_simulation.src_parser_prepare_retrospective_simulation.
Proof. exact C18SourceParser_prepare_retrospective_simulation.parser_prepare_retrospective_simulation_dests_distinct. Qed.
Print Assumptions C18_source_parser_prepare_retrospective_simulation_dests_distinct.

Theorem C18_source_parser_prepare_retrospective_simulation_seed :
  Cli.seed_declared SrcParser_prepare_retrospective_simulation.src_parser_prepare_retrospective_simulation.
Proof. exact C18SourceParser_prepare_retrospective_simulation.parser_prepare_retrospective_simulation_seed. Qed.
Print Assumptions C18_source_parser_prepare_retrospective_simulation_seed.

Theorem C18_source_parser_prepare_retrospective_simulation_params :
  Cli.params_kv SrcParser_prepare_retrospective_simulation.src_parser_prepare_retrospective_simulation.
Proof. exact C18SourceParser_prepare_retrospective_simulation.parser_prepare_retrospective_simulation_params. Qed.
Print Assumptions C18_source_parser_prepare_retrospective_simulation_params.

Theorem C18_source_parser_prepare_retrospective_simulation_fraction :
  Cli.fraction_declared SrcParser_prepare_retrospective_simulation.src_parser_prepare_retrospective_simulation.
Proof. exact C18SourceParser_prepare_retrospective_simulation.parser_prepare_retrospective_simulation_fraction. Qed.
Print Assumptions C18_source_parser_prepare_retrospective_simulation_fraction.

Theorem C18_source_parser_reveal_plate_fields :
  forall f, In f (Cli.rp_fields ++ Cli.logging_fields) -> Cli.declares SrcParser_reveal_plate.src_parser_reveal_plate f.
Proof. exact C18SourceParser_reveal_plate.parser_reveal_plate_fields. Qed.
Print Assumptions C18_source_parser_reveal_plate_fields.

Theorem C18_source_parser_reveal_plate_dests_derived :
  Cli.dests_derived SrcParser_reveal_plate.src_parser_reveal_plate.
Proof. exact C18SourceParser_reveal_plate.parser_reveal_plate_dests_derived. Qed.
Print Assumptions C18_source_parser_reveal_plate_dests_derived.

Theorem C18_source_parser_reveal_plate_dests_distinct :
  Cli.dests_distinct SrcParser_reveal_plate.src_parser_reveal_plate.
Proof. exact C18SourceParser_reveal_plate.parser_reveal_plate_dests_distinct. Qed.
Print Assumptions C18_source_parser_reveal_plate_dests_distinct.

Theorem C18_source_parser_extract_screen_metadata_fields :
  forall f, In f (Cli.em_fields ++ Cli.logging_fields) -> Cli.declares SrcParser_extract_screen_metadata.src_parser_extract_screen_metadata f.
Proof. exact C18SourceParser_extract_screen_metadata.parser_extract_screen_metadata_fields. Qed.
Print Assumptions C18_source_parser_extract_screen_metadata_fields.

Theorem C18_source_parser_extract_screen_metadata_dests_derived :
  Cli.dests_derived SrcParser_extract_screen_metadata.src_parser_extract_screen_metadata.
Proof. exact C18SourceParser_extract_screen_metadata.parser_extract_screen_metadata_dests_derived. Qed.
Print Assumptions C18_source_parser_extract_screen_metadata_dests_derived.

Theorem C18_source_parser_extract_screen_metadata_dests_distinct :
  Cli.dests_distinct SrcParser_extract_screen_metadata.src_parser_extract_screen_metadata.
Proof. exact C18SourceParser_extract_screen_metadata.parser_extract_screen_metadata_dests_distinct. Qed.
Print Assumptions C18_source_parser_extract_screen_metadata_dests_distinct.

Theorem C18_source_parser_calculate_distance_matrix_fields :
  forall f, In f (Cli.cd_fields ++ Cli.logging_fields) -> Cli.declares SrcParser_calculate_distance_matrix.src_parser_calculate_distance_matrix f.
Proof. exact C18SourceParser_calculate_distance_matrix.parser_calculate_distance_matrix_fields. Qed.
Print Assumptions C18_source_parser_calculate_distance_matrix_fields.

Theorem C18_source_parser_calculate_distance_matrix_dests_derived :
  Cli.dests_derived SrcParser_calculate_distance_matrix.src_parser_calculate_distance_matrix.
Proof. exact C18SourceParser_calculate_distance_matrix.parser_calculate_distance_matrix_dests_derived. Qed.
Print Assumptions C18_source_parser_calculate_distance_matrix_dests_derived.

Theorem C18_source_parser_calculate_distance_matrix_dests_distinct :
  Cli.dests_distinct SrcParser_calculate_distance_matrix.src_parser_calculate_distance_matrix.
Proof. exact C18SourceParser_calculate_distance_matrix.parser_calculate_distance_matrix_dests_distinct. Qed.
Print Assumptions C18_source_parser_calculate_distance_matrix_dests_distinct.

Theorem C18_source_parser_calculate_distance_matrix_coordinates :
  Cli.coordinates_int SrcParser_calculate_distance_matrix.src_parser_calculate_distance_matrix.
Proof. exact C18SourceParser_calculate_distance_matrix.parser_calculate_distance_matrix_coordinates. Qed.
Print Assumptions C18_source_parser_calculate_distance_matrix_coordinates.

Theorem C18_source_parser_calculate_distance_matrix_params :
  Cli.params_kv SrcParser_calculate_distance_matrix.src_parser_calculate_distance_matrix.
Proof. exact C18SourceParser_calculate_distance_matrix.parser_calculate_distance_matrix_params. Qed.
Print Assumptions C18_source_parser_calculate_distance_matrix_params.

Theorem C18_source_parser_evaluate_model_fields :
  forall f, In f (Cli.ev_fields ++ Cli.logging_fields) -> Cli.declares SrcParser_evaluate_model.src_parser_evaluate_model f.
Proof. exact C18SourceParser_evaluate_model.parser_evaluate_model_fields. Qed.
Print Assumptions C18_source_parser_evaluate_model_fields.

Theorem C18_source_parser_evaluate_model_dests_derived :
  Cli.dests_derived SrcParser_evaluate_model.src_parser_evaluate_model.
Proof. exact C18SourceParser_evaluate_model.parser_evaluate_model_dests_derived. Qed.
Print Assumptions C18_source_parser_evaluate_model_dests_derived.

Theorem C18_source_parser_evaluate_model_dests_distinct :
  Cli.dests_distinct SrcParser_evaluate_model.src_parser_evaluate_model.
Proof. exact C18SourceParser_evaluate_model.parser_evaluate_model_dests_distinct. Qed.
Print Assumptions C18_source_parser_evaluate_model_dests_distinct.

Theorem C18_source_parser_analyze_model_evaluation_fields :
  forall f, In f (Cli.am_fields ++ Cli.logging_fields) -> Cli.declares SrcParser_analyze_model_evaluation.src_parser_analyze_model_evaluation f.
Proof. exact C18SourceParser_analyze_model_evaluation.parser_analyze_model_evaluation_fields. Qed.
Print Assumptions C18_source_parser_analyze_model_evaluation_fields.

Theorem C18_source_parser_analyze_model_evaluation_dests_derived :
  Cli.dests_derived SrcParser_analyze_model_evaluation.src_parser_analyze_model_evaluation.
Proof. exact C18SourceParser_analyze_model_evaluation.parser_analyze_model_evaluation_dests_derived. Qed.
Print Assumptions C18_source_parser_analyze_model_evaluation_dests_derived.

Theorem C18_source_parser_analyze_model_evaluation_dests_distinct :
  Cli.dests_distinct SrcParser_analyze_model_evaluation.src_parser_analyze_model_evaluation.
Proof. exact C18SourceParser_analyze_model_evaluation.parser_analyze_model_evaluation_dests_distinct. Qed.
Print Assumptions C18_source_parser_analyze_model_evaluation_dests_distinct.

(* what seed_declared is for: on the default seed, the generator construction of the wrappers (Cli.prng_of_seed, linked to
   get_prng_from_seed_argument by C18_model_is_source_cli_get_prng_from_seed_argument) succeeds *)
Theorem C18_parser_seed_default_draws : forall (tbl : list Cli.argopt), Cli.seed_declared tbl ->
  forall mix : Z -> Z, exists o z, Cli.opts_with_dest tbl Cli.s_seed = [o] /\ Cli.opt_default o = Cli.LInt z
                                   /\ Cli.prng_of_seed mix z = Ok (Cli.Gen (mix z)).
Proof. exact C18Parser.seed_declared_default_draws. Qed.
Print Assumptions C18_parser_seed_default_draws.

From Coq Require String.
Module ParserExamples.
Import String.
(* the reading of one declaration (Cli.opt_dest / opt_default / opt_kind / opt_may_be_none) on the shapes that occur, and on the
   realistic slips the table theorems exclude: *)
Definition ex_opt (flags : list String.string) (dest : option String.string) (ty : option Cli.argtype) (default : option Cli.pylit)
  (required : bool) (action : Cli.argaction) (nargs : option Cli.argnargs) : Cli.argopt :=
  Cli.mk_argopt (map Cli.str_of_string flags) (option_map Cli.str_of_string dest)
                (Cli.opt_dest (Cli.mk_argopt (map Cli.str_of_string flags) (option_map Cli.str_of_string dest) [] None None false Cli.ActStore None None))
                ty default required action nargs None.
Example C18_parser_reading_examples :
  (* dest derivation: the first long flag, dashes to underscores; an explicit dest= wins *)
  Cli.o_dest (ex_opt ["-P"; "--progress"]%string None None None false Cli.ActStoreTrue None) = Cli.str_of_string "progress" /\
  Cli.o_dest (ex_opt ["--n-chunks"]%string None (Some Cli.TInt) (Some (Cli.LInt 1)) false Cli.ActStore None) = Cli.str_of_string "n_chunks" /\
  Cli.o_dest (ex_opt ["--n-chunks"]%string (Some "chunks"%string) (Some Cli.TInt) (Some (Cli.LInt 1)) false Cli.ActStore None) = Cli.str_of_string "chunks" /\
  (* --seed, type=int, default=0: an int, never None; with default=None it may be None *)
  Cli.opt_kind (ex_opt ["--seed"]%string None (Some Cli.TInt) (Some (Cli.LInt 0)) false Cli.ActStore None) = Some Cli.KInt /\
  Cli.opt_may_be_none (ex_opt ["--seed"]%string None (Some Cli.TInt) (Some (Cli.LInt 0)) false Cli.ActStore None) = false /\
  Cli.opt_may_be_none (ex_opt ["--seed"]%string None (Some Cli.TInt) (Some Cli.LNone) false Cli.ActStore None) = true /\
  (* type=int dropped from --chunk-index: the words stay strings while the default is an int - no kind *)
  Cli.opt_kind (ex_opt ["--chunk-index"]%string None None (Some (Cli.LInt 0)) false Cli.ActStore None) = None /\
  Cli.opt_kind (ex_opt ["--chunk-index"]%string None None None true Cli.ActStore None) = Some Cli.KStr /\
  (* a --*-param option: KVAppendAction with nargs=1 is a KEY=VALUE dict or None; action="append" has no kind here *)
  Cli.opt_kind (ex_opt ["--model-param"]%string None None None false Cli.ActKVAppend (Some (Cli.NInt 1))) = Some Cli.KKV /\
  Cli.opt_kind (ex_opt ["--model-param"]%string None None None false Cli.ActAppend (Some (Cli.NInt 1))) = None /\
  Cli.opt_kind (ex_opt ["--model-param"]%string None None None false Cli.ActKVAppend None) = None /\
  (* nargs="+" with type=int and default=list(): a list of ints, never None; store_true without default: False *)
  Cli.opt_kind (ex_opt ["--plate-id"]%string None (Some Cli.TInt) (Some Cli.LEmptyList) false Cli.ActStore (Some Cli.NPlus)) = Some (Cli.KList Cli.KInt) /\
  Cli.opt_default (ex_opt ["-v"]%string None None None false Cli.ActStoreTrue None) = Cli.LBool false.
Proof. vm_compute. repeat split; reflexivity. Qed.
End ParserExamples.

(* ---- the globally served step; --seed declared but unread ----
   The mirror image of C18_frame.  A step whose requests are ALL served from the process-global component - the training of the
   variational grid model: set_rng stores the generator made from the seed and nothing reads it; numpy.random.choice,
   torch.randperm and pyro's sample statements draw from the global numpy / torch generators (G is any type, e.g. their pair) -
   is a function of the global state alone: the given generator is returned untouched and has no influence whatever. *)
From Batchie Require Proofs.C18Unread Proofs.C18SourceParserSeedDeclared Proofs.C10SourceCli.

Theorem C18_global_only_frame :
  forall (Req Ans Out S G : Type) (ggen : G -> Req -> Ans * G) (wstep : S * G -> Req -> Ans * (S * G))
         (p : prog Req Ans Out),
  (forall s g r, wstep (s, g) r = (fst (ggen g r), (s, snd (ggen g r)))) ->
  forall s g,
    o_out (exec wstep p (s, g)) = o_out (exec ggen p g)
    /\ o_reqs (exec wstep p (s, g)) = o_reqs (exec ggen p g)
    /\ o_answers (exec wstep p (s, g)) = o_answers (exec ggen p g)
    /\ o_final (exec wstep p (s, g)) = (s, o_final (exec ggen p g)).
Proof. exact C18Unread.global_only_frame. Qed.
Print Assumptions C18_global_only_frame.

(* the seed is not an input of such a step: different given generators, same global state => same everything *)
Theorem C18_given_generator_unread :
  forall (Req Ans Out S G : Type) (ggen : G -> Req -> Ans * G) (p : prog Req Ans Out) (s1 s2 : S) (g : G),
    o_out (exec (from_global ggen) p (s1, g)) = o_out (exec (from_global ggen) p (s2, g))
    /\ o_reqs (exec (from_global ggen) p (s1, g)) = o_reqs (exec (from_global ggen) p (s2, g))
    /\ o_answers (exec (from_global ggen) p (s1, g)) = o_answers (exec (from_global ggen) p (s2, g))
    /\ fst (o_final (exec (from_global ggen) p (s1, g))) = s1
    /\ snd (o_final (exec (from_global ggen) p (s1, g))) = snd (o_final (exec (from_global ggen) p (s2, g))).
Proof. exact C18Unread.given_generator_unread. Qed.
Print Assumptions C18_given_generator_unread.

(* what the harness observation "repeatable modulo the known leak" relies on: from EQUAL global states (numpy / torch reseeded
   identically, every unseeded construction given the same seed) even a globally served step is repeatable, so a difference
   that remains has another cause than the recorded leak *)
Theorem C18_global_only_repeatable_from_equal_global :
  forall (Req Ans Out S G : Type) (ggen : G -> Req -> Ans * G) (p : prog Req Ans Out) (s : S) (g1 g2 : G),
    g1 = g2 -> exec (from_global ggen) p (s, g1) = exec (from_global ggen) p (s, g2).
Proof. exact C18Unread.global_only_repeatable_from_equal_global. Qed.
Print Assumptions C18_global_only_repeatable_from_equal_global.

(* non-vacuity: the witness program of C18_global_draws_refuted run with two different given generators *)
Example C18_given_generator_unread_example :
  o_out (exec (from_global C18RandProg.counter_gen) C18RandProg.leaky_prog (1, 5)) = 5
  /\ o_out (exec (from_global C18RandProg.counter_gen) C18RandProg.leaky_prog (2, 5)) = 5
  /\ o_final (exec (from_global C18RandProg.counter_gen) C18RandProg.leaky_prog (1, 5)) = (1, 6).
Proof. vm_compute. repeat split; reflexivity. Qed.

(* evaluate_model and analyze_model_evaluation DECLARE --seed as the four randomised commands do (analyze_model_evaluation is
   a randomised command: see the end of this section) *)
Theorem C18_source_parser_evaluate_model_seed :
  Cli.seed_declared SrcParser_evaluate_model.src_parser_evaluate_model.
Proof. exact C18SourceParserSeedDeclared.parser_evaluate_model_seed. Qed.
Print Assumptions C18_source_parser_evaluate_model_seed.

Theorem C18_source_parser_analyze_model_evaluation_seed :
  Cli.seed_declared SrcParser_analyze_model_evaluation.src_parser_analyze_model_evaluation.
Proof. exact C18SourceParserSeedDeclared.parser_analyze_model_evaluation_seed. Qed.
Print Assumptions C18_source_parser_analyze_model_evaluation_seed.

(* ... and evaluate_model.main does not need it: the WHOLE function, re-translated on every run, equals Cli.cli_evaluate_model, a
   function of the library record and of Cli.ev_args = (screen, thetas, output) - no seed component, and no generator / draw
   primitive in the configuration's vocabulary (the translator refuses any other call).  The command is deterministic in its
   files; its unread --seed is therefore no violation of the property.  (Same statement as C10_model_is_source_cli_evaluate_model;
   re-stated here so that C18 reports a broken obligation when this main() starts to read args.seed or to draw.) *)
Theorem C18_model_is_source_cli_evaluate_model_seedless :
  forall (Scr Th Pr PrT Ob Nm Ev : Type) (L : Cli.ev_lib Scr Th Pr PrT Ob Nm Ev) (a : Cli.ev_args),
  SrcCli.src_cli_evaluate_model Scr Th Pr PrT Ob Nm Ev L a = Cli.cli_evaluate_model L a.
Proof. exact C10SourceCli.src_cli_evaluate_model_is_model. Qed.
Print Assumptions C18_model_is_source_cli_evaluate_model_seedless.

(* ---- analyze_model_evaluation.main READS its --seed (repair "fix: analyze_model_evaluation ignored --seed"; before it this was
   the known finding analyze-model-evaluation-cli-ignores-seed).  Two of its five plots call seaborn.regplot, which bootstraps
   the confidence band of the regression from numpy.random.default_rng(seed): a function of the integer when one is given,
   seeded from the operating system's entropy when seed is None (CliAnalyze.regplot_rng; of_seed / of_entropy / the types
   of generators and of entropy are arbitrary).  The WHOLE main(), re-translated on every run (configuration CLI_ANALYZE,
   shared with C20), equals CliAnalyze.cli_analyze = cli_analyze_gen true, whose two regplot-drawing calls carry
   seed=args.seed; the events AnScatter / AnScatterSample record the keyword (None when absent). ---- *)
From Batchie Require Model.CliAnalyze Generated.SrcCliAnalyze Proofs.C20SourceCli_AnalyzeMain Proofs.C18CliAnalyze.

(* same statement as C20_model_is_source_cli_analyze; re-stated so that C18 reports a broken obligation when main() stops
   handing --seed to either plot (the call without the keyword translates to an event carrying None) or starts to draw elsewhere
   (no generator / draw primitive in the configuration's vocabulary; the translator refuses any other call) *)
Theorem C18_model_is_source_cli_analyze :
  forall (Scr Th Ev Co F : Type) (L : CliAnalyze.an_lib Scr Th Ev Co F) (a : CliAnalyze.an_args),
  SrcCliAnalyze.src_cli_analyze Scr Th Ev Co F L a = CliAnalyze.cli_analyze L a.
Proof. exact C20SourceCli_AnalyzeMain.src_cli_analyze_is_model. Qed.
Print Assumptions C18_model_is_source_cli_analyze.

(* a run of the translated main() that completes makes exactly two regplot-drawing calls, both with seed = --seed *)
Theorem C18_source_cli_analyze_regplot_seeds :
  forall (Scr Th Ev Co F : Type) (L : CliAnalyze.an_lib Scr Th Ev Co F) (a : CliAnalyze.an_args) evs,
  SrcCliAnalyze.src_cli_analyze Scr Th Ev Co F L a = Ok evs ->
  CliAnalyze.an_regplot_seeds evs = [Some (CliAnalyze.an_seed a); Some (CliAnalyze.an_seed a)].
Proof. exact C18CliAnalyze.src_cli_analyze_regplot_seeds. Qed.
Print Assumptions C18_source_cli_analyze_regplot_seeds.

(* its bootstrap generators are default_rng(--seed), whatever the entropy source answers *)
Theorem C18_source_cli_analyze_bootstrap_seeded :
  forall (Scr Th Ev Co F G W : Type) (of_seed : Z -> G) (of_entropy : W -> G) (L : CliAnalyze.an_lib Scr Th Ev Co F)
         (a : CliAnalyze.an_args) (w : W),
  CliAnalyze.an_bootstrap_rngs of_seed of_entropy (SrcCliAnalyze.src_cli_analyze Scr Th Ev Co F L a) w
  = match SrcCliAnalyze.src_cli_analyze Scr Th Ev Co F L a with
    | Ok _ => [of_seed (CliAnalyze.an_seed a); of_seed (CliAnalyze.an_seed a)]
    | Err _ => []
    end.
Proof. exact C18CliAnalyze.src_cli_analyze_bootstrap_seeded. Qed.
Print Assumptions C18_source_cli_analyze_bootstrap_seeded.

(* two runs with the same files and the same --seed in two arbitrary worlds bootstrap from the same generators (the list of
   effects is the same term: a function of the library record and the parsed arguments) *)
Theorem C18_source_cli_analyze_entropy_free :
  forall (Scr Th Ev Co F G W : Type) (of_seed : Z -> G) (of_entropy : W -> G) (L : CliAnalyze.an_lib Scr Th Ev Co F)
         (a : CliAnalyze.an_args) (w1 w2 : W),
  CliAnalyze.an_bootstrap_rngs of_seed of_entropy (SrcCliAnalyze.src_cli_analyze Scr Th Ev Co F L a) w1
  = CliAnalyze.an_bootstrap_rngs of_seed of_entropy (SrcCliAnalyze.src_cli_analyze Scr Th Ev Co F L a) w2.
Proof. exact C18CliAnalyze.src_cli_analyze_entropy_free. Qed.
Print Assumptions C18_source_cli_analyze_entropy_free.

(* the wrapper BEFORE the repair (cli_analyze_gen false: --seed parsed, the keyword absent at both calls): the generators of a
   completed run are the entropy source's answer, and there are files, a --seed and two answers for which two runs differ *)
Theorem C18_cli_analyze_unseeded_refuted :
  exists (L : CliAnalyze.an_lib unit unit unit unit unit) (a : CliAnalyze.an_args) (w1 w2 : Z),
    CliAnalyze.an_bootstrap_rngs (fun z => z) (fun w => w) (CliAnalyze.cli_analyze_gen false L a) w1
    <> CliAnalyze.an_bootstrap_rngs (fun z => z) (fun w => w) (CliAnalyze.cli_analyze_gen false L a) w2.
Proof. exact C18CliAnalyze.cli_analyze_unseeded_refuted. Qed.
Print Assumptions C18_cli_analyze_unseeded_refuted.

(* non-vacuity: a completed run of the translated main() with --seed 3 (two generators, both of_seed 3, in the worlds 10 and 11),
   and the seed matters: --seed 4 gives other generators *)
Example C18_source_cli_analyze_example :
  CliAnalyze.an_bootstrap_rngs (fun z => z) (fun w : Z => w)
    (SrcCliAnalyze.src_cli_analyze _ _ _ _ _ C18CliAnalyze.ex_unit_lib (C18CliAnalyze.ex_unit_args 3)) 10 = [3; 3]
  /\ CliAnalyze.an_bootstrap_rngs (fun z => z) (fun w : Z => w)
    (SrcCliAnalyze.src_cli_analyze _ _ _ _ _ C18CliAnalyze.ex_unit_lib (C18CliAnalyze.ex_unit_args 3)) 11 = [3; 3]
  /\ CliAnalyze.an_bootstrap_rngs (fun z => z) (fun w : Z => w)
    (SrcCliAnalyze.src_cli_analyze _ _ _ _ _ C18CliAnalyze.ex_unit_lib (C18CliAnalyze.ex_unit_args 4)) 10 = [4; 4]
  /\ CliAnalyze.an_bootstrap_rngs (fun z => z) (fun w : Z => w)
    (CliAnalyze.cli_analyze_gen false C18CliAnalyze.ex_unit_lib (C18CliAnalyze.ex_unit_args 3)) 10 = [10; 10].
Proof. vm_compute. repeat split; reflexivity. Qed.

(* ---- the initial cover.  SparseCoverPlateGenerator is linked under C13 in state-passing form (the answer
   stream `ds` an explicit argument, rng.choice(a, size=1) on the function's OWN generator argument the only primitive that reads it:
   Generated/SrcRetroGen.v; np.random.*, default_rng(), torch are no primitives and are refused).  C18's statement for it: output and
   unread rest depend on the consumed prefix of the answers only - of the model, and of the translated source with the fuel C13
   proves sufficient.  (Kept LAST: its import closure is the C13 link file.) *)
From Batchie Require Model.Retro Model.RetroInit Proofs.C18SparseCover.
Theorem C18_sparse_cover_explicit_stream : forall ctrl reveal rows ds out ds',
  RetroInit.sparse_cover ctrl reveal rows ds = Ok (out, ds') ->
  exists used, ds = used ++ ds' /\ forall tail, RetroInit.sparse_cover ctrl reveal rows (used ++ tail) = Ok (out, tail).
Proof. exact C18SparseCover.sparse_cover_explicit_stream. Qed.
Print Assumptions C18_sparse_cover_explicit_stream.

From Batchie Require Generated.SrcRetroGen Proofs.C13SparseTerm Proofs.C18SourceSparseCover.
Theorem C18_source_sparse_cover_explicit_stream : forall ctrl reveal rows ds out ds',
  SrcRetroGen.src_generate_and_unmask_initial_plate
    (fun s d => SrcRetroGen.src_sparse_cover ctrl reveal s d (S (C13SparseTerm.ndistinct (RetroInit.all_tids ctrl rows)))) rows ds = Ok (out, ds') ->
  exists used, ds = used ++ ds' /\
    forall tail, SrcRetroGen.src_generate_and_unmask_initial_plate
                   (fun s d => SrcRetroGen.src_sparse_cover ctrl reveal s d (S (C13SparseTerm.ndistinct (RetroInit.all_tids ctrl rows)))) rows (used ++ tail)
                 = Ok (out, tail).
Proof. exact C18SourceSparseCover.src_sparse_cover_explicit_stream. Qed.
Print Assumptions C18_source_sparse_cover_explicit_stream.

(* non-vacuity: C13's own examples run sparse_cover on concrete screens (Props/C13.v); here only that the prefix may be proper *)
Example C18_sparse_cover_empty_screen_example :
  RetroInit.sparse_cover [] false [] [Retro.DInts [7%nat]] = Ok ([], [Retro.DInts [7%nat]]).
Proof. vm_compute. reflexivity. Qed.
