(* C15 — Combination unranking is a bijection: sampled triples are distinct and complete.
   Statements only: a proof is `exact <lemma from Proofs/>` (or a split into such), a concrete example is closed by evaluation.
   Vocabulary (Model/Binom.v):  Cz n k = C(n,k) (Pascal recursion);  desc_below n c = "c is strictly
   descending with entries in [0,n)" (a k-subset of {0..n-1} as a descending tuple);
   rank [c1>...>ck] = sum_j C(c_j, k-j+1);  lex_lt = Python's tuple order.
   unrank index n k (Model/Unrank.v) is generate_combination_at_sorted_index, statement by statement.
   All theorems are for ALL n >= 0 and ALL k (not only k <= 4). *)
From Coq Require Import ZArith List Sorting.Sorted Sorting.Permutation.
From Batchie Require Import Lib.Sexp Model.Unrank Model.Binom
  Proofs.C15Binom Proofs.C15Unrank Proofs.C15Enum Proofs.C15Src Generated.SrcArithC15
  Generated.SrcUnrank Proofs.C15Source.
Import ListNotations.
Open Scope Z_scope.

(* the loops of the model ARE the source's loops: the src_* definitions are translated statement by
   statement from generate_combination_at_sorted_index on every run (harness/py2coq.py); the model
   adds only the ZeroDivisionError guard and fuel *)
Theorem C15_model_is_source_loops :
  (forall n k, init_nck n k
     = fold_left (fun acc i => src_init_body acc (n - Z.of_nat i + 1) (Z.of_nat i)) (seq 1 k) 1) /\
  (forall f index k cur nck n, unrank_inner (S f) index k cur nck n =
     if src_inner_cond cur nck index then
       let '(cur', nck', n') := src_inner_body cur nck n k in
       if n' =? 0 then Err 8 else unrank_inner f index k cur' nck' n'
     else Ok (cur, nck, n)) /\
  (forall index k ks cur nck n, unrank_outer index (k :: ks) cur nck n =
     if n =? 0 then Err 8
     else
       dor st <- unrank_inner (S (Z.to_nat n)) index k cur (src_outer_pre nck k n) n;
       let '(cur, nck, n) := st in
       let n := src_outer_post n in
       dor rest <- unrank_outer index ks cur nck n;
       Ok (n :: rest)).
Proof. exact (conj init_nck_is_source (conj unrank_inner_is_source unrank_outer_is_source)). Qed.
Print Assumptions C15_model_is_source_loops.

(* WHOLE-FUNCTION source link.  Generated/SrcUnrank.v holds the Gallina translation (harness/py2gal.py, regenerated from
   /repo on every run) of the generator generate_combination_at_sorted_index as ONE function - the product loop over
   zip(range(n, n-k, -1), range(1, k+1)), the loop `for k in range(k, 0, -1)` whose variable shadows the parameter, the
   `while current_index - n_ck > index` loop as recursion on the explicit parameter [fuel] (Err 97 if it ran out, which is
   not a Python behaviour), every // and % CHECKED (ZeroDivisionError = Err 8), `yield n` = append to the result list -
   and of its wrapper get_combination_at_sorted_index.  The integer parameter k is mapped to the model's nat by Z.to_nat
   (k <= 0: nothing is yielded, in both).
   For EVERY integer index, n, k: wherever the model's own loop fuel suffices (unrank <> Err 9) the translation on any
   fuel above n + 1 equals the model ... *)
Theorem C15_model_is_source_generate_combination_at_sorted_index_any_n : forall fuel index n k,
  unrank index n (Z.to_nat k) <> Err 9 -> (S (Z.to_nat n) < fuel)%nat ->
  src_generate_combination_at_sorted_index index n k fuel = unrank index n (Z.to_nat k).
Proof. exact src_generate_is_unrank_when_model_has_fuel. Qed.
Print Assumptions C15_model_is_source_generate_combination_at_sorted_index_any_n.

(* ... and for n >= 0 (the property's domain: n is a count at every call site) C15_fuel_never_exhausted discharges that
   hypothesis: for EVERY index (in range or not) and every k the translated generator is the model *)
Theorem C15_model_is_source_generate_combination_at_sorted_index : forall fuel index n k,
  0 <= n -> (S (Z.to_nat n) < fuel)%nat ->
  src_generate_combination_at_sorted_index index n k fuel = unrank index n (Z.to_nat k).
Proof. exact src_generate_is_unrank. Qed.
Print Assumptions C15_model_is_source_generate_combination_at_sorted_index.

(* the wrapper: tuple(generate_combination_at_sorted_index(index, n, k)), calling the translated generator *)
Theorem C15_model_is_source_get_combination_at_sorted_index : forall fuel index n k,
  0 <= n -> (S (Z.to_nat n) < fuel)%nat ->
  src_get_combination_at_sorted_index index n k fuel = unrank index n (Z.to_nat k).
Proof. exact src_get_is_unrank. Qed.
Print Assumptions C15_model_is_source_get_combination_at_sorted_index.

(* no fuel hypothesis left: at the explicit fuel n + 2 the translated function IS the function all theorems below are about *)
Theorem C15_model_is_source_get_combination_at_sorted_index_no_fuel_hypothesis : forall index n (k : nat),
  0 <= n -> src_get_combination_at_sorted_index index n (Z.of_nat k) (S (S (Z.to_nat n))) = unrank index n k.
Proof. exact src_get_is_unrank_at_fuel. Qed.
Print Assumptions C15_model_is_source_get_combination_at_sorted_index_no_fuel_hypothesis.

(* clauses (a)-(c) read on the translated source: on any fuel above n + 1 and every 0 <= index < C(n,k) it returns, without
   error, a strictly descending k-tuple within [0,n) whose rank is the index *)
Theorem C15_source_unrank_ok_descending_rank : forall fuel n (k : nat) index,
  0 <= n -> 0 <= index < Cz n k -> (S (Z.to_nat n) < fuel)%nat ->
  exists c, src_get_combination_at_sorted_index index n (Z.of_nat k) fuel = Ok c /\
    length c = k /\ desc_below n c /\ rank c = index.
Proof. exact src_get_ok_descending_rank. Qed.
Print Assumptions C15_source_unrank_ok_descending_rank.

(* the binomial the statements use is the usual one *)
Theorem C15_binomial_is_factorial_quotient : forall n k, (k <= n)%nat ->
  (binom n k * (fact k * fact (n - k)) = fact n)%nat.
Proof. exact binom_fact. Qed.
Print Assumptions C15_binomial_is_factorial_quotient.

(* the product loop `n_ck *= n-i; n_ck //= i+1` computes C(n,k): every // is exact *)
Theorem C15_init_is_binomial : forall n k, 0 <= n -> init_nck n k = Cz n k.
Proof. exact init_nck_Cz. Qed.
Print Assumptions C15_init_is_binomial.

(* in every reachable state of the while loop (n_ck = C(n-1,k-1)) the line `n_ck -= n_ck % k` subtracts 0 *)
Theorem C15_mod_line_is_noop : forall n k', 1 <= n ->
  (Cz (n - 1) k' * (n - Z.of_nat (S k'))) mod Z.of_nat (S k') = 0.
Proof. exact mod_line_noop. Qed.
Print Assumptions C15_mod_line_is_noop.

(* (a) no error, (b) strictly descending k-tuple within [0,n), (c) rank (unrank i) = i *)
Theorem C15_unrank_ok_descending_rank : forall n k index,
  0 <= n -> 0 <= index < Cz n k ->
  exists c, unrank index n k = Ok c /\ length c = k /\ desc_below n c /\ rank c = index.
Proof. exact unrank_spec. Qed.
Print Assumptions C15_unrank_ok_descending_rank.

(* the model's fuel is never exhausted for n >= 0, whatever the index (in range or not): the
   while loop of the implementation terminates; the only error is the ZeroDivisionError (tag 8) *)
Theorem C15_fuel_never_exhausted : forall index n k, 0 <= n -> unrank index n k <> Err 9.
Proof. exact unrank_no_fuel_error. Qed.
Print Assumptions C15_fuel_never_exhausted.

(* ranks of descending k-tuples below n lie in [0, C(n,k)) *)
Theorem C15_rank_in_range : forall c n, desc_below n c -> 0 <= rank c < Cz n (length c).
Proof. exact rank_range. Qed.
Print Assumptions C15_rank_in_range.

(* (d) rank is strictly monotone for the tuple order, hence injective *)
Theorem C15_rank_strictly_monotone : forall a b n,
  length a = length b -> desc_below n a -> desc_below n b -> lex_lt a b -> rank a < rank b.
Proof. exact rank_lex_mono. Qed.
Print Assumptions C15_rank_strictly_monotone.

Theorem C15_rank_injective : forall a b n,
  length a = length b -> desc_below n a -> desc_below n b -> rank a = rank b -> a = b.
Proof. exact rank_injective. Qed.
Print Assumptions C15_rank_injective.

(* (e) unrank inverts rank on every descending tuple below n: onto the k-subsets *)
Theorem C15_unrank_rank : forall n c, 0 <= n -> desc_below n c -> unrank (rank c) n (length c) = Ok c.
Proof. exact unrank_rank. Qed.
Print Assumptions C15_unrank_rank.

(* ascending order of the tuples; in particular index i+1 gives a larger tuple than index i *)
Theorem C15_unrank_ascending : forall n k i j a b,
  0 <= n -> 0 <= i -> i < j -> j < Cz n k ->
  unrank i n k = Ok a -> unrank j n k = Ok b -> lex_lt a b.
Proof. exact unrank_ascending. Qed.
Print Assumptions C15_unrank_ascending.

Theorem C15_unrank_injective : forall n k i j c,
  0 <= n -> 0 <= i < Cz n k -> 0 <= j < Cz n k ->
  unrank i n k = Ok c -> unrank j n k = Ok c -> i = j.
Proof. exact unrank_injective. Qed.
Print Assumptions C15_unrank_injective.

(* the whole enumeration 0..C(n,k)-1: no error anywhere, C(n,k) tuples, sorted ascending,
   duplicate-free, and exactly the strictly descending k-tuples below n *)
Theorem C15_enumeration_sorted_complete_once : forall n k, 0 <= n ->
  exists L, enum_all n k = map Ok L /\
    length L = Z.to_nat (Cz n k) /\
    StronglySorted lex_lt L /\ NoDup L /\
    forall c, In c L <-> (desc_below n c /\ length c = k).
Proof. exact enum_all_spec. Qed.
Print Assumptions C15_enumeration_sorted_complete_once.

(* every k-element subset of {0..n-1} (duplicate-free list, any order) is produced by exactly one index *)
Theorem C15_every_subset_exactly_once : forall n s, 0 <= n -> NoDup s -> (forall x, In x s -> 0 <= x < n) ->
  exists i, (0 <= i < Cz n (length s) /\ exists c, unrank i n (length s) = Ok c /\ Permutation c s) /\
    forall j, (0 <= j < Cz n (length s) /\ exists c, unrank j n (length s) = Ok c /\ Permutation c s) -> j = i.
Proof. exact subset_hit_once. Qed.
Print Assumptions C15_every_subset_exactly_once.

(* (f) a duplicate-free list of indices in [0, C(n,3)) gives pairwise distinct in-range triples,
   and all of them when its length is C(n,3) *)
Theorem C15_triples_distinct_complete : forall n idxs, 0 <= n ->
  NoDup idxs -> (forall i, In i idxs -> 0 <= i < Cz n 3) ->
  exists ts, triples n idxs = Ok ts /\ length ts = length idxs /\ NoDup ts /\
    (forall t, In t ts -> exists a b c, t = [a; b; c] /\ 0 <= c < b /\ b < a < n) /\
    (Z.of_nat (length idxs) = Cz n 3 ->
       forall a b c, 0 <= c < b -> b < a < n -> In [a; b; c] ts).
Proof. exact triples_distinct_complete. Qed.
Print Assumptions C15_triples_distinct_complete.

(* the scorer's use site, for every answer of rng.choice obeying numpy's contract *)
Theorem C15_dbal_triples : forall draw n max_combos,
  choice_contract draw -> 3 <= n -> 1 <= max_combos ->
  exists ts, dbal_triples n max_combos draw = Ok (Cz n 3, Z.min (Cz n 3) max_combos, ts) /\
    Z.of_nat (length ts) = Z.min (Cz n 3) max_combos /\ NoDup ts /\
    (forall t, In t ts -> exists a b c, t = [a; b; c] /\ 0 <= c < b /\ b < a < n) /\
    (Cz n 3 <= max_combos -> forall a b c, 0 <= c < b -> b < a < n -> In [a; b; c] ts).
Proof. exact dbal_triples_spec. Qed.
Print Assumptions C15_dbal_triples.

Theorem C15_dbal_triples_too_few_thetas : forall draw n max_combos,
  0 <= n < 3 -> dbal_triples n max_combos draw = Err 7.
Proof. exact dbal_triples_too_few. Qed.
Print Assumptions C15_dbal_triples_too_few_thetas.

(* ---- the use site READ ON THE TRANSLATED SOURCE.  C15_dbal_triples above is about the hand-written twin
   Binom.dbal_triples; the statements below are about src_kernel_triples (Generated/SrcDbal.v), the translation - regenerated
   from /repo on every run - of the very run of statements `n_plates, n_thetas, ... = predictions.shape` ..
   `idx3 = np.array(idx3)` of dbal_fast_gauss_scoring_vectorized: comb(n_thetas, 3, exact=True), the raise, min with the budget,
   rng.choice, get_combination_at_sorted_index per index, zip into the three index arrays.  (nat_triples reads the three index
   arrays as the list of their rows.) ---- *)
From Batchie Require Import Model.Dbal Generated.SrcDbal Proofs.C05Source_KernelTriples Proofs.C15UseSite.

(* scipy's comb(n, 3, exact=True), as that translation renders it, is the binomial coefficient of all the theorems above *)
Theorem C15_comb3_is_binomial : forall n, 0 <= n -> comb3 n = Cz n 3.
Proof. exact comb3_is_Cz. Qed.
Print Assumptions C15_comb3_is_binomial.

(* for n_thetas >= 3, any budget >= 1 and EVERY answer d of rng.choice obeying numpy's contract for that call: the translated
   run returns, without error, three index arrays whose rows are min(C(n,3), budget) pairwise distinct triples a > b > c
   inside range(n_thetas) - and ALL such triples whenever the budget covers C(n,3) *)
Theorem C15_source_dbal_triples : forall (pred : arr3) (mc : Z) (d : list Z) (rest : list (list Z)) np T E,
  shape3 pred = (np, T, E) -> (3 <= T)%nat -> 1 <= mc ->
  choice_ok (comb3 (Z.of_nat T)) (Z.min (comb3 (Z.of_nat T)) mc) d = true ->
  exists t3, src_kernel_triples pred mc (d :: rest) = Ok (t3, rest) /\
    Z.of_nat (length (nat_triples t3)) = Z.min (Cz (Z.of_nat T) 3) mc /\
    NoDup (nat_triples t3) /\
    (forall a b c, In (a, b, c) (nat_triples t3) -> (c < b /\ b < a /\ a < T)%nat) /\
    (Cz (Z.of_nat T) 3 <= mc -> forall a b c, (c < b /\ b < a /\ a < T)%nat -> In (a, b, c) (nat_triples t3)).
Proof. exact src_kernel_triples_distinct_complete. Qed.
Print Assumptions C15_source_dbal_triples.

(* the hand-written twin of C15_dbal_triples and the translated run deliver the same triples for the same answer *)
Theorem C15_dbal_triples_is_source : forall (pred : arr3) (mc : Z) (d : list Z) (rest : list (list Z)) np T E,
  shape3 pred = (np, T, E) -> (3 <= T)%nat -> 1 <= mc ->
  choice_ok (comb3 (Z.of_nat T)) (Z.min (comb3 (Z.of_nat T)) mc) d = true ->
  exists zts t3,
    dbal_triples (Z.of_nat T) mc (fun _ _ => d) = Ok (Cz (Z.of_nat T) 3, Z.min (Cz (Z.of_nat T) 3) mc, zts) /\
    src_kernel_triples pred mc (d :: rest) = Ok (t3, rest) /\
    nat_triples t3 = map (fun t => nat3 (tup3 t)) zts /\
    (forall t, In t zts -> exists a b c, t = [a; b; c] /\ 0 <= c < b /\ b < a < Z.of_nat T).
Proof. exact dbal_triples_is_source. Qed.
Print Assumptions C15_dbal_triples_is_source.

(* non-vacuity: 4 samples, budget 5000: the contract is satisfiable and the translated run yields all four triples *)
Example C15_source_dbal_triples_example :
  choice_ok (comb3 4) (Z.min (comb3 4) 5000) [3; 0; 1; 2] = true /\
  option_map (fun r => nat_triples (fst r))
    (match src_kernel_triples [[[]; []; []; []]] 5000 [[3; 0; 1; 2]] with Ok r => Some r | Err _ => None end)
  = Some [(3, 2, 1); (2, 1, 0); (3, 1, 0); (3, 2, 0)]%nat.
Proof. vm_compute. split; reflexivity. Qed.

(* non-vacuity *)
Example C15_unrank_example : unrank 7 5 2 = Ok [4; 1] /\ rank [4; 1] = 7 /\ Cz 5 2 = 10.
Proof. vm_compute. repeat split. Qed.
Example C15_unrank_example_k4 : unrank 500 14 4 = Ok [12; 4; 2; 0] /\ rank [12; 4; 2; 0] = 500 /\ Cz 14 4 = 1001.
Proof. vm_compute. repeat split. Qed.
Example C15_enum_example :
  enum_all 5 3 = map Ok [[2;1;0]; [3;1;0]; [3;2;0]; [3;2;1]; [4;1;0]; [4;2;0]; [4;2;1]; [4;3;0]; [4;3;1]; [4;3;2]].
Proof. vm_compute. reflexivity. Qed.
Example C15_triples_example :
  triples 5 [9; 0; 4] = Ok [[4;3;2]; [2;1;0]; [4;1;0]].
Proof. vm_compute. reflexivity. Qed.
Example C15_production_size_example : unrank 20708500000 5000 3 = Ok [4990; 4973; 2342].
Proof. vm_compute. reflexivity. Qed.
(* outside the hypotheses: an index >= C(n,k) repeats the last tuple, a negative one divides by zero *)
Example C15_out_of_range_example : unrank 10 5 2 = Ok [4; 3] /\ unrank (-1) 5 2 = Err 8 /\ unrank 0 2 3 = Err 8.
Proof. vm_compute. repeat split. Qed.
(* the translated source computes (and raises) like the implementation: the source link is not vacuous *)
Example C15_source_example :
  src_get_combination_at_sorted_index 500 14 4 16 = Ok [12; 4; 2; 0] /\
  src_get_combination_at_sorted_index (-1) 5 2 7 = Err 8 /\ src_get_combination_at_sorted_index 3 5 (-2) 7 = Ok [] /\
  src_get_combination_at_sorted_index 0 5 2 1 = Err 97.
Proof. vm_compute. repeat split. Qed.
(* the choice contract is satisfiable (first m indices), and with it the use site yields all triples *)
Example C15_choice_contract_example : choice_contract (fun _ m => map Z.of_nat (seq 0 (Z.to_nat m))).
Proof.
  intros N m Hm. split; [|split].
  - apply FinFun.Injective_map_NoDup; [intros x y; apply Nat2Z.inj | apply seq_NoDup].
  - rewrite map_length, seq_length. apply Z2Nat.id. apply Hm.
  - intros i Hi. apply in_map_iff in Hi. destruct Hi as [j [<- Hj]]. apply in_seq in Hj.
    split; [apply Nat2Z.is_nonneg|]. apply Z.lt_le_trans with (m := m); [|apply Hm].
    rewrite <- (Z2Nat.id m) by apply Hm. apply inj_lt. apply Hj.
Qed.
Example C15_dbal_triples_example :
  dbal_triples 4 5000 (fun _ m => map Z.of_nat (seq 0 (Z.to_nat m)))
  = Ok (4, 4, [[2;1;0]; [3;1;0]; [3;2;0]; [3;2;1]]).
Proof. vm_compute. reflexivity. Qed.
