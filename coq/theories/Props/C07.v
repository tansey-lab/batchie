(* C07 — Pairwise-distance chunks partition the work and assemble to the same matrix.
   Statements only: a proof is `exact <lemma from Proofs/>` (or a split into such), a concrete example is closed by evaluation. *)
From Coq Require Import ZArith List QArith Qcanon.
From Batchie Require Import Lib.Sexp Lib.Num Model.Chunks Model.DistMat Model.Mse
  Proofs.C07Chunks Proofs.C07DistMat Proofs.C07Mse Proofs.C07Src Generated.SrcArithC07
  Lib.PyRt Generated.SrcChunks Proofs.C07Source Generated.SrcDistMat Generated.SrcMse Proofs.C07SourceMat
  Proofs.C07SourceMse Proofs.C07SourcePipeline.
Import ListNotations.

(* the chunk arithmetic the theorems are about IS the source's arithmetic: src_chunk_bounds is
   translated statement by statement from get_lower_triangular_indices_chunk on every run *)
Theorem C07_model_is_source_arithmetic : forall n k c,
  n_lower n = src_n_lower n /\ chunk_bounds (n_lower n) k c = src_chunk_bounds n k c.
Proof. intros n k c. split; [exact (n_lower_is_source n)|exact (chunk_bounds_is_source n k c)]. Qed.
Print Assumptions C07_model_is_source_arithmetic.

(* ... and the enumeration the chunks are cut from IS the source's generator: src_lower_triangular_indices is the
   whole generator function lower_triangular_indices re-translated on every run (harness/py2gal.py; a generator
   denotes the list of the values it yields, in order); for n <= 0 it yields nothing *)
Theorem C07_model_is_source_enumeration :
  (forall n : nat, src_lower_triangular_indices (Z.of_nat n) = Ok (map zpair (lower_tri n))) /\
  (forall n : Z, n <= 0 -> src_lower_triangular_indices n = Ok []).
Proof. exact (conj src_lower_tri_is_model src_lower_tri_negative). Qed.
Print Assumptions C07_model_is_source_enumeration.

(* ... and get_lower_triangular_indices_chunk as ONE whole function (the assert, the arithmetic, the generator's list,
   consume(g, start) and list(islice(g, k)) as skipn / firstn that refuse a negative count; consume and
   get_number_of_lower_triangular_indices are translated too) IS Chunks.chunk_checked for all integer arguments, which for a
   chunk index in range 0 <= k < c is Chunks.chunk - the function all partition theorems below are about *)
Theorem C07_model_is_source_get_lower_triangular_indices_chunk :
  (forall n k c : Z, src_get_lower_triangular_indices_chunk n k c = chunk_checked n k c) /\
  (forall (n : nat) (k c : Z), (0 <= k < c)%Z -> chunk_checked (Z.of_nat n) k c = Ok (map zpair (chunk n k c))) /\
  (forall (n k c : Z) l, (n <= 0)%Z -> chunk_checked n k c = Ok l -> l = []).
Proof. exact (conj src_chunk_is_model (conj chunk_checked_in_range chunk_checked_negative)). Qed.
Print Assumptions C07_model_is_source_get_lower_triangular_indices_chunk.

(* ---- ChunkedDistanceMatrix, method by method.  The translations work on the object as it is stored (DistMat.cdm: size,
   chunk_size, current_index and the three parallel arrays as lists); the model's entry list is read off by the
   representation map dm_of_storage (entry k = (row_indices[k], col_indices[k], values[k]), k < current_index).
   storage_ok is what every constructed object satisfies (three arrays of one length, current_index within it, every slot
   from current_index on still zero); each theorem re-establishes it for the object it returns (storage_refines).
   V is the type of a stored value, vzero the zero np.zeros fills with, visz the test `x == 0`. ---- *)

(* __init__: `if chunk_size:` takes the argument unless it is None or 0 and otherwise falls back to the length of the
   chunk (init_chunk_size); a negative size is refused by np.zeros; the new object is well formed and represents the
   empty matrix *)
Theorem C07_model_is_source_init : forall (V : Type) (vzero : V) (visz : V -> bool), visz vzero = true ->
  (forall (self0 : cdm V) (size n_chunks chunk_index : Z) (chunk_size : option Z),
     src_cdm_init V vzero visz self0 size n_chunks chunk_index chunk_size
     = dor c <- init_chunk_size size n_chunks chunk_index chunk_size;
       if (c <? 0)%Z then Err 13%Z else Ok (cdm_fresh vzero size c)) /\
  (forall size c : Z, (0 <= c)%Z ->
     storage_ok vzero visz (cdm_fresh vzero size c) /\ dm_of_storage vzero (cdm_fresh vzero size c) = dm_empty V size).
Proof. exact (fun V vzero visz H => conj (src_init_is_model V vzero visz) (fresh_ok V vzero visz H)). Qed.
Print Assumptions C07_model_is_source_init.

(* add_value (with _expand_storage, translated too): on a well-formed object with room - a free slot, or a positive
   chunk_size to grow by - it is the model's add_value: the bounds guard (>=), the order guard (<), then the entry appended;
   none of the three "already calculated" tests can fire.  Without room (an object built for an EMPTY chunk: chunk_size 0)
   a value that passes the guards meets an IndexError. *)
Theorem C07_model_is_source_add_value : forall (V : Type) (vzero : V) (visz : V -> bool) (st : cdm V) (i j : Z) (v : V),
  storage_ok vzero visz st ->
  (has_room st ->
   storage_refines vzero visz (src_cdm_add_value V vzero visz st i j v) (add_value V (dm_of_storage vzero st) i j v)) /\
  (~ has_room st ->
   src_cdm_add_value V vzero visz st i j v
   = if ((i >=? c_size st) || (j >=? c_size st))%Z then Err 1%Z else if (i <? j)%Z then Err 2%Z else Err 98%Z).
Proof.
  exact (fun V vzero visz st i j v H =>
    conj (src_add_value_is_model V vzero visz st i j v H) (src_add_value_no_room V vzero visz st i j v H)).
Qed.
Print Assumptions C07_model_is_source_add_value.

Theorem C07_model_is_source_is_complete : forall (V : Type) (vzero : V) (visz : V -> bool) (st : cdm V),
  storage_ok vzero visz st ->
  src_cdm_is_complete V vzero visz st = Ok (is_complete V (dm_of_storage vzero st)).
Proof. exact src_is_complete_is_model. Qed.
Print Assumptions C07_model_is_source_is_complete.

(* combine: the size test, the copy of self's used prefix into a new object, then every entry of other whose (row, col)
   is not among the keys stored so far, through the translated add_value.  The side condition says the new object can
   take a value (it is built with chunk_size = self.current_index, or - when that is 0 - the number of all pairs, which is
   0 only for size < 2): a matrix of size < 2 is not combined with one that holds a value *)
Theorem C07_model_is_source_combine : forall (V : Type) (vzero : V) (visz : V -> bool), visz vzero = true ->
  forall a b : cdm V, storage_ok vzero visz a -> storage_ok vzero visz b ->
  (c_cur b = 0 \/ c_cur a <> 0 \/ 2 <= c_size a)%Z ->
  storage_refines vzero visz (src_cdm_combine V vzero visz a b)
                  (combine V (dm_of_storage vzero a) (dm_of_storage vzero b)).
Proof. exact src_combine_is_model. Qed.
Print Assumptions C07_model_is_source_combine.

(* concat (roomy: a matrix that holds a value has size >= 2 - there is no pair below the diagonal otherwise) *)
Theorem C07_model_is_source_concat : forall (V : Type) (vzero : V) (visz : V -> bool), visz vzero = true ->
  forall ms : list (cdm V), Forall (storage_ok vzero visz) ms -> Forall roomy (tl ms) ->
  storage_refines vzero visz (src_cdm_concat V vzero visz ms) (dm_concat V (map (dm_of_storage vzero) ms)).
Proof. exact src_concat_is_model. Qed.
Print Assumptions C07_model_is_source_concat.

(* to_dense: the refusal of an incomplete matrix, then both cells (i, j) and (j, i) of a zero matrix written per entry,
   for an object whose stored index pairs address cells of the matrix (entries_in_range) *)
Theorem C07_model_is_source_to_dense : forall (V : Type) (vzero : V) (visz : V -> bool) (st : cdm V),
  storage_ok vzero visz st -> entries_in_range st ->
  src_cdm_to_dense V vzero visz st = to_dense V vzero (dm_of_storage vzero st).
Proof. exact src_to_dense_is_model. Qed.
Print Assumptions C07_model_is_source_to_dense.

(* calculate_pairwise_distance_matrix_on_predictions for ANY holder / prediction method / metric (get_theta, predict,
   dist): for a chunk index in range it is the model's compute_chunk with d i j = dist (predict (get_theta i))
   (predict (get_theta j)); outside the range it fails as get_lower_triangular_indices_chunk does, before any distance *)
Theorem C07_model_is_source_calculate_pairwise : forall (V : Type) (vzero : V) (visz : V -> bool), visz vzero = true ->
  forall (Th Pr : Type) (get_theta : Z -> Th) (predict : Th -> Pr) (dist : Pr -> Pr -> V),
  (forall (n : nat) (k c : Z), (0 <= k < c)%Z ->
     storage_refines vzero visz
       (src_calculate_pairwise V vzero visz Th Pr (Z.of_nat n) get_theta predict dist k c)
       (compute_chunk V (metric_of V Th Pr get_theta predict dist) n k c)) /\
  (forall (n k c t : Z), chunk_checked n k c = Err t ->
     src_calculate_pairwise V vzero visz Th Pr n get_theta predict dist k c = Err t).
Proof.
  exact (fun V vzero visz H Th Pr g p d =>
    conj (src_calculate_is_model V vzero visz H Th Pr g p d) (src_calculate_bad_chunk V vzero visz Th Pr g p d)).
Qed.
Print Assumptions C07_model_is_source_calculate_pairwise.

(* save / load with the h5py calls as primitives over the record of the file's four datasets: save writes the used
   prefixes of the three arrays and [size] (file_of_storage); loading what save wrote gives a well-formed object that
   represents the same matrix - the model's dm_load (dm_save m) *)
Theorem C07_model_is_source_save_load : forall (V : Type) (vzero : V) (visz : V -> bool), visz vzero = true ->
  (forall st : cdm V, src_cdm_save V vzero visz st = Ok (file_of_storage st)) /\
  (forall st : cdm V, storage_ok vzero visz st ->
     storage_refines vzero visz (dor f <- src_cdm_save V vzero visz st; src_cdm_load V vzero visz f)
                     (Ok (dm_load V (dm_save V (dm_of_storage vzero st))))).
Proof. exact (fun V vzero visz H => conj (src_save_is_model V vzero visz) (src_load_save_is_model V vzero visz H)). Qed.
Print Assumptions C07_model_is_source_save_load.

(* the translated functions composed as the command line composes them (per listed chunk index one calculate_..., save,
   load; then concat, to_dense) ARE the model's pipeline, the subject of C07_assemble / C07_incomplete_refused *)
Theorem C07_model_is_source_pipeline : forall (V : Type) (vzero : V) (visz : V -> bool), visz vzero = true ->
  forall (Th Pr : Type) (get_theta : Z -> Th) (predict : Th -> Pr) (dist : Pr -> Pr -> V) (n : nat) (c : Z) (order : list Z),
  order <> [] -> (forall k, In k order -> (0 <= k < c)%Z) ->
  src_pipeline V vzero visz Th Pr get_theta predict dist n c order
  = pipeline V vzero (metric_of V Th Pr get_theta predict dist) n c order.
Proof. exact src_pipeline_is_model. Qed.
Print Assumptions C07_model_is_source_pipeline.

(* MSEDistance.distance on two prediction vectors of one length (expit the oracle, numpy's - ** mean as primitives) *)
Theorem C07_model_is_source_mse_distance : forall (orc : oracle) (sigmoid : bool) (a b : list Qc), length a = length b ->
  src_mse_distance orc sigmoid a b = mse_distance orc sigmoid a b.
Proof. exact src_mse_is_model. Qed.
Print Assumptions C07_model_is_source_mse_distance.

(* the chunks, concatenated in index order, are the enumeration of all pairs i>j *)
Theorem C07_chunks_partition : forall n c, (0 < c)%nat -> concat (all_chunks n c) = lower_tri n.
Proof. exact chunks_concat. Qed.
Print Assumptions C07_chunks_partition.

(* together they contain every pair j<i<n, and nothing else, exactly once *)
Theorem C07_chunks_cover_once : forall n c, (0 < c)%nat ->
  NoDup (concat (all_chunks n c)) /\
  forall i j, In (i, j) (concat (all_chunks n c)) <-> (j < i < n)%nat.
Proof. exact chunks_cover_once. Qed.
Print Assumptions C07_chunks_cover_once.

Theorem C07_chunks_disjoint : forall n c (k1 k2 : nat) p,
  (k1 < c)%nat -> (k2 < c)%nat -> k1 <> k2 ->
  In p (chunk n (Z.of_nat k1) (Z.of_nat c)) -> In p (chunk n (Z.of_nat k2) (Z.of_nat c)) -> False.
Proof. exact chunks_disjoint. Qed.
Print Assumptions C07_chunks_disjoint.

Theorem C07_chunk_sizes_differ_by_at_most_one : forall n c (k1 k2 : nat),
  (k1 < c)%nat -> (k2 < c)%nat ->
  (Z.abs (Z.of_nat (length (chunk n (Z.of_nat k1) (Z.of_nat c)))
          - Z.of_nat (length (chunk n (Z.of_nat k2) (Z.of_nat c)))) <= 1)%Z.
Proof. exact chunk_sizes_differ_by_at_most_one. Qed.
Print Assumptions C07_chunk_sizes_differ_by_at_most_one.

(* any family of chunk files that contains every chunk index (any order, repeats allowed),
   computed independently, saved, loaded, concatenated and densified, is the matrix of the
   metric: d below the diagonal, mirrored above, zero on it — the same value whatever c and
   order are, in particular the single-chunk result (c = 1, order = [0]). *)
Theorem C07_assemble : forall (V : Type) (vzero : V) (d : nat -> nat -> V) n (c : nat) (order : list Z),
  (0 < c)%nat -> order <> [] ->
  (forall k, (k < c)%nat -> In (Z.of_nat k) order) ->
  pipeline V vzero d n (Z.of_nat c) order = Ok (dense_of V vzero d n).
Proof. exact pipeline_assembles. Qed.
Print Assumptions C07_assemble.

Theorem C07_dense_symmetric : forall (V : Type) (vzero : V) d n a b,
  (a < n)%nat -> (b < n)%nat ->
  nth b (nth a (dense_of V vzero d n) []) vzero = nth a (nth b (dense_of V vzero d n) []) vzero.
Proof. exact @dense_of_symmetric. Qed.
Print Assumptions C07_dense_symmetric.

Theorem C07_dense_zero_diagonal : forall (V : Type) (vzero : V) d n a,
  (a < n)%nat -> nth a (nth a (dense_of V vzero d n) []) vzero = vzero.
Proof. exact @dense_of_zero_diag. Qed.
Print Assumptions C07_dense_zero_diagonal.

Theorem C07_dense_entry_is_metric : forall (V : Type) (vzero : V) d n a b,
  (a < n)%nat -> (b < a)%nat ->
  nth b (nth a (dense_of V vzero d n) []) vzero = d a b.
Proof.
  intros V vzero d n a b Ha Hb. rewrite dense_of_entry by (assumption || (eapply Nat.lt_trans; eassumption)).
  now apply Nat.ltb_lt in Hb as ->.
Qed.
Print Assumptions C07_dense_entry_is_metric.

(* a family of chunks none of which contains some pair refuses to densify *)
Theorem C07_incomplete_refused : forall (V : Type) (vzero : V) (d : nat -> nat -> V) n (c : Z) (order : list Z) i j,
  order <> [] -> (j < i < n)%nat ->
  (forall k, In k order -> ~ In (i, j) (chunk n k c)) ->
  pipeline V vzero d n c order = Err 5%Z.
Proof. exact pipeline_refuses_incomplete. Qed.
Print Assumptions C07_incomplete_refused.

(* the metric, for every expit *)
Theorem C07_mse_symmetric : forall orc sg a b, mse_distance orc sg a b = mse_distance orc sg b a.
Proof. exact mse_symmetric. Qed.
Print Assumptions C07_mse_symmetric.

Theorem C07_mse_nonneg : forall orc sg a b v, mse_distance orc sg a b = Ok v -> (0 <= v)%Qc.
Proof. exact mse_nonneg. Qed.
Print Assumptions C07_mse_nonneg.

Theorem C07_mse_zero_on_identical : forall orc sg a, a <> [] -> mse_distance orc sg a a = Ok 0%Qc.
Proof. exact mse_zero_on_identical. Qed.
Print Assumptions C07_mse_zero_on_identical.

(* non-vacuity: a concrete non-trivial instance of the assembly hypotheses and conclusion *)
Example C07_assemble_example :
  pipeline Z 0%Z (fun i j => Z.of_nat (10 * i + j)) 4 3%Z [2; 0; 2; 1]%Z
  = Ok [[0; 10; 20; 30]; [10; 0; 21; 31]; [20; 21; 0; 32]; [30; 31; 32; 0]]%Z.
Proof. vm_compute. reflexivity. Qed.
Example C07_incomplete_example :
  pipeline Z 0%Z (fun i j => Z.of_nat (10 * i + j)) 4 3%Z [2; 0]%Z = Err 5%Z.
Proof. vm_compute. reflexivity. Qed.
(* the translated source itself, run on concrete inputs: the same pipeline instance as above through the translations
   of calculate_pairwise_distance_matrix_on_predictions, concat and to_dense (the metric reads samples 10 * i + j) ... *)
Example C07_source_pipeline_example :
  src_pipeline Z 0%Z (Z.eqb 0) Z Z (fun i => i) (fun t => t) (fun a b => (10 * a + b)%Z) 4 3%Z [2; 0; 2; 1]%Z
  = Ok [[0; 10; 20; 30]; [10; 0; 21; 31]; [20; 21; 0; 32]; [30; 31; 32; 0]]%Z.
Proof. vm_compute. reflexivity. Qed.
(* ... and the degenerate object of C07_model_is_source_add_value's second clause: built for the empty last chunk of a
   3 x 3 matrix cut in 4 (chunk_size 0), it refuses a valid pair with an IndexError *)
Example C07_source_empty_chunk_object_example :
  (dor m <- src_cdm_init Z 0%Z (Z.eqb 0) (cdm_blank Z) 3%Z 4%Z 3%Z None; src_cdm_add_value Z 0%Z (Z.eqb 0) m 1%Z 0%Z 5%Z)
  = Err 98%Z.
Proof. vm_compute. reflexivity. Qed.

(* ---- the command-line wrapper calculate_distance_matrix.main is what the source says NOW ----
   `src_cli_calculate_distance_matrix` is the whole function main of /repo's current batchie/cli/calculate_distance_matrix.py,
   re-translated on every run (configuration CLI_DISTANCE_MATRIX -> Generated/SrcCli.v): the chunk named by --chunk-index / --n-chunks of
   the pairwise matrix over the concatenation of the --thetas files (argument order), saved.
   Model/Cli.v: the parsed arguments are a record of the plain argparse results (get_args() is linked further down, C07_model_is_source_cli_args_get_args), `L` is a
   record of the library functions the wrapper calls over abstract types (each component stands for the library function
   of that name with its parameter list; `*_load_*` = what loading the file at a path yields), a main() denotes the list
   of (path, content) files it writes, Err = the exception that ends it.  The links hold for EVERY such record. *)
From Batchie Require Lib.PyRt Model.Cli Generated.SrcCli Proofs.C07SourceCli.
Theorem C07_model_is_source_cli_calculate_distance_matrix : forall (Scr Th Me Dm : Type) (L : Cli.cd_lib Scr Th Me Dm) (a : Cli.cd_args),
  SrcCli.src_cli_calculate_distance_matrix Scr Th Me Dm L a
  = Cli.cli_calculate_distance_matrix L a.
Proof. exact C07SourceCli.src_cli_calculate_distance_matrix_is_model. Qed.
Print Assumptions C07_model_is_source_cli_calculate_distance_matrix.

(* ---- the constructor of MSEDistance (Generated/SrcInits.v): __init__ stores `sigmoid`, the flag the translated distance reads ---- *)
From Batchie Require Generated.SrcInits Proofs.C07Source_Init_MSEDistance Proofs.C07Source_ConstructedMse.
Theorem C07_model_is_source_mse_distance_init : forall sigmoid : bool, SrcInits.src_mse_distance_init sigmoid = Ok sigmoid.
Proof. exact C07Source_Init_MSEDistance.src_mse_distance_init_stores. Qed.
Print Assumptions C07_model_is_source_mse_distance_init.

Theorem C07_source_constructed_mse_distance : forall (orc : oracle) (sigmoid : bool) (a b : list Qc), length a = length b ->
  (dor s <- SrcInits.src_mse_distance_init sigmoid; src_mse_distance orc s a b) = mse_distance orc sigmoid a b.
Proof. exact C07Source_ConstructedMse.constructed_mse_distance_uses_its_flag. Qed.
Print Assumptions C07_source_constructed_mse_distance.


(* ---- calculate_distance_matrix.get_args and main() as a whole command ----
   parser.parse_args() is the
   primitive yielding the raw namespace (Cli.cd_ns: the plain results main() reads, --distance-metric, the KEY=VALUE dict
   of --distance-metric-param or None); the statements after it - class lookup among DistanceMetric subclasses, the
   required-argument annotations of what was found, the cast of the KEY=VALUE items, the two attribute stores - come from
   the translation (Generated/SrcCliArgsDist.v), and main() is translated once more with get_args() = that translation
   and args.metric_cls( **args.metric_params) = `construct` on the two attributes get_args() stored. *)
From Batchie Require Generated.SrcCliArgs Generated.SrcCliArgsDist Proofs.C18SourceIntrospect Proofs.C07SourceArgs.
Theorem C07_model_is_source_cli_args_get_args :
  forall (Cls F O : Type) (I : Cli.introspect Cls) (P : Cli.pyprims F O) (raw : Cli.cd_ns Cls F O),
  SrcCliArgsDist.src_cd_get_args Cls F O I P raw = Cli.cd_get_args I P raw.
Proof. exact C07SourceArgs.src_cd_get_args_is_model. Qed.
Print Assumptions C07_model_is_source_cli_args_get_args.

Theorem C07_model_is_source_cli_args_calculate_distance_matrix :
  forall (Cls F O : Type) (I : Cli.introspect Cls) (P : Cli.pyprims F O) (Scr Th Me Dm : Type)
         (construct : Cls -> list (Cli.str * Cli.pval F O) -> result Me) (L : Cli.cd_lib Scr Th Me Dm) (raw : Cli.cd_ns Cls F O),
  SrcCliArgsDist.src_cli_calculate_distance_matrix_cmd Cls F O I P Scr Th Me Dm construct L raw
  = Cli.cli_calculate_distance_matrix_cmd I P construct L raw.
Proof. exact C07SourceArgs.src_cli_calculate_distance_matrix_cmd_is_model. Qed.
Print Assumptions C07_model_is_source_cli_args_calculate_distance_matrix.

(* ... with the introspection record made of the TRANSLATED get_class / get_required_init_args_with_annotations (Props/C18.v) *)
Theorem C07_model_is_source_cli_args_calculate_distance_matrix_world :
  forall (Mod Obj F O : Type) (W : Cli.pyworld Mod Obj) (P : Cli.pyprims F O) (Scr Th Me Dm : Type)
         (construct : Obj -> list (Cli.str * Cli.pval F O) -> result Me) (L : Cli.cd_lib Scr Th Me Dm) (raw : Cli.cd_ns Obj F O),
  SrcCliArgsDist.src_cli_calculate_distance_matrix_cmd Obj F O (C18SourceIntrospect.introspect_src W) P Scr Th Me Dm construct L raw
  = Cli.cli_calculate_distance_matrix_cmd (Cli.introspect_of W) P construct L raw.
Proof. exact C07SourceArgs.src_cli_calculate_distance_matrix_cmd_world. Qed.
Print Assumptions C07_model_is_source_cli_args_calculate_distance_matrix_world.

(* the metric every entry is computed with IS the configured one: whenever the translated command writes its file, the class
   named by --distance-metric was found, the --distance-metric-param items were cast by its required-argument annotations
   (ps = [] exactly when the option is absent), `construct` on that class and EXACTLY those parameters gave the metric m, and
   the file holds what the library computes with m.  A get_args() that drops or ignores the option does not satisfy this. *)
Theorem C07_cli_metric_is_configured :
  forall (Cls F O : Type) (I : Cli.introspect Cls) (P : Cli.pyprims F O) (Scr Th Me Dm : Type)
         (construct : Cls -> list (Cli.str * Cli.pval F O) -> result Me) (L : Cli.cd_lib Scr Th Me Dm) (raw : Cli.cd_ns Cls F O) out,
  SrcCliArgsDist.src_cli_calculate_distance_matrix_cmd Cls F O I P Scr Th Me Dm construct L raw = Ok out ->
  exists c req ps m,
    Cli.i_get_class I Cli.s_batchie (Cli.cd_distance_metric raw) Cli.BDistanceMetric = Ok (Some c)
    /\ Cli.i_required I (Some c) = Ok req
    /\ Cli.cast_params P (Cli.cd_distance_metric_param raw) req = Ok ps
    /\ construct c ps = Ok m
    /\ Cli.cli_calculate_distance_matrix (Cli.cd_with_mk L (Ok m)) (Cli.cd_plain raw) = Ok out.
Proof. exact C07SourceArgs.cmd_metric_is_constructed_from_params. Qed.
Print Assumptions C07_cli_metric_is_configured.

(* OBSERVATION on the unchanged tree (outside the property's quantifier, recorded because the review asked): the parameter
   types are looked up only among the __init__ arguments WITHOUT a default, so a KEY naming a defaulted argument is a
   KeyError (Err 25) - and the only metric the package ships, MSEDistance(sigmoid: bool = True), has no other argument:
   `--distance-metric-param sigmoid=false` cannot be given.  Stated of the translated source, for every world in which the
   signature gives the key's parameter a default. *)
Theorem C07_cli_defaulted_metric_param_is_key_error :
  forall (Mod Obj F O : Type) (W : Cli.pyworld Mod Obj) (P : Cli.pyprims F O) (Scr Th Me Dm : Type)
         (construct : Obj -> list (Cli.str * Cli.pval F O) -> result Me) (L : Cli.cd_lib Scr Th Me Dm) (raw : Cli.cd_ns Obj F O)
         (o : Obj) sig k v rest,
  Cli.get_class W Cli.s_batchie (Cli.cd_distance_metric raw) Cli.BDistanceMetric = Ok (Some o) ->
  Cli.w_isclass W o = true -> Cli.w_signature W o = Ok sig ->
  (forall sp, In (k, sp) sig -> Cli.sp_no_default sp = false) ->
  Cli.cd_distance_metric_param raw = Some ((k, v) :: rest) ->
  SrcCliArgsDist.src_cli_calculate_distance_matrix_cmd Obj F O (C18SourceIntrospect.introspect_src W) P Scr Th Me Dm construct L raw
  = Err 25%Z.
Proof. exact C07SourceArgs.cmd_defaulted_param_is_key_error_world. Qed.
Print Assumptions C07_cli_defaulted_metric_param_is_key_error.

(* ---- matrices built by hand through the public class ----
   "a matrix missing any pair refuses to be densified" beyond the matrices the pipeline builds: ANY matrix of size n whose
   stored keys ps are distinct, strictly lower-triangular and in range - in whatever order add_value stored them, with
   whatever values d - refuses while a pair is missing and densifies to the symmetric zero-diagonal matrix of its values
   once none is; mk ps is what the add_value calls build. *)
From Batchie Require Proofs.C07HandBuilt.
Theorem C07_hand_built_incomplete_refused :
  forall (V : Type) (vzero : V) (d : nat -> nat -> V) (n : nat) (ps : list (nat * nat)) i j,
  NoDup ps -> Forall (fun p => (snd p < fst p < n)%nat) ps -> (j < i < n)%nat -> ~ In (i, j) ps ->
  add_all V d (dm_empty V (Z.of_nat n)) ps = Ok (C07DistMat.mk V d n ps) /\
  to_dense V vzero (C07DistMat.mk V d n ps) = Err 5%Z.
Proof.
  intros V vzero d n ps i j Hnd Hv Hij Hnin.
  exact (conj (C07HandBuilt.hand_built_by_add_value V d n ps Hv)
              (C07HandBuilt.hand_built_incomplete_refused V vzero d n ps i j Hnd Hv Hij Hnin)).
Qed.
Print Assumptions C07_hand_built_incomplete_refused.

Theorem C07_hand_built_complete_densifies :
  forall (V : Type) (vzero : V) (d : nat -> nat -> V) (n : nat) (ps : list (nat * nat)),
  NoDup ps -> Forall (fun p => (snd p < fst p < n)%nat) ps -> (forall i j, (j < i < n)%nat -> In (i, j) ps) ->
  to_dense V vzero (C07DistMat.mk V d n ps) = Ok (C07DistMat.dense_of V vzero d n).
Proof. exact C07HandBuilt.hand_built_complete_densifies. Qed.
Print Assumptions C07_hand_built_complete_densifies.

(* ... and the side condition cannot be dropped: `to_dense m = Ok D -> every pair is stored` is FALSE of the class as
   written.  add_value guards with i < j (a diagonal key passes), is_complete counts entries: three accepted calls on a
   size-3 matrix densify with the pairs (2,0), (2,1) missing and a non-zero diagonal.  Outside the property's quantifier
   (no family of chunk files contains a diagonal key); replayed on the implementation by the harness (extra check). *)
Theorem C07_to_dense_accepts_ill_formed_refuted :
  exists m D, C07HandBuilt.ill_formed_script = Ok m /\ to_dense Z 0%Z m = Ok D
              /\ has_key Z (dm_entries m) 2 0 = false /\ has_key Z (dm_entries m) 2 1 = false
              /\ D = [[0; 3; 0]; [3; 5; 0]; [0; 0; 7]]%Z.
Proof. exact C07HandBuilt.to_dense_accepts_ill_formed. Qed.
Print Assumptions C07_to_dense_accepts_ill_formed_refuted.
