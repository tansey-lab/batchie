(* C02 — Screen and experiment-space persistence is lossless.
   Statements only: a proof is `exact <lemma from Proofs/>` (or a split into such), a concrete example is closed by evaluation.
   "Constructible" = returned by [mk_screen] (the model of Screen(...)) for SOME arguments: any rows (also none),
   any arity, control name, observations / mask given or not, mappings built from the data or supplied (and then
   possibly strict supersets of the data, in any stored order).  No hypothesis on the screen or on supplied
   mappings is needed: whatever the constructor accepted is what save writes and load hands back to the constructor.
   [load] = the constructor called as load_h5 calls it (Model/Persist.v).
   History: before /repo commit 81a412f a screen without rows (and a space with an empty mapping) saved but did
   not load; the model then said Err 8 and the literal clause was stated as refuted.  With encode_string_array /
   decode_string_array the clause holds for EVERY constructible screen, and is stated so below; the former
   witnesses are now Examples of successful round trips C02_ex_zero_rows and C02_ex_zero_rows_supplied. *)
From Coq Require Import ZArith List Bool.
From Batchie Require Import Lib.Sexp Model.Encode Model.Screen Model.Persist Proofs.C02Encode Proofs.C02Persist
  Generated.SrcPersist Proofs.C02Source.
Import ListNotations.
Open Scope Z_scope.

(* ---- screens ---- *)

(* load (save s) is the screen s itself: the complete record — rows (sample, plate, treatment names, doses,
   observation bit patterns, mask), arity, control name, treatment / sample / plate ids and the three mappings *)
Theorem C02_load_save : forall rows arity ctrl tmap smap og mg s,
  mk_screen rows arity ctrl tmap smap og mg = Ok s ->
  load (save s) = Ok s.
Proof. exact load_save. Qed.
Print Assumptions C02_load_save.

(* the same, observable by observable *)
Theorem C02_load_save_observables : forall rows arity ctrl tmap smap og mg s,
  mk_screen rows arity ctrl tmap smap og mg = Ok s ->
  exists s', load (save s) = Ok s'
    /\ length (s_rows s') = length (s_rows s)
    /\ map r_sample (s_rows s') = map r_sample (s_rows s)        (* sample names *)
    /\ map r_plate (s_rows s') = map r_plate (s_rows s)          (* plate names *)
    /\ map r_treats (s_rows s') = map r_treats (s_rows s)        (* treatment names and doses, per column *)
    /\ map r_obs (s_rows s') = map r_obs (s_rows s)              (* observations, bit patterns *)
    /\ map r_mask (s_rows s') = map r_mask (s_rows s)            (* observation mask *)
    /\ s_arity s' = s_arity s                                    (* also when there are no rows *)
    /\ s_ctrl s' = s_ctrl s                                      (* control name *)
    /\ s_tids s' = s_tids s /\ s_sids s' = s_sids s /\ s_pids s' = s_pids s
    /\ s_tmap s' = s_tmap s /\ s_smap s' = s_smap s /\ s_pmap s' = s_pmap s.
Proof. exact load_save_observables. Qed.
Print Assumptions C02_load_save_observables.

(* loading never renumbers: ids and mappings after the load are literally those of the saved screen; a supplied
   mapping comes back verbatim (stored order, entries no row uses included) *)
Theorem C02_no_renumber : forall rows arity ctrl tmap smap og mg s,
  mk_screen rows arity ctrl tmap smap og mg = Ok s ->
  exists s', load (save s) = Ok s'
  /\ s_tids s' = s_tids s /\ s_sids s' = s_sids s /\ s_pids s' = s_pids s
  /\ s_tmap s' = s_tmap s /\ s_smap s' = s_smap s /\ s_pmap s' = s_pmap s
  /\ (forall m b, tmap = Some (m, b) -> s_tmap s' = m)
  /\ (forall m b, smap = Some (m, b) -> s_smap s' = m).
Proof. exact no_renumber. Qed.
Print Assumptions C02_no_renumber.

(* a second save writes the same file, a second load returns the same screen, and so on for ever *)
Theorem C02_fixed_point : forall rows arity ctrl tmap smap og mg s,
  mk_screen rows arity ctrl tmap smap og mg = Ok s ->
  exists s', load (save s) = Ok s'
  /\ save s' = save s /\ load (save s') = Ok s' /\ forall n, cycles n s' = Ok s'.
Proof. exact fixed_point. Qed.
Print Assumptions C02_fixed_point.

Theorem C02_any_number_of_cycles : forall rows arity ctrl tmap smap og mg s,
  mk_screen rows arity ctrl tmap smap og mg = Ok s ->
  forall n, cycles n s = Ok s.
Proof. exact any_cycles. Qed.
Print Assumptions C02_any_number_of_cycles.

(* exact description of load . save on ANY screen record (constructible or not): it is the constructor call
   load_h5 makes — rows, arity and control name as stored, observations and mask given, the stored treatment and
   sample mappings supplied, plates re-encoded.  (Replaces the former Ok / Err 8 characterisation.) *)
Theorem C02_load_save_characterised : forall s,
  load (save s)
  = mk_screen (s_rows s) (s_arity s) (s_ctrl s) (Some (s_tmap s, true)) (Some (s_smap s, true)) true true.
Proof. exact load_save_is_ctor. Qed.
Print Assumptions C02_load_save_characterised.

(* ---- experiment space ---- *)
Theorem C02_space_load_save : forall sp, space_load (space_save sp) = Ok sp.
Proof. exact space_load_save. Qed.
Print Assumptions C02_space_load_save.

(* no renumbering, fixed point, any number of cycles *)
Theorem C02_space_fixed_point : forall sp,
  exists sp', space_load (space_save sp) = Ok sp'
  /\ sp' = sp /\ space_save sp' = space_save sp /\ forall n, space_cycles n sp' = Ok sp'.
Proof. exact space_fixed_point. Qed.
Print Assumptions C02_space_fixed_point.

Theorem C02_space_any_number_of_cycles : forall sp n, space_cycles n sp = Ok sp.
Proof. exact space_cycles_fixed. Qed.
Print Assumptions C02_space_any_number_of_cycles.

(* the space of every constructible screen round-trips, and from_screen commutes with the screen's own round trip *)
Theorem C02_space_of_screen : forall rows arity ctrl tmap smap og mg s,
  mk_screen rows arity ctrl tmap smap og mg = Ok s ->
  space_load (space_save (space_of_screen s)) = Ok (space_of_screen s)
  /\ (forall n, space_cycles n (space_of_screen s) = Ok (space_of_screen s))
  /\ (forall s', load (save s) = Ok s' -> space_of_screen s' = space_of_screen s).
Proof. exact space_of_screen_load_save. Qed.
Print Assumptions C02_space_of_screen.

(* ---- non-vacuity: the hypotheses are met by non-trivial screens ---- *)
Definition ex_rows : list row :=
  [ {| r_sample := [115]; r_plate := [112; 49]; r_treats := [([97], 5); ([98], 7)];
       r_obs := 4607182418800017408; r_mask := true |};
    {| r_sample := [115]; r_plate := [112; 50]; r_treats := [([98], 7); ([], 0)];
       r_obs := 9221120237041090561; r_mask := false |};                         (* NaN with a payload *)
    {| r_sample := [233]; r_plate := [112; 50]; r_treats := [([97], 5); ([97], 5)];
       r_obs := 9223372036854775808; r_mask := false |} ].                       (* -0.0 *)

(* hand-made supplied mappings: not in sorted order, entries (c,5)->2, (a,9)->3 and sample "zz"->1 are used by no row *)
Definition ex_tmap : tmapping :=
  [(([99], 5), 2); (([98], 7), 1); (([], 0), -1); (([97], 5), 0); (([97], 9), 3)].
Definition ex_smap : nmapping := [([233], 2); ([122; 122], 1); ([115], 0)].

Example C02_ex_superset :
  match mk_screen ex_rows 2 [] (Some (ex_tmap, true)) (Some (ex_smap, true)) true true with
  | Ok s => s_tmap s = ex_tmap /\ s_smap s = ex_smap
            /\ s_tids s = [[0; 1]; [1; -1]; [0; 0]] /\ s_sids s = [0; 0; 2] /\ s_pids s = [0; 1; 1]
            /\ existsb (Z.eqb 2) (concat (s_tids s)) = false       (* id 2 is in the mapping, in no row *)
            /\ load (save s) = Ok s /\ cycles 3 s = Ok s
            /\ space_cycles 3 (space_of_screen s) = Ok (space_of_screen s)
  | Err _ => False
  end.
Proof. vm_compute. repeat split. Qed.

(* mappings built from the data; observations not given (all rows unobserved, observations zero) *)
Example C02_ex_built :
  match mk_screen ex_rows 2 [99] None None false false with
  | Ok s => map r_mask (s_rows s) = [false; false; false]
            /\ s_tmap s = [(([], 0), -1); (([97], 5), 0); (([98], 7), 1)]
            /\ s_tids s = [[0; 1]; [1; -1]; [0; 0]]
            /\ load (save s) = Ok s /\ cycles 2 s = Ok s
  | Err _ => False
  end.
Proof. vm_compute. repeat split. Qed.

(* a mapping that does not cover the data, or is not dense, is refused at construction (so it is not
   "constructible") *)
Example C02_ex_not_constructible :
  mk_screen ex_rows 2 [] (Some ([(([97], 5), 0)], true)) None true true = Err 5
  /\ mk_screen ex_rows 2 [] (Some ([(([99], 5), 3); (([98], 7), 1); (([], 0), -1); (([97], 5), 0)], true)) None true true = Err 3.
Proof. split; vm_compute; reflexivity. Qed.

(* the former counterexamples: screens without rows now round-trip, arity and (empty or supplied) mappings kept *)
Example C02_ex_zero_rows :
  match mk_screen [] 2 [] None None true true with
  | Ok s => s_rows s = [] /\ s_arity s = 2%nat /\ s_tmap s = [] /\ s_smap s = []
            /\ f_arity (save s) = 2%nat /\ load (save s) = Ok s /\ cycles 3 s = Ok s
            /\ space_load (space_save (space_of_screen s)) = Ok (space_of_screen s)
  | Err _ => False
  end.
Proof. vm_compute. repeat split. Qed.

Example C02_ex_zero_rows_supplied :
  match mk_screen [] 1 [] (Some ([(([97], 5), 0)], true)) (Some ([([115], 0)], true)) true true with
  | Ok s => s_rows s = [] /\ s_arity s = 1%nat /\ s_tmap s = [(([97], 5), 0)] /\ s_smap s = [([115], 0)]
            /\ load (save s) = Ok s /\ cycles 2 s = Ok s
  | Err _ => False
  end.
Proof. vm_compute. repeat split. Qed.

(* ---- source-translation links: the model IS the code ----
   Generated/SrcPersist.v holds the Gallina translations of the WHOLE methods Screen.save_h5, Screen.load_h5,
   ExperimentSpace.from_screen, ExperimentSpace.save_h5 and ExperimentSpace.load_h5, regenerated from /repo's current
   data.py on every run (harness/py2gal.py; configurations C02_* of harness/src_functions.py).  They work on a raw HDF5
   file [h5raw] = its datasets and attributes BY NAME (end of Model/Persist.v): save_h5 denotes the raw file it has
   written (one [h5_create] per create_dataset call of the source), load_h5 reads one ([h5_read_*] per f[NAME][:]).
   [h5_close] / [h5_close_space] is the representation map raw file -> the model's record (every dataset of the record is
   present under its name).  Trusted: the translator and the configured primitives (h5py create_dataset / f[NAME][:] /
   attrs per literal name, numpy's np.char.encode / decode / np.empty inside the translated codec helpers, the attribute reads
   of a Screen, Screen(...) / ExperimentSpace(...) as the model constructors on the arrays the call site passes). *)

(* the helpers encode_string_array / decode_string_array, translated too (1-d and 2-d arrays): with their
   `arr.size == 0` guard they are the identity on the strings of every array, also one without elements - where
   np.char.encode / decode alone answer with a float64 array (tag 33, the defect repaired in /repo 81a412f) *)
Theorem C02_model_is_source_string_codec :
  (forall a : list name, src_encode_string_array_1d a = Ok a) /\ (forall a : h5_2d name, src_encode_string_array_2d a = Ok a) /\
  (forall a : list bname, src_decode_string_array_1d a = Ok a) /\ (forall a : h5_2d bname, src_decode_string_array_2d a = Ok a).
Proof. exact src_string_codec_is_identity. Qed.
Print Assumptions C02_model_is_source_string_codec.

(* Screen.save_h5 writes exactly the model's file: the 14 datasets + 1 attribute under the names the model gives
   them, each from the attribute of the screen the model says - the six mapping datasets included; stated through
   h5_close, so independent of the order of the create_dataset calls *)
Theorem C02_model_is_source_screen_save_h5 : forall s : screen,
  (dor w <- src_screen_save_h5 s; h5_close w) = Ok (save s).
Proof. exact src_screen_save_h5_is_model. Qed.
Print Assumptions C02_model_is_source_screen_save_h5.

(* Screen.load_h5 on ANY raw file that represents a record f (all 14 datasets + the attribute present with their
   kinds) is the model's load f: the datasets it reads, and the keyword of Screen(...) each one reaches - treatment_names,
   treatment_doses, observations, observation_mask, sample_names, plate_names, control_treatment_name,
   sample_mapping = (sample_mapping_names, sample_mapping_ids), treatment_mapping = (treatment_mapping_names, _doses, _ids);
   the stored id datasets are not read *)
Theorem C02_model_is_source_screen_load_h5 : forall (w : h5raw) (f : file),
  h5_close w = Ok f -> src_screen_load_h5 w = load f.
Proof. exact src_screen_load_h5_is_model. Qed.
Print Assumptions C02_model_is_source_screen_load_h5.

(* the translated load_h5 applied to the raw file the translated save_h5 wrote is the model's load (save s), for every
   screen record: C02_load_save_characterised and everything above are theorems about the translated source *)
Theorem C02_model_is_source_screen_save_load : forall s : screen,
  (dor w <- src_screen_save_h5 s; src_screen_load_h5 w) = load (save s).
Proof. exact src_screen_save_load_is_model. Qed.
Print Assumptions C02_model_is_source_screen_save_load.

(* ... in particular: every constructible screen comes back from the translated methods, after any number of cycles *)
Theorem C02_source_round_trip : forall rows arity ctrl tmap smap og mg s,
  mk_screen rows arity ctrl tmap smap og mg = Ok s ->
  (dor w <- src_screen_save_h5 s; src_screen_load_h5 w) = Ok s /\ forall n, src_cycles n s = Ok s.
Proof. exact src_screen_round_trip. Qed.
Print Assumptions C02_source_round_trip.

(* ExperimentSpace.from_screen: the screen's two mappings and its control name *)
Theorem C02_model_is_source_space_from_screen : forall s : screen,
  src_space_from_screen s = Ok (space_of_screen s).
Proof. exact src_space_from_screen_is_model. Qed.
Print Assumptions C02_model_is_source_space_from_screen.

Theorem C02_model_is_source_space_save_h5 : forall sp : space,
  (dor w <- src_space_save_h5 sp; h5_close_space w) = Ok (space_save sp).
Proof. exact src_space_save_h5_is_model. Qed.
Print Assumptions C02_model_is_source_space_save_h5.

Theorem C02_model_is_source_space_load_h5 : forall (w : h5raw) (g : sfile),
  h5_close_space w = Ok g -> src_space_load_h5 w = space_load g.
Proof. exact src_space_load_h5_is_model. Qed.
Print Assumptions C02_model_is_source_space_load_h5.

Theorem C02_model_is_source_space_save_load : forall sp : space,
  (dor w <- src_space_save_h5 sp; src_space_load_h5 w) = space_load (space_save sp).
Proof. exact src_space_save_load_is_model. Qed.
Print Assumptions C02_model_is_source_space_save_load.

(* from_screen, save_h5, load_h5 as translated, one after the other, on any screen *)
Theorem C02_source_space_round_trip : forall s : screen,
  (dor sp <- src_space_from_screen s; dor w <- src_space_save_h5 sp; src_space_load_h5 w) = Ok (space_of_screen s).
Proof. exact src_space_round_trip. Qed.
Print Assumptions C02_source_space_round_trip.

(* non-vacuity of the hypothesis of the load links: what the translated save_h5 writes does represent a record, and a
   raw file lacking a dataset represents none (the translated load_h5 then raises KeyError, tag 30) *)
Example C02_ex_source_raw :
  match mk_screen ex_rows 2 [] (Some (ex_tmap, true)) (Some (ex_smap, true)) true true with
  | Ok s => match src_screen_save_h5 s with
            | Ok w => h5_close w = Ok (save s) /\ src_screen_load_h5 w = Ok s
                      /\ List.length (h_data w) = 14%nat /\ List.length (h_attrs w) = 1%nat
            | Err _ => False
            end
  | Err _ => False
  end
  /\ src_screen_load_h5 h5_empty = Err 30 /\ src_space_load_h5 h5_empty = Err 30.
Proof. vm_compute. repeat split. Qed.

(* what the guard of the codec helpers is for: numpy's own codec on arrays without elements *)
Example C02_ex_codec_guard :
  np_char_codec1 [] = Err 33 /\ np_char_codec2 (2%nat, []) = Err 33 /\ np_char_codec2 (0%nat, [[]; []]) = Err 33
  /\ src_encode_string_array_2d (2%nat, []) = Ok (2%nat, []) /\ src_decode_string_array_1d [] = Ok [].
Proof. vm_compute. repeat split. Qed.
