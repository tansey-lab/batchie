(* C17 — Sampling follows the burn-in/thinning schedule; each chain gets its own stream.
   Statements only: a proof is `exact <lemma from Proofs/>` (or a split into such), a concrete example is closed by evaluation.
   `sample kind seed n_chains chain_index n_burnin thin n_thetas len0 returned` is the model of
   batchie.sampling.sample (kind 0 = MCMCModel, 1 = VIModel); it returns the trace of calls and the final
   length of the results holder.  All theorems are for every seed >= 0 (numpy refuses negative seeds),
   every n_chains and 0 <= chain_index < n_chains, b >= 0, t >= 1 and n >= 0 (the property asks n >= 1). *)
From Coq Require Import ZArith List.
(* the real sampler object (for "resets the model"); imported first: Model.Sampling's names (sample, ...) take precedence below *)
From Coq Require Import QArith Qcanon.
From Batchie Require Import Lib.PyRt Lib.Num Model.Gibbs Generated.SrcGibbsObj Proofs.C17Reset.
From Batchie Require Import Lib.Sexp Model.Sampling Proofs.C17Sampling.
From Batchie Require Import Generated.SrcSampling Proofs.C17Source.
From Batchie Require Import Proofs.C17Vi.
Import ListNotations.
Open Scope Z_scope.

(* The model is what the source says NOW: `src_sample` is the whole function batchie.sampling.sample of /repo's
   current working tree, re-translated statement by statement on every run (harness/py2gal.py ->
   Generated/SrcSampling.v: the match on the model class, the four None checks, the seed-sequence / generator
   construction, the burn-in loop, the thinning loop with its `(step_index + 1) % thin == 0` test, the VI
   branch with its two None checks and the same seed-sequence / generator construction); started with no call issued yet, it equals the hand-written model for ALL arguments, so every
   theorem below is a theorem about the translated source. *)
Theorem C17_model_is_source : forall kind seed n_chains chain_index n_burnin thin n_thetas len0 returned,
  src_sample kind seed n_chains chain_index n_burnin thin n_thetas ([], len0) returned
  = sample kind seed n_chains chain_index n_burnin thin n_thetas len0 returned.
Proof. exact src_sample_is_model. Qed.
Print Assumptions C17_model_is_source.

(* the whole trace in closed form: reset, set-rng with key (seed, [chain_index]), b steps, then n times
   (t steps, one record); the holder, empty on entry, ends with n entries *)
Theorem C17_trace : forall seed nc ci b t n,
  0 <= seed -> 0 <= ci < nc -> 0 <= b -> 1 <= t -> 0 <= n ->
  sample 0 seed (Some nc) (Some ci) (Some b) (Some t) n 0 0%nat
  = Ok (Reset :: SetRng seed [ci] ::
        repeat Step (Z.to_nat b) ++ concat (repeat (repeat Step (Z.to_nat t) ++ [Record]) (Z.to_nat n)), n).
Proof. exact c17_trace. Qed.
Print Assumptions C17_trace.

(* exactly b + n*t steps *)
Theorem C17_step_count : forall seed nc ci b t n tr len,
  0 <= seed -> 0 <= ci < nc -> 0 <= b -> 1 <= t -> 0 <= n ->
  sample 0 seed (Some nc) (Some ci) (Some b) (Some t) n 0 0%nat = Ok (tr, len) ->
  n_steps tr = b + n * t.
Proof. exact c17_step_count. Qed.
Print Assumptions C17_step_count.

(* [record_marks 0 tr] lists, for every Record in the trace, how many Steps precede it:
   they are exactly b+t, b+2t, ..., b+n*t (so there is no record anywhere else) *)
Theorem C17_record_marks : forall seed nc ci b t n tr len,
  0 <= seed -> 0 <= ci < nc -> 0 <= b -> 1 <= t -> 0 <= n ->
  sample 0 seed (Some nc) (Some ci) (Some b) (Some t) n 0 0%nat = Ok (tr, len) ->
  record_marks 0 tr = map (fun i => b + (Z.of_nat i + 1) * t) (seq 0 (Z.to_nat n)).
Proof. exact c17_record_marks. Qed.
Print Assumptions C17_record_marks.

(* the run is never refused, records n states and leaves the (initially empty) collection complete *)
Theorem C17_collection_complete : forall seed nc ci b t n,
  0 <= seed -> 0 <= ci < nc -> 0 <= b -> 1 <= t -> 0 <= n ->
  exists tr len, sample 0 seed (Some nc) (Some ci) (Some b) (Some t) n 0 0%nat = Ok (tr, len) /\
                 n_records tr = n /\ len = n /\ is_complete n len = true.
Proof. exact c17_complete. Qed.
Print Assumptions C17_collection_complete.

(* the generator handed to the model: whatever b, t, n and the holder are, a successful run starts with
   Reset, SetRng (rng_key seed n_chains chain_index) and then only steps and records ... *)
Theorem C17_key_in_trace : forall seed nc ci b t n len0 tr len,
  sample 0 seed (Some nc) (Some ci) (Some b) (Some t) n len0 0%nat = Ok (tr, len) ->
  exists k rest, rng_key seed nc ci = Ok k /\ tr = Reset :: SetRng (fst k) (snd k) :: rest /\
                 forall e, In e rest -> e = Step \/ e = Record.
Proof. exact c17_key_in_trace. Qed.
Print Assumptions C17_key_in_trace.

(* ... and that key is (entropy = seed, spawn_key = [chain_index]): a function of the triple in which
   n_chains only bounds the index *)
Theorem C17_key_fun : forall seed nc ci, 0 <= seed -> 0 <= ci < nc -> rng_key seed nc ci = Ok (seed, [ci]).
Proof. exact c17_key_fun. Qed.
Print Assumptions C17_key_fun.

Theorem C17_key_injective : forall seed1 nc1 ci1 seed2 nc2 ci2 k,
  0 <= ci1 < nc1 -> 0 <= ci2 < nc2 ->
  rng_key seed1 nc1 ci1 = Ok k -> rng_key seed2 nc2 ci2 = Ok k -> seed1 = seed2 /\ ci1 = ci2.
Proof. exact c17_key_injective. Qed.
Print Assumptions C17_key_injective.

(* PARTIAL: every other chain index gets a different SeedSequence key.  That different keys give
   non-overlapping PCG64 streams is numpy's guarantee and cannot be proved here. *)
Theorem C17_streams_distinct_partial : forall seed nc ci1 ci2,
  0 <= seed -> 0 <= ci1 < nc -> 0 <= ci2 < nc -> ci1 <> ci2 -> rng_key seed nc ci1 <> rng_key seed nc ci2.
Proof. exact c17_streams_distinct. Qed.
Print Assumptions C17_streams_distinct_partial.

(* variational models: reset, the generator of (seed, n_chains, chain_index) built as for MCMC models, asked exactly once
   for exactly n samples, which are all stored (when the model honours its contract and returns n of them); n_burnin and
   thin are ignored *)
Theorem C17_vi_once : forall seed nc ci b t n,
  0 <= seed -> 0 <= ci < nc -> 0 <= n ->
  sample 1 seed (Some nc) (Some ci) b t n 0 (Z.to_nat n)
  = Ok (Reset :: SetRng seed [ci] :: SampleVI n :: repeat Record (Z.to_nat n), n) /\ is_complete n n = true.
Proof. exact c17_vi_once. Qed.
Print Assumptions C17_vi_once.

Theorem C17_not_a_model_refused : forall kind seed nc ci b t n len0 ret,
  kind <> 0 -> kind <> 1 -> sample kind seed nc ci b t n len0 ret = Err 6.
Proof. exact c17_not_a_model_refused. Qed.
Print Assumptions C17_not_a_model_refused.

Theorem C17_none_refused : forall seed nc ci b t n len0 ret,
  nc = None \/ ci = None \/ b = None \/ t = None -> sample 0 seed nc ci b t n len0 ret = Err 5.
Proof. exact c17_none_refused. Qed.
Print Assumptions C17_none_refused.

(* ... and a None for n_chains or chain_index for VI models (the generator is derived from them) *)
Theorem C17_vi_none_refused : forall seed nc ci b t n len0 ret,
  nc = None \/ ci = None -> sample 1 seed nc ci b t n len0 ret = Err 5.
Proof. exact c17_vi_none_refused. Qed.
Print Assumptions C17_vi_none_refused.

(* observation outside the property's quantifier: a negative chain index is not refused, python list
   indexing makes chain_index = -1 share the stream of chain n_chains - 1 *)
Theorem C17_negative_index_aliases : forall seed nc,
  0 <= seed -> 1 <= nc -> rng_key seed nc (-1) = rng_key seed nc (nc - 1).
Proof. exact c17_negative_index_aliases. Qed.
Print Assumptions C17_negative_index_aliases.

(* ---- the generator clauses on whole runs, per model class ---- *)

(* MCMC models: two successful runs for different chain indices below n_chains hand different keys to set_rng, whatever
   b, t, n and the holders are.  PARTIAL for the same reason as C17_streams_distinct_partial (keys, not streams). *)
Theorem C17_mcmc_chains_distinct_partial : forall seed nc ci1 ci2 b1 t1 n1 l1 b2 t2 n2 l2 tr1 len1 tr2 len2,
  0 <= ci1 < nc -> 0 <= ci2 < nc -> ci1 <> ci2 ->
  sample 0 seed (Some nc) (Some ci1) (Some b1) (Some t1) n1 l1 0%nat = Ok (tr1, len1) ->
  sample 0 seed (Some nc) (Some ci2) (Some b2) (Some t2) n2 l2 0%nat = Ok (tr2, len2) ->
  handed_key tr1 <> handed_key tr2.
Proof. exact c17_mcmc_chains_distinct. Qed.
Print Assumptions C17_mcmc_chains_distinct_partial.

(* VI models (repaired in /repo, 67fc5db; KNOWN_FINDINGS vi-chains-share-generator is `fixed`): whatever n, the holder and
   the number of samples the model returns are, a successful run is Reset, SetRng (rng_key seed n_chains chain_index) - the key
   C17_key_fun / C17_key_injective / C17_streams_distinct_partial speak about -, one SampleVI n, then only records *)
Theorem C17_vi_key_in_trace : forall seed nc ci b t n len0 ret tr len,
  sample 1 seed (Some nc) (Some ci) b t n len0 ret = Ok (tr, len) ->
  exists k rest, rng_key seed nc ci = Ok k /\ tr = Reset :: SetRng (fst k) (snd k) :: SampleVI n :: rest /\
                 forall e, In e rest -> e = Record.
Proof. exact c17_vi_key_in_trace. Qed.
Print Assumptions C17_vi_key_in_trace.

Theorem C17_vi_handed_key : forall seed nc ci b t n len0 ret tr len,
  sample 1 seed (Some nc) (Some ci) b t n len0 ret = Ok (tr, len) ->
  exists k, rng_key seed nc ci = Ok k /\ handed_key tr = Some k.
Proof. exact c17_vi_handed_key. Qed.
Print Assumptions C17_vi_handed_key.

(* two successful VI runs for different chain indices below n_chains hand different keys to set_rng.
   PARTIAL for the same reason as C17_streams_distinct_partial (keys, not streams). *)
Theorem C17_vi_chains_distinct_partial : forall seed nc ci1 ci2 b1 t1 n1 l1 r1 b2 t2 n2 l2 r2 tr1 len1 tr2 len2,
  0 <= ci1 < nc -> 0 <= ci2 < nc -> ci1 <> ci2 ->
  sample 1 seed (Some nc) (Some ci1) b1 t1 n1 l1 r1 = Ok (tr1, len1) ->
  sample 1 seed (Some nc) (Some ci2) b2 t2 n2 l2 r2 = Ok (tr2, len2) ->
  handed_key tr1 <> handed_key tr2.
Proof. exact c17_vi_chains_distinct. Qed.
Print Assumptions C17_vi_chains_distinct_partial.

(* the same triple gives a VI model and an MCMC model the same key: one rule for every model class *)
Theorem C17_vi_key_as_mcmc : forall seed nc ci b t n len0 ret tr len b' t' n' len0' tr' len',
  sample 1 seed (Some nc) (Some ci) b t n len0 ret = Ok (tr, len) ->
  sample 0 seed (Some nc) (Some ci) (Some b') (Some t') n' len0' 0%nat = Ok (tr', len') ->
  handed_key tr = handed_key tr'.
Proof. exact c17_vi_key_as_mcmc. Qed.
Print Assumptions C17_vi_key_as_mcmc.

(* n_burnin and thin are still not read for a VI model *)
Theorem C17_vi_ignores_schedule : forall seed nc ci b t b' t' n len0 ret,
  sample 1 seed nc ci b t n len0 ret = sample 1 seed nc ci b' t' n len0 ret.
Proof. exact c17_vi_ignores_schedule. Qed.
Print Assumptions C17_vi_ignores_schedule.

(* REFUTED for the PRE-REPAIR variant only (Model.Sampling.sample_pre_repair: default_rng(seed) whatever the chain; it is no
   longer what the source says - C17_model_is_source is about `sample`): the clause "a different stream for every other chain
   index" failed inside the property's quantifier - seed 0, n_chains 2, chain indices 0 and 1, n = 1.  The same witness on the
   repaired model is C17_vi_repaired_witness_example below and corpus/C17/vi-chains-share-generator.json on the code. *)
Theorem C17_vi_streams_distinct_refuted :
  exists seed nc ci1 ci2 n tr1 len1 tr2 len2,
    0 <= seed /\ 1 <= n /\ 0 <= ci1 < nc /\ 0 <= ci2 < nc /\ ci1 <> ci2 /\
    sample_pre_repair 1 seed (Some nc) (Some ci1) (Some 0) (Some 1) n 0 (Z.to_nat n) = Ok (tr1, len1) /\
    sample_pre_repair 1 seed (Some nc) (Some ci2) (Some 0) (Some 1) n 0 (Z.to_nat n) = Ok (tr2, len2) /\
    handed_key tr1 = handed_key tr2.
Proof. exact c17_vi_streams_distinct_refuted. Qed.
Print Assumptions C17_vi_streams_distinct_refuted.

(* ---- "resets the model": what the reset_model that sample() calls does on the real sampler (C17 gap 1) ----
   In the model above Reset is an event; for LegacySparseDrugComboImpl (the object SparseDrugCombo.reset_model forwards to,
   C08_model_is_source_sdc_reset_model) the method is re-translated from /repo on every run: *)
Theorem C17_real_reset_is_source : forall o, src_impl_reset_model o = Ok (set_pi_st o (reset_st (pi_st o))).
Proof. exact c17_real_reset_is_source. Qed.
Print Assumptions C17_real_reset_is_source.

(* PARTIAL: on a state with the shapes __init__ allocates it restores the embeddings, intercept, observation precision, cache *)
Theorem C17_real_reset_restores_embeddings_partial : forall g s, shapes g s ->
  W (reset_st s) = W (init_st g) /\ W0 (reset_st s) = W0 (init_st g) /\ V2 (reset_st s) = V2 (init_st g) /\
  V1 (reset_st s) = V1 (init_st g) /\ V0 (reset_st s) = V0 (init_st g) /\ alpha (reset_st s) = alpha (init_st g) /\
  prec (reset_st s) = prec (init_st g) /\ Mu (reset_st s) = Mu (init_st g).
Proof. exact c17_real_reset_restores_embeddings. Qed.
Print Assumptions C17_real_reset_restores_embeddings_partial.

(* ... and keeps every horseshoe / gamma-process precision and the step counter of the previous chain *)
Theorem C17_real_reset_keeps_precisions : forall o o', src_impl_reset_model o = Ok o' ->
  tau (pi_st o') = tau (pi_st o) /\ tau0 (pi_st o') = tau0 (pi_st o) /\
  phi2 (pi_st o') = phi2 (pi_st o) /\ phi1 (pi_st o') = phi1 (pi_st o) /\ phi0 (pi_st o') = phi0 (pi_st o) /\
  eta2 (pi_st o') = eta2 (pi_st o) /\ eta1 (pi_st o') = eta1 (pi_st o) /\ eta0 (pi_st o') = eta0 (pi_st o) /\
  gam (pi_st o') = gam (pi_st o) /\ pi_steps o' = pi_steps o.
Proof. exact c17_real_reset_keeps_precisions. Qed.
Print Assumptions C17_real_reset_keeps_precisions.

(* so the reset state is the constructed one exactly when those precisions still have their initial values *)
Theorem C17_real_reset_restores_iff : forall g s, shapes g s ->
  (reset_st s = init_st g <->
   tau s = tau (init_st g) /\ tau0 s = tau0 (init_st g) /\ phi2 s = phi2 (init_st g) /\ phi1 s = phi1 (init_st g) /\
   phi0 s = phi0 (init_st g) /\ eta2 s = eta2 (init_st g) /\ eta1 s = eta1 (init_st g) /\ eta0 s = eta0 (init_st g) /\
   gam s = gam (init_st g)).
Proof. exact c17_real_reset_restores_iff. Qed.
Print Assumptions C17_real_reset_restores_iff.

(* REFUTED (a finding, KNOWN_FINDINGS reset-model-keeps-hyperparameters; the harness kind `real` runs it on the real objects):
   "reset_model restores the constructed parameter state" *)
Theorem C17_real_reset_restores_refuted : exists g s, shapes g s /\ reset_st s <> init_st g.
Proof. exact c17_real_reset_restores_refuted. Qed.
Print Assumptions C17_real_reset_restores_refuted.

(* non-vacuity *)
Example C17_trace_example :
  sample 0 5 (Some 3) (Some 1) (Some 1) (Some 2) 2 0 0%nat
  = Ok ([Reset; SetRng 5 [1]; Step; Step; Step; Record; Step; Step; Record], 2).
Proof. vm_compute. reflexivity. Qed.
Example C17_t1_b0_example :
  sample 0 0 (Some 1) (Some 0) (Some 0) (Some 1) 3 0 0%nat
  = Ok ([Reset; SetRng 0 [0]; Step; Record; Step; Record; Step; Record], 3).
Proof. vm_compute. reflexivity. Qed.
Example C17_marks_example :
  record_marks 0 [Reset; SetRng 5 [1]; Step; Step; Step; Record; Step; Step; Record] = [3; 5].
Proof. vm_compute. reflexivity. Qed.
Example C17_full_holder_refused_example :
  sample 0 5 (Some 3) (Some 1) (Some 1) (Some 2) 2 1 0%nat = Err 1.
Proof. vm_compute. reflexivity. Qed.
Example C17_vi_example :
  sample 1 7 (Some 3) (Some 1) None None 2 0 2%nat = Ok ([Reset; SetRng 7 [1]; SampleVI 2; Record; Record], 2).
Proof. vm_compute. reflexivity. Qed.
Example C17_vi_none_example : sample 1 7 None None None None 2 0 2%nat = Err 5.
Proof. vm_compute. reflexivity. Qed.
(* the former witness (seed 0, two chains, n = 1) on the repaired model: different keys *)
Example C17_vi_repaired_witness_example :
  sample 1 0 (Some 2) (Some 0) (Some 0) (Some 1) 1 0 1%nat = Ok ([Reset; SetRng 0 [0]; SampleVI 1; Record], 1) /\
  sample 1 0 (Some 2) (Some 1) (Some 0) (Some 1) 1 0 1%nat = Ok ([Reset; SetRng 0 [1]; SampleVI 1; Record], 1).
Proof. vm_compute. split; reflexivity. Qed.
Example C17_handed_key_example :
  handed_key [Reset; SetRng 5 [1]; Step; Record] = Some (5, [1]).
Proof. vm_compute. reflexivity. Qed.
Example C17_index_out_of_range_example : rng_key 5 3 3 = Err 4.
Proof. vm_compute. reflexivity. Qed.
