(* C14 — Subset and plate views are exact row selections with set-algebra semantics.
   Statements only: a proof is `exact <lemma from Proofs/>` (or a split into such), a concrete example is closed by evaluation.
   Model: Model/Views.v (views, operations, op trees [vexpr], evaluator [eval], reference semantics [ref]);
   specification vocabulary: Proofs/C14Defs.v ([screen_wf], [view_ok], [view_in], [mask_of]) and
   Proofs/C14ToScreen.v ([screen_valid]).  Every screen the constructor returns is [screen_wf] and
   [screen_valid] (C14_constructed_screens).  All statements are for ALL screens, selections, duplicate
   patterns and trees; nothing is bounded.  A functional model cannot mutate: "without touching the outer
   view" is the fact that every operation is a function returning a new view (the outer view is an
   argument, not a result); the run-time side of that clause is checked on the real objects by the harness. *)
From Coq Require Import ZArith List Bool Arith Sorted.
From Batchie Require Import Lib.Sexp Model.Encode Model.Screen Model.Views
  Proofs.C14Defs Proofs.C14Lists Proofs.C14Unique Proofs.C14Views Proofs.C14ToScreen Proofs.C14Closure
  Generated.SrcViews Proofs.C14Source.
Import ListNotations.
Open Scope nat_scope.

(* ---------- every screen built by the constructor satisfies the side conditions used below ---------- *)
Theorem C14_constructed_screens : forall rows ar ctrl tm sm og mg s,
  mk_screen rows ar ctrl tm sm og mg = Ok s -> screen_wf s /\ screen_valid s.
Proof. intros; split; [eapply mk_screen_wf|eapply mk_screen_valid]; eassumption. Qed.
Print Assumptions C14_constructed_screens.

(* ---------- attributes: the parent's values at the selected rows, in parent order ---------- *)
(* np.where of a selection vector: strictly increasing, in range, exactly the true positions *)
Theorem C14_selected_rows : forall sel,
  StronglySorted lt (np_where sel) /\
  forall i, In i (np_where sel) <-> nth i sel false = true.
Proof. intros sel; split; [apply where_sorted|intros i; apply In_where]. Qed.
Print Assumptions C14_selected_rows.

(* a[sel] for any per-row array a *)
Theorem C14_attr_exact : forall (A : Type) (d : A) (sel : list bool) (col : list A),
  length sel = length col -> select sel col = map (fun i => nth i col d) (np_where sel).
Proof. exact @select_nth. Qed.
Print Assumptions C14_attr_exact.

(* all attributes of a view *)
Theorem C14_view_attrs : forall v (dr : row), view_ok v -> screen_wf (v_parent v) ->
  let p := v_parent v in
  let idx := np_where (v_sel v) in
  view_pids v = map (fun i => nth i (s_pids p) 0%Z) idx /\
  view_sids v = map (fun i => nth i (s_sids p) 0%Z) idx /\
  view_tids v = map (fun i => nth i (s_tids p) []) idx /\
  view_rows v = map (fun i => nth i (s_rows p) dr) idx /\
  view_sample_names v = map r_sample (view_rows v) /\
  view_plate_names v = map r_plate (view_rows v) /\
  view_treats v = map r_treats (view_rows v) /\
  view_obs v = map r_obs (view_rows v) /\
  view_mask v = map r_mask (view_rows v) /\
  view_size v = length idx.
Proof. exact view_attrs. Qed.
Print Assumptions C14_view_attrs.

(* ---------- subset of a subset composes the selections ---------- *)
Theorem C14_subset_compose : forall v isb inner v', view_ok v -> view_subset v isb inner = Ok v' ->
  v_tag v' = v_tag v /\ v_parent v' = v_parent v /\ view_ok v' /\
  np_where (v_sel v') = select inner (np_where (v_sel v)) /\
  forall (A : Type) (col : list A), length col = length (v_sel v) ->
    select (v_sel v') col = select inner (select (v_sel v) col).
Proof. exact subset_compose. Qed.
Print Assumptions C14_subset_compose.

Theorem C14_subset_total : forall v inner, view_ok v -> length inner = view_size v ->
  view_subset v true inner = Ok {| v_tag := v_tag v; v_parent := v_parent v; v_sel := expand (v_sel v) inner |}.
Proof. exact view_subset_ok. Qed.
Print Assumptions C14_subset_total.

Theorem C14_subset_refused : forall v isb inner,
  (isb = false -> view_subset v isb inner = Err 21%Z) /\
  (isb = true -> length inner <> view_size v -> view_subset v isb inner = Err 22%Z).
Proof. exact subset_refused. Qed.
Print Assumptions C14_subset_refused.

(* ---------- combine / concat = union, invert = complement ---------- *)
Theorem C14_combine_union : forall a b c,
  view_ok a -> view_ok b -> v_parent b = v_parent a -> view_combine a b = Ok c ->
  v_tag c = v_tag a /\ v_parent c = v_parent a /\ view_ok c /\
  forall i, nth i (v_sel c) false = nth i (v_sel a) false || nth i (v_sel b) false.
Proof. exact combine_union. Qed.
Print Assumptions C14_combine_union.

Theorem C14_combine_total : forall a b,
  view_ok a -> view_ok b -> v_parent b = v_parent a -> v_tag b = v_tag a -> exists c, view_combine a b = Ok c.
Proof. exact combine_total. Qed.
Print Assumptions C14_combine_total.

Theorem C14_concat_union : forall p vs c,
  Forall (fun v => v_parent v = p /\ view_ok v) vs -> view_concat vs = Ok c ->
  v_parent c = p /\ view_ok c /\ Forall (fun v => v_tag v = v_tag c) vs /\
  forall i, nth i (v_sel c) false = existsb (fun v => nth i (v_sel v) false) vs.
Proof. exact concat_union. Qed.
Print Assumptions C14_concat_union.

Theorem C14_concat_single_and_empty : (forall v, view_concat [v] = Ok v) /\ view_concat [] = Err 24%Z.
Proof. exact (conj concat_single concat_empty). Qed.
Print Assumptions C14_concat_single_and_empty.

Theorem C14_invert_complement : forall v, view_ok v ->
  exists v', view_invert v = Ok v' /\ v_tag v' = v_tag v /\ v_parent v' = v_parent v /\ view_ok v' /\
    forall i, i < length (v_sel v) -> nth i (v_sel v') false = negb (nth i (v_sel v) false).
Proof. exact invert_complement. Qed.
Print Assumptions C14_invert_complement.

(* ---------- observed / unobserved split the screen by its mask ---------- *)
(* None exactly when the side is empty; otherwise the observed view selects exactly the observed rows, the
   unobserved view exactly the others (so: disjoint and exhaustive), and their mask attributes are constant *)
Theorem C14_observed_split : forall tag p, screen_wf p ->
  let n := screen_size p in
  (subset_observed tag p = None <-> forall i, row_observed p i = false) /\
  (subset_unobserved tag p = None <-> forall i, i < n -> row_observed p i = true) /\
  (forall r, subset_observed tag p = Some r ->
     exists v, r = Ok v /\ v_tag v = tag /\ v_parent v = p /\ view_ok v /\
       (forall i, nth i (v_sel v) false = row_observed p i) /\ Forall (fun b => b = true) (view_mask v)) /\
  (forall r, subset_unobserved tag p = Some r ->
     exists v, r = Ok v /\ v_tag v = tag /\ v_parent v = p /\ view_ok v /\
       (forall i, i < n -> nth i (v_sel v) false = negb (row_observed p i)) /\ Forall (fun b => b = false) (view_mask v)).
Proof. exact observed_split. Qed.
Print Assumptions C14_observed_split.

(* ---------- plates ---------- *)
Theorem C14_get_plate : forall tag p pid, screen_wf p ->
  exists v, get_plate tag p pid = Ok v /\ v_tag v = tag /\ v_parent v = p /\ view_ok v /\
    forall i, nth i (v_sel v) false = row_on_plate p pid i.
Proof. exact get_plate_spec. Qed.
Print Assumptions C14_get_plate.

(* one view per distinct plate id, ascending; every row lies on exactly one of them *)
Theorem C14_plates_partition : forall tag p vs, screen_wf p -> plates tag p = Ok vs ->
  let ids := sort_uniq Z.compare (s_pids p) in
  StronglySorted Z.lt ids /\ NoDup ids /\ (forall x, In x ids <-> In x (s_pids p)) /\
  length vs = length ids /\
  (forall j, j < length ids ->
     v_tag (nth j vs (Build_view 0 p [])) = tag /\ v_parent (nth j vs (Build_view 0 p [])) = p /\
     view_ok (nth j vs (Build_view 0 p [])) /\
     forall i, nth i (v_sel (nth j vs (Build_view 0 p []))) false = row_on_plate p (nth j ids 0%Z) i) /\
  (forall i, i < screen_size p -> exists j, j < length ids /\ row_on_plate p (nth j ids 0%Z) i = true /\
     forall j', j' < length ids -> row_on_plate p (nth j' ids 0%Z) i = true -> j' = j).
Proof. exact plates_partition. Qed.
Print Assumptions C14_plates_partition.

(* ---------- materialising a view ---------- *)
(* same rows (sample name, plate name, treatment names and doses, observation, mask) in the same order;
   ids are NOT promised: to_screen passes no mappings (see C14_to_screen_may_renumber_ids below) *)
Theorem C14_to_screen_rows : forall v s, to_screen v = Ok s ->
  s_rows s = view_rows v /\ s_arity s = s_arity (v_parent v) /\ s_ctrl s = s_ctrl (v_parent v) /\ screen_wf s.
Proof. exact to_screen_rows. Qed.
Print Assumptions C14_to_screen_rows.

Theorem C14_to_screen_total : forall v, screen_valid (v_parent v) -> exists s, to_screen v = Ok s.
Proof. exact to_screen_total. Qed.
Print Assumptions C14_to_screen_total.

(* ---------- the unique-condition filter ---------- *)
(* select_unique_zipped_numpy_arrays on the key rows: row i is kept iff no earlier row has the same key,
   i.e. the index np.unique(return_index=True) returns — the first occurrence *)
Theorem C14_unique_mask_first : forall keys i,
  length (unique_mask keys) = length keys /\
  (nth i (unique_mask keys) false = true <->
   i < length keys /\ forall j, j < i -> nth j keys [] <> nth i keys []).
Proof. intros keys i; split; [apply unique_mask_length|apply nth_unique_mask]. Qed.
Print Assumptions C14_unique_mask_first.

(* the kept keys are pairwise distinct and every key is kept: exactly one row per distinct key *)
Theorem C14_unique_mask_exactly_one : forall keys,
  NoDup (select (unique_mask keys) keys) /\ forall k, In k (select (unique_mask keys) keys) <-> In k keys.
Proof.
  intros keys. rewrite unique_mask_rec, select_first_mask_rec. split; [apply NoDup_kf|].
  intros k. rewrite In_kf. cbn [In]. tauto.
Qed.
Print Assumptions C14_unique_mask_exactly_one.

(* filter_dataset_to_unique_treatments on a view, key = (sample id, treatment ids) of the parent row *)
Theorem C14_unique_exactly_one : forall v v', view_ok v -> screen_wf (v_parent v) -> filter_unique_view v = Ok v' ->
  let key := row_key (v_parent v) in
  let W := np_where (v_sel v) in
  let W' := np_where (v_sel v') in
  v_tag v' = v_tag v /\ v_parent v' = v_parent v /\ view_ok v' /\
  (forall i, In i W' <-> In i W /\ forall j, In j W -> j < i -> key j <> key i) /\
  NoDup (map key W') /\
  (forall i, In i W -> exists i', In i' W' /\ key i' = key i).
Proof. exact unique_exactly_one. Qed.
Print Assumptions C14_unique_exactly_one.

Theorem C14_unique_total : forall v, view_ok v -> screen_wf (v_parent v) -> exists v', filter_unique_view v = Ok v'.
Proof. exact filter_unique_view_total. Qed.
Print Assumptions C14_unique_total.

(* ---------- views of different parents refuse to combine ---------- *)
Theorem C14_different_parent_refused :
  (forall a b, v_tag a <> v_tag b -> view_combine a b = Err 23%Z) /\
  (forall v0 vs, Exists (fun v => v_tag v <> v_tag v0) vs -> view_concat (v0 :: vs) = Err 23%Z).
Proof. exact (conj combine_different_parent concat_different_parent). Qed.
Print Assumptions C14_different_parent_refused.

(* ---------- closure under any finite composition ---------- *)
(* whatever tree of subset / combine / concat / invert / unique operations over the leaves Screen.subset,
   subset_observed, subset_unobserved, get_plate, filter_unique(screen) evaluates to a view, that view is a
   view of the tree's parent and selects exactly the rows of the index-set semantics [ref] *)
Theorem C14_closure : forall ps, Forall screen_wf ps -> forall e v, eval ps e = Ok v ->
  view_in ps v (parent_of e) /\ np_where (v_sel v) = ref ps e.
Proof. exact closure. Qed.
Print Assumptions C14_closure.

Theorem C14_closure_selection_vector : forall ps e v, Forall screen_wf ps -> eval ps e = Ok v ->
  v_sel v = mask_of (screen_size (v_parent v)) (ref ps e).
Proof. exact closure_mask. Qed.
Print Assumptions C14_closure_selection_vector.

Theorem C14_closure_attributes : forall ps e v, Forall screen_wf ps -> eval ps e = Ok v ->
  forall (A : Type) (d : A) (col : list A), length col = screen_size (v_parent v) ->
    select (v_sel v) col = map (fun i => nth i col d) (ref ps e).
Proof. exact closure_attr. Qed.
Print Assumptions C14_closure_attributes.

Theorem C14_closure_ref_sorted : forall ps e v, Forall screen_wf ps -> eval ps e = Ok v ->
  StronglySorted lt (ref ps e) /\ forall i, In i (ref ps e) -> i < screen_size (v_parent v).
Proof. exact ref_sorted. Qed.
Print Assumptions C14_closure_ref_sorted.

(* ================= the model is the source =================
   Generated/SrcViews.v is re-translated from /repo's src/batchie/data.py on every run (harness/py2gal.py, configurations
   C14_* of harness/src_functions.py).  Each theorem: the translation of the WHOLE method equals the model's function, for
   ALL inputs, with no side condition.  A Screen object is (identity tag, contents) [pyscreen]; a ScreenSubset / Plate
   object is a [view]; an array handed in as a selection is (dtype is bool, truth values) [anyarray]. *)
(* ScreenSubset.__init__, which ScreenSubset(...) and Plate(...) run (Plate defines none): the dtype check, the length
   check against screen.size, then the object holding (screen, selection_vector) - whatever the fresh instance held *)
Theorem C14_model_is_source_init : forall (self : view) (s : pyscreen) (sv : anyarray),
  src_view_init self s sv = mk_view (fst s) (snd s) (fst sv) (snd sv).
Proof. exact src_view_init_is_model. Qed.
Print Assumptions C14_model_is_source_init.

(* ScreenBase.size on a Screen object and on a ScreenSubset object *)
Theorem C14_model_is_source_size :
  (forall s : pyscreen, src_screen_size s = Ok (Z.of_nat (screen_size (snd s)))) /\
  (forall v : view, src_view_size v = Ok (Z.of_nat (view_size v))).
Proof. exact (conj src_screen_size_is_model src_view_size_is_model). Qed.
Print Assumptions C14_model_is_source_size.

(* ScreenSubset.subset: dtype check, size check against self.size, copy of the selection vector, np.where, the scatter of
   the inner mask at the true positions, ScreenSubset(self.screen, result) *)
Theorem C14_model_is_source_subset : forall (v : view) (sv : anyarray),
  src_view_subset v sv = view_subset v (fst sv) (snd sv).
Proof. exact src_view_subset_is_model. Qed.
Print Assumptions C14_model_is_source_subset.

(* ScreenSubset.combine: `other.screen is not self.screen` (the parents' identities) refuses, else Plate(self.screen, a | b) *)
Theorem C14_model_is_source_combine : forall a b : view, src_view_combine a b = view_combine a b.
Proof. exact src_view_combine_is_model. Qed.
Print Assumptions C14_model_is_source_combine.

(* ScreenSubset.concat: one argument -> that argument itself; none -> refused; else the loop (identity check against the
   first argument's parent, `|` accumulation starting from None) and Plate(first.screen, accumulated) *)
Theorem C14_model_is_source_concat : forall vs : list view, src_view_concat vs = view_concat vs.
Proof. exact src_view_concat_is_model. Qed.
Print Assumptions C14_model_is_source_concat.

(* ScreenSubset.invert: Plate(self.screen, ~self.selection_vector) *)
Theorem C14_model_is_source_invert : forall v : view, src_view_invert v = view_invert v.
Proof. exact src_view_invert_is_model. Qed.
Print Assumptions C14_model_is_source_invert.

(* Screen.subset *)
Theorem C14_model_is_source_screen_subset : forall (s : pyscreen) (sv : anyarray),
  src_screen_subset s sv = screen_subset (fst s) (snd s) (fst sv) (snd sv).
Proof. exact src_screen_subset_is_model. Qed.
Print Assumptions C14_model_is_source_screen_subset.

(* Screen.subset_observed / subset_unobserved: None (falling off the end) iff np.any of the mask / of its negation is
   false, else self.subset(that mask).  [opt_result] turns the model's `option (result view)` into the translation's
   `result (option view)` *)
Theorem C14_model_is_source_subset_observed : forall s : pyscreen,
  src_subset_observed s = opt_result (subset_observed (fst s) (snd s)).
Proof. exact src_subset_observed_is_model. Qed.
Print Assumptions C14_model_is_source_subset_observed.

Theorem C14_model_is_source_subset_unobserved : forall s : pyscreen,
  src_subset_unobserved s = opt_result (subset_unobserved (fst s) (snd s)).
Proof. exact src_subset_unobserved_is_model. Qed.
Print Assumptions C14_model_is_source_subset_unobserved.

(* Screen.get_plate: Plate(self, self.plate_ids == plate_id) *)
Theorem C14_model_is_source_get_plate : forall (s : pyscreen) (pid : Z),
  src_get_plate s pid = get_plate (fst s) (snd s) pid.
Proof. exact src_get_plate_is_model. Qed.
Print Assumptions C14_model_is_source_get_plate.

(* ScreenBase.unique_plate_ids (np.unique of the plate ids) and Screen.plates ([self.get_plate(x) for x in those]) *)
Theorem C14_model_is_source_plates :
  (forall s : pyscreen, src_unique_plate_ids s = Ok (sort_uniq Z.compare (s_pids (snd s)))) /\
  (forall s : pyscreen, src_plates s = plates (fst s) (snd s)).
Proof. exact (conj src_unique_plate_ids_is_model src_plates_is_model). Qed.
Print Assumptions C14_model_is_source_plates.

(* ScreenSubset.to_screen: Screen(...) with exactly the keywords treatment_names, treatment_doses, observations,
   observation_mask, sample_names, plate_names (each the parent's array at the selected rows, copied) and
   control_treatment_name - and no mappings *)
Theorem C14_model_is_source_to_screen : forall v : view, src_to_screen v = to_screen v.
Proof. exact src_to_screen_is_model. Qed.
Print Assumptions C14_model_is_source_to_screen.

(* the attribute properties of ScreenSubset *)
Theorem C14_model_is_source_attributes : forall v : view,
  src_view_plate_ids v = Ok (view_pids v) /\
  src_view_sample_ids v = Ok (view_sids v) /\
  src_view_treatment_ids v = Ok (view_tids v) /\
  src_view_sample_names v = Ok (view_sample_names v) /\
  src_view_observations v = Ok (view_obs v) /\
  src_view_observation_mask v = Ok (view_mask v) /\
  src_view_treatment_names v = Ok (s_arity (v_parent v), map (map fst) (view_treats v)) /\
  src_view_treatment_doses v = Ok (s_arity (v_parent v), map (map snd) (view_treats v)) /\
  src_view_control_treatment_name v = Ok (s_ctrl (v_parent v)) /\
  src_view_treatment_mapping v = Ok (s_tmap (v_parent v)) /\
  src_view_sample_mapping v = Ok (s_smap (v_parent v)) /\
  src_view_plate_mapping v = Ok (s_pmap (v_parent v)).
Proof. exact src_view_attrs_are_model. Qed.
Print Assumptions C14_model_is_source_attributes.

(* ScreenSubset.single_treatment_effects, for any value of the parent's property: None propagates, else the selected rows *)
Theorem C14_model_is_source_single_treatment_effects : forall (E : Type) (v : view) (parent_value : option (list E)),
  src_view_single_treatment_effects E v parent_value = Ok (view_single_effects v parent_value).
Proof. exact src_view_single_effects_is_model. Qed.
Print Assumptions C14_model_is_source_single_treatment_effects.

(* the attribute getters of Screen (`return self._<attr>`; Generated/SrcScreenAttrs.v): each property of a Screen object is the
   corresponding field of the model screen - the per-row arrays as the columns of its rows, the 2-d arrays with the screen's arity
   as their column count, the id arrays and the three mappings as stored *)
From Batchie Require Import Generated.SrcScreenAttrs.
Theorem C14_model_is_source_screen_attributes : forall s : pyscreen,
  src_screen_plate_ids s = Ok (s_pids (snd s)) /\
  src_screen_sample_ids s = Ok (s_sids (snd s)) /\
  src_screen_treatment_ids s = Ok (s_tids (snd s)) /\
  src_screen_sample_names s = Ok (map r_sample (s_rows (snd s))) /\
  src_screen_treatment_names s = Ok (s_arity (snd s), map (fun r => map fst (r_treats r)) (s_rows (snd s))) /\
  src_screen_treatment_doses s = Ok (s_arity (snd s), map (fun r => map snd (r_treats r)) (s_rows (snd s))) /\
  src_screen_observations s = Ok (map r_obs (s_rows (snd s))) /\
  src_screen_observation_mask s = Ok (map r_mask (s_rows (snd s))) /\
  src_screen_treatment_mapping s = Ok (s_tmap (snd s)) /\
  src_screen_sample_mapping s = Ok (s_smap (snd s)) /\
  src_screen_plate_mapping s = Ok (s_pmap (snd s)).
Proof. exact src_screen_attrs_are_model. Qed.
Print Assumptions C14_model_is_source_screen_attributes.

(* consistency: C14_model_is_source_attributes read the parent's attributes as primitives; with the translated getters in their place
   a view's property is the mask selection of its parent's property (the mappings are handed through) *)
Theorem C14_source_view_attributes_of_parent : forall v : view,
  src_view_plate_ids v = (dor a <- src_screen_plate_ids (view_screen v); Ok (select (v_sel v) a)) /\
  src_view_sample_ids v = (dor a <- src_screen_sample_ids (view_screen v); Ok (select (v_sel v) a)) /\
  src_view_treatment_ids v = (dor a <- src_screen_treatment_ids (view_screen v); Ok (select (v_sel v) a)) /\
  src_view_sample_names v = (dor a <- src_screen_sample_names (view_screen v); Ok (select (v_sel v) a)) /\
  src_view_treatment_names v = (dor a <- src_screen_treatment_names (view_screen v); Ok (select2 (v_sel v) a)) /\
  src_view_treatment_doses v = (dor a <- src_screen_treatment_doses (view_screen v); Ok (select2 (v_sel v) a)) /\
  src_view_observations v = (dor a <- src_screen_observations (view_screen v); Ok (select (v_sel v) a)) /\
  src_view_observation_mask v = (dor a <- src_screen_observation_mask (view_screen v); Ok (select (v_sel v) a)) /\
  src_view_treatment_mapping v = src_screen_treatment_mapping (view_screen v) /\
  src_view_sample_mapping v = src_screen_sample_mapping (view_screen v) /\
  src_view_plate_mapping v = src_screen_plate_mapping (view_screen v).
Proof. exact src_view_attrs_of_parent_getters. Qed.
Print Assumptions C14_source_view_attributes_of_parent.

(* ScreenBase.sample_space_size / treatment_space_size (len of the names column of the mapping the translated property returns): the
   number of rows of the screen's sample / treatment mapping; a ScreenSubset / Plate reports its parent's *)
Theorem C14_model_is_source_space_sizes : forall (s : pyscreen) (v : view),
  src_screen_sample_space_size s = Ok (Z.of_nat (length (s_smap (snd s)))) /\
  src_screen_treatment_space_size s = Ok (Z.of_nat (length (s_tmap (snd s)))) /\
  src_view_sample_space_size v = Ok (Z.of_nat (length (s_smap (v_parent v)))) /\
  src_view_treatment_space_size v = Ok (Z.of_nat (length (s_tmap (v_parent v)))).
Proof. exact src_space_sizes_are_model. Qed.
Print Assumptions C14_model_is_source_space_sizes.

(* ================= the small helpers of data.py, translated as well (Generated/SrcPlates.v) =================
   The configurations of the other links (C06, C11, C13) use these helpers as PRIMITIVES; here they are whole translated
   functions, equal to their models at the end of Model/Views.v for all inputs.  Props/C13.v and Props/C11.v then prove that,
   read through the representation of the Retro vocabulary, they are the meaning those primitives were given. *)
From Batchie Require Import Lib.PyRt Generated.SrcPlates Proofs.C14SourceHelpers.
Open Scope Z_scope.

(* ScreenBase.is_observed (np.all of the mask), n_plates (number of distinct plate ids), unique_sample_ids (np.unique),
   n_unique_samples, unique_treatments (np.unique of ALL entries of the 2-d id array, minus the control sentinel),
   n_unique_treatments, treatment_arity (shape[1]) - on a Screen object *)
Theorem C14_model_is_source_screen_properties : forall s : pyscreen,
  src_screen_is_observed s = Ok (screen_is_observed (snd s)) /\
  src_screen_n_plates s = Ok (Z.of_nat (length (screen_unique_pids (snd s)))) /\
  src_screen_unique_sample_ids s = Ok (screen_unique_sids (snd s)) /\
  src_screen_n_unique_samples s = Ok (Z.of_nat (length (screen_unique_sids (snd s)))) /\
  src_screen_unique_treatments s = Ok (screen_unique_treatments (snd s)) /\
  src_screen_n_unique_treatments s = Ok (Z.of_nat (length (screen_unique_treatments (snd s)))) /\
  src_screen_treatment_arity s = Ok (Z.of_nat (s_arity (snd s))).
Proof. exact src_screen_props_are_model. Qed.
Print Assumptions C14_model_is_source_screen_properties.

(* ... and on a ScreenSubset / Plate object: the same one-liners over the view's attribute arrays *)
Theorem C14_model_is_source_view_properties : forall v : view,
  src_view_unique_plate_ids v = Ok (view_unique_pids v) /\
  src_view_is_observed v = Ok (view_is_observed v) /\
  src_view_n_plates v = Ok (Z.of_nat (length (view_unique_pids v))) /\
  src_view_unique_sample_ids v = Ok (view_unique_sids v) /\
  src_view_n_unique_samples v = Ok (Z.of_nat (length (view_unique_sids v))) /\
  src_view_unique_treatments v = Ok (view_unique_treatments v) /\
  src_view_n_unique_treatments v = Ok (Z.of_nat (length (view_unique_treatments v))) /\
  src_view_treatment_arity v = Ok (Z.of_nat (s_arity (v_parent v))).
Proof. exact src_view_props_are_model. Qed.
Print Assumptions C14_model_is_source_view_properties.

(* Plate.plate_id: the single distinct plate id of the selected rows, refused (29) for none or several *)
Theorem C14_model_is_source_plate_id : forall v : view, src_plate_id v = view_plate_id v.
Proof. exact src_plate_id_is_model. Qed.
Print Assumptions C14_model_is_source_plate_id.

(* Plate.plate_name: the plate NAME of the first selected row of the parent; IndexError (98) when nothing is selected *)
Theorem C14_model_is_source_plate_name : forall v : view, src_plate_name v = view_plate_name v.
Proof. exact src_plate_name_is_model. Qed.
Print Assumptions C14_model_is_source_plate_name.

(* Plate.__lt__: self.size < other.size *)
Theorem C14_model_is_source_plate_lt : forall a b : view, src_plate_lt a b = Ok (view_lt a b).
Proof. exact src_plate_lt_is_model. Qed.
Print Assumptions C14_model_is_source_plate_lt.

(* Plate.merge, the whole method: the identity check on the parents, self's selection becomes the union, the union's rows
   get the name of the union's first row (self.plate_name is read AFTER the union is stored), the parent's plate ids are
   re-encoded from the new names by the translated encode_1d_array_to_0_indexed_ids, self is returned *)
Theorem C14_model_is_source_plate_merge : forall self other : view, src_plate_merge self other = view_merge self other.
Proof. exact src_plate_merge_is_model. Qed.
Print Assumptions C14_model_is_source_plate_merge.

(* Screen.combine: refused for another control name; otherwise Screen(...) on the concatenation self-then-other of each of the
   six per-row arrays (masks concatenated, not combined otherwise), observations and mask passed, no mappings *)
Theorem C14_model_is_source_screen_combine : forall a b : pyscreen, src_screen_combine a b = screen_combine (snd a) (snd b).
Proof. exact src_screen_combine_is_model. Qed.
Print Assumptions C14_model_is_source_screen_combine.

(* common.select_unique_zipped_numpy_arrays, whole: the equal-length check, vstack + transpose, np.unique(axis=0,
   return_index=True) as the first-occurrence primitive, the zero mask with True stored at those indices.  On an empty list
   of arrays numpy's vstack raises (17); the model is never applied to one *)
Theorem C14_model_is_source_select_unique : forall cols : list (list Z),
  src_select_unique cols = match cols with [] => Err 17 | _ => select_unique cols end.
Proof. exact src_select_unique_is_model. Qed.
Print Assumptions C14_model_is_source_select_unique.

(* filter_dataset_to_unique_treatments, whole, on a ScreenSubset and on a Screen: the column list (sample ids, then one
   treatment-id column per position, by the loop over treatment_arity), the unique mask, screen.subset(mask) *)
Theorem C14_model_is_source_filter_unique :
  (forall v : view, src_filter_unique_view v = filter_unique_view v) /\
  (forall s : pyscreen, src_filter_unique_screen s = filter_unique_screen (fst s) (snd s)).
Proof. exact (conj src_filter_unique_view_is_model src_filter_unique_screen_is_model). Qed.
Print Assumptions C14_model_is_source_filter_unique.
Open Scope nat_scope.

(* ================= non-vacuity: concrete instances by computation ================= *)
Definition ex_row (s p : Z) (t1 d1 t2 d2 : Z) (o : Z) (m : bool) : row :=
  {| r_sample := [s]; r_plate := [p]; r_treats := [([t1], d1); ([t2], d2)]; r_obs := o; r_mask := m |}.
(* six experiments, three plates (plate 98 observed), rows 0/3/5 share (sample, treatments), rows 1/4 too *)
Definition ex_rows : list row :=
  [ ex_row 120 98 100 5 101 7 11 true;  ex_row 121 97 100 5 101 7 12 false; ex_row 120 99 101 7 100 5 13 false;
    ex_row 120 97 100 5 101 7 14 false; ex_row 121 98 100 5 101 7 15 true;  ex_row 120 99 100 5 101 7 16 false ]%Z.
Definition ex_screen : screen :=
  match mk_screen ex_rows 2 [] None None true true with Ok s => s | Err _ => empty_screen end.
Definition sel_of (r : result view) : option (list bool) := match r with Ok v => Some (v_sel v) | Err _ => None end.
Definition err_of {A} (r : result A) : option Z := match r with Ok _ => None | Err t => Some t end.

Example C14_ex_screen_built : mk_screen ex_rows 2 [] None None true true = Ok ex_screen /\
  s_sids ex_screen = [0; 1; 0; 0; 1; 0]%Z /\ s_pids ex_screen = [1; 0; 2; 0; 1; 2]%Z.
Proof. vm_compute. repeat split. Qed.
Example C14_ex_screen_ok : screen_wf ex_screen /\ screen_valid ex_screen.
Proof. eapply C14_constructed_screens. exact (proj1 C14_ex_screen_built). Qed.

(* ((plate 0) | rows{0,2}) .subset([T,F,T,T]) , inverted, then made unique *)
Definition ex_tree : vexpr :=
  Unique (Invert (Subset (Combine (GetPlate 0 0) (Base 0 true [true; false; true; false; false; false]))
                         true [true; false; true; true])).
Example C14_ex_tree : sel_of (eval [ex_screen] ex_tree) = Some [false; true; false; false; false; true]
  /\ ref [ex_screen] ex_tree = [1; 5]
  /\ ref [ex_screen] (Invert (Subset (Combine (GetPlate 0 0) (Base 0 true [true; false; true; false; false; false]))
                                      true [true; false; true; true])) = [1; 4; 5].
Proof. vm_compute. repeat split. Qed.
(* the outer selection {0,2,3,5} restricted by the inner mask [F,T,F,T] is {2,5}: the inner mask is written at
   the outer view's true positions, not at a prefix *)
Example C14_ex_subset_positions :
  sel_of (eval [ex_screen] (Subset (Base 0 true [true; false; true; true; false; true]) true [false; true; false; true]))
  = Some [false; false; true; false; false; true].
Proof. vm_compute. reflexivity. Qed.
(* the same through the translated source: Screen.subset, then ScreenSubset.subset; and the translated concat refuses
   views of two parent objects with equal contents *)
Example C14_ex_source_runs :
  sel_of (dor v <- src_screen_subset (0%Z, ex_screen) (true, [true; false; true; true; false; true]);
          src_view_subset v (true, [false; true; false; true]))
  = Some [false; false; true; false; false; true] /\
  err_of (dor a <- src_screen_subset (0%Z, ex_screen) (true, repeat true 6);
          dor b <- src_screen_subset (1%Z, ex_screen) (true, repeat true 6);
          src_view_concat [a; a; b]) = Some 23%Z.
Proof. vm_compute. split; reflexivity. Qed.
Example C14_ex_unique_first :
  sel_of (eval [ex_screen] (UniqueS 0)) = Some [true; true; true; false; false; false]
  /\ select_unique [[3; 1; 3; 1; 2; 3]; [0; 5; 0; 5; 5; 1]]%Z = Ok [true; true; false; false; true; true].
Proof. vm_compute. split; reflexivity. Qed.
Example C14_ex_split :
  sel_of (eval [ex_screen] (Observed 0)) = Some [true; false; false; false; true; false] /\
  sel_of (eval [ex_screen] (Unobserved 0)) = Some [false; true; true; true; false; true] /\
  err_of (eval [ex_screen] (Observed 1)) = Some 26%Z.
Proof. vm_compute. repeat split. Qed.
Example C14_ex_refusals :
  err_of (eval [ex_screen; ex_screen] (Combine (Base 0 true (repeat true 6)) (Base 1 true (repeat true 6)))) = Some 23%Z /\
  err_of (eval [ex_screen; ex_screen] (Concat [Base 0 true (repeat true 6); Base 0 true (repeat false 6); Base 1 true (repeat true 6)])) = Some 23%Z /\
  err_of (eval [ex_screen] (Subset (Base 0 true [true; false; true; false; false; false]) true (repeat true 6))) = Some 22%Z /\
  err_of (eval [ex_screen] (Base 0 false (repeat true 6))) = Some 21%Z /\
  err_of (eval [ex_screen] (Concat [])) = Some 24%Z.
Proof. vm_compute. repeat split. Qed.
(* materialising rows 1 and 4 (sample 121 only): same rows, but the sample id 1 of the parent becomes 0 *)
Example C14_to_screen_may_renumber_ids :
  exists v s, eval [ex_screen] (Base 0 true [false; true; false; false; true; false]) = Ok v /\ to_screen v = Ok s /\
    s_rows s = [nth 1 ex_rows (ex_row 0 0 0 0 0 0 0 false); nth 4 ex_rows (ex_row 0 0 0 0 0 0 0 false)] /\
    view_sids v = [1; 1]%Z /\ s_sids s = [0; 0]%Z.
Proof. eexists. eexists. vm_compute. repeat split. Qed.

(* Plate.merge through the translated source: plates 2 (rows 2, 5, name 99) and 0 (rows 1, 3, name 97) of the example screen.
   The union takes the name of ITS first row in the parent (row 1: 97), the plate ids are re-encoded (two plates are left), the
   merged plate is a view of the new parent; the parent's plate_mapping is not refreshed and still lists three names *)
Example C14_ex_merge :
  match (dor ps <- src_plates (0%Z, ex_screen); dor a <- list_get ps 0%Z; dor b <- list_get ps 2%Z; src_plate_merge b a) with
  | Ok v => v_sel v = [false; true; true; true; false; true] /\
            map r_plate (s_rows (v_parent v)) = [[98]; [97]; [97]; [97]; [98]; [97]]%Z /\
            s_pids (v_parent v) = [1; 0; 0; 0; 1; 0]%Z /\ length (s_pmap (v_parent v)) = 3 /\
            src_plate_id v = Ok 0%Z /\ src_plate_name v = Ok [97]%Z /\ src_view_n_plates v = Ok 1%Z
  | Err _ => False
  end.
Proof. vm_compute. repeat split. Qed.
(* the translated helpers on the example screen *)
Example C14_ex_helpers :
  src_screen_n_plates (0%Z, ex_screen) = Ok 3%Z /\ src_screen_n_unique_samples (0%Z, ex_screen) = Ok 2%Z /\
  src_screen_is_observed (0%Z, ex_screen) = Ok false /\ src_screen_treatment_arity (0%Z, ex_screen) = Ok 2%Z /\
  err_of (dor v <- src_screen_subset (0%Z, ex_screen) (true, repeat false 6); src_plate_name v) = Some 98%Z /\
  err_of (dor v <- src_screen_subset (0%Z, ex_screen) (true, repeat true 6); src_plate_id v) = Some 29%Z /\
  err_of (dor a <- src_get_plate (0%Z, ex_screen) 0%Z; dor b <- src_get_plate (1%Z, ex_screen) 1%Z; src_plate_merge a b) = Some 28%Z /\
  option_map (fun s => map r_mask (s_rows s)) (match src_screen_combine (0%Z, ex_screen) (1%Z, ex_screen) with Ok s => Some s | Err _ => None end)
  = Some [true; false; false; false; true; false; true; false; false; false; true; false].
Proof. vm_compute. repeat split. Qed.

(* ---- Screen.concat and Screen.single_treatment_effects (data.py), re-translated on every run (Generated/SrcPlates.v,
   configurations L10B_SCREEN_CONCAT / L10B_SCREEN_STE; proofs Proofs/C14SourceLeftovers.v) ---- *)
From Batchie Require Generated.SrcPlates Proofs.C14SourceLeftovers.

(* Screen.concat (the two length tests, screens[0], the loop `result = result.combine(screen)` over screens[1:] through the
   translated Screen.combine): an empty list is refused, ONE screen is returned as the same object, otherwise a new object
   (identity new_tag, any value) holding the screens combined from the left *)
Theorem C14_model_is_source_screen_concat : forall (new_tag : Z) (ss : list pyscreen),
  SrcPlates.src_screen_concat new_tag ss
  = match ss with
    | [] => Err 24%Z
    | [s] => Ok s
    | s :: r => dor c <- screen_concat_from (snd s) (map snd r); Ok (new_tag, c)
    end.
Proof. exact C14SourceLeftovers.src_screen_concat_is_model. Qed.
Print Assumptions C14_model_is_source_screen_concat.

(* on the contents, whatever the identities: the model's screen_concat *)
Theorem C14_model_is_source_screen_concat_contents : forall (new_tag : Z) (ss : list pyscreen),
  (dor o <- SrcPlates.src_screen_concat new_tag ss; Ok (snd o)) = screen_concat (map snd ss).
Proof. exact C14SourceLeftovers.src_screen_concat_contents. Qed.
Print Assumptions C14_model_is_source_screen_concat_contents.

(* Screen.single_treatment_effects (the try / except KeyError / return None): for ANY effect-array function and KeyError tag,
   the effect array of the screen's sample ids, treatment ids and observations; None exactly when its construction raises
   KeyError; every other exception passes *)
Theorem C14_model_is_source_screen_single_treatment_effects :
  forall (E : Type) (key_error : Z) (effect_array : list Z -> list (list Z) -> list Z -> result (list E)) (self : pyscreen),
  SrcPlates.src_screen_single_treatment_effects E key_error effect_array self
  = screen_single_effects key_error effect_array (snd self).
Proof. exact C14SourceLeftovers.src_screen_single_effects_is_model. Qed.
Print Assumptions C14_model_is_source_screen_single_treatment_effects.

(* consistency: C14_model_is_source_single_treatment_effects took the parent's property as a primitive VALUE; with the translated
   Screen property in its place a view's property is the row selection of the parent's array (None propagates) *)
Theorem C14_source_view_single_treatment_effects_of_parent :
  forall (E : Type) (key_error : Z) (effect_array : list Z -> list (list Z) -> list Z -> result (list E)) (v : view),
  (dor ste <- SrcPlates.src_screen_single_treatment_effects E key_error effect_array (view_screen v);
   src_view_single_treatment_effects E v ste)
  = (dor ste <- screen_single_effects key_error effect_array (v_parent v); Ok (view_single_effects v ste)).
Proof. exact C14SourceLeftovers.src_view_single_effects_of_parent. Qed.
Print Assumptions C14_source_view_single_treatment_effects_of_parent.

Example C14_ex_screen_concat :
  (exists s, SrcPlates.src_screen_concat 9%Z [(0%Z, ex_screen); (1%Z, ex_screen); (2%Z, ex_screen)] = Ok (9%Z, s) /\ length (s_rows s) = 18) /\
  SrcPlates.src_screen_concat 9%Z [(5%Z, ex_screen)] = Ok (5%Z, ex_screen) /\
  SrcPlates.src_screen_concat 9%Z [] = Err 24%Z.
Proof. split; [eexists; vm_compute; split; reflexivity | split; vm_compute; reflexivity]. Qed.
Example C14_ex_screen_single_effects :
  SrcPlates.src_screen_single_treatment_effects Z 5%Z (fun _ _ _ => Err 5%Z) (0%Z, ex_screen) = Ok None /\
  SrcPlates.src_screen_single_treatment_effects Z 5%Z (fun _ _ _ => Err 4%Z) (0%Z, ex_screen) = Err 4%Z /\
  SrcPlates.src_screen_single_treatment_effects Z 5%Z (fun s _ _ => Ok s) (0%Z, ex_screen) = Ok (Some (s_sids ex_screen)).
Proof. vm_compute. repeat split; reflexivity. Qed.
