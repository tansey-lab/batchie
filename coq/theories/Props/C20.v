(* C20 — Evaluation metrics and synergy values equal their definitions.
   Statements only: a proof is `exact <lemma from Proofs/>` (or a split into such), a concrete example is closed by evaluation.  The "code" side of each
   equation is the transcription of the numpy expression (Model/Metrics.v, Model/Synergy.v,
   Model/Corr.v); the "definition" side is the loop / explicit-sum form of Proofs/C20Spec.v.
   NaN (mean of an empty array, 0/0) is Err E_NAN / None on the code side. *)
From Coq Require Import ZArith List QArith Qcanon Sorted.
From Batchie Require Import Lib.Sexp Lib.Num Model.Metrics Model.Synergy Model.Corr
  Proofs.C20Spec Proofs.C20Base Proofs.C20Metrics Proofs.C20Synergy Proofs.C20Corr
  Generated.SrcSynergy Proofs.C20Source Generated.SrcMetrics Proofs.C20SourceMetrics Generated.SrcSpace Proofs.C20SourceSpace.
Import ListNotations.

(* ---- ModelEvaluation ----  e is any evaluation the constructor accepts: n = length P experiments,
   m posterior samples *)

(* overall MSE = (1/(n m)) sum_i sum_j (P[i][j] - o[i])^2 ; NaN when n = 0 or m = 0 *)
Theorem C20_mse_def : forall m P o ch nm e,
  mk_eval m P o ch nm = Ok e ->
  ev_mse e = if Nat.eqb (length P) 0 || Nat.eqb m 0 then Err E_NAN
             else Ok (mse_def P o (length P) m).
Proof. exact mse_eq. Qed.
Print Assumptions C20_mse_def.

(* its variance = population variance across EXPERIMENTS of the per-experiment MSE *)
Theorem C20_mse_variance_def : forall m P o ch nm e,
  mk_eval m P o ch nm = Ok e ->
  ev_mse_variance e = if Nat.eqb (length P) 0 || Nat.eqb m 0 then Err E_NAN
                      else Ok (mse_variance_def P o (length P) m).
Proof. exact mse_variance_eq. Qed.
Print Assumptions C20_mse_variance_def.

(* inter-chain variance = population variance, over the distinct chain ids, of the per-chain MSE
   (any labelling: unequal chain lengths, interleaved, non-contiguous labels) *)
Theorem C20_inter_chain_def : forall m P o ch nm e,
  mk_eval m P o ch nm = Ok e ->
  ev_inter_chain e = if Nat.eqb (length P) 0 || Nat.eqb m 0 then Err E_NAN
                     else Ok (inter_chain_def P o ch (length P) m).
Proof. exact inter_chain_eq. Qed.
Print Assumptions C20_inter_chain_def.

Theorem C20_inter_chain_one_chain : forall m P o ch nm e c,
  mk_eval m P o ch nm = Ok e -> (0 < length P)%nat -> (0 < m)%nat ->
  Forall (fun x => x = c) ch -> ev_inter_chain e = Ok 0%Qc.
Proof. exact inter_chain_one_chain. Qed.
Print Assumptions C20_inter_chain_one_chain.

(* mean predictions: entry i = (1/m) sum_j P[i][j] *)
Theorem C20_mean_predictions_def : forall m P o ch nm e,
  mk_eval m P o ch nm = Ok e ->
  ev_mean_predictions e = if negb (Nat.eqb (length P) 0) && Nat.eqb m 0 then Err E_NAN
                          else Ok (map (mean_prediction_def P m) (seq 0 (length P))).
Proof. exact mean_predictions_eq. Qed.
Print Assumptions C20_mean_predictions_def.

(* an evaluation file reloads unchanged — for EVERY evaluation the constructor accepts,
   including those with zero experiments and / or zero posterior samples *)
Theorem C20_eval_save_load : forall m P o ch nm e,
  mk_eval m P o ch nm = Ok e -> ev_load (ev_save e) = Ok e.
Proof. exact eval_save_load. Qed.
Print Assumptions C20_eval_save_load.

(* retrospective.calculate_mse = (1/n) sum_i ((1/T) sum_theta p[theta][i] - o[i])^2 *)
Theorem C20_calculate_mse_def : forall pt o,
  Forall (fun r => length r = length o) pt ->
  calculate_mse pt o = if Nat.eqb (length pt) 0 || Nat.eqb (length o) 0 then Err E_NAN
                       else Ok (calculate_mse_def pt o (length pt) (length o)).
Proof. exact calculate_mse_eq. Qed.
Print Assumptions C20_calculate_mse_def.

(* ---- single-agent effects ----  well-formed input: arity >= 2 columns, one sample id and one
   observation per row, ids >= -1 (what Screen produces) *)

(* the dict: for every sample s and id t occurring in the arrays, the effect is 1 if t is control,
   else the mean of s's observations in whose row t occurs with every other column control;
   no entry when there is no such observation, and no entry for anything else *)
Theorem C20_single_effect_def : forall arity sids tids obs,
  (2 <= arity)%nat -> length sids = length tids -> length obs = length tids ->
  Forall (fun r => length r = arity) tids -> Forall (Forall valid_id) tids ->
  exists m, effect_map arity sids tids obs = Ok m /\
    forall s t, map_lookup m s t
                = if existsb (Z.eqb s) sids && existsb (Z.eqb t) (concat tids)
                  then single_effect_def sids tids obs s t else None.
Proof. exact effect_map_eq. Qed.
Print Assumptions C20_single_effect_def.

Theorem C20_effect_map_rejects : forall arity sids tids obs,
  ((arity < 2)%nat -> effect_map arity sids tids obs = Err E_VALUE) /\
  ((2 <= arity)%nat -> (length obs <> length tids \/ length sids <> length tids) ->
   effect_map arity sids tids obs = Err E_INDEX).
Proof. exact effect_map_rejects. Qed.
Print Assumptions C20_effect_map_rejects.

(* the array: entry (i, j) = the effect of (sample_i, id_ij); KeyError iff some entry has none *)
Theorem C20_effect_array_def : forall arity sids tids obs,
  (2 <= arity)%nat -> length sids = length tids -> length obs = length tids ->
  Forall (fun r => length r = arity) tids -> Forall (Forall valid_id) tids ->
  effect_array arity sids tids obs = effect_array_def sids tids obs.
Proof. exact effect_array_eq. Qed.
Print Assumptions C20_effect_array_def.

(* ---- Bliss synergy ----  for every row that is not a single-agent row, in row order:
   (sample, non-control ids, product over ALL columns of the single-agent effects - observation);
   a row lacking a single-agent measurement is skipped, or refused (Err) in strict mode;
   np.array of id rows of different lengths is refused *)
Theorem C20_synergy_def : forall arity sids tids obs,
  (2 <= arity)%nat -> length sids = length tids -> length obs = length tids ->
  Forall (fun r => length r = arity) tids -> Forall (Forall valid_id) tids ->
  forall strict, calculate_synergy strict arity sids tids obs = synergy_def sids tids obs strict.
Proof. exact synergy_eq. Qed.
Print Assumptions C20_synergy_def.

(* ---- combinatoric space and correlation matrix ---- *)

(* itertools.combinations(rows, k): the rows at every strictly increasing k-tuple of positions,
   each exactly once (lexicographic order is the order of [combs] itself) *)
Theorem C20_combs_every_subset_once : forall (A : Type) (l : list A) (d : A) (k : nat),
  combs l k = map (map (fun p => nth p l d)) (combs (seq 0 (length l)) k)
  /\ NoDup (combs (seq 0 (length l)) k)
  /\ forall idx, In idx (combs (seq 0 (length l)) k)
                 <-> (length idx = k /\ StronglySorted lt idx /\ Forall (fun p => (p < length l)%nat) idx).
Proof. exact @combs_every_subset_once. Qed.
Print Assumptions C20_combs_every_subset_once.

(* the space's id rows are the screen's own ids of those mapping rows (keyed lookup in the
   screen's mapping, unique keys), one row per combination; its sample id is the requested one *)
Theorem C20_space_all_combinations : forall mapping smap arity s ss tids,
  NoDup (map fst mapping) ->
  full_space mapping smap arity s = Ok (ss, tids) ->
  tids = map (map snd) (combs mapping arity)
  /\ exists sid, ss = map (fun _ => sid) (combs mapping arity) /\ (NoDup (map fst smap) -> sid = s).
Proof. exact full_space_eq. Qed.
Print Assumptions C20_space_all_combinations.

(* symmetric, for ANY sqrt oracle, all positions (out-of-range positions read None) *)
Theorem C20_corr_symmetric : forall orc f mapping smap arity nthetas rows index M i j,
  correlation_matrix orc f mapping smap arity nthetas rows = Ok (index, M) ->
  mat_get M i j = mat_get M j i.
Proof. exact correlation_matrix_symmetric. Qed.
Print Assumptions C20_corr_symmetric.

(* unit diagonal wherever the entry is defined.  x is row i of X = P - mean(P, axis=0).  The
   square-root property is needed only at this row's sum of squares (the global statement
   "sqrt x * sqrt x = x for all x >= 0" has no model over the rationals, so it is not used). *)
Theorem C20_corr_unit_diag : forall orc P ncols i x,
  nth_error (centered P ncols) i = Some x ->
  sumsq x <> 0%Qc ->
  (orc ORC_SQRT (sumsq x) * orc ORC_SQRT (sumsq x) = sumsq x)%Qc ->
  mat_get (corr_of orc P ncols) i i = Some 1%Qc.
Proof. exact corr_of_unit_diag. Qed.
Print Assumptions C20_corr_unit_diag.

(* ... and NaN exactly when the sample's average predictions equal the across-sample mean *)
Theorem C20_corr_nan_diag : forall orc P ncols i x,
  nth_error (centered P ncols) i = Some x -> sumsq x = 0%Qc ->
  mat_get (corr_of orc P ncols) i i = None.
Proof. exact corr_of_nan_diag. Qed.
Print Assumptions C20_corr_nan_diag.

(* "non-constant row" is not the right condition: one sample, non-constant predictions, NaN *)
Theorem C20_corr_unit_diag_nonconstant_rows_refuted :
  exists orc f mapping smap arity nthetas rows index,
    correlation_matrix orc f mapping smap arity nthetas rows = Ok (index, [[None]])
    /\ qeqb (avg_pred f nthetas 0%Z [0%Z; 1%Z]) (avg_pred f nthetas 0%Z [0%Z; 2%Z]) = false.
Proof. exact corr_unit_diag_nonconstant_rows_refuted. Qed.
Print Assumptions C20_corr_unit_diag_nonconstant_rows_refuted.

(* entry (i, j) = sum_k X[i][k] X[j][k] / (sqrt S_i * sqrt S_j), X[i][k] = P[i][k] - (1/n) sum_i' P[i'][k],
   S_i = sum_k X[i][k]^2; NaN when S_i = 0 or S_j = 0 *)
Theorem C20_corr_entry_def : forall orc P ncols,
  Forall (fun r => length r = ncols) P -> forall i j, (i < length P)%nat -> (j < length P)%nat ->
  mat_get (corr_of orc P ncols) i j = corr_entry_def orc P (length P) ncols i j.
Proof. exact corr_of_entry_def. Qed.
Print Assumptions C20_corr_entry_def.

(* the matrix is that of the average predictions (over the thetas) at every combination of the
   full space, one row per distinct sample id of the screen in increasing id order *)
Theorem C20_corr_over_full_space : forall orc f mapping smap arity T rows index M,
  NoDup (map fst mapping) -> NoDup (map fst smap) ->
  correlation_matrix orc f mapping smap arity (S T) rows = Ok (index, M) ->
  let space := map (map snd) (combs mapping arity) in
  M = corr_of orc (map (fun s => map (fun ids => avg_pred f (S T) s ids) space)
                       (sorted_unique (map fst rows)))
              (length space).
Proof. exact correlation_matrix_over_full_space. Qed.
Print Assumptions C20_corr_over_full_space.

(* ---- source-translation links ----  Generated/SrcSynergy.v is re-translated from /repo on every run (harness/py2gal.py,
   configurations C20_* of harness/src_functions.py); arity = treatment_ids.shape[1].  No side condition. *)

(* data.py create_single_treatment_effect_map (arity raise, the mask, the three masked arrays, both loops over np.unique,
   the control entry, the mask of matching single-agent rows, np.any, the mean, the dict stores) = Synergy.effect_map *)
Theorem C20_model_is_source_create_single_treatment_effect_map :
  forall (arity : nat) (sids : list Z) (tids : list (list Z)) (obs : list Qc),
  src_create_single_treatment_effect_map arity sids tids obs = effect_map arity sids tids obs.
Proof. exact src_effect_map_is_model. Qed.
Print Assumptions C20_model_is_source_create_single_treatment_effect_map.

(* data.py create_single_treatment_effect_array (the translated map, np.ones_like, both enumerate loops, the dict read
   with its KeyError, the store result[idx, treatment_idx] = ...) = Synergy.effect_array *)
Theorem C20_model_is_source_create_single_treatment_effect_array :
  forall (arity : nat) (sids : list Z) (tids : list (list Z)) (obs : list Qc),
  src_create_single_treatment_effect_array arity sids tids obs = effect_array arity sids tids obs.
Proof. exact src_effect_array_is_model. Qed.
Print Assumptions C20_model_is_source_create_single_treatment_effect_array.

(* synergy.py calculate_synergy (the three raises, the translated map, the mask and its negation, the loop over the
   multi-treatment rows, the inner loop with the strict raise / lenient continue, the length comparison, np.prod minus
   the observation, the three appends, np.array of the results) = Synergy.calculate_synergy *)
Theorem C20_model_is_source_calculate_synergy :
  forall (arity : nat) (sids : list Z) (tids : list (list Z)) (obs : list Qc) (strict : bool),
  src_calculate_synergy arity sids tids obs strict = calculate_synergy strict arity sids tids obs.
Proof. exact src_calculate_synergy_is_model. Qed.
Print Assumptions C20_model_is_source_calculate_synergy.

(* hence the definitional theorems are theorems about the translated source *)
Theorem C20_source_synergy_def : forall arity sids tids obs,
  (2 <= arity)%nat -> length sids = length tids -> length obs = length tids ->
  Forall (fun r => length r = arity) tids -> Forall (Forall valid_id) tids ->
  forall strict, src_calculate_synergy arity sids tids obs strict = synergy_def sids tids obs strict.
Proof. exact src_synergy_is_definition. Qed.
Print Assumptions C20_source_synergy_def.

Theorem C20_source_effect_array_def : forall arity sids tids obs,
  (2 <= arity)%nat -> length sids = length tids -> length obs = length tids ->
  Forall (fun r => length r = arity) tids -> Forall (Forall valid_id) tids ->
  src_create_single_treatment_effect_array arity sids tids obs = effect_array_def sids tids obs.
Proof. exact src_effect_array_is_definition. Qed.
Print Assumptions C20_source_effect_array_def.

(* models/main.py ModelEvaluation.mse / mse_variance / inter_chain_mse_variance (Generated/SrcMetrics.v), through the
   translated properties predictions / observations / chain_ids.  e is any object the constructor builds (the hypothesis
   holds of every reachable ModelEvaluation: __init__ is the only way to make one), m = predictions.shape[1]. *)
Theorem C20_model_is_source_mse : forall m P o ch nm e,
  mk_eval m P o ch nm = Ok e -> src_ev_mse e = ev_mse e.
Proof. exact src_ev_mse_is_model. Qed.
Print Assumptions C20_model_is_source_mse.

Theorem C20_model_is_source_mse_variance : forall m P o ch nm e,
  mk_eval m P o ch nm = Ok e -> src_ev_mse_variance e = ev_mse_variance e.
Proof. exact src_ev_mse_variance_is_model. Qed.
Print Assumptions C20_model_is_source_mse_variance.

Theorem C20_model_is_source_inter_chain_mse_variance : forall m P o ch nm e,
  mk_eval m P o ch nm = Ok e -> src_ev_inter_chain_mse_variance m e = ev_inter_chain e.
Proof. exact src_ev_inter_chain_is_model. Qed.
Print Assumptions C20_model_is_source_inter_chain_mse_variance.

(* ModelEvaluation.__init__ = the model's constructor: the objects of the hypotheses above are exactly what the translated
   constructor returns (dtype guards: true of the arrays the wire carries) *)
Theorem C20_model_is_source_init : forall (self : evaluation) (ncols : nat) P o ch nm,
  src_ev_init self ncols P o ch nm = mk_eval ncols P o ch nm.
Proof. exact src_ev_init_is_model. Qed.
Print Assumptions C20_model_is_source_init.

Theorem C20_model_is_source_mean_predictions : forall m P o ch nm e,
  mk_eval m P o ch nm = Ok e -> src_ev_mean_predictions e = ev_mean_predictions e.
Proof. exact src_ev_mean_predictions_is_model. Qed.
Print Assumptions C20_model_is_source_mean_predictions.

(* models/main.py predict_viability_avg and retrospective.py calculate_mse (Generated/SrcMetrics.v): the thetas are the
   list of the prediction vectors they give on the screen, the observed screen is its observations.  No side condition. *)
Theorem C20_model_is_source_predict_viability_avg : forall (size : nat) (pt : list (list Qc)),
  src_predict_viability_avg size pt
  = if negb (forallb (fun r => Nat.eqb (length r) size) pt) then Err E_VALUE
    else match pt, size with
         | [], O => Ok []
         | [], _ => Err E_NAN
         | _, _ => Ok (predict_avg size pt)
         end.
Proof. exact src_predict_viability_avg_is_model. Qed.
Print Assumptions C20_model_is_source_predict_viability_avg.

Theorem C20_model_is_source_calculate_mse : forall (pt : list (list Qc)) (obs : list Qc),
  src_calculate_mse pt obs = calculate_mse pt obs.
Proof. exact src_calculate_mse_is_model. Qed.
Print Assumptions C20_model_is_source_calculate_mse.

(* models/main.py combination_count and generate_full_combinatoric_space (Generated/SrcSpace.v).  The translation works on
   mapping rows ((name, dose), id); the model on rows (key, id): [key] is any numbering of the (name, dose) pairs that is
   injective on the pairs of the mapping's rows (the harness numbers the distinct pairs). *)
Theorem C20_model_is_source_combination_count : forall n k : nat,
  src_combination_count (Z.of_nat n) (Z.of_nat k) = combination_count n k.
Proof. exact src_combination_count_is_model. Qed.
Print Assumptions C20_model_is_source_combination_count.

Theorem C20_model_is_source_generate_full_combinatoric_space : forall (key : Z * Z -> Z) (tm : tmap3),
  (forall a b, In a (map fst tm) -> In b (map fst tm) -> key a = key b -> a = b) ->
  forall (sm : list (Z * Z)) (arity : nat) (sample_id : Z),
  src_generate_full_combinatoric_space tm sm arity sample_id = full_space (key_rows key tm) sm arity sample_id.
Proof. exact src_full_space_is_model. Qed.
Print Assumptions C20_model_is_source_generate_full_combinatoric_space.

(* ---- non-vacuity: concrete instances (vm_compute) ---- *)
Definition q (n : Z) (d : positive) : Qc := Q2Qc (n # d).

(* a 2 x 3 evaluation, chains of unequal length labelled 0,0,3: mse 1/4, variance across
   experiments 1/144, inter-chain variance 9/256, mean predictions 1/2, 2/3 *)
Example C20_eval_example :
  of_result (fun e => SL [of_result of_Qc (ev_mse e); of_result of_Qc (ev_mse_variance e);
                          of_result of_Qc (ev_inter_chain e); of_result (of_list of_Qc) (ev_mean_predictions e)])
            (mk_eval 3 [[q 1 1; q 0 1; q 1 2]; [q 0 1; q 1 1; q 1 1]] [q 1 2; q 1 1] [0; 0; 3]%Z [[97%Z]; [98%Z]])
  = SL [SZ 0; SL [SL [SZ 0; SL [SZ 1; SZ 4]]; SL [SZ 0; SL [SZ 1; SZ 144]]; SL [SZ 0; SL [SZ 9; SZ 256]];
                  SL [SZ 0; SL [SL [SZ 1; SZ 2]; SL [SZ 2; SZ 3]]]]].
Proof. vm_compute. reflexivity. Qed.

(* the evaluation with 0 experiments and 2 posterior samples (the witness of the formerly refuted
   clause: it used to save but not load) now reloads, and so does the 0 x 0 one *)
Example C20_empty_evaluation_reloads :
  (dor e <- mk_eval 2 [] [] [0; 0]%Z []; ev_load (ev_save e))
  = Ok {| ev_preds := []; ev_obs := []; ev_chains := [0; 0]%Z; ev_names := [] |}
  /\ (dor e <- mk_eval 0 [] [] [] []; ev_load (ev_save e))
     = Ok {| ev_preds := []; ev_obs := []; ev_chains := []; ev_names := [] |}.
Proof. split; vm_compute; reflexivity. Qed.

(* repeated single-agent measurement (1/2 and 1/4 -> 3/8), control in either column, a second
   sample without single-agent data: lenient mode skips its row, strict mode refuses *)
Definition ex_s := [0; 0; 0; 0; 1]%Z.
Definition ex_t := [[-1; 0]; [0; -1]; [-1; 1]; [0; 1]; [0; 1]]%Z.
Definition ex_o := [q 1 2; q 1 4; q 1 2; q 1 8; q 1 8].
Example C20_effect_map_example :
  of_result (of_list (fun kv => SL [SZ (fst (fst kv)); SZ (snd (fst kv)); of_Qc (snd kv)])) (effect_map 2 ex_s ex_t ex_o)
  = SL [SZ 0; SL [SL [SZ 0; SZ (-1); SL [SZ 1; SZ 1]]; SL [SZ 0; SZ 0; SL [SZ 3; SZ 8]];
                  SL [SZ 0; SZ 1; SL [SZ 1; SZ 2]]; SL [SZ 1; SZ (-1); SL [SZ 1; SZ 1]]]].
Proof. vm_compute. reflexivity. Qed.
Example C20_synergy_example :
  of_result (fun r => SL [of_list SZ (fst (fst r)); of_list (of_list SZ) (snd (fst r)); of_list of_Qc (snd r)])
            (calculate_synergy false 2 ex_s ex_t ex_o)
  = SL [SZ 0; SL [SL [SZ 0]; SL [SL [SZ 0; SZ 1]]; SL [SL [SZ 1; SZ 16]]]]
  /\ calculate_synergy true 2 ex_s ex_t ex_o = Err E_VALUE
  /\ effect_array 2 ex_s ex_t ex_o = Err E_KEY.
Proof. repeat split; vm_compute; reflexivity. Qed.

(* a mapping with two control rows and a supplied (non-canonical) sample mapping *)
Example C20_space_example :
  full_space [(10, -1); (11, 0); (12, -1); (13, 1)]%Z [(5, 0); (6, 1)]%Z 2 1%Z
  = Ok ([1; 1; 1; 1; 1; 1]%Z, [[-1; 0]; [-1; -1]; [-1; 1]; [0; -1]; [0; 1]; [-1; 1]]%Z).
Proof. vm_compute. reflexivity. Qed.

(* the unit-diagonal hypotheses are satisfiable: two samples, S_i = 1/4, sqrt(1/4) = 1/2 *)
Definition ex_orc : oracle := fun _ x => if qeqb x (q 1 4) then q 1 2 else 0%Qc.
Example C20_corr_example :
  of_list (of_list (of_option of_Qc)) (corr_of ex_orc [[q 1 1]; [q 0 1]] 1)
  = SL [SL [SL [SL [SZ 1; SZ 1]]; SL [SL [SZ (-1); SZ 1]]]; SL [SL [SL [SZ (-1); SZ 1]]; SL [SL [SZ 1; SZ 1]]]].
Proof. vm_compute. reflexivity. Qed.

Example C20_calculate_mse_example :
  of_result of_Qc (calculate_mse [[q 1 1; q 0 1]; [q 0 1; q 1 1]] [q 1 2; q 1 1]) = SL [SZ 0; SL [SZ 1; SZ 8]].
Proof. vm_compute. reflexivity. Qed.

(* the source links are not vacuous: the translated functions compute the values of the examples above, and the key
   hypothesis of the space link is satisfiable (names 10, 11, 13; doses 1, 2, 5; key = 100 * name + dose) *)
Definition ex_tm : tmap3 := [((10, 1), -1); ((11, 5), 0); ((10, 2), -1); ((13, 1), 1)]%Z.
Definition ex_key (p : Z * Z) : Z := (100 * fst p + snd p)%Z.
Example C20_source_examples :
  src_calculate_synergy 2 ex_s ex_t ex_o false = calculate_synergy false 2 ex_s ex_t ex_o
  /\ src_calculate_synergy 2 ex_s ex_t ex_o true = Err E_VALUE
  /\ src_create_single_treatment_effect_array 2 ex_s ex_t ex_o = Err E_KEY
  /\ (forall a b, In a (map fst ex_tm) -> In b (map fst ex_tm) -> ex_key a = ex_key b -> a = b)
  /\ key_rows ex_key ex_tm = [(1001, -1); (1105, 0); (1002, -1); (1301, 1)]%Z
  /\ src_generate_full_combinatoric_space ex_tm [(5, 0); (6, 1)]%Z 2 1%Z
     = Ok ([1; 1; 1; 1; 1; 1]%Z, [[-1; 0]; [-1; -1]; [-1; 1]; [0; -1]; [0; 1]; [-1; 1]]%Z).
Proof.
  repeat split; try (vm_compute; reflexivity).
  intros a b Ha Hb. cbn in Ha, Hb.
  repeat match goal with H : _ \/ _ |- _ => destruct H as [H|H] end; try contradiction; subst; vm_compute; intros E; try reflexivity; discriminate.
Qed.

(* ---- source-translation links, persistence: ModelEvaluation.save_h5 / load_h5 (Generated/SrcEvalIO.v, configurations
   C20_EVIO_* of harness/src_functions.py), with the helpers encode_string_array / decode_string_array and the property
   sample_names translated too.  The translations work on the raw HDF5 content [evraw] (datasets by name, last part of
   Model/Metrics.v); [evraw_close] is the representation map to the model's file (with the stored predictions.shape[1]). ---- *)
From Batchie Require Import Generated.SrcEvalIO Proofs.C20SourceIO.

(* what the translated save_h5 has written, read back by name, is the model's file of e, its 2-d predictions carrying
   shape[1] = ncols.  All evaluations, all ncols. *)
Theorem C20_model_is_source_save_h5 : forall (ncols : nat) (e : evaluation),
  (dor w <- src_ev_save_h5 ncols e; evraw_close w) = Ok (ncols, ev_save e).
Proof. exact src_ev_save_h5_is_model. Qed.
Print Assumptions C20_model_is_source_save_h5.

(* on EVERY raw file that holds the four datasets, the translated load_h5 is the model's ev_load when the stored shape[1]
   of the predictions is the number of stored chain ids, and the constructor's ValueError otherwise.  No hypothesis on the
   content. *)
Theorem C20_model_is_source_load_h5 : forall (w : evraw) (ncols : nat) (f : eval_file),
  evraw_close w = Ok (ncols, f) ->
  src_ev_load_h5 w = if Nat.eqb (length (snd (fst f))) ncols then ev_load f else Err E_VALUE.
Proof. exact src_ev_load_h5_is_model. Qed.
Print Assumptions C20_model_is_source_load_h5.

(* the codec helpers as translated are the identity on every 1-d string array, with or without elements *)
Theorem C20_model_is_source_string_codec :
  (forall a : list pyname, src_ev_encode_string_array a = Ok a) /\ (forall a : list bstr, src_ev_decode_string_array a = Ok a).
Proof. exact (conj src_ev_encode_string_array_is_identity src_ev_decode_string_array_is_identity). Qed.
Print Assumptions C20_model_is_source_string_codec.

(* hence C20_eval_save_load is a theorem about the translated source: for every evaluation the constructor builds
   (m = predictions.shape[1]), the translated load_h5 applied to what the translated save_h5 wrote returns it unchanged *)
Theorem C20_source_eval_save_load : forall m P o ch nm e,
  mk_eval m P o ch nm = Ok e ->
  (dor w <- src_ev_save_h5 m e; src_ev_load_h5 w) = Ok e.
Proof. exact src_ev_round_trip. Qed.
Print Assumptions C20_source_eval_save_load.

(* not vacuous: the evaluation with 0 experiments and 2 posterior samples (the witness of the defect repaired in /repo
   6d95451), a square 2 x 2 one, and a file whose stored shape disagrees with its chain ids *)
Example C20_source_eval_io_examples :
  (dor e <- mk_eval 2 [] [] [0; 0]%Z []; dor w <- src_ev_save_h5 2 e; src_ev_load_h5 w)
  = Ok {| ev_preds := []; ev_obs := []; ev_chains := [0; 0]%Z; ev_names := [] |}
  /\ (dor e <- mk_eval 2 [[q 1 1; q 0 1]; [q 1 2; q 1 4]] [q 1 2; q 1 1] [0; 1]%Z [[97%Z]; [98%Z]];
      dor w <- src_ev_save_h5 2 e; src_ev_load_h5 w)
     = Ok {| ev_preds := [[q 1 1; q 0 1]; [q 1 2; q 1 4]]; ev_obs := [q 1 2; q 1 1]; ev_chains := [0; 1]%Z;
             ev_names := [[97%Z]; [98%Z]] |}
  /\ src_ev_load_h5 (evraw_of_file 3 ([], [], [0; 0]%Z, [])) = Err E_VALUE
  /\ src_ev_load_h5 [] = Err 30%Z.
Proof. repeat split; vm_compute; reflexivity. Qed.

(* ---- source-translation link: models/main.py correlation_matrix (Generated/SrcCorr.v, configurations C20_CORR /
   C20_PREDICT_AVG_NAN of harness/src_functions.py; vocabulary: last part of Model/Corr.v).  In the translation a float is
   option Qc (None = NaN) and every numpy operator is lifted to it; the screen is (tm, sm, arity, rows) with tm the
   mapping rows ((name, dose), id) as in the link of generate_full_combinatoric_space, rows the (sample id, sample name)
   pairs of the experiments; the thetas are the model's function f. ---- *)
From Batchie Require Import Generated.SrcCorr Proofs.C20SourceCorr.

(* predict_viability_avg, translated once more with NaN as a value, on the model's thetas and a screen with one sample id
   and one id row per experiment (true of every Screen): entry by entry the model's avg_pred; without thetas 0 / 0 = NaN *)
Theorem C20_model_is_source_predict_viability_avg_nan : forall (f : nat -> Z -> list Z -> Qc) (n : nat) (sp : list Z * list (list Z)),
  length (fst sp) = length (snd sp) ->
  src_predict_viability_avg_nan (length (fst sp)) (thetas_on f n sp)
  = Ok (map (fun st => match n with O => None | S _ => Some (avg_pred f n (fst st) (snd st)) end) (combine (fst sp) (snd sp))).
Proof. exact src_predict_avg_nan_on. Qed.
Print Assumptions C20_model_is_source_predict_viability_avg_nan.

(* the WHOLE function correlation_matrix = the model, wrapped as the DataFrame (index, columns, values) with the sample
   names on both axes.  Hypotheses: the sqrt oracle vanishes exactly at 0 on non-negative arguments (true of the real and
   of the IEEE square root; the model tests the sum of squares, numpy divides by its root), and - as for
   generate_full_combinatoric_space - key is injective on the mapping's (name, dose) pairs.  All screens, all thetas. *)
Theorem C20_model_is_source_correlation_matrix : forall (orc : oracle),
  (forall x : Qc, (0 <= x)%Qc -> (orc ORC_SQRT x = 0%Qc <-> x = 0%Qc)) ->
  forall (f : nat -> Z -> list Z -> Qc) (key : Z * Z -> Z) (tm : tmap3),
  (forall a b, In a (map fst tm) -> In b (map fst tm) -> key a = key b -> a = b) ->
  forall (sm : list (Z * Z)) (arity nthetas : nat) (rows : list (Z * Z)),
  src_correlation_matrix orc f tm sm arity nthetas rows
  = dor r <- correlation_matrix orc f (key_rows key tm) sm arity nthetas rows; Ok (mk_frame (snd r) (fst r) (fst r)).
Proof. exact src_correlation_matrix_is_model. Qed.
Print Assumptions C20_model_is_source_correlation_matrix.

(* hence C20_corr_symmetric about the translated source; and the frame's columns are its index *)
Theorem C20_source_corr_symmetric : forall (orc : oracle),
  (forall x : Qc, (0 <= x)%Qc -> (orc ORC_SQRT x = 0%Qc <-> x = 0%Qc)) ->
  forall (f : nat -> Z -> list Z -> Qc) (key : Z * Z -> Z) (tm : tmap3),
  (forall a b, In a (map fst tm) -> In b (map fst tm) -> key a = key b -> a = b) ->
  forall sm arity nthetas rows index columns M i j,
  src_correlation_matrix orc f tm sm arity nthetas rows = Ok (index, columns, M) ->
  columns = index /\ mat_get M i j = mat_get M j i.
Proof. exact src_correlation_matrix_symmetric. Qed.
Print Assumptions C20_source_corr_symmetric.

(* not vacuous: an oracle with the hypothesis (sqrt 0 = 0, sqrt(1/4) = 1/2, 1 elsewhere); two samples whose averages
   differ at one combination: [[1, -1], [-1, 1]] with the names 5, 6 on both axes; no theta: all NaN; one sample: NaN;
   no experiment: np.stack raises *)
Definition ex_orc2 : oracle := fun _ x => if qeqb x 0 then 0%Qc else if qeqb x (q 1 4) then q 1 2 else 1%Qc.
Definition ex_f (th : nat) (s : Z) (ids : list Z) : Qc :=
  match ids with [a; b] => if ((s =? 0) && (a =? -1) && (b =? 0))%Z then 1%Qc else 0%Qc | _ => 0%Qc end.
Definition show_frame (r : result corr_frame) : sexp :=
  of_result (fun fr => SL [of_list SZ (fst (fst fr)); of_list SZ (snd (fst fr)); of_list (of_list (of_option of_Qc)) (snd fr)]) r.
Example C20_source_corr_examples :
  (forall x : Qc, (0 <= x)%Qc -> (ex_orc2 ORC_SQRT x = 0%Qc <-> x = 0%Qc))
  /\ show_frame (src_correlation_matrix ex_orc2 ex_f ex_tm [(5, 0); (6, 1)]%Z 2 3 [(0, 5); (1, 6); (0, 5)]%Z)
     = SL [SZ 0; SL [SL [SZ 5; SZ 6]; SL [SZ 5; SZ 6];
                     SL [SL [SL [SL [SZ 1; SZ 1]]; SL [SL [SZ (-1); SZ 1]]]; SL [SL [SL [SZ (-1); SZ 1]]; SL [SL [SZ 1; SZ 1]]]]]]
  /\ show_frame (src_correlation_matrix ex_orc2 ex_f ex_tm [(5, 0); (6, 1)]%Z 2 0 [(0, 5); (1, 6); (0, 5)]%Z)
     = SL [SZ 0; SL [SL [SZ 5; SZ 6]; SL [SZ 5; SZ 6]; SL [SL [SL []; SL []]; SL [SL []; SL []]]]]
  /\ show_frame (src_correlation_matrix ex_orc2 ex_f ex_tm [(5, 0); (6, 1)]%Z 2 3 [(1, 6)]%Z)
     = SL [SZ 0; SL [SL [SZ 6]; SL [SZ 6]; SL [SL [SL []]]]]
  /\ src_correlation_matrix ex_orc2 ex_f ex_tm [(5, 0); (6, 1)]%Z 2 3 [] = Err E_VALUE.
Proof.
  split; [|repeat split; vm_compute; reflexivity].
  intros x _. unfold ex_orc2. destruct (Qc_eq_dec x 0) as [->|N].
  - split; reflexivity.
  - unfold qeqb. destruct (Qc_eq_dec x 0) as [E|_]; [contradiction|].
    split; [|intros E; contradiction]. destruct (Qc_eq_dec x (q 1 4)); intros H; apply (f_equal this) in H; vm_compute in H; discriminate.
Qed.

(* ---- the reporting site: cli/analyze_model_evaluation.main (Generated/SrcCliAnalyze.v, configuration CLI_ANALYZE of
   harness/src_functions.py; model Model/CliAnalyze.v: a run = the list of its effects on the output directory).  "The
   REPORTED overall MSE ..." of the property is a statement about this function. ---- *)
From Batchie Require Import Lib.PyRt Model.Cli Model.CliAnalyze Generated.SrcCliAnalyze Proofs.C20SourceCli_Analyze.

(* the WHOLE main() as translated = the model, for every library record and all parsed arguments *)
Theorem C20_model_is_source_cli_analyze :
  forall (Scr Th Ev Co F : Type) (L : an_lib Scr Th Ev Co F) (a : an_args),
  src_cli_analyze Scr Th Ev Co F L a = cli_analyze L a.
Proof. exact src_cli_analyze_is_model. Qed.
Print Assumptions C20_model_is_source_cli_analyze.

(* what a run whose loads succeed reports, in order: the similarity matrix of the loaded --screen and the concatenation of
   ALL --thetas files (argument order); five plots (the two that bootstrap a regression band with seed=--seed, see C18); the
   summary of the loaded --model-evaluation, each metric under its key *)
Theorem C20_source_report_contents :
  forall (Scr Th Ev Co F : Type) (L : an_lib Scr Th Ev Co F) (a : an_args) hs th scr e c,
  res_map_all (an_load_thetas L) (an_thetas a) = Ok hs ->
  an_concat_thetas L hs = Ok th ->
  an_load_screen L (an_screen a) = Ok scr ->
  an_load_eval L (an_model_evaluation a) = Ok e ->
  an_correlation_matrix L scr th = Ok c ->
  src_cli_analyze Scr Th Ev Co F L a
  = Ok [AnMkdir (an_output_dir a);
        AnHeat c (an_output_dir a, N_heat);
        AnScatter e (an_output_dir a, N_scatter) (Some (an_seed a));
        AnScatterSample e (an_output_dir a, N_scatter_sample) (Some (an_seed a));
        AnViolin e (an_output_dir a, N_violin) None;
        AnViolin e (an_output_dir a, N_violin99) (Some 99%Z);
        AnSummary (mk_an_summary (an_mse L e) (an_mse_variance L e) (an_inter_chain L e)) (an_output_dir a, N_summary)].
Proof. exact src_cli_analyze_reports. Qed.
Print Assumptions C20_source_report_contents.

(* the REPORTED numbers are the definitions: with the TRANSLATED metric methods as the library's, at an evaluation the
   constructor built (what the translated load_h5 returns), any summary the translated main() writes holds the mean squared
   error over all pairs, its variance across experiments and the variance of the per-chain MSEs (NaN without experiments
   or posterior samples) *)
Theorem C20_source_reported_summary_def :
  forall (Scr Th Co : Type) (L : an_lib Scr Th evaluation Co (result Qc)) (a : an_args) m P o ch nm e s,
  an_load_eval L (an_model_evaluation a) = Ok e ->
  mk_eval m P o ch nm = Ok e ->
  an_mse L e = src_ev_mse e -> an_mse_variance L e = src_ev_mse_variance e ->
  an_inter_chain L e = src_ev_inter_chain_mse_variance m e ->
  reported_summary (src_cli_analyze Scr Th evaluation Co (result Qc) L a) = Some s ->
  let nan := Nat.eqb (length P) 0 || Nat.eqb m 0 in
  sum_mse s = (if nan then Err E_NAN else Ok (mse_def P o (length P) m))
  /\ sum_mse_variance s = (if nan then Err E_NAN else Ok (mse_variance_def P o (length P) m))
  /\ sum_inter_chain s = (if nan then Err E_NAN else Ok (inter_chain_def P o ch (length P) m)).
Proof. exact reported_summary_is_definition. Qed.
Print Assumptions C20_source_reported_summary_def.

(* not vacuous: a library over unit screens / holders whose evaluation file holds a 2 x 2 evaluation with two chains; the run
   reports mse 1/4, variance across experiments 1/16, inter-chain variance 1/16 *)
Definition ex_an_eval : evaluation :=
  {| ev_preds := [[q 1 1; q 0 1]; [q 1 2; q 1 2]]; ev_obs := [q 1 1; q 1 2]; ev_chains := [0; 1]%Z; ev_names := [[97%Z]; [98%Z]] |}.
Definition ex_an_lib : an_lib unit (list unit) evaluation nat (result Qc) :=
  {| an_load_thetas := fun _ => Ok [tt]; an_concat_thetas := fun l => Ok (List.concat l); an_load_screen := fun _ => Ok tt;
     an_load_eval := fun _ => Ok ex_an_eval; an_correlation_matrix := fun _ th => Ok (length th);
     an_mse := src_ev_mse; an_mse_variance := src_ev_mse_variance; an_inter_chain := src_ev_inter_chain_mse_variance 2 |}.
Example C20_source_report_example :
  mk_eval 2 (ev_preds ex_an_eval) (ev_obs ex_an_eval) (ev_chains ex_an_eval) (ev_names ex_an_eval) = Ok ex_an_eval
  /\ match src_cli_analyze _ _ _ _ _ ex_an_lib (mk_an_args [1%Z] [2%Z] [[3%Z]; [4%Z]; [5%Z]] [6%Z] 7%Z) with
     | Ok [AnMkdir [6%Z]; AnHeat 3%nat _; AnScatter _ _ (Some 7%Z); AnScatterSample _ _ (Some 7%Z); AnViolin _ _ None; AnViolin _ _ (Some 99%Z);
           AnSummary s ([6%Z], N_summary)] =>
         sum_mse s = Ok (q 1 4) /\ sum_mse_variance s = Ok (q 1 16) /\ sum_inter_chain s = Ok (q 1 16)
     | _ => False
     end.
Proof. split; [vm_compute; reflexivity|]. vm_compute. repeat split. Qed.
