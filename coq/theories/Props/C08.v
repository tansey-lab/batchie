(* C08 — Each Gibbs block draws from the exact full conditional of the documented model.
   Statements only: a proof is `exact <lemma from Proofs/>` (or a split into such), a concrete example is closed by evaluation.
   Model: Model/Gibbs.v (the sampler), Model/Mvn.v; specification: Model/GibbsSpec.v
   (energy = -2 log joint of the documented model given the horseshoe precisions, energy_hs = -2 log
   of the complete joint including the horseshoe hyper-priors, for an arbitrary function ln). *)
From Coq Require Import String.
From Coq Require Import ZArith List QArith Qcanon.
From Batchie Require Import Lib.Sexp Lib.Num Generated.Consts Generated.ConstsMcmc Model.Gibbs Model.GibbsSpec Model.Mvn
  Proofs.C08Sums Proofs.C08Gauss Proofs.C08Cache Proofs.C08Misc Proofs.C08Mgp Proofs.C08Mvn Proofs.C08Final
  Proofs.C08HorseshoeAlg Proofs.C08Horseshoe Generated.SrcGibbs Proofs.C08Source
  Generated.SrcMvn Generated.SrcGibbsObj Proofs.C08SourceObj.
Import ListNotations.
Open Scope Qc_scope.

(* ------------------------------------------------------------------ order of the sweep *)
(* the model's hard-wired order is the call order read from the source of mcmc_step; every step
   function occurs exactly once; the sweep is the composition in that order *)
Theorem C08_order :
  map (fun b => (blk_name b, ""%string)) step_order = MCMC_STEP_ORDER /\
  NoDup step_order /\ (forall b : blk, In b step_order) /\ hd_error step_order = Some BReconstruct /\
  forall g d orc s, mcmc_step g d orc s = run_blocks g d orc step_order s.
Proof. exact (conj order_matches_source (conj order_nodup (conj order_complete (conj order_reconstruct_first (fun _ _ _ _ => eq_refl))))). Qed.
Print Assumptions C08_order.

(* ------------------------------------------------------------------ Gaussian blocks *)
(* scalar blocks: the draw N(m, v) satisfies  energy(b := x) - energy(b := 0) = (x^2 - 2 m x)/v,
   i.e. the conditional density of the block given everything else is N(m, v) *)
Theorem C08_gauss_block_W0 : forall ln g d s c m v k,
  ValidData d -> cache_ok g d s -> (c < c_ncl g)%nat -> (c < length (W0 s))%nat ->
  block_W0 d s c = (DNormal m v, k) -> v <> 0 ->
  forall x, energy ln g d (upd_W0 s c x) - energy ln g d (upd_W0 s c 0) = (x * x - qofZ 2 * m * x) / v.
Proof. exact gauss_block_W0. Qed.
Print Assumptions C08_gauss_block_W0.

Theorem C08_gauss_block_V0 : forall ln g d s m mu v k,
  ValidData d -> NoSelfCombo d -> cache_ok g d s -> (m < c_ndd g)%nat -> (m < length (V0 s))%nat ->
  block_V0 d s m = (DNormal mu v, k) -> v <> 0 ->
  forall x, energy ln g d (upd_V0 s m x) - energy ln g d (upd_V0 s m 0) = (x * x - qofZ 2 * mu * x) / v.
Proof. exact gauss_block_V0. Qed.
Print Assumptions C08_gauss_block_V0.

(* vector blocks: the draw (Q, b) handed to sample_mvn_from_precision satisfies
   energy(b := x) - energy(b := 0) = x'Qx - 2 b'x, i.e. the conditional is N(Q^-1 b, Q^-1) *)
Theorem C08_gauss_block_W : forall ln g d s c Q b k,
  ValidData d -> cache_ok g d s -> (c < c_ncl g)%nat -> (c < length (W s))%nat ->
  block_W g d s c = (DMvn Q b, k) ->
  forall x, energy ln g d (upd_W s c x) - energy ln g d (upd_W s c []) = quad (c_D g) Q x - qofZ 2 * vdot (c_D g) b x.
Proof. exact gauss_block_W. Qed.
Print Assumptions C08_gauss_block_W.

Theorem C08_gauss_block_V2 : forall ln g d s m Q b k,
  ValidData d -> NoSelfCombo d -> cache_ok g d s -> (m < c_ndd g)%nat -> (m < length (V2 s))%nat ->
  block_V2 g d s m = (DMvn Q b, k) ->
  forall x, energy ln g d (upd_V2 s m x) - energy ln g d (upd_V2 s m []) = quad (c_D g) Q x - qofZ 2 * vdot (c_D g) b x.
Proof. exact gauss_block_V2. Qed.
Print Assumptions C08_gauss_block_V2.

Theorem C08_gauss_block_V1 : forall ln g d s m Q b k,
  ValidData d -> NoSelfCombo d -> cache_ok g d s -> (m < c_ndd g)%nat -> (m < length (V1 s))%nat ->
  block_V1 g d s m = (DMvn Q b, k) ->
  forall x, energy ln g d (upd_V1 s m x) - energy ln g d (upd_V1 s m []) = quad (c_D g) Q x - qofZ 2 * vdot (c_D g) b x.
Proof. exact gauss_block_V1. Qed.
Print Assumptions C08_gauss_block_V1.

(* the generic lemma carrying all five: sum_i (rho_i - X_i.x)^2 - rho_i^2, weighted by the noise
   precision, plus a diagonal prior, is the quadratic form of (gramQ, xtr) - any rows, any dimension *)
Theorem C08_gauss_generic : forall D (p : Qc) (rows : rowsT) (lam x : list Qc),
  p * qsum (map (fun r => hterm (fst r) (vdot D (snd r) x)) rows) + sumn D (fun k => vnth lam k * qsq (vnth x k))
  = quad D (gramQ D p rows lam) x - qofZ 2 * vdot D (xtr D p rows) x.
Proof. exact gauss_rows. Qed.
Print Assumptions C08_gauss_generic.

(* blocks without data draw from the prior: scalar N(0, 1/precision); vector N(0, diag 1/precision)
   with energy difference sum_k precision_k x_k^2 *)
Theorem C08_prior_draw_scalar : forall d s,
  (forall c, positions (Z.of_nat c) (d_cl d) = [] -> fst (block_W0 d s c) = DNormal 0 (/ tau0 s)) /\
  (forall m, positions (Z.of_nat m) (d_dd1 d) = [] -> positions (Z.of_nat m) (d_dd2 d) = [] ->
             fst (block_V0 d s m) = DNormal 0 (/ (vnth (phi0 s) m * eta0 s))).
Proof. exact prior_draw_scalar. Qed.
Print Assumptions C08_prior_draw_scalar.

Theorem C08_prior_draw_W : forall ln g d s c vars k,
  ValidData d -> cache_ok g d s -> (c < c_ncl g)%nat -> (c < length (W s))%nat ->
  block_W g d s c = (DNormalVec vars, k) ->
  vars = map Qcinv (tau s) /\
  forall x, energy ln g d (upd_W s c x) - energy ln g d (upd_W s c []) = sumn (c_D g) (fun j => vnth (tau s) j * qsq (vnth x j)).
Proof. exact prior_block_W. Qed.
Print Assumptions C08_prior_draw_W.

Theorem C08_prior_draw_V2 : forall ln g d s m vars k,
  ValidData d -> NoSelfCombo d -> cache_ok g d s -> (m < c_ndd g)%nat -> (m < length (V2 s))%nat ->
  block_V2 g d s m = (DNormalVec vars, k) ->
  vars = map Qcinv (lam_V2 g s m) /\
  forall x, energy ln g d (upd_V2 s m x) - energy ln g d (upd_V2 s m []) = sumn (c_D g) (fun j => vnth (lam_V2 g s m) j * qsq (vnth x j)).
Proof. exact prior_block_V2. Qed.
Print Assumptions C08_prior_draw_V2.

Theorem C08_prior_draw_V1 : forall ln g d s m vars k,
  ValidData d -> NoSelfCombo d -> cache_ok g d s -> (m < c_ndd g)%nat -> (m < length (V1 s))%nat ->
  block_V1 g d s m = (DNormalVec vars, k) ->
  vars = map Qcinv (lam_V1 g s m) /\
  forall x, energy ln g d (upd_V1 s m x) - energy ln g d (upd_V1 s m []) = sumn (c_D g) (fun j => vnth (lam_V1 g s m) j * qsq (vnth x j)).
Proof. exact prior_block_V1. Qed.
Print Assumptions C08_prior_draw_V1.

(* the drawn value is what the block stores *)
Theorem C08_draw_stored : forall g d s,
  (forall c x, W0 (snd (block_W0 d s c) (VQ x)) = set_nth c x (W0 s)) /\
  (forall m x, V0 (snd (block_V0 d s m) (VQ x)) = set_nth m x (V0 s)) /\
  (forall c x, W (snd (block_W g d s c) (VV x)) = set_nth c x (W s)) /\
  (forall m x, V2 (snd (block_V2 g d s m) (VV x)) = set_nth m x (V2 s)) /\
  (forall m x, V1 (snd (block_V1 g d s m) (VV x)) = set_nth m x (V1 s)).
Proof. exact stored_all. Qed.
Print Assumptions C08_draw_stored.

(* ------------------------------------------------------------------ alpha *)
Theorem C08_alpha_mean : forall d s, nobs d <> 0%nat -> alpha (alpha_step d s) = qmean (d_y d).
Proof. exact alpha_is_mean. Qed.
Print Assumptions C08_alpha_mean.

(* ------------------------------------------------------------------ conjugate gamma blocks *)
(* the draw Gamma(a, r): a - 1 and r are the coefficients of -2 ln t and 2 t in the energy as a
   function of the precision t (for every function ln, so the coefficients are identified) *)
Theorem C08_gamma_block_prec_obs : forall ln orc g d s a r k,
  ValidData d -> cache_ok g d s -> nobs d <> 0%nat ->
  prog_prec_obs g d orc s = Draw (DGamma a r) k ->
  forall t t', energy ln g d (set_prec s t) - energy ln g d (set_prec s t')
               = - (qofZ 2 * (a - 1) * (ln t - ln t')) + qofZ 2 * r * (t - t').
Proof. exact gamma_block_prec_obs. Qed.
Print Assumptions C08_gamma_block_prec_obs.

Theorem C08_gamma_block_tau0 : forall ln orc g d s a r k,
  length (W0 s) = c_ncl g ->
  prog_prec_W0 g d orc s = Draw (DGamma a r) k ->
  forall t t', energy ln g d (set_tau0 s t) - energy ln g d (set_tau0 s t')
               = - (qofZ 2 * (a - 1) * (ln t - ln t')) + qofZ 2 * r * (t - t').
Proof. exact gamma_block_tau0. Qed.
Print Assumptions C08_gamma_block_tau0.

(* multiplicative gamma process: with tau = cumprod gam, for a logarithm that is additive on
   positive numbers, positive gam and positive candidates *)
Theorem C08_gamma_block_gam : forall (ln : Qc -> Qc),
  (forall a b, 0 < a -> 0 < b -> ln (a * b) = ln a + ln b) ->
  forall g d s dd,
  Forall (fun x => 0 < x) (gam s) -> length (gam s) = c_D g -> (dd < c_D g)%nat ->
  forall t t', 0 < t -> 0 < t' ->
    energy ln g d (upd_gam s dd t) - energy ln g d (upd_gam s dd t')
    = - (qofZ 2 * (gam_shape g dd - 1) * (ln t - ln t')) + qofZ 2 * (1 + gam_half_ss g s dd + jitter) * (t - t').
Proof. exact gamma_block_gam. Qed.
Print Assumptions C08_gamma_block_gam.

Theorem C08_gamma_block_gam_is_the_draw : forall g d orc dd r s,
  exists k, prog_gam g d orc (dd :: r) s = Draw (DGamma (gam_shape g dd) (1 + gam_half_ss g s dd + jitter)) k.
Proof. exact prog_gam_head. Qed.
Print Assumptions C08_gamma_block_gam_is_the_draw.

(* ------------------------------------------------------------------ horseshoe steps *)
(* _prec_V0_step, _prec_V2_step, _prec_V1_step: auxiliary of phi, phi, auxiliary of eta, eta.
   energy_hs ln j = -2 log of the complete joint: energy + the half-Cauchy hyper-priors of the
   scales 1/sqrt(phi), 1/sqrt(eta) in their gamma-mixture form (p | a ~ Gamma(1/2, rate a),
   a ~ Gamma(1/2, rate 1), normalising constants included) + the stability tilt 2 j p on every
   horseshoe precision p.  A vectorised draw Gamma(sh, rates) of a whole group x is the full
   conditional when  energy_hs(x) - energy_hs(x') = sum_i gform sh rates_i x_i x'_i  for all x, x'
   (gform c r t t' = -2 (c-1) (ln t - ln t') + 2 r (t - t')): the conditional density factorises
   over the entries and entry i is Gamma(sh, rates_i). *)

(* each step is exactly four gamma draws, with shapes 1, 1, 1, (1 + n_drugdoses)/2 *)
Theorem C08_horseshoe_draws_V0 : forall g d orc s,
  exists r1 k1, prog_prec_V0 g d orc s = Draw (DGammaVec 1 r1) k1 /\ forall v1,
  exists r2 k2, k1 v1 = Draw (DGammaVec 1 r2) k2 /\ forall v2,
  exists r3 k3, k2 v2 = Draw (DGamma 1 r3) k3 /\ forall v3,
  exists r4 k4, k3 v3 = Draw (DGamma (half * (1 + qnat (c_ndd g))) r4) k4 /\ forall v4,
  exists sfin, k4 v4 = Ret sfin.
Proof. exact hs_shape0. Qed.
Print Assumptions C08_horseshoe_draws_V0.

Theorem C08_horseshoe_draws_V2 : forall g d orc s,
  exists r1 k1, prog_prec_V2 g d orc s = Draw (DGammaMat 1 r1) k1 /\ forall v1,
  exists r2 k2, k1 v1 = Draw (DGammaMat 1 r2) k2 /\ forall v2,
  exists r3 k3, k2 v2 = Draw (DGammaVec 1 r3) k3 /\ forall v3,
  exists r4 k4, k3 v3 = Draw (DGammaVec (half * (1 + qnat (c_ndd g))) r4) k4 /\ forall v4,
  exists sfin, k4 v4 = Ret sfin.
Proof. exact hs_shape2. Qed.
Print Assumptions C08_horseshoe_draws_V2.

Theorem C08_horseshoe_draws_V1 : forall g d orc s,
  exists r1 k1, prog_prec_V1 g d orc s = Draw (DGammaMat 1 r1) k1 /\ forall v1,
  exists r2 k2, k1 v1 = Draw (DGammaMat 1 r2) k2 /\ forall v2,
  exists r3 k3, k2 v2 = Draw (DGammaVec 1 r3) k3 /\ forall v3,
  exists r4 k4, k3 v3 = Draw (DGammaVec (half * (1 + qnat (c_ndd g))) r4) k4 /\ forall v4,
  exists sfin, k4 v4 = Ret sfin.
Proof. exact hs_shape1. Qed.
Print Assumptions C08_horseshoe_draws_V1.

(* --- V0 family (one global precision eta0) --- *)
(* first draw: the auxiliaries of phi0 (any j: the tilt does not involve them) *)
Theorem C08_horseshoe_phiaux0 : forall ln g d orc j s sh rates k,
  length (phi0 s) = c_ndd g ->
  prog_prec_V0 g d orc s = Draw (DGammaVec sh rates) k ->
  forall u x x',
    energy_hs ln j g d s (set_a_phi0 u x) - energy_hs ln j g d s (set_a_phi0 u x')
    = sumn (c_ndd g) (fun m => gform ln sh (vnth rates m) (vnth x m) (vnth x' m)).
Proof. exact hs_phiaux0. Qed.
Print Assumptions C08_horseshoe_phiaux0.

(* second draw: phi0 given the drawn auxiliaries a *)
Theorem C08_horseshoe_phi0 : forall (ln : Qc -> Qc) g d orc,
  (forall a b, 0 < a -> 0 < b -> ln (a * b) = ln a + ln b) ->
  forall s d1 k1 a sh rates k2,
  prog_prec_V0 g d orc s = Draw d1 k1 -> k1 (VV a) = Draw (DGammaVec sh rates) k2 ->
  0 < eta0 s ->
  forall u x x', (forall m, (m < c_ndd g)%nat -> 0 < vnth x m) -> (forall m, (m < c_ndd g)%nat -> 0 < vnth x' m) ->
    energy_hs ln jitter g d (set_phi0 s x) (set_a_phi0 u a) - energy_hs ln jitter g d (set_phi0 s x') (set_a_phi0 u a)
    = sumn (c_ndd g) (fun m => gform ln sh (vnth rates m) (vnth x m) (vnth x' m)).
Proof. exact hs_phi0. Qed.
Print Assumptions C08_horseshoe_phi0.

(* third draw: the auxiliary of eta0, in any state with the same eta0 (the phi0 update in between
   does not matter) *)
Theorem C08_horseshoe_etaaux0 : forall ln g d orc j s d1 k1 v1 d2 k2 v2 sh r k3,
  prog_prec_V0 g d orc s = Draw d1 k1 -> k1 v1 = Draw d2 k2 -> k2 v2 = Draw (DGamma sh r) k3 ->
  forall s1 u t t', eta0 s1 = eta0 s ->
    energy_hs ln j g d s1 (set_a_eta0 u t) - energy_hs ln j g d s1 (set_a_eta0 u t') = gform ln sh r t t'.
Proof. exact hs_etaaux0. Qed.
Print Assumptions C08_horseshoe_etaaux0.

(* fourth draw: eta0 given the drawn auxiliary b, in the state sfin the step returns (it holds the
   new, clipped phi0; its eta0 slot is overwritten by the candidate) *)
Theorem C08_horseshoe_eta0 : forall (ln : Qc -> Qc) g d orc,
  (forall a b, 0 < a -> 0 < b -> ln (a * b) = ln a + ln b) ->
  forall s d1 k1 v1 d2 k2 v2 d3 k3 b sh r k4 v4 sfin,
  prog_prec_V0 g d orc s = Draw d1 k1 -> k1 v1 = Draw d2 k2 -> k2 v2 = Draw d3 k3 ->
  k3 (VQ b) = Draw (DGamma sh r) k4 -> k4 v4 = Ret sfin ->
  (forall m, (m < c_ndd g)%nat -> 0 < vnth (phi0 sfin) m) ->
  forall u t t', 0 < t -> 0 < t' ->
    energy_hs ln jitter g d (set_eta0 sfin t) (set_a_eta0 u b) - energy_hs ln jitter g d (set_eta0 sfin t') (set_a_eta0 u b)
    = gform ln sh r t t'.
Proof. exact hs_eta0. Qed.
Print Assumptions C08_horseshoe_eta0.

(* what the step stores: the clipped draws x (phi0) and y (eta0); nothing else the joint reads changes *)
Theorem C08_horseshoe_stored0 : forall g d orc s d1 k1 v1 d2 k2 x d3 k3 v3 d4 k4 y sfin,
  prog_prec_V0 g d orc s = Draw d1 k1 -> k1 v1 = Draw d2 k2 -> k2 (VV x) = Draw d3 k3 ->
  k3 v3 = Draw d4 k4 -> k4 (VQ y) = Ret sfin ->
  eta0 sfin = clipC orc (nobs d) y /\ length (phi0 sfin) = c_ndd g /\
  (forall m, (m < c_ndd g)%nat -> vnth (phi0 sfin) m = clipC orc (n_occ d m) (vnth x m)) /\ off0 sfin s.
Proof. exact hs_stored0. Qed.
Print Assumptions C08_horseshoe_stored0.

(* --- V2 family (one global precision per embedding dimension) --- *)
Theorem C08_horseshoe_phiaux2 : forall ln g d orc j s sh rates k,
  length (phi2 s) = c_ndd g -> (forall m, (m < c_ndd g)%nat -> length (rnth (phi2 s) m) = c_D g) ->
  prog_prec_V2 g d orc s = Draw (DGammaMat sh rates) k ->
  forall u x x',
    energy_hs ln j g d s (set_a_phi2 u x) - energy_hs ln j g d s (set_a_phi2 u x')
    = sumn (c_ndd g) (fun m => sumn (c_D g) (fun i => gform ln sh (vnth (rnth rates m) i) (vnth (rnth x m) i) (vnth (rnth x' m) i))).
Proof. exact hs_phiaux2. Qed.
Print Assumptions C08_horseshoe_phiaux2.

Theorem C08_horseshoe_phi2 : forall (ln : Qc -> Qc) g d orc,
  (forall a b, 0 < a -> 0 < b -> ln (a * b) = ln a + ln b) ->
  forall s d1 k1 a sh rates k2,
  prog_prec_V2 g d orc s = Draw d1 k1 -> k1 (VM a) = Draw (DGammaMat sh rates) k2 ->
  (forall i, (i < c_D g)%nat -> 0 < vnth (eta2 s) i) ->
  forall u x x',
    (forall m i, (m < c_ndd g)%nat -> (i < c_D g)%nat -> 0 < vnth (rnth x m) i) ->
    (forall m i, (m < c_ndd g)%nat -> (i < c_D g)%nat -> 0 < vnth (rnth x' m) i) ->
    energy_hs ln jitter g d (set_phi2 s x) (set_a_phi2 u a) - energy_hs ln jitter g d (set_phi2 s x') (set_a_phi2 u a)
    = sumn (c_ndd g) (fun m => sumn (c_D g) (fun i => gform ln sh (vnth (rnth rates m) i) (vnth (rnth x m) i) (vnth (rnth x' m) i))).
Proof. exact hs_phi2. Qed.
Print Assumptions C08_horseshoe_phi2.

Theorem C08_horseshoe_etaaux2 : forall ln g d orc j s d1 k1 v1 d2 k2 v2 sh rates k3,
  length (eta2 s) = c_D g ->
  prog_prec_V2 g d orc s = Draw d1 k1 -> k1 v1 = Draw d2 k2 -> k2 v2 = Draw (DGammaVec sh rates) k3 ->
  forall s1 u t t', eta2 s1 = eta2 s ->
    energy_hs ln j g d s1 (set_a_eta2 u t) - energy_hs ln j g d s1 (set_a_eta2 u t')
    = sumn (c_D g) (fun i => gform ln sh (vnth rates i) (vnth t i) (vnth t' i)).
Proof. exact hs_etaaux2. Qed.
Print Assumptions C08_horseshoe_etaaux2.

Theorem C08_horseshoe_eta2 : forall (ln : Qc -> Qc) g d orc,
  (forall a b, 0 < a -> 0 < b -> ln (a * b) = ln a + ln b) ->
  forall s d1 k1 v1 d2 k2 v2 d3 k3 b sh rates k4 v4 sfin,
  prog_prec_V2 g d orc s = Draw d1 k1 -> k1 v1 = Draw d2 k2 -> k2 v2 = Draw d3 k3 ->
  k3 (VV b) = Draw (DGammaVec sh rates) k4 -> k4 v4 = Ret sfin ->
  (forall m i, (m < c_ndd g)%nat -> (i < c_D g)%nat -> 0 < vnth (rnth (phi2 sfin) m) i) ->
  forall u t t', (forall i, (i < c_D g)%nat -> 0 < vnth t i) -> (forall i, (i < c_D g)%nat -> 0 < vnth t' i) ->
    energy_hs ln jitter g d (set_eta2 sfin t) (set_a_eta2 u b) - energy_hs ln jitter g d (set_eta2 sfin t') (set_a_eta2 u b)
    = sumn (c_D g) (fun i => gform ln sh (vnth rates i) (vnth t i) (vnth t' i)).
Proof. exact hs_eta2. Qed.
Print Assumptions C08_horseshoe_eta2.

Theorem C08_horseshoe_stored2 : forall g d orc s d1 k1 v1 d2 k2 x d3 k3 v3 d4 k4 y sfin,
  prog_prec_V2 g d orc s = Draw d1 k1 -> k1 v1 = Draw d2 k2 -> k2 (VM x) = Draw d3 k3 ->
  k3 v3 = Draw d4 k4 -> k4 (VV y) = Ret sfin ->
  (forall i, (i < c_D g)%nat -> vnth (eta2 sfin) i = clipC orc (nobs d) (vnth y i)) /\
  (forall m i, (m < c_ndd g)%nat -> (i < c_D g)%nat -> vnth (rnth (phi2 sfin) m) i = clipC orc (n_occ d m) (vnth (rnth x m) i)) /\
  off2 sfin s.
Proof. exact hs_stored2. Qed.
Print Assumptions C08_horseshoe_stored2.

(* --- V1 family --- *)
Theorem C08_horseshoe_phiaux1 : forall ln g d orc j s sh rates k,
  length (phi1 s) = c_ndd g -> (forall m, (m < c_ndd g)%nat -> length (rnth (phi1 s) m) = c_D g) ->
  prog_prec_V1 g d orc s = Draw (DGammaMat sh rates) k ->
  forall u x x',
    energy_hs ln j g d s (set_a_phi1 u x) - energy_hs ln j g d s (set_a_phi1 u x')
    = sumn (c_ndd g) (fun m => sumn (c_D g) (fun i => gform ln sh (vnth (rnth rates m) i) (vnth (rnth x m) i) (vnth (rnth x' m) i))).
Proof. exact hs_phiaux1. Qed.
Print Assumptions C08_horseshoe_phiaux1.

Theorem C08_horseshoe_phi1 : forall (ln : Qc -> Qc) g d orc,
  (forall a b, 0 < a -> 0 < b -> ln (a * b) = ln a + ln b) ->
  forall s d1 k1 a sh rates k2,
  prog_prec_V1 g d orc s = Draw d1 k1 -> k1 (VM a) = Draw (DGammaMat sh rates) k2 ->
  (forall i, (i < c_D g)%nat -> 0 < vnth (eta1 s) i) ->
  forall u x x',
    (forall m i, (m < c_ndd g)%nat -> (i < c_D g)%nat -> 0 < vnth (rnth x m) i) ->
    (forall m i, (m < c_ndd g)%nat -> (i < c_D g)%nat -> 0 < vnth (rnth x' m) i) ->
    energy_hs ln jitter g d (set_phi1 s x) (set_a_phi1 u a) - energy_hs ln jitter g d (set_phi1 s x') (set_a_phi1 u a)
    = sumn (c_ndd g) (fun m => sumn (c_D g) (fun i => gform ln sh (vnth (rnth rates m) i) (vnth (rnth x m) i) (vnth (rnth x' m) i))).
Proof. exact hs_phi1. Qed.
Print Assumptions C08_horseshoe_phi1.

Theorem C08_horseshoe_etaaux1 : forall ln g d orc j s d1 k1 v1 d2 k2 v2 sh rates k3,
  length (eta1 s) = c_D g ->
  prog_prec_V1 g d orc s = Draw d1 k1 -> k1 v1 = Draw d2 k2 -> k2 v2 = Draw (DGammaVec sh rates) k3 ->
  forall s1 u t t', eta1 s1 = eta1 s ->
    energy_hs ln j g d s1 (set_a_eta1 u t) - energy_hs ln j g d s1 (set_a_eta1 u t')
    = sumn (c_D g) (fun i => gform ln sh (vnth rates i) (vnth t i) (vnth t' i)).
Proof. exact hs_etaaux1. Qed.
Print Assumptions C08_horseshoe_etaaux1.

Theorem C08_horseshoe_eta1 : forall (ln : Qc -> Qc) g d orc,
  (forall a b, 0 < a -> 0 < b -> ln (a * b) = ln a + ln b) ->
  forall s d1 k1 v1 d2 k2 v2 d3 k3 b sh rates k4 v4 sfin,
  prog_prec_V1 g d orc s = Draw d1 k1 -> k1 v1 = Draw d2 k2 -> k2 v2 = Draw d3 k3 ->
  k3 (VV b) = Draw (DGammaVec sh rates) k4 -> k4 v4 = Ret sfin ->
  (forall m i, (m < c_ndd g)%nat -> (i < c_D g)%nat -> 0 < vnth (rnth (phi1 sfin) m) i) ->
  forall u t t', (forall i, (i < c_D g)%nat -> 0 < vnth t i) -> (forall i, (i < c_D g)%nat -> 0 < vnth t' i) ->
    energy_hs ln jitter g d (set_eta1 sfin t) (set_a_eta1 u b) - energy_hs ln jitter g d (set_eta1 sfin t') (set_a_eta1 u b)
    = sumn (c_D g) (fun i => gform ln sh (vnth rates i) (vnth t i) (vnth t' i)).
Proof. exact hs_eta1. Qed.
Print Assumptions C08_horseshoe_eta1.

Theorem C08_horseshoe_stored1 : forall g d orc s d1 k1 v1 d2 k2 x d3 k3 v3 d4 k4 y sfin,
  prog_prec_V1 g d orc s = Draw d1 k1 -> k1 v1 = Draw d2 k2 -> k2 (VM x) = Draw d3 k3 ->
  k3 v3 = Draw d4 k4 -> k4 (VV y) = Ret sfin ->
  (forall i, (i < c_D g)%nat -> vnth (eta1 sfin) i = clipC orc (nobs d) (vnth y i)) /\
  (forall m i, (m < c_ndd g)%nat -> (i < c_D g)%nat -> vnth (rnth (phi1 sfin) m) i = clipC orc (n_occ d m) (vnth (rnth x m) i)) /\
  off1 sfin s.
Proof. exact hs_stored1. Qed.
Print Assumptions C08_horseshoe_stored1.

(* the complete joint extends the conditional one: a move that leaves the horseshoe precisions
   alone has the same energy difference under energy_hs and energy, so every Gaussian / gamma block
   theorem above is a statement about the complete joint as well *)
Theorem C08_horseshoe_joint_extends : forall ln g d j s1 s2 u,
  phi0 s1 = phi0 s2 -> eta0 s1 = eta0 s2 -> phi2 s1 = phi2 s2 -> eta2 s1 = eta2 s2 ->
  phi1 s1 = phi1 s2 -> eta1 s1 = eta1 s2 ->
  energy_hs ln j g d s1 u - energy_hs ln j g d s2 u = energy ln g d s1 - energy ln g d s2.
Proof. exact energy_hs_extends. Qed.
Print Assumptions C08_horseshoe_joint_extends.

(* what the "+ 1e-3 for stability" means: energy_hs with j = jitter is the plain horseshoe model
   (j = 0) tilted by exp(-jitter * (sum of all horseshoe precisions)); against the plain model the
   phi / eta draws therefore have the exact shape and a rate larger by exactly 0.001 *)
Theorem C08_horseshoe_jitter_is_tilt : forall ln g d j s u,
  energy_hs ln j g d s u = energy_hs ln 0 g d s u + qofZ 2 * j * hs_total g s.
Proof. exact energy_hs_tilt. Qed.
Print Assumptions C08_horseshoe_jitter_is_tilt.

(* ------------------------------------------------------------------ clipping *)
(* after its own step every precision lies in [1/sqrt(1+k), 1e6] (k = n_obs, or the number of
   occurrences of the treatment for phi), for any sqrt whose bound does not exceed 1e6 *)
Theorem C08_clip_bounds : forall orc g d s, LoOk orc ->
  all_rets (fun s' => in_bounds (clip_lo orc (nobs d)) (tau0 s')) (prog_prec_W0 g d orc s) /\
  (nobs d <> 0%nat -> all_rets (fun s' => in_bounds (clip_lo orc (nobs d)) (prec s')) (prog_prec_obs g d orc s)) /\
  all_rets (fun s' => in_bounds (clip_lo orc (nobs d)) (eta0 s') /\
                      forall m, (m < c_ndd g)%nat -> in_bounds (clip_lo orc (n_occ d m)) (vnth (phi0 s') m))
           (prog_prec_V0 g d orc s) /\
  all_rets (fun s' => (forall k, (k < c_D g)%nat -> in_bounds (clip_lo orc (nobs d)) (vnth (eta2 s') k)) /\
                      forall m k, (m < c_ndd g)%nat -> (k < c_D g)%nat -> in_bounds (clip_lo orc (n_occ d m)) (vnth (rnth (phi2 s') m) k))
           (prog_prec_V2 g d orc s) /\
  all_rets (fun s' => (forall k, (k < c_D g)%nat -> in_bounds (clip_lo orc (nobs d)) (vnth (eta1 s') k)) /\
                      forall m k, (m < c_ndd g)%nat -> (k < c_D g)%nat -> in_bounds (clip_lo orc (n_occ d m)) (vnth (rnth (phi1 s') m) k))
           (prog_prec_V1 g d orc s) /\
  all_rets (fun s' => Forall (in_bounds (clip_lo orc (nobs d))) (tau s')) (prog_prec_W g d orc s).
Proof.
  exact (fun orc g d s H => conj (clip_tau0 orc g d s H) (conj (clip_prec orc g d s H) (conj (clip_V0 orc g d s H)
          (conj (clip_V2 orc g d s H) (conj (clip_V1 orc g d s H) (clip_tau orc g d s H)))))).
Qed.
Print Assumptions C08_clip_bounds.

(* refuted clause: with no observation _prec_obs_step returns before clipping *)
Theorem C08_prec_unclipped_without_data_refuted :
  exists orc g d s v k, nobs d = 0%nat /\ (exists dr, prog_prec_obs g d orc s = Draw dr k) /\
                        exists s', k v = Ret s' /\ prec_hi < prec s'.
Proof. exact prec_unclipped_without_data. Qed.
Print Assumptions C08_prec_unclipped_without_data_refuted.

(* ------------------------------------------------------------------ the fitted-value cache *)
(* after every step function of any sequence (every prefix of a sweep, any number of sweeps) and
   for every result of every draw, Mu = reconstruct(state) - when no row has the same treatment
   in both columns *)
Theorem C08_cache_invariant : forall g d orc bs s,
  ValidData d -> NoSelfCombo d -> Inv g d s -> all_rets (Inv g d) (run_blocks g d orc bs s).
Proof. exact cache_invariant. Qed.
Print Assumptions C08_cache_invariant.

Theorem C08_cache_invariant_steps : forall g d orc k s,
  ValidData d -> NoSelfCombo d -> Inv g d s -> all_rets (Inv g d) (run_blocks g d orc (concat (repeat step_order k)) s).
Proof. exact cache_invariant_steps. Qed.
Print Assumptions C08_cache_invariant_steps.

(* ... and inside a step function, after every single block *)
Theorem C08_cache_invariant_blocks : forall g d,
  ValidData d -> NoSelfCombo d ->
  (forall s c v, Inv g d s -> (c < c_ncl g)%nat -> Inv g d (snd (block_W0 d s c) v)) /\
  (forall s m v, Inv g d s -> (m < c_ndd g)%nat -> Inv g d (snd (block_V0 d s m) v)) /\
  (forall s c v, Inv g d s -> (c < c_ncl g)%nat -> Inv g d (snd (block_W g d s c) v)) /\
  (forall s m v, Inv g d s -> (m < c_ndd g)%nat -> Inv g d (snd (block_V2 g d s m) v)) /\
  (forall s m v, Inv g d s -> (m < c_ndd g)%nat -> Inv g d (snd (block_V1 g d s m) v)).
Proof.
  exact (fun g d Hv Hns =>
    conj (fun s c v Hi Hc => cache_block_W0 g d s c v Hv Hi Hc)
   (conj (fun s m v Hi Hm => cache_block_V0 g d s m v Hv Hns Hi Hm)
   (conj (fun s c v Hi Hc => cache_block_W g d s c v Hv Hi Hc)
   (conj (fun s m v Hi Hm => cache_block_V2 g d s m v Hv Hns Hi Hm)
         (fun s m v Hi Hm => cache_block_V1 g d s m v Hv Hns Hi Hm))))).
Qed.
Print Assumptions C08_cache_invariant_blocks.

(* refuted without NoSelfCombo: a row with the same (non-control) treatment in both columns *)
Theorem C08_cache_refuted :
  exists g d s v, ValidData d /\ Inv g d s /\ ~ NoSelfCombo d /\ ~ cache_ok g d (snd (block_V0 d s 0) v).
Proof. exact cache_refuted. Qed.
Print Assumptions C08_cache_refuted.

(* ------------------------------------------------------------------ export *)
Theorem C08_export : forall g d s,
  (predict_training g d (export s) = reconstruct g d s /\ sm_precision (export s) = prec s) /\
  (cache_ok g d s -> predict_training g d (export s) = Mu s).
Proof. exact (fun g d s => conj (export_predicts g d s) (fun H => proj1 (export_predicts_cache g d s H))). Qed.
Print Assumptions C08_export.

(* ------------------------------------------------------------------ the multivariate normal draw *)
(* L lower triangular, non-zero diagonal, L L^T = Q:  Q m = b for m = the result at z = 0, and
   L^T (x - m) = z for the result x *)
Theorem C08_mvn_mean_cov : forall D (L : list (list Qc)),
  (forall j k, (j < k)%nat -> (k < D)%nat -> vnth (rnth L j) k = 0) ->
  (forall j, (j < D)%nat -> vnth (rnth L j) j <> 0) ->
  length L = D ->
  forall Q : list (list Qc),
  (forall j k, (j < D)%nat -> (k < D)%nat -> vnth (rnth Q j) k = sumn D (fun t => vnth (rnth L j) t * vnth (rnth L k) t)) ->
  forall z b, length b = D ->
  (forall j, (j < D)%nat -> sumn D (fun k => vnth (rnth Q j) k * vnth (mvn_mean D L b) k) = vnth b j) /\
  (forall j, (j < D)%nat ->
     sumn D (fun k => vnth (rnth L k) j * (vnth (sample_mvn D L z b) k - vnth (mvn_mean D L b) k)) = vnth z j).
Proof.
  exact (fun D L Hlow Hdiag Hlen Q HQ z b Hb =>
    conj (fun j Hj => mvn_mean_solves D L Hlow Hdiag Hlen Q HQ b j Hb Hj)
         (fun j Hj => mvn_sample_law D L Hlow Hdiag z b j Hj)).
Qed.
Print Assumptions C08_mvn_mean_cov.

(* ------------------------------------------------------------------ non-vacuity *)
Definition ex_cfg : cfg := {| c_D := 2; c_ndd := 2; c_ncl := 2; c_a0 := Q2Qc (11 # 10); c_b0 := Q2Qc (11 # 10);
                              c_minMu := - qofZ 10; c_maxMu := qofZ 10 |}.
(* a combination, a single agent in the second column, a single agent in the first column *)
Definition ex_data : data :=
  {| d_y := [1; - (1); Q2Qc (1 # 2)]; d_cl := [0; 1; 0]%Z; d_dd1 := [0; -1; 1]%Z; d_dd2 := [1; 0; -1]%Z |}.
Definition ex_state : st :=
  {| W := [[0; 0]; [0; 0]]; W0 := [0; 0]; V2 := [[0; 0]; [0; 0]]; V1 := [[0; 0]; [0; 0]]; V0 := [0; 0];
     alpha := 0; prec := qofZ 100; tau := [qofZ 100; qofZ 100]; tau0 := qofZ 100;
     phi2 := [[qofZ 100; qofZ 100]; [qofZ 100; qofZ 100]]; phi1 := [[qofZ 100; qofZ 100]; [qofZ 100; qofZ 100]];
     phi0 := [qofZ 100; qofZ 100]; eta2 := [1; 1]; eta1 := [1; 1]; eta0 := 1; gam := [1; 1]; Mu := [0; 0; 0] |}.
Definition ex_orc : oracle := fun _ x => x.
Definition hq : Qc := Q2Qc (1 # 2).
Definition ex_vals : list val :=
  [VQ hq; VQ (- hq);                       (* W0 *)
   VQ 1; VQ hq;                            (* V0 *)
   VV [hq; 1]; VV [- (1); hq];             (* W *)
   VV [1; hq]; VFail;                      (* V2, second draw raises *)
   VV [hq; hq]; VV [1; - (1)];             (* V1 *)
   VQ (qofZ 2);                            (* tau0 *)
   VV [1; 1]; VV [hq; qofZ 3]; VQ 1; VQ (qofZ 2);                                    (* V0 precisions *)
   VQ (qofZ 4);                            (* prec *)
   VM [[1; 1]; [1; 1]]; VM [[hq; 1]; [qofZ 2; 1]]; VV [1; 1]; VV [qofZ 2; hq];        (* V2 precisions *)
   VM [[1; 1]; [1; 1]]; VM [[1; hq]; [1; qofZ 2]]; VV [1; 1]; VV [hq; qofZ 2];        (* V1 precisions *)
   VQ (qofZ 2); VQ hq].                    (* gam *)

Example C08_example_hypotheses : ValidData ex_data /\ NoSelfCombo ex_data /\ Inv ex_cfg ex_data ex_state.
Proof.
  split; [apply valid_datab_ok; vm_compute; reflexivity|]. split; [apply no_self_combob_ok; vm_compute; reflexivity|].
  split; [apply qeq_list_ok; vm_compute; reflexivity|repeat split].
Qed.

(* one complete sweep on the example: all 26 draws are consumed and the cache is exact at the end *)
Example C08_example_sweep :
  match snd (run_prog (mcmc_step ex_cfg ex_data ex_orc ex_state) ex_vals) with
  | Some s' => qeq_list (Mu s') (reconstruct ex_cfg ex_data s') && negb (qeq_list (Mu s') [0; 0; 0])
               && Nat.eqb (length (fst (run_prog (mcmc_step ex_cfg ex_data ex_orc ex_state) ex_vals))) 26
  | None => false
  end = true.
Proof. vm_compute. reflexivity. Qed.

(* the first W block of that sweep really is a data block handing (Q, b) to the MVN sampler *)
Example C08_example_W_block :
  match fst (block_W ex_cfg ex_data ex_state 0) with DMvn Q b => Nat.eqb (length Q) 2 | _ => false end = true.
Proof. vm_compute. reflexivity. Qed.

(* the refutation witness, executed: after the V0 block the cache holds 1, the recomputation 2 *)
Example C08_example_refutation :
  let s' := snd (block_V0 wit_data wit_state 0) (VQ 1) in
  (qeq_list (Mu s') [1] && qeq_list (reconstruct wit_cfg wit_data s') [qofZ 2]) = true.
Proof. vm_compute. reflexivity. Qed.

(* sample_mvn on L = [[2,0],[1,3]], z = (1, 1/2), b = (4, 5): x = (5/4, 1/2), mean (5/6, 1/3) *)
Example C08_example_mvn :
  (qeq_list (sample_mvn 2 [[qofZ 2; 0]; [1; qofZ 3]] [1; hq] [qofZ 4; qofZ 5]) [Q2Qc (5 # 4); hq]
   && qeq_list (mvn_mean 2 [[qofZ 2; 0]; [1; qofZ 3]] [qofZ 4; qofZ 5]) [Q2Qc (5 # 6); Q2Qc (1 # 3)]) = true.
Proof. vm_compute. reflexivity. Qed.

(* horseshoe theorems: their hypotheses hold on the example state (initial horseshoe values of the
   code: phi = 100, eta = 1), for a function ln that is additive on positives *)
Example C08_example_horseshoe_hypotheses :
  length (phi0 ex_state) = c_ndd ex_cfg /\ 0 < eta0 ex_state /\
  (length (phi2 ex_state) = c_ndd ex_cfg /\ (forall m, (m < c_ndd ex_cfg)%nat -> length (rnth (phi2 ex_state) m) = c_D ex_cfg) /\
   length (eta2 ex_state) = c_D ex_cfg /\ forall i, (i < c_D ex_cfg)%nat -> 0 < vnth (eta2 ex_state) i) /\
  (length (phi1 ex_state) = c_ndd ex_cfg /\ (forall m, (m < c_ndd ex_cfg)%nat -> length (rnth (phi1 ex_state) m) = c_D ex_cfg) /\
   length (eta1 ex_state) = c_D ex_cfg /\ forall i, (i < c_D ex_cfg)%nat -> 0 < vnth (eta1 ex_state) i) /\
  (forall a b : Qc, 0 < a -> 0 < b -> (fun _ : Qc => 0) (a * b) = (fun _ : Qc => 0) a + (fun _ : Qc => 0) b).
Proof.
  repeat split; try (apply below2; reflexivity); reflexivity.
Qed.

(* _prec_V0_step executed on the example with V0 = (1, 2) and drawn values aux = (1, 1),
   phi0 = (1/2, 3), etaaux = 1, eta0 = 2:
     Gamma(1, 1 + 100) twice;  Gamma(1, 1 + 1*1/2 + 0.001), Gamma(1, 1 + 1*4/2 + 0.001);
     Gamma(1, 1 + 1);  Gamma(3/2, 1 + (1/2 * 1 + 3 * 4)/2 + 0.001);
   the stored phi0 is positive, so the hypothesis of C08_horseshoe_eta0 holds there *)
Example C08_example_horseshoe_step :
  let res := run_prog (prog_prec_V0 ex_cfg ex_data ex_orc (set_V0 ex_state [1; qofZ 2]))
                      [VV [1; 1]; VV [hq; qofZ 3]; VQ 1; VQ (qofZ 2)] in
  match res with
  | ([DGammaVec s1 r1; DGammaVec s2 r2; DGamma s3 r3; DGamma s4 r4], Some sfin) =>
      qeq_list (s1 :: r1) [1; qofZ 101; qofZ 101] && qeq_list (s2 :: r2) [1; Q2Qc (1501 # 1000); Q2Qc (3001 # 1000)]
      && qeq_list [s3; r3; s4; r4] [1; qofZ 2; Q2Qc (3 # 2); Q2Qc (7251 # 1000)]
      && qeq_list (phi0 sfin) [hq; qofZ 3] && qeq_list [eta0 sfin] [qofZ 2]
      && forallb (fun p => qltb 0 p) (phi0 sfin)
  | _ => false
  end = true.
Proof. vm_compute. reflexivity. Qed.

(* ------------------------------------------------------------------ source-translation links
   Generated/SrcGibbs.v holds the methods of LegacySparseDrugComboImpl re-translated from /repo on every run
   (harness/py2gal.py, configurations C08_* of harness/src_functions.py) as programs in the free monad [gprog] over the
   model's draws: every np.random.normal / np.random.gamma call is a node carrying the call's arguments and the method
   goes on with the drawn value.  [to_prog] reads such a program as a model program; [prog_eq] is equality of programs up
   to the extensionality of their continuations (same draw arguments at every node, equal continuations for every drawn
   value; no axiom).  The hypotheses are shape facts that hold in every reachable state (the parameter arrays keep the
   sizes __init__ gives them; Mu has one entry per observation after _reconstruct_Mu, with which every sweep starts). *)

(* programs equal in this sense answer every stream of drawn values alike *)
Theorem C08_model_is_source_observable : forall p q, prog_eq p q -> forall vals, run_prog p vals = run_prog q vals.
Proof. exact prog_eq_run. Qed.
Print Assumptions C08_model_is_source_observable.

(* mcmc_step: whatever the block methods do ([run]), the translated method calls each of them once, in the model's order,
   threading the state ... *)
Theorem C08_model_is_source_mcmc_step_order : forall (run : blk -> st -> gprog st) n s,
  prog_eq (to_prog (src_mcmc_step run n s)) (run_blocks_with (fun b s' => to_prog (run b s')) step_order s).
Proof. exact src_mcmc_step_order. Qed.
Print Assumptions C08_model_is_source_mcmc_step_order.

(* ... hence with block methods that behave as the model's step functions it is the model's sweep *)
Theorem C08_model_is_source_mcmc_step : forall g d orc (run : blk -> st -> gprog st) n s,
  (forall b s', prog_eq (to_prog (run b s')) (step_prog g d orc b s')) ->
  prog_eq (to_prog (src_mcmc_step run n s)) (mcmc_step g d orc s).
Proof. exact src_mcmc_step_is_model. Qed.
Print Assumptions C08_model_is_source_mcmc_step.

Theorem C08_model_is_source_n_obs : forall d, src_n_obs d = GRet (Z.of_nat (nobs d)).
Proof. exact src_n_obs_is_model. Qed.
Print Assumptions C08_model_is_source_n_obs.

(* get(attr, ix) on an array of numbers / of rows is the model's get_v / get_r at every index *)
Theorem C08_model_is_source_get : forall (v : list Qc) (M : list (list Qc)) ix,
  src_get Qc 0 v ix = GRet (map (get_v v) ix) /\ src_get (list Qc) [] M ix = GRet (map (get_r M) ix).
Proof. exact (fun v M ix => conj (src_get_numbers v ix) (src_get_rows M ix)). Qed.
Print Assumptions C08_model_is_source_get.

(* _alpha_step with the default option fake_intercept = True (the other branch is translated too, not modelled) *)
Theorem C08_model_is_source_alpha_step : forall g d s, src_alpha_step g d true s = GRet (alpha_step d s).
Proof. exact src_alpha_step_is_model. Qed.
Print Assumptions C08_model_is_source_alpha_step.

Theorem C08_model_is_source_prec_obs_step : forall g d orc s, length (Mu s) = nobs d ->
  prog_eq (to_prog (src_prec_obs_step g d orc s)) (step_prog g d orc BPrecObs s).
Proof. exact src_prec_obs_step_is_model. Qed.
Print Assumptions C08_model_is_source_prec_obs_step.

Theorem C08_model_is_source_prec_W0_step : forall g d orc s,
  prog_eq (to_prog (src_prec_W0_step g d orc s)) (step_prog g d orc BPrecW0 s).
Proof. exact src_prec_W0_step_is_model. Qed.
Print Assumptions C08_model_is_source_prec_W0_step.

(* the scalar Gaussian blocks: the loop over samples / treatments, the index lists, the residual, the prior-only branch,
   the draw's mean and variance, the stored value and the incremental cache update *)
Theorem C08_model_is_source_W0_step : forall g d orc s, length (W0 s) = c_ncl g ->
  prog_eq (to_prog (src_W0_step g d s)) (step_prog g d orc BW0 s).
Proof. exact src_W0_step_is_model. Qed.
Print Assumptions C08_model_is_source_W0_step.

Theorem C08_model_is_source_V0_step : forall g d orc s, length (V0 s) = c_ndd g ->
  prog_eq (to_prog (src_V0_step g d s)) (step_prog g d orc BV0 s).
Proof. exact src_V0_step_is_model. Qed.
Print Assumptions C08_model_is_source_V0_step.

(* the horseshoe precision steps with the default option local_shrinkage = True (the vectorised gamma draws of the
   auxiliaries and precisions, the counts N1 + N2, both clippings); the drawn arrays are read at the shape of the scale
   argument, as numpy returns them *)
Theorem C08_model_is_source_prec_V0_step : forall g d orc s, length (phi0 s) = c_ndd g -> length (V0 s) = c_ndd g ->
  prog_eq (to_prog (src_prec_V0_step g d orc true s)) (step_prog g d orc BPrecV0 s).
Proof. exact src_prec_V0_step_is_model. Qed.
Print Assumptions C08_model_is_source_prec_V0_step.

Theorem C08_model_is_source_prec_V2_step : forall g d orc s,
  shape2 (V2 s) (c_ndd g) (c_D g) -> shape2 (phi2 s) (c_ndd g) (c_D g) -> length (eta2 s) = c_D g ->
  prog_eq (to_prog (src_prec_V2_step g d orc true s)) (step_prog g d orc BPrecV2 s).
Proof. exact src_prec_V2_step_is_model. Qed.
Print Assumptions C08_model_is_source_prec_V2_step.

Theorem C08_model_is_source_prec_V1_step : forall g d orc s,
  shape2 (V1 s) (c_ndd g) (c_D g) -> shape2 (phi1 s) (c_ndd g) (c_D g) -> length (eta1 s) = c_D g ->
  prog_eq (to_prog (src_prec_V1_step g d orc true s)) (step_prog g d orc BPrecV1 s).
Proof. exact src_prec_V1_step_is_model. Qed.
Print Assumptions C08_model_is_source_prec_V1_step.

(* the multiplicative gamma process with the default option mult_gamma_proc = True: component 0, the loop over the
   components 1 .. D-1 (slices of cumprod(gam) and of W**2, shape 2 resp. 3 + n_clines (D - d) / 2), tau = cumprod(gam),
   clipping.  D = 0 makes the code fail at gam[0]. *)
Theorem C08_model_is_source_prec_W_step : forall g d orc s,
  shape2 (W s) (c_ncl g) (c_D g) -> length (gam s) = c_D g -> (0 < c_D g)%nat ->
  prog_eq (to_prog (src_prec_W_step g d orc true s)) (step_prog g d orc BPrecW s).
Proof. exact src_prec_W_step_is_model. Qed.
Print Assumptions C08_model_is_source_prec_W_step.

(* the vector Gaussian block of the samples: the loop, the prior-only branch N(0, diag 1/tau), the design matrix from the four
   get calls, old contribution, residual, Xt @ resid * prec, Xt @ X * prec with tau on the diagonal, the try/except around
   sample_mvn_from_precision (a raising call = the answer VFail: state unchanged), store, incremental cache update *)
Theorem C08_model_is_source_W_step : forall g d orc s,
  length (W s) = c_ncl g -> shape2 (V2 s) (c_ndd g) (c_D g) -> shape2 (V1 s) (c_ndd g) (c_D g) ->
  prog_eq (to_prog (src_W_step g d s)) (step_prog g d orc BW s).
Proof. exact src_W_step_is_model. Qed.
Print Assumptions C08_model_is_source_W_step.

(* the vector Gaussian blocks of the treatments: the two slices (m first / m second), their design rows W[cline] * get(V2, other)
   resp. W[cline], concatenation, prior phi[m] * eta, try/except, store, cache update with the concatenated index.  The rows
   of V2 / V1 redrawn earlier in the loop may have any length (all drawn values are quantified over). *)
Theorem C08_model_is_source_V2_step : forall g d orc s,
  length (V2 s) = c_ndd g -> shape2 (W s) (c_ncl g) (c_D g) -> shape2 (phi2 s) (c_ndd g) (c_D g) -> length (eta2 s) = c_D g ->
  prog_eq (to_prog (src_V2_step g d s)) (step_prog g d orc BV2 s).
Proof. exact src_V2_step_is_model. Qed.
Print Assumptions C08_model_is_source_V2_step.

Theorem C08_model_is_source_V1_step : forall g d orc s,
  length (V1 s) = c_ndd g -> shape2 (W s) (c_ncl g) (c_D g) -> shape2 (phi1 s) (c_ndd g) (c_D g) -> length (eta1 s) = c_D g ->
  prog_eq (to_prog (src_V1_step g d s)) (step_prog g d orc BV1 s).
Proof. exact src_V1_step_is_model. Qed.
Print Assumptions C08_model_is_source_V1_step.

(* _reconstruct_Mu(clip): the early return without data, the three gathers per term, row sums, the optional clip *)
Theorem C08_model_is_source_reconstruct_Mu : forall g d clip s,
  length (d_cl d) = nobs d -> length (d_dd1 d) = nobs d -> length (d_dd2 d) = nobs d ->
  shape2 (W s) (c_ncl g) (c_D g) -> shape2 (V2 s) (c_ndd g) (c_D g) -> shape2 (V1 s) (c_ndd g) (c_D g) ->
  src_reconstruct_Mu g d clip s = GRet (reconstruct_Mu g d clip s).
Proof. exact src_reconstruct_Mu_is_model. Qed.
Print Assumptions C08_model_is_source_reconstruct_Mu.

(* the observation store: the block links read the index dicts as `positions k keys` (primitive of their configurations);
   _update - the only method that writes them - keeps exactly that representation, starting from the empty store, and
   encode_obs returns the four lists *)
Theorem C08_model_is_source_update : forall o d y cl dd1 dd2,
  obs_rep o d -> length (d_cl d) = nobs d -> length (d_dd1 d) = nobs d -> length (d_dd2 d) = nobs d ->
  exists o', src_update o y cl dd1 dd2 = Ok o' /\ obs_rep o' (data_snoc d y cl dd1 dd2).
Proof. exact src_update_is_model. Qed.
Print Assumptions C08_model_is_source_update.

Theorem C08_model_is_source_update_empty : obs_rep obs_empty data_empty.
Proof. exact obs_rep_empty. Qed.
Print Assumptions C08_model_is_source_update_empty.

Theorem C08_model_is_source_encode_obs : forall o d, obs_rep o d -> src_encode_obs o = Ok (d_y d, d_cl d, d_dd1 d, d_dd2 d).
Proof. exact src_encode_obs_is_model. Qed.
Print Assumptions C08_model_is_source_encode_obs.

(* ------------------------------------------------------------------ source-translation links, second part
   (Generated/SrcMvn.v, Generated/SrcGibbsObj.v; proofs: Proofs/C08SourceObj.v) *)

(* fast_mvn.sample_mvn_from_precision, the WHOLE function for every argument combination.  It may raise and it draws: it
   denotes a program of draws whose result is a [result] (Model/Mvn.v: mprog).  [chol] = np.linalg.cholesky is ANY function
   (Err = LinAlgError), [lin_solve] = np.linalg.solve (only reached for a masked array) any function.  [geq] is equality of
   such programs up to the extensionality of their continuations. *)
Theorem C08_model_is_source_sample_mvn_from_precision : forall chol lin_solve Q mu mu_part chol_factor rng,
  geq (src_sample_mvn_from_precision chol lin_solve Q mu mu_part chol_factor rng) (mvn_general chol Q mu mu_part chol_factor).
Proof. exact src_sample_mvn_general. Qed.
Print Assumptions C08_model_is_source_sample_mvn_from_precision.

(* ... as the Gibbs blocks call it - sample_mvn_from_precision(Q, mu_part=b) - it is Model/Mvn.v's sample_mvn on the factor
   chol returned and the drawn standard-normal vector, or the exception chol raised *)
Theorem C08_model_is_source_sample_mvn : forall chol lin_solve Q b rng,
  geq (src_sample_mvn_from_precision chol lin_solve Q None (Some b) false rng) (mvn_prog chol Q b).
Proof. exact src_sample_mvn_is_model. Qed.
Print Assumptions C08_model_is_source_sample_mvn.

(* the MVN draw node of the block links becomes the translated function: programs equal with abstract DMvn nodes stay equal
   when each such node is replaced by the translated sample_mvn_from_precision (left) resp. the model's mvn_prog (right) *)
Theorem C08_model_is_source_mvn_node : forall chol lin_solve p q, prog_eq p q ->
  prog_eq (expand_mvn (src_mvn_call chol lin_solve) p) (expand_mvn (fun Q b => mvn_call (mvn_prog chol Q b)) q).
Proof. exact src_mvn_node. Qed.
Print Assumptions C08_model_is_source_mvn_node.

(* under np.linalg.cholesky's contract the model's mvn_prog is one standard-normal draw z of the size of Q and returns x with
   Q m = b, L^T (x - m) = z  (C08_mvn_mean_cov at the size of Q) *)
Theorem C08_model_is_source_mvn_law : forall chol Q L b, chol_contract chol -> chol Q = Ok L -> length b = length Q ->
  let D := length Q in let m := mvn_mean D L b in
  mvn_prog chol Q b = GDraw (DNormalVec (repeat 1 D)) (fun v => GRet (Ok (sample_mvn D L (val_v v) b))) /\
  (forall j, (j < D)%nat -> sumn D (fun k => vnth (rnth Q j) k * vnth m k) = vnth b j) /\
  (forall z j, (j < D)%nat -> sumn D (fun k => vnth (rnth L k) j * (vnth (sample_mvn D L z b) k - vnth m k)) = vnth z j).
Proof. exact mvn_prog_law. Qed.
Print Assumptions C08_model_is_source_mvn_law.

(* LegacySparseDrugComboImpl.__init__, the WHOLE constructor on the whole object (every attribute it assigns), for any
   previous content of the object: sizes, options, hyper-parameters recorded, an empty observation store, the initial state
   init_st (shapes and values of all 17 state attributes).  mult_gamma_proc = False would leave `gam` unassigned. *)
Theorem C08_model_is_source_init : forall self0 D ndd ncl ic fi ie ls a0 b0 mn mx,
  src_impl_init self0 (Z.of_nat D) (Z.of_nat ndd) (Z.of_nat ncl) ic fi ie true ls a0 b0 mn mx
  = Ok (init_obj D ndd ncl ic fi ie true ls a0 b0 mn mx).
Proof. exact src_impl_init_is_model. Qed.
Print Assumptions C08_model_is_source_init.

Theorem C08_model_is_source_init_negative : forall self0 nd ndd ncl ic fi ie mgp ls a0 b0 mn mx,
  (nd < 0 \/ ndd < 0 \/ ncl < 0)%Z -> src_impl_init self0 nd ndd ncl ic fi ie mgp ls a0 b0 mn mx = Err 7%Z.
Proof. exact src_impl_init_negative. Qed.
Print Assumptions C08_model_is_source_init_negative.

(* after __init__ every shape hypothesis of the block links C08_model_is_source_*_step holds, and the cache is empty *)
Theorem C08_model_is_source_init_shapes : forall g, shapes g (init_st g) /\ Mu (init_st g) = [].
Proof. exact init_shapes. Qed.
Print Assumptions C08_model_is_source_init_shapes.

(* reset_model, the WHOLE method: W, W0, V2, V1, V0 times 0.0, alpha = 0, prec = 100, Mu = the empty array; nothing else *)
Theorem C08_model_is_source_reset_model : forall o, src_impl_reset_model o = Ok (set_pi_st o (reset_st (pi_st o))).
Proof. exact src_impl_reset_is_model. Qed.
Print Assumptions C08_model_is_source_reset_model.

Theorem C08_model_is_source_reset_shapes : forall g s, shapes g s -> shapes g (reset_st s) /\ Mu (reset_st s) = [].
Proof. exact reset_shapes. Qed.
Print Assumptions C08_model_is_source_reset_shapes.

(* every step function keeps the shapes and the cache's length, for well-shaped answers to its draws; a whole sweep started
   with a (possibly stale, shorter) cache ends with them *)
Theorem C08_model_is_source_blocks_keep_shapes : forall g d orc b s,
  in_sweep g d s -> all_rets_ws (in_sweep g d) (step_prog g d orc b s).
Proof. exact step_keeps. Qed.
Print Assumptions C08_model_is_source_blocks_keep_shapes.

Theorem C08_model_is_source_sweep_keeps_shapes : forall g d orc s,
  sweep_ready g d s -> all_rets_ws (in_sweep g d) (mcmc_step g d orc s).
Proof. exact sweep_keeps. Qed.
Print Assumptions C08_model_is_source_sweep_keeps_shapes.

(* all thirteen block links at once, their shape hypotheses replaced by [shapes] (default options; D > 0: with D = 0 the
   code fails at gam[0]) *)
Theorem C08_model_is_source_block : forall g d orc b s,
  data_ok d -> (0 < c_D g)%nat -> shapes g s -> (b = BReconstruct \/ length (Mu s) = nobs d) ->
  prog_eq (to_prog (src_run true true true g d orc b s)) (step_prog g d orc b s).
Proof. exact src_block_is_model. Qed.
Print Assumptions C08_model_is_source_block.

(* programs equal on well-shaped answers answer every well-shaped stream alike *)
Theorem C08_model_is_source_observable_ws : forall p q, prog_eq_ws p q ->
  forall vals, answers_ok p vals -> run_prog p vals = run_prog q vals.
Proof. exact prog_eq_ws_run. Qed.
Print Assumptions C08_model_is_source_observable_ws.

(* every reachable state (after __init__, _update calls, whole sweeps on well-shaped answers, reset_model calls, in any
   order) is ready for a sweep, and the data are well-formed *)
Theorem C08_model_is_source_reachable_ready : forall g orc d s, reach g orc d s -> sweep_ready g d s /\ data_ok d.
Proof. exact reach_ready. Qed.
Print Assumptions C08_model_is_source_reachable_ready.

(* THE COMPOSITE.  The object built by the translated __init__ (default options), fed by any number of translated _update
   calls: the translated mcmc_step, running the thirteen translated block methods with the object's own option flags, is
   the model's sweep on the data the store represents - same draw arguments at every node, equal continuations for every
   well-shaped drawn value.  No shape hypothesis is left. *)
Theorem C08_model_is_source_sweep : forall self0 D ndd ncl ic ie a0 b0 mn mx rows orc n, (0 < D)%nat ->
  exists o o', src_impl_init self0 (Z.of_nat D) (Z.of_nat ndd) (Z.of_nat ncl) ic true ie true true a0 b0 mn mx = Ok o /\
    src_updates (pi_obs o) rows = Ok o' /\
    exists d, obs_rep o' d /\ reach (cfg_of o) orc d (pi_st o) /\
      prog_eq_ws (to_prog (src_mcmc_step (src_run (pi_fake_intercept o) (pi_local_shrinkage o) (pi_mult_gamma_proc o) (cfg_of o) d orc) n (pi_st o)))
                 (mcmc_step (cfg_of o) d orc (pi_st o)).
Proof. exact src_sweep_from_init. Qed.
Print Assumptions C08_model_is_source_sweep.

(* ... and from every reachable state, e.g. the second sweep, or a sweep after more data and a reset *)
Theorem C08_model_is_source_sweep_reachable : forall g orc d s n, reach g orc d s -> (0 < c_D g)%nat ->
  prog_eq_ws (to_prog (src_mcmc_step (src_run true true true g d orc) n s)) (mcmc_step g d orc s).
Proof. exact src_sweep_reachable. Qed.
Print Assumptions C08_model_is_source_sweep_reachable.

(* ... with every MVN node expanded into the translated sample_mvn_from_precision (chol keeps the size of its argument) *)
Theorem C08_model_is_source_sweep_mvn : forall chol lin_solve g orc d s n,
  (forall Q L, chol Q = Ok L -> length L = length Q) -> reach g orc d s -> (0 < c_D g)%nat ->
  prog_eq_ws (expand_mvn (src_mvn_call chol lin_solve) (to_prog (src_mcmc_step (src_run true true true g d orc) n s)))
             (expand_mvn (fun Q b => mvn_call (mvn_prog chol Q b)) (mcmc_step g d orc s)).
Proof. exact src_sweep_mvn. Qed.
Print Assumptions C08_model_is_source_sweep_mvn.

(* the wrapper class SparseDrugCombo *)
Theorem C08_model_is_source_sdc_init : forall self0 nS nT D fi ie ls a0 b0 mn mx rng pint ilt ic,
  src_sdc_init self0 (Z.of_nat nS) (Z.of_nat nT) (Z.of_nat D) fi ie true ls a0 b0 mn mx rng pint ilt ic
  = Ok (sdc_init_obj nS nT D fi ie true ls a0 b0 mn mx rng pint ilt ic).
Proof. exact src_sdc_init_is_model. Qed.
Print Assumptions C08_model_is_source_sdc_init.

(* get_model_state exports exactly the model's [export] of the wrapped object's state (C08_export is about that) *)
Theorem C08_model_is_source_get_model_state : forall o, src_sdc_get_model_state o = Ok (export (pi_st (sdc_wrapped o))).
Proof. exact src_sdc_get_model_state_is_model. Qed.
Print Assumptions C08_model_is_source_get_model_state.

Theorem C08_model_is_source_sdc_n_obs : forall o d, obs_rep (pi_obs (sdc_wrapped o)) d -> src_sdc_n_obs o = Ok (Z.of_nat (nobs d)).
Proof. exact src_sdc_n_obs_is_model. Qed.
Print Assumptions C08_model_is_source_sdc_n_obs.

Theorem C08_model_is_source_sdc_reset_model : forall o,
  src_sdc_reset_model o = Ok (sdc_with_state o (reset_st (pi_st (sdc_wrapped o)))).
Proof. exact src_sdc_reset_is_model. Qed.
Print Assumptions C08_model_is_source_sdc_reset_model.

Theorem C08_model_is_source_sdc_set_rng : forall o r,
  src_sdc_set_rng o r = Ok (set_sdc_rng o (Some r)) /\ src_sdc_rng o = Ok (sdc_rng o).
Proof. exact src_sdc_set_rng_is_model. Qed.
Print Assumptions C08_model_is_source_sdc_set_rng.

(* step = one mcmc_step of the wrapped object; read on its state, the model's sweep from every reachable state *)
Theorem C08_model_is_source_sdc_step : forall run o,
  geq (src_sdc_step run o)
      (gbind (src_mcmc_step run (pi_steps (sdc_wrapped o)) (pi_st (sdc_wrapped o))) (fun s => GRet (sdc_with_state o s))).
Proof. exact src_sdc_step_is_model. Qed.
Print Assumptions C08_model_is_source_sdc_step.

Theorem C08_model_is_source_sdc_step_sweep : forall g orc d o, reach g orc d (pi_st (sdc_wrapped o)) -> (0 < c_D g)%nat ->
  prog_eq_ws (to_prog (gbind (src_sdc_step (src_run true true true g d orc) o) (fun o' => GRet (pi_st (sdc_wrapped o')))))
             (mcmc_step g d orc (pi_st (sdc_wrapped o))).
Proof. exact src_sdc_step_sweep. Qed.
Print Assumptions C08_model_is_source_sdc_step_sweep.

(* non-vacuity: the translated functions, executed.  sample_mvn_from_precision with chol answering L = [[2,0],[1,3]] and the
   drawn z = (1, 1/2), b = (4, 5) returns the x = (5/4, 1/2) of C08_example_mvn after ONE draw of two standard normals ... *)
Example C08_example_src_mvn :
  match src_sample_mvn_from_precision (fun _ => Ok [[qofZ 2; 0]; [1; qofZ 3]]) (fun _ z => z)
          [[qofZ 4; qofZ 2]; [qofZ 2; qofZ 10]] None (Some [qofZ 4; qofZ 5]) false None with
  | GDraw (DNormalVec vars) k =>
      qeq_list vars [1; 1] && match k (VV [1; hq]) with GRet (Ok x) => qeq_list x [Q2Qc (5 # 4); hq] | _ => false end
  | _ => false
  end = true.
Proof. vm_compute. reflexivity. Qed.

(* ... a raising Cholesky is the answer VFail of the block's try/except ... *)
Example C08_example_src_mvn_raises :
  match src_mvn_call (fun _ => Err 5%Z) (fun _ z => z) [[1]] [1] with GRet VFail => true | _ => false end = true.
Proof. vm_compute. reflexivity. Qed.

(* ... and the translated constructor on (n_dims, n_drugdoses, n_clines) = (2, 2, 2) builds the example state (with an empty
   cache), whose first sweep on the example data consumes the 26 well-shaped answers of C08_example_sweep *)
Example C08_example_src_init :
  match src_impl_init pi_blank 2 2 2 true true true true true (c_a0 ex_cfg) (c_b0 ex_cfg) (c_minMu ex_cfg) (c_maxMu ex_cfg) with
  | Ok o => qeq_list (W0 (pi_st o)) (W0 ex_state) && qeq_list (tau (pi_st o)) (tau ex_state) && qeq_list (phi0 (pi_st o)) (phi0 ex_state)
            && qeq_list (eta2 (pi_st o)) (eta2 ex_state) && qeq_list (gam (pi_st o)) (gam ex_state) && qeq_list (Mu (pi_st o)) []
            && match snd (run_prog (mcmc_step ex_cfg ex_data ex_orc (pi_st o)) ex_vals) with Some _ => true | None => false end
  | Err _ => false
  end = true.
Proof. vm_compute. reflexivity. Qed.

(* ------------------------------------------------------------------ reachable states satisfy the invariant
   The Gaussian-block and cache theorems above assume the cache exact at the start (cache_ok / Inv).  After __init__,
   after _update and after reset_model it is stale.  The first block of every sweep, _reconstruct_Mu, establishes the
   invariant from the shapes alone; so the theorems above are not vacuous on the first sweep of a chain, after new data or
   after a reset.  (ValidData: the ids are those C01 produces, samples >= 0, treatments >= -1; reach does not constrain them.) *)
From Batchie Require Import Proofs.C08Reach.

(* a state that is ready for a sweep (right shapes, cache no longer than the data): after _reconstruct_Mu the invariant holds *)
Theorem C08_reconstruct_establishes_invariant : forall g d s,
  sweep_ready g d s -> Inv g d (reconstruct_Mu g d false s).
Proof. exact ready_reconstruct_inv. Qed.
Print Assumptions C08_reconstruct_establishes_invariant.

(* from every REACHABLE state, for every sequence of step functions that starts with _reconstruct_Mu, for all answers of
   all draws: the cache is exact and the arrays have their sizes *)
Theorem C08_reachable_cache_invariant : forall g d orc bs s,
  reach g orc d s -> ValidData d -> NoSelfCombo d ->
  all_rets (Inv g d) (run_blocks g d orc (BReconstruct :: bs) s).
Proof. exact reach_cache_invariant. Qed.
Print Assumptions C08_reachable_cache_invariant.

(* in particular after every non-empty prefix of the documented sweep, also after j further whole sweeps, and after the
   whole sweep itself *)
Theorem C08_reachable_cache_invariant_prefix : forall g d orc j k s,
  reach g orc d s -> ValidData d -> NoSelfCombo d -> (1 <= k)%nat ->
  all_rets (Inv g d) (run_blocks g d orc (firstn k step_order ++ concat (repeat step_order j)) s)
  /\ all_rets (Inv g d) (run_blocks g d orc (step_order ++ concat (repeat step_order j) ++ firstn k step_order) s).
Proof. exact reach_cache_invariant_prefix. Qed.
Print Assumptions C08_reachable_cache_invariant_prefix.

Theorem C08_reachable_sweep_invariant : forall g d orc s,
  reach g orc d s -> ValidData d -> NoSelfCombo d -> all_rets (Inv g d) (mcmc_step g d orc s).
Proof. exact reach_sweep_invariant. Qed.
Print Assumptions C08_reachable_sweep_invariant.

(* the bridging corollary: from a reachable state, after _reconstruct_Mu and any further step functions `pre`, whichever
   Gaussian step function b in {W0, V0, W, V2, V1} runs next, EVERY per-index draw inside it is computed in a state where the
   draw arguments are those of the full conditional (the conclusions of C08_gauss_block_W0 ... _V1, with no cache or
   length hypothesis left) *)
Theorem C08_reachable_gauss_draws_are_conditionals : forall g d orc ln pre b s,
  reach g orc d s -> ValidData d -> NoSelfCombo d ->
  all_rets (all_block_starts (fun s2 => W0_conditional g d ln s2 /\ V0_conditional g d ln s2 /\ W_conditional g d ln s2 /\
                                        V2_conditional g d ln s2 /\ V1_conditional g d ln s2) (gauss_blocks g d b))
           (run_blocks g d orc (BReconstruct :: pre) s).
Proof. exact reach_gauss_draws_are_conditionals. Qed.
Print Assumptions C08_reachable_gauss_draws_are_conditionals.

(* ... where a Gaussian step function IS the sequence of its per-index blocks *)
Theorem C08_gauss_step_is_its_blocks : forall g d orc b s,
  In b [BW0; BV0; BW; BV2; BV1] -> step_prog g d orc b s = seq_blocks (gauss_blocks g d b) s.
Proof. exact gauss_blocks_step. Qed.
Print Assumptions C08_gauss_step_is_its_blocks.

(* not vacuous: the state __init__ creates, one observation added (stale empty cache: NOT Inv), is reachable, and after
   _reconstruct_Mu it satisfies the invariant *)
Example C08_reachable_not_vacuous :
  let g := {| c_D := 1; c_ndd := 2; c_ncl := 1; c_a0 := 1; c_b0 := 1; c_minMu := - qofZ 10; c_maxMu := qofZ 10 |} in
  let d := data_snoc data_empty (Q2Qc (1 # 2)) 0%Z 0%Z 1%Z in
  (forall orc, reach g orc d (init_st g)) /\ ~ cache_ok g d (init_st g) /\ NoSelfCombo d
  /\ cache_ok g d (reconstruct_Mu g d false (init_st g)).
Proof.
  cbv zeta. repeat split.
  - intros orc. apply R_update. apply R_init.
  - unfold cache_ok. vm_compute. discriminate.
  - intros i Hi. vm_compute in Hi. assert (i = 0%nat) as -> by (destruct i; [reflexivity|apply le_S_n in Hi; inversion Hi]).
    right. vm_compute. discriminate.
Qed.
