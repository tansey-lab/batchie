(* C06 — Every candidate plate is scored once; the minimum-score allowed plate is chosen.
   Statements only: a proof is `exact <lemma from Proofs/>` (or a split into such), a concrete example is closed by evaluation.  Model: Model/Scores.v.
   A screen is the list of its rows (plate id, observed bit, sample id, treatment ids) in
   storage order; scores are integer order keys (finite, -inf, ties); the scorer and the
   policy are arbitrary functions (the policy constrained by "returns only candidates").
   "valid batch" = empty, or at least one of its ids is a plate of the screen (otherwise the
   code raises, C06_unknown_batch_rejected); ids of observed plates and unknown ids may be
   mixed in. *)
From Coq Require Import ZArith List Sorted Permutation.
From Batchie Require Import Lib.Sexp Model.Scores
  Proofs.C06Split Proofs.C06Rows Proofs.C06Select Proofs.C06Main.
From Batchie Require Import Generated.SrcScoring Proofs.C06Source.
Import ListNotations.
Open Scope Z_scope.

(* ---- the model is what the source says NOW ----
   `src_select_next_plate` and `src_score_chunk` are the whole functions select_next_plate and score_chunk of
   /repo's current batchie/scoring/main.py, re-translated statement by statement on every run (harness/py2gal.py
   with the configurations C06_SELECT / C06_SCORE_CHUNK of harness/src_functions.py -> Generated/SrcScoring.v:
   the default-argument tests, the comprehensions, the optional policy, the early `return`, the batch test, the
   conditioning loop, the dict of plates, the holder-filling loop, every raise of the primitives).  They equal the
   hand-written models for ALL arguments, so every theorem below is a theorem about the translated source.
   Representation: batch_plate_ids None is the model's []; the code returns the Plate object
   screen.get_plate(id) where the model returns the id. *)
Theorem C06_model_is_source_select_next_plate : forall (scores : holder) (s : screen) (policy : option policy_t)
    (batch : option (list Z)) (rng : option rng_t),
  src_select_next_plate scores s policy batch rng
  = dor r <- select_next policy s (match batch with Some b => b | None => [] end) scores;
    Ok (option_map (get_plate s) r).
Proof. exact src_select_next_plate_is_model. Qed.
Print Assumptions C06_model_is_source_select_next_plate.

(* the scorer is ANY function from the dict it is handed (plate id -> rows, in dict order) to the dict it returns;
   the model's score_chunk is exactly what it is handed, chunk_holder_of_answer the holder built from its answer *)
Theorem C06_model_is_source_score_chunk : forall (scorer : scorer_fn) (s : screen) (rng : option rng_t)
    (n_chunks chunk_index : Z) (batch : option (list Z)),
  src_score_chunk scorer s rng n_chunks chunk_index batch
  = dor ps <- score_chunk s (match batch with Some b => b | None => [] end) n_chunks chunk_index;
    chunk_holder_of_answer ps (scorer ps).
Proof. exact src_score_chunk_is_model. Qed.
Print Assumptions C06_model_is_source_score_chunk.

(* in particular the model's chunk_holder (a scorer returning one score per handed plate) *)
Theorem C06_model_is_source_chunk_holder : forall (scorer : scorer_t) (s : screen) (rng : option rng_t)
    (n_chunks chunk_index : Z) (batch : list Z),
  src_score_chunk (fun ps => map (fun p => (fst p, scorer (fst p) (snd p))) ps) s rng n_chunks chunk_index (Some batch)
  = chunk_holder scorer s batch n_chunks chunk_index.
Proof. exact src_score_chunk_chunk_holder. Qed.
Print Assumptions C06_model_is_source_chunk_holder.

(* ChunkedScoresHolder's methods, translated with its two numpy arrays as lists: a model holder h is represented by
   holder_arrays h = (scores, plate_ids, current_index) = (map snd slots, map fst slots, current index);
   `a[i] = v` past the end, argmin of an empty array and the ValueError of concat come from the translation /
   the primitives; the declared size is not touched by these methods *)
Theorem C06_model_is_source_add_score : forall (h : holder) (pid sc : Z),
  src_add_score (map snd (h_slots h)) (map fst (h_slots h)) (Z.of_nat (h_cur h)) pid sc
  = dor h' <- add_score h pid sc; Ok (holder_arrays h').
Proof. exact src_add_score_is_model. Qed.
Print Assumptions C06_model_is_source_add_score.

Theorem C06_model_is_source_combine : forall (a b : holder),
  src_combine (map snd (h_slots a)) (map fst (h_slots a)) (Z.of_nat (h_cur a))
              (map snd (h_slots b)) (map fst (h_slots b))
  = Ok (holder_arrays (h_combine a b)).
Proof. exact src_combine_is_model. Qed.
Print Assumptions C06_model_is_source_combine.

Theorem C06_model_is_source_plate_id_with_minimum_score : forall (h : holder) (eligible : option (list Z)),
  src_plate_id_with_minimum_score (map snd (h_slots h)) (map fst (h_slots h)) eligible = min_plate h eligible.
Proof. exact src_plate_id_with_minimum_score_is_model. Qed.
Print Assumptions C06_model_is_source_plate_id_with_minimum_score.

Theorem C06_model_is_source_concat : forall hs : list holder, src_concat hs = h_concat hs.
Proof. exact src_concat_is_model. Qed.
Print Assumptions C06_model_is_source_concat.

(* ---- np.array_split ---- *)
Theorem C06_array_split_concat : forall (A : Type) (l : list A) (n : nat),
  (0 < n)%nat -> concat (array_split l n) = l.
Proof. exact @array_split_concat. Qed.
Print Assumptions C06_array_split_concat.

Theorem C06_array_split_sizes : forall (A : Type) (l : list A) (n : nat), (0 < n)%nat ->
  length (array_split l n) = n /\
  forall k, (k < n)%nat ->
    length (nth k (array_split l n) []) = (length l / n + (if k <? length l mod n then 1 else 0))%nat.
Proof. exact @array_split_sizes_all. Qed.
Print Assumptions C06_array_split_sizes.

(* ---- which plates are scored ---- *)
(* the candidate list of score_chunk / select_next_plate: strictly ascending ids, exactly the
   plates of the screen that have an unobserved row and are not in the batch *)
Theorem C06_candidates_spec : forall (s : screen) (batch : list Z),
  StronglySorted Z.lt (map p_id (candidates s batch)) /\
  forall pid, In pid (map p_id (candidates s batch)) <->
    In pid (map r_plate s) /\ (exists r, In r s /\ r_plate r = pid /\ r_obs r = false) /\ ~ In pid batch.
Proof. exact candidates_spec. Qed.
Print Assumptions C06_candidates_spec.

(* all n_chunks >= 1 (also > number of candidates): every chunk index succeeds, and the plate
   ids handed to the scorer, concatenated over chunk indices 0..n-1, are the candidate list *)
Theorem C06_chunks_partition : forall (s : screen) (batch : list Z) (n : nat),
  (0 < n)%nat ->
  (batch = [] \/ exists b, In b batch /\ In b (map r_plate s)) ->
  exists pss,
    res_map_all (score_chunk s batch (Z.of_nat n)) (map Z.of_nat (seq 0 n)) = Ok pss /\
    length pss = n /\
    map fst (concat pss) = map p_id (candidates s batch).
Proof. exact chunks_partition. Qed.
Print Assumptions C06_chunks_partition.

(* the same, in the words of the property: each candidate exactly once, nothing else *)
Theorem C06_chunks_cover_once : forall (s : screen) (batch : list Z) (n : nat),
  (0 < n)%nat ->
  (batch = [] \/ exists b, In b batch /\ In b (map r_plate s)) ->
  exists pss,
    res_map_all (score_chunk s batch (Z.of_nat n)) (map Z.of_nat (seq 0 n)) = Ok pss /\
    NoDup (map fst (concat pss)) /\
    forall pid, In pid (map fst (concat pss)) <->
      In pid (map r_plate s) /\ (exists r, In r s /\ r_plate r = pid /\ r_obs r = false) /\ ~ In pid batch.
Proof. exact chunks_cover_once. Qed.
Print Assumptions C06_chunks_cover_once.

Theorem C06_chunks_disjoint : forall (s : screen) (batch : list Z) (n k1 k2 : nat) pid ps1 ps2,
  (k1 < n)%nat -> (k2 < n)%nat -> k1 <> k2 ->
  score_chunk s batch (Z.of_nat n) (Z.of_nat k1) = Ok ps1 ->
  score_chunk s batch (Z.of_nat n) (Z.of_nat k2) = Ok ps2 ->
  In pid (map fst ps1) -> In pid (map fst ps2) -> False.
Proof. exact chunks_disjoint. Qed.
Print Assumptions C06_chunks_disjoint.

(* what the code does with a non-empty batch none of whose ids is a plate of the screen:
   ScreenSubset.concat([]) raises, for every chunk *)
Theorem C06_unknown_batch_rejected : forall (s : screen) (batch : list Z) n k,
  batch <> [] -> (forall b, In b batch -> ~ In b (map r_plate s)) ->
  exists tag, score_chunk s batch n k = Err tag.
Proof. exact score_chunk_unknown_batch. Qed.
Print Assumptions C06_unknown_batch_rejected.

(* ---- on which rows a candidate is scored ---- *)
Theorem C06_unconditioned_rows : forall (s : screen) n k ps pid rows,
  score_chunk s [] n k = Ok ps -> In (pid, rows) ps ->
  rows = sub_rows s (Z.eqb pid) /\
  (forall i r, In (i, r) rows <-> nth_error s i = Some r /\ r_plate r = pid) /\
  StronglySorted lt (map fst rows).
Proof. exact unconditioned_rows. Qed.
Print Assumptions C06_unconditioned_rows.

(* with a batch: union = the rows of the screen, in storage order, whose plate is the candidate
   or in the batch; the scorer gets first-occurrence-unique(union) on (sample id, treatment ids):
   no two kept rows share a condition, every condition of the union is kept, nothing else *)
Theorem C06_conditioned_rows : forall (s : screen) (batch : list Z) n k ps pid rows,
  batch <> [] -> score_chunk s batch n k = Ok ps -> In (pid, rows) ps ->
  let union := union_rows s batch pid in
  rows = uniq_first [] union /\
  (forall i r, In (i, r) union <-> nth_error s i = Some r /\ (r_plate r = pid \/ In (r_plate r) batch)) /\
  StronglySorted lt (map fst union) /\
  NoDup (map row_key rows) /\
  (forall key, In key (map row_key rows) <-> In key (map row_key union)) /\
  (forall x, In x rows -> In x union).
Proof. exact conditioned_rows. Qed.
Print Assumptions C06_conditioned_rows.

(* which duplicate survives: a row of the union is kept iff no EARLIER row of the union (storage
   order, not candidate-first) has the same (sample id, treatment ids) *)
Theorem C06_conditioned_first_occurrence : forall (s : screen) (batch : list Z) pid pre x post,
  union_rows s batch pid = pre ++ x :: post ->
  (In x (uniq_first [] (union_rows s batch pid)) <-> ~ In (row_key x) (map row_key pre)).
Proof. exact conditioned_first_occurrence. Qed.
Print Assumptions C06_conditioned_first_occurrence.

(* ---- the holder ---- *)
Theorem C06_exact_fill : forall (scorer : scorer_t) s batch n k ps,
  score_chunk s batch n k = Ok ps ->
  chunk_holder scorer s batch n k
  = Ok (mkholder (Z.of_nat (length ps)) (map (fun p => (fst p, scorer (fst p) (snd p))) ps) (length ps)).
Proof. exact chunk_holder_exact. Qed.
Print Assumptions C06_exact_fill.

Theorem C06_overfill_raises : forall h pid sc,
  (length (h_slots h) <= h_cur h)%nat -> add_score h pid sc = Err 4.
Proof. exact overfill_raises. Qed.
Print Assumptions C06_overfill_raises.

Theorem C06_save_load : forall h,
  h_slots (h_load (h_save h)) = h_slots h /\ h_cur (h_load (h_save h)) = h_cur h /\
  h_size (h_load (h_save h)) = Z.of_nat (length (h_slots h)).
Proof. exact save_load. Qed.
Print Assumptions C06_save_load.

(* ---- selection ---- *)
(* chunks listed in [order] are scored, saved, loaded and combined in that order; [order] is any
   list of chunk indices that contains every index (repeats allowed).  The pipeline does not
   raise; the plate returned is a candidate (unobserved, not in the batch), allowed by the
   policy, and no allowed plate has a strictly smaller score; None only if nothing is allowed. *)
Theorem C06_select_sound : forall (scorer : scorer_t) (policy : option policy_t) (s : screen)
    (batch : list Z) (n : Z) (order : list Z),
  (forall f, policy = Some f -> forall b c, incl (f b c) c) ->
  1 <= n ->
  (batch = [] \/ exists b, In b batch /\ In b (map r_plate s)) ->
  (forall k, 0 <= k < n -> In k order) -> (forall k, In k order -> 0 <= k < n) ->
  exists r, pipeline scorer policy s batch n order = Ok r /\
    match r with
    | None => eligible_plates policy s batch = []
    | Some pid =>
        (In pid (map r_plate s) /\ (exists r, In r s /\ r_plate r = pid /\ r_obs r = false) /\ ~ In pid batch) /\
        In pid (map p_id (eligible_plates policy s batch)) /\
        forall q, In q (eligible_plates policy s batch) ->
          plate_score scorer s batch pid <= plate_score scorer s batch (p_id q)
    end.
Proof. exact select_sound_rows. Qed.
Print Assumptions C06_select_sound.

(* the literal quantifier: every permutation of the chunk indices *)
Theorem C06_select_sound_perm : forall (scorer : scorer_t) (policy : option policy_t) (s : screen)
    (batch : list Z) (n : nat) (order : list Z),
  (forall f, policy = Some f -> forall b c, incl (f b c) c) ->
  (0 < n)%nat ->
  (batch = [] \/ exists b, In b batch /\ In b (map r_plate s)) ->
  Permutation order (map Z.of_nat (seq 0 n)) ->
  exists r, pipeline scorer policy s batch (Z.of_nat n) order = Ok r /\
    match r with
    | None => eligible_plates policy s batch = []
    | Some pid =>
        (In pid (map r_plate s) /\ (exists r, In r s /\ r_plate r = pid /\ r_obs r = false) /\ ~ In pid batch) /\
        In pid (map p_id (eligible_plates policy s batch)) /\
        forall q, In q (eligible_plates policy s batch) ->
          plate_score scorer s batch pid <= plate_score scorer s batch (p_id q)
    end.
Proof. exact select_sound_perm_rows. Qed.
Print Assumptions C06_select_sound_perm.

Theorem C06_none_iff : forall (scorer : scorer_t) (policy : option policy_t) (s : screen)
    (batch : list Z) (n : Z) (order : list Z),
  (forall f, policy = Some f -> forall b c, incl (f b c) c) ->
  1 <= n ->
  (batch = [] \/ exists b, In b batch /\ In b (map r_plate s)) ->
  (forall k, 0 <= k < n -> In k order) -> (forall k, In k order -> 0 <= k < n) ->
  (pipeline scorer policy s batch n order = Ok None <-> eligible_plates policy s batch = []).
Proof. exact none_iff. Qed.
Print Assumptions C06_none_iff.

Theorem C06_none_iff_no_policy : forall (scorer : scorer_t) (s : screen) (batch : list Z) (n : Z) (order : list Z),
  1 <= n ->
  (batch = [] \/ exists b, In b batch /\ In b (map r_plate s)) ->
  (forall k, 0 <= k < n -> In k order) -> (forall k, In k order -> 0 <= k < n) ->
  (pipeline scorer None s batch n order = Ok None <->
   forall pid, ~ (In pid (map r_plate s) /\ (exists r, In r s /\ r_plate r = pid /\ r_obs r = false) /\ ~ In pid batch)).
Proof. exact none_iff_no_policy. Qed.
Print Assumptions C06_none_iff_no_policy.

(* ---- ties: numpy argmin = first minimum in storage order ---- *)
Theorem C06_ties_first : forall h (eligible : list Z) pid,
  min_plate h (Some eligible) = Ok pid ->
  exists pre sc post,
    h_slots h = pre ++ (pid, sc) :: post /\ In pid eligible /\
    (forall i v, In (i, v) pre -> In i eligible -> sc < v) /\
    (forall i v, In (i, v) post -> In i eligible -> sc <= v).
Proof. exact min_plate_first. Qed.
Print Assumptions C06_ties_first.

(* in the pipeline the storage order is: chunks in the order combined, each in ascending id *)
Theorem C06_ties_storage_order : forall (scorer : scorer_t) (policy : option policy_t) (s : screen)
    (batch : list Z) (n : Z) (order : list Z),
  1 <= n ->
  (batch = [] \/ exists b, In b batch /\ In b (map r_plate s)) ->
  (forall k, 0 <= k < n -> In k order) -> (forall k, In k order -> 0 <= k < n) ->
  forall pid, pipeline scorer policy s batch n order = Ok (Some pid) ->
  exists pre post,
    concat (map (fun k => map (fun p => (fst p, scorer (fst p) (snd p)))
                            (map (fun p => (p_id p, rows_for s batch p))
                                 (nth (Z.to_nat k) (array_split (candidates s batch) (Z.to_nat n)) [])))
                order)
    = pre ++ (pid, plate_score scorer s batch pid) :: post /\
    (forall i v, In (i, v) pre -> In i (map p_id (eligible_plates policy s batch)) -> plate_score scorer s batch pid < v) /\
    (forall i v, In (i, v) post -> In i (map p_id (eligible_plates policy s batch)) -> plate_score scorer s batch pid <= v).
Proof. exact pipeline_first_min. Qed.
Print Assumptions C06_ties_storage_order.

(* chunks combined in index order: among tied minimal allowed plates the smallest id wins *)
Theorem C06_ties_identity_order : forall (scorer : scorer_t) (policy : option policy_t) (s : screen)
    (batch : list Z) (n : nat) pid,
  (forall f, policy = Some f -> forall b c, incl (f b c) c) ->
  (0 < n)%nat ->
  (batch = [] \/ exists b, In b batch /\ In b (map r_plate s)) ->
  pipeline scorer policy s batch (Z.of_nat n) (map Z.of_nat (seq 0 n)) = Ok (Some pid) ->
  forall q, In q (eligible_plates policy s batch) ->
    plate_score scorer s batch (p_id q) = plate_score scorer s batch pid -> pid <= p_id q.
Proof. exact ties_identity_order. Qed.
Print Assumptions C06_ties_identity_order.

(* ---- non-vacuity: concrete instances ---- *)
(* 5 plates interleaved in storage order; plate 3 observed; plate 4 partly observed (= unobserved);
   duplicate conditions across plates 0/1/2 *)
Definition ex_screen : screen :=
  [ mkrow 2 false 0 [0; 1]; mkrow 0 false 0 [0; 1]; mkrow 1 false 0 [0; 1]; mkrow 0 false 1 [0; 1];
    mkrow 2 false 0 [0; 2]; mkrow 1 false 1 [0; 1]; mkrow 3 true 2 [0; 1]; mkrow 4 true 0 [0; 1];
    mkrow 4 false 2 [-1; 2] ].
Definition ex_scorer : scorer_t := fun pid rows => if pid =? 0 then 7 else if pid =? 2 then -3 else if pid =? 4 then -3 else 1.
Definition ex_policy : policy_t := fun _ c => filter (fun p => negb (p_id p =? 2)) c.

Example C06_example_candidates : map p_id (candidates ex_screen [1]) = [0; 2; 4].
Proof. vm_compute. reflexivity. Qed.
(* more chunks than candidates: chunks 3 and 4 are empty; plate 0 is scored on rows 1,3 only
   (rows 2,5 of batch plate 1 duplicate its conditions and come later in storage order);
   plate 2 on rows 0,4,5 (row 2 of plate 1 duplicates row 0); plate 4 on rows 2,5,8: its OWN row 7
   is dropped because row 2 of batch plate 1 has the same condition and comes first *)
Example C06_example_chunks :
  res_map_all (fun k => dor ps <- score_chunk ex_screen [1] 5 k; Ok (map (fun p => (fst p, map fst (snd p))) ps))
              [0; 1; 2; 3; 4]
  = Ok [[(0, [1; 3]%nat)]; [(2, [0; 4; 5]%nat)]; [(4, [2; 5; 8]%nat)]; []; []].
Proof. vm_compute. reflexivity. Qed.
(* tie between plates 2 and 4 at -3: storage order decides; with the policy excluding plate 2, plate 4 *)
Example C06_example_select_tie_a : pipeline ex_scorer None ex_screen [1] 3 [2; 0; 1] = Ok (Some 4).
Proof. vm_compute. reflexivity. Qed.
Example C06_example_select_tie_b : pipeline ex_scorer None ex_screen [1] 3 [0; 1; 2] = Ok (Some 2).
Proof. vm_compute. reflexivity. Qed.
Example C06_example_select_policy : pipeline ex_scorer (Some ex_policy) ex_screen [1] 3 [0; 1; 2; 1] = Ok (Some 4).
Proof. vm_compute. reflexivity. Qed.
Example C06_example_policy_is_sub : forall b c, incl (ex_policy b c) c.
Proof. intros b c p H. apply filter_In in H. tauto. Qed.
Example C06_example_none : pipeline ex_scorer (Some (fun _ _ => [])) ex_screen [1] 2 [1; 0] = Ok None
  /\ pipeline ex_scorer None ex_screen [0; 1; 2; 4; 9] 2 [1; 0] = Ok None.
Proof. vm_compute. split; reflexivity. Qed.
Example C06_example_unknown_batch : score_chunk ex_screen [9] 2 0 = Err 3.
Proof. vm_compute. reflexivity. Qed.
(* outside the property (a scorer returning fewer scores than plates, as the mock in
   scoring/main_test.py does): the unfilled zero-initialised slot (plate id 0, score 0.0) is a
   phantom entry for plate 0 — here it beats plate 1's real score 5 although plate 0 was never scored *)
Example C06_example_underfilled_zero_slot :
  (dor h <- add_scores (holder_new 2) [(1, 5)]; min_plate h (Some [0; 1])) = Ok 0.
Proof. vm_compute. reflexivity. Qed.
(* a chunk file left out: the argmin silently ranges over the plates that were scored *)
Example C06_example_missing_chunk : pipeline ex_scorer None ex_screen [1] 3 [0; 2] = Ok (Some 4).
Proof. vm_compute. reflexivity. Qed.

(* ---- the command-line wrappers select_next_plate.main and calculate_scores.main is what the source says NOW ----
   `src_cli_select_next_plate` / `src_cli_calculate_scores` are the whole functions main of /repo's current
   batchie/cli/select_next_plate.py / calculate_scores.py, re-translated on every run (configurations CLI_SELECT_NEXT_PLATE /
   CLI_CALCULATE_SCORES of harness/src_functions.py -> Generated/SrcCli.v).
   Model/Cli.v: the parsed arguments are a record of the plain argparse results (get_args() is not translated), `L` is a
   record of the library functions the wrapper calls over abstract types (each component stands for the library function
   of that name with its parameter list; `*_load_*` = what loading the file at a path yields), a main() denotes the list
   of (path, content) files it writes, Err = the exception that ends it.  The links hold for EVERY such record. *)
From Batchie Require Lib.PyRt Model.Cli Generated.SrcCli Proofs.C06SourceCli Proofs.C06SourceCliScores.
Theorem C06_model_is_source_cli_select_next_plate : forall (Scr Pl Po H : Type) (L : Cli.sn_lib Scr Pl Po H) (mix : Z -> Z) (a : Cli.sn_args),
  SrcCli.src_cli_select_next_plate Scr Pl Po H L mix a
  = Cli.cli_select_next_plate L mix a.
Proof. exact C06SourceCli_Select.src_cli_select_next_plate_is_model. Qed.
Print Assumptions C06_model_is_source_cli_select_next_plate.

Theorem C06_model_is_source_cli_calculate_scores : forall (Scr Pl Th Dm Sc H : Type) (L : Cli.cs_lib Scr Pl Th Dm Sc H) (mix : Z -> Z) (a : Cli.cs_args),
  SrcCli.src_cli_calculate_scores Scr Pl Th Dm Sc H L mix a
  = Cli.cli_calculate_scores L mix a.
Proof. exact C06SourceCli_Scores.src_cli_calculate_scores_is_model. Qed.
Print Assumptions C06_model_is_source_cli_calculate_scores.

(* instances over this property's vocabulary (Model/Scores.v), with the library calls standing for the TRANSLATED library
   functions (Generated/SrcScoring.v): select_next_plate.main = select_next on the concatenation (h_concat) of the loaded
   score files, in argument order, with the --batch-plate-id list; it writes the chosen plate's id, or -1 exactly when
   select_next answers None.  calculate_scores.main = score_chunk on the loaded screen with the --batch-plate-ids list,
   the scorer answering on the concatenated thetas / distance matrix and the generator derived from --seed, its answer
   stored by chunk_holder_of_answer, saved. *)
Theorem C06_model_is_source_cli_select_next_plate_scores : forall load_screen mk_policy load_scores (mix : Z -> Z) (a : Cli.sn_args),
  SrcCli.src_cli_select_next_plate _ _ _ _ (C06SourceCliScores.sn_scores_lib load_screen mk_policy load_scores) mix a
  = dor s <- load_screen (Cli.sn_data a);
    dor policy <- match Cli.sn_policy a with Some _ => dor p <- mk_policy; Ok (Some p) | None => Ok None end;
    dor rng <- Cli.prng_of_seed mix (Cli.sn_seed a);
    dor hs <- res_map_all load_scores (Cli.sn_scores a);
    dor h <- h_concat hs;
    dor r <- select_next (option_map (fun p => p (Some rng)) policy) s (Cli.sn_batch_plate_id a) h;
    Ok [(Cli.sn_output a, match r with Some id => id | None => -1 end)].
Proof. exact C06SourceCliScores.src_cli_select_next_plate_scores. Qed.
Print Assumptions C06_model_is_source_cli_select_next_plate_scores.

Theorem C06_model_is_source_cli_calculate_scores_scores : forall (Th Dm : Type) load_screen mk_scorer load_thetas concat_thetas
    load_dist concat_dist (mix : Z -> Z) (a : Cli.cs_args),
  SrcCli.src_cli_calculate_scores _ _ _ _ _ _
    (C06SourceCliScores.cs_scores_lib Th Dm load_screen mk_scorer load_thetas concat_thetas load_dist concat_dist) mix a
  = dor s <- load_screen (Cli.cs_data a);
    dor sc <- mk_scorer;
    dor ths <- res_map_all load_thetas (Cli.cs_thetas a);
    dor th <- concat_thetas ths;
    dor dms <- res_map_all load_dist (Cli.cs_distance_matrix a);
    dor dm <- concat_dist dms;
    dor rng <- Cli.prng_of_seed mix (Cli.cs_seed a);
    dor ps <- score_chunk s (Cli.cs_batch_plate_ids a) (Cli.cs_n_chunks a) (Cli.cs_chunk_index a);
    dor h <- chunk_holder_of_answer ps (sc th dm (Some rng) ps);
    Ok [(Cli.cs_output a, h)].
Proof. exact C06SourceCliScores.src_cli_calculate_scores_scores. Qed.
Print Assumptions C06_model_is_source_cli_calculate_scores_scores.

(* the translated wrapper on a library whose select_next_plate answers None / plate 0: -1 / 0 is written (id 0 is not "nothing") *)
Example C06_example_cli_writes_minus_one_iff_none :
  let lib r := Cli.mk_sn_lib (fun _ => Ok 0) (Ok 0) (fun _ => Ok 0) (fun _ => Ok 0) (fun _ _ _ _ _ => Ok r) (fun p : Z => p) in
  let a := Cli.mk_sn_args [100] [[101]; [102]] None [103] 7 [] in
  SrcCli.src_cli_select_next_plate Z Z Z Z (lib None) (fun s => s) a = Ok [([103], -1)] /\
  SrcCli.src_cli_select_next_plate Z Z Z Z (lib (Some 0)) (fun s => s) a = Ok [([103], 0)].
Proof. vm_compute. split; reflexivity. Qed.

(* ---- source-translation links: ChunkedScoresHolder.__init__ / get_score / save_h5 / load_h5 (Generated/SrcHolderIO.v,
   configurations C06_HOLDER_* of harness/src_functions.py).  The Python object is the record [pyholder] of its four
   attributes, a model holder h is represented by [holder_obj h]; the translated save_h5 denotes the raw HDF5 content
   [shraw] it writes (datasets and attributes by name), load_h5 reads one; [shraw_close] is the representation map to the
   model's file (slots, current_index).  All in the last part of Model/Scores.v. ---- *)
From Batchie Require Import Generated.SrcHolderIO Proofs.C06SourceIO.

(* __init__ on any fresh instance: the holder of `size` zero slots, ValueError for a negative size *)
Theorem C06_model_is_source_init : forall (self : pyholder) (size : Z),
  src_holder_init self size = if size <? 0 then Err 1 else Ok (holder_obj (holder_new (Z.to_nat size))).
Proof. exact src_holder_init_is_model. Qed.
Print Assumptions C06_model_is_source_init.

(* get_score: the score of the ONLY slot carrying that plate id; no such slot or several: ValueError *)
Theorem C06_model_is_source_get_score : forall (h : holder) (pid : Z),
  src_holder_get_score (holder_obj h) pid = h_get_score h pid.
Proof. exact src_holder_get_score_is_model. Qed.
Print Assumptions C06_model_is_source_get_score.

(* what the translated save_h5 wrote, read back by name, is the model's file *)
Theorem C06_model_is_source_save_h5 : forall h : holder,
  (dor w <- src_holder_save_h5 (holder_obj h); shraw_close w) = Ok (h_save h).
Proof. exact src_holder_save_h5_is_model. Qed.
Print Assumptions C06_model_is_source_save_h5.

(* on every raw file that represents a model file f, the translated load_h5 returns the object of the model's h_load f *)
Theorem C06_model_is_source_load_h5 : forall (w : shraw) (f : list slot * nat),
  shraw_close w = Ok f -> src_holder_load_h5 w = Ok (holder_obj (h_load f)).
Proof. exact src_holder_load_h5_is_model. Qed.
Print Assumptions C06_model_is_source_load_h5.

(* hence C06_save_load is a theorem about the translated source: the object the translated load_h5 makes of what the
   translated save_h5 wrote has the saved score array, plate-id array and current_index; its size is len(scores) *)
Theorem C06_source_save_load : forall h : holder,
  exists o, (dor w <- src_holder_save_h5 (holder_obj h); src_holder_load_h5 w) = Ok o
    /\ ph_scores o = ph_scores (holder_obj h) /\ ph_pids o = ph_pids (holder_obj h) /\ ph_cur o = ph_cur (holder_obj h)
    /\ ph_size o = Z.of_nat (length (ph_scores (holder_obj h))).
Proof. exact src_holder_round_trip. Qed.
Print Assumptions C06_source_save_load.

(* ... and get_score answers the same before and after the round trip *)
Theorem C06_source_get_score_after_reload : forall (h : holder) (pid : Z),
  (dor w <- src_holder_save_h5 (holder_obj h); dor o <- src_holder_load_h5 w; src_holder_get_score o pid) = h_get_score h pid.
Proof. exact src_holder_get_score_after_reload. Qed.
Print Assumptions C06_source_get_score_after_reload.

(* not vacuous: a holder of declared size 3 with two filled slots (ids 5 and 7) and one unfilled slot (id 0) *)
Example C06_source_holder_io_example :
  let h := mkholder 3 [(5, 11); (7, -2); (0, 0)] 2 in
  (dor w <- src_holder_save_h5 (holder_obj h); src_holder_load_h5 w) = Ok (mkpyholder 3 [11; -2; 0] [5; 7; 0] 2)
  /\ src_holder_get_score (holder_obj h) 7 = Ok (-2)
  /\ src_holder_get_score (holder_obj h) 6 = Err 8
  /\ src_holder_get_score (holder_obj (mkholder 2 [(5, 1); (5, 2)] 2)) 5 = Err 8
  /\ src_holder_init ph_blank 2 = Ok (mkpyholder 2 [0; 0] [0; 0] 0)
  /\ src_holder_init ph_blank (-1) = Err 1
  /\ src_holder_load_h5 shraw_empty = Err 30.
Proof. vm_compute. repeat split; reflexivity. Qed.
(* ================= the data.py PRIMITIVES of the scoring links are theorems =================
   C06_SELECT / C06_SCORE_CHUNK (harness/src_functions.py) give `screen.plates`, `screen.get_plate(i)`, `p.plate_id`,
   `p.is_observed` and `p.plate_name` the meanings [plates], [get_plate], [p_id], [is_observed], [plate_name] of Model/Scores.v.
   These helpers are translated themselves (Generated/SrcViews.v, Generated/SrcPlates.v, equal to the models of Model/Views.v by
   Props/C14.v); read through the representation [sc_rows] (row i of the Scores screen = the i-th plate id, mask bit, sample id
   and treatment ids of the Views screen) / [sc_subset] (the (position, row) pairs at the positions a view selects), each
   translation is the meaning the primitive was given.  Side conditions: [screen_wf] (every constructed screen), [view_ok]
   (every constructed view). *)
From Batchie Require Import Lib.PyRt Model.Encode Model.Screen Model.Views Generated.SrcViews Generated.SrcPlates
  Proofs.C14Defs Proofs.C06SourceHelpers.

(* `screen.get_plate(i)` -> [get_plate] and `screen.plates` -> [plates]: one plate per sorted distinct plate id, each the view
   get_plate builds, whose (position, row) pairs are the model plate's rows *)
Theorem C06_model_is_source_get_plate_plates :
  (forall (t : Z) (p : Screen.screen) (pid : Z), screen_wf p ->
     exists v, src_get_plate (t, p) pid = Ok v /\ sc_plate pid v = Scores.get_plate (sc_rows p) pid /\
               v_tag v = t /\ v_parent v = p /\ view_ok v) /\
  (forall (t : Z) (p : Screen.screen), screen_wf p ->
     exists vs, src_plates (t, p) = Ok vs /\
       Scores.plates (sc_rows p) = map (fun iv => sc_plate (fst iv) (snd iv)) (combine (Encode.sort_uniq Z.compare (s_pids p)) vs) /\
       length vs = length (Encode.sort_uniq Z.compare (s_pids p)) /\
       Forall (fun v => v_tag v = t /\ v_parent v = p /\ view_ok v) vs).
Proof. exact (conj src_get_plate_is_scores_get_plate src_plates_is_scores_plates). Qed.
Print Assumptions C06_model_is_source_get_plate_plates.

(* `p.plate_id` -> [p_id]: the plate get_plate(pid) returns, pid a plate id of the screen, answers pid *)
Theorem C06_model_is_source_plate_id : forall (t : Z) (p : Screen.screen) (pid : Z), screen_wf p -> In pid (s_pids p) ->
  exists v, src_get_plate (t, p) pid = Ok v /\ src_plate_id v = Ok (Scores.p_id (Scores.get_plate (sc_rows p) pid)).
Proof. exact src_plate_id_is_scores_p_id. Qed.
Print Assumptions C06_model_is_source_plate_id.

(* `p.is_observed` -> [is_observed]: np.all of the mask at the selected rows *)
Theorem C06_model_is_source_is_observed : forall (pid : Z) (v : view), screen_wf (v_parent v) -> view_ok v ->
  src_view_is_observed v = Ok (Scores.is_observed (sc_plate pid v)).
Proof. exact src_view_is_observed_is_scores. Qed.
Print Assumptions C06_model_is_source_is_observed.

(* `p.plate_name` -> [plate_name]: the model answers the POSITION of the plate's first row; the translated property returns
   the plate name stored at that position and raises IndexError exactly when the model refuses *)
Theorem C06_model_is_source_plate_name : forall (pid : Z) (v : view), screen_wf (v_parent v) -> view_ok v ->
  match Scores.plate_name (sc_plate pid v) with
  | Ok i => src_plate_name v = Ok (nth i (map Screen.r_plate (s_rows (v_parent v))) [])
  | Err _ => src_plate_name v = Err 98%Z
  end.
Proof. exact src_plate_name_is_scores_plate_name. Qed.
Print Assumptions C06_model_is_source_plate_name.

(* ---- SizeScorer.score (scoring/size.py), re-translated on every run (Generated/SrcScoring.v, configuration L10B_SIZE_SCORER;
   proof Proofs/C06SourceSize.v): on every plates dict - its keys are distinct, as in any Python dict - the scores dict has the
   same plate ids in the same order, each with the number of rows of its plate; the other four arguments are not read ---- *)
From Batchie Require Lib.PyRt Proofs.C06SourceSize.
Theorem C06_model_is_source_size_scorer_score : forall plates : list (Z * subset),
  NoDup (map fst plates) -> src_size_scorer_score plates = Ok (size_scorer plates).
Proof. exact C06SourceSize.src_size_scorer_is_model. Qed.
Print Assumptions C06_model_is_source_size_scorer_score.

(* without the side condition: the comprehension inserts from the left (a repeated key keeps its place, gets the last size) *)
Theorem C06_model_is_source_size_scorer_score_general : forall plates : list (Z * subset),
  src_size_scorer_score plates
  = Ok (fold_left (fun d x => PyRt.dict_set d (fst x) (Z.of_nat (length (snd x)))) plates []).
Proof. exact C06SourceSize.src_size_scorer_general. Qed.
Print Assumptions C06_model_is_source_size_scorer_score_general.
(* ---- the argument-handling glue of select_next_plate is what the source says NOW ----
   `src_sn_get_args` is the WHOLE function get_args of /repo's current batchie/cli/select_next_plate.py (parser.parse_args() is the primitive that
   yields the raw namespace; the statements after it - class lookup by name, required-argument annotations, cast of the KEY=VALUE
   parameters - are translated), `src_cli_select_next_plate_cmd` is main() once more as a whole command, in which get_args() is the translated
   get_args and `args.policy_cls( **args.policy_params)` is `construct` on the two namespace attributes; both re-translated on every run (configurations
   ARGS_GET_ARGS_SN / ARGS_CMD_SN -> Generated/SrcCliArgs.v).  Model: the last part of Model/Cli.v; `I` = introspection.get_class /
   get_required_init_args_with_annotations (linked to their own translations in Props/C18.v), `P` = s.lower(), int(s), float(s), the call of
   another annotation object; cast_dict_to_type is the translated function (Props/C18.v).  The statements hold for EVERY such record. *)
From Batchie Require Proofs.C06SourceArgs Proofs.C18SourceIntrospect Generated.SrcCliArgs.
Theorem C06_model_is_source_cli_args_get_args : forall (Cls F O : Type) (I : Cli.introspect Cls) (P : Cli.pyprims F O)
  (raw : Cli.sn_ns Cls F O),
  SrcCliArgs.src_sn_get_args Cls F O I P raw = Cli.sn_get_args I P raw.
Proof. exact C06SourceArgs.src_sn_get_args_is_model. Qed.
Print Assumptions C06_model_is_source_cli_args_get_args.

(* the whole command: sn_mk_policy of C06_model_is_source_cli_select_next_plate IS the class found under the name --policy,
   instantiated with the cast --policy-param values (no policy, and no class lookup at all, when --policy is absent) *)
Theorem C06_model_is_source_cli_args_select_next_plate :
  forall (Cls F O : Type) (I : Cli.introspect Cls) (P : Cli.pyprims F O) (Scr Pl Po H : Type)
         (construct : Cls -> list (Cli.str * Cli.pval F O) -> result Po) (L : Cli.sn_lib Scr Pl Po H) (mix : Z -> Z)
         (raw : Cli.sn_ns Cls F O),
  SrcCliArgs.src_cli_select_next_plate_cmd Cls F O I P Scr Pl Po H construct L mix raw
  = Cli.cli_select_next_plate_cmd I P construct L mix raw.
Proof. exact C06SourceArgs.src_cli_select_next_plate_cmd_is_model. Qed.
Print Assumptions C06_model_is_source_cli_args_select_next_plate.

(* everything from the source: the introspection record made of the translated get_class / get_required_init_args... *)
Theorem C06_model_is_source_cli_args_select_next_plate_world :
  forall (Mod Obj F O : Type) (W : Cli.pyworld Mod Obj) (P : Cli.pyprims F O) (Scr Pl Po H : Type)
         (construct : Obj -> list (Cli.str * Cli.pval F O) -> result Po) (L : Cli.sn_lib Scr Pl Po H) (mix : Z -> Z)
         (raw : Cli.sn_ns Obj F O),
  SrcCliArgs.src_cli_select_next_plate_cmd Obj F O (C18SourceIntrospect.introspect_src W) P Scr Pl Po H construct L mix raw
  = Cli.cli_select_next_plate_cmd (Cli.introspect_of W) P construct L mix raw.
Proof. exact C06SourceArgs.src_cli_select_next_plate_cmd_world. Qed.
Print Assumptions C06_model_is_source_cli_args_select_next_plate_world.

(* ---- the argparse option tables: get_parser() of calculate_scores / select_next_plate, re-read from /repo on every run by the fail-closed reader
   harness/argparse_reader.py (Generated/SrcParser_<command>.v; a get_parser that is not a plain sequence of literal
   parser.add_argument calls is refused and these theorems stop compiling).  What the argument records of Model/Cli.v assume of
   the namespace parse_args() yields - the premise of the C??_model_is_source_cli_* links - is provided by the declared options:
   Cli.declares = the attribute is the dest of EXACTLY ONE option, which stores the assumed kind of value and can be None exactly
   where the record has an option type; Cli.dests_derived = the dest the reader computed is argparse's derivation from the flags;
   Cli.dests_distinct = no dest and no flag is declared twice; Cli.seed_declared = --seed is an int option with a non-negative int
   default (get_prng_from_seed_argument never sees None); Cli.coordinates_int = --n-chunks / --chunk-index / --n-chains /
   --chain-index are int options that are never None; Cli.params_kv = every --*-param option accumulates through KVAppendAction;
   Cli.fraction_declared = --holdout-fraction is a float option with a default in [0, 1]. ---- *)

From Batchie Require Model.Cli Proofs.C18Parser Generated.SrcParser_calculate_scores Proofs.C18SourceParser_calculate_scores Generated.SrcParser_select_next_plate Proofs.C18SourceParser_select_next_plate.
Theorem C06_source_parser_calculate_scores_fields :
  forall f, In f (Cli.cs_fields ++ Cli.logging_fields) -> Cli.declares SrcParser_calculate_scores.src_parser_calculate_scores f.
Proof. exact C18SourceParser_calculate_scores.parser_calculate_scores_fields. Qed.
Print Assumptions C06_source_parser_calculate_scores_fields.

Theorem C06_source_parser_calculate_scores_dests_derived :
  Cli.dests_derived SrcParser_calculate_scores.src_parser_calculate_scores.
Proof. exact C18SourceParser_calculate_scores.parser_calculate_scores_dests_derived. Qed.
Print Assumptions C06_source_parser_calculate_scores_dests_derived.

Theorem C06_source_parser_calculate_scores_dests_distinct :
  Cli.dests_distinct SrcParser_calculate_scores.src_parser_calculate_scores.
Proof. exact C18SourceParser_calculate_scores.parser_calculate_scores_dests_distinct. Qed.
Print Assumptions C06_source_parser_calculate_scores_dests_distinct.

Theorem C06_source_parser_calculate_scores_seed :
  Cli.seed_declared SrcParser_calculate_scores.src_parser_calculate_scores.
Proof. exact C18SourceParser_calculate_scores.parser_calculate_scores_seed. Qed.
Print Assumptions C06_source_parser_calculate_scores_seed.

Theorem C06_source_parser_calculate_scores_coordinates :
  Cli.coordinates_int SrcParser_calculate_scores.src_parser_calculate_scores.
Proof. exact C18SourceParser_calculate_scores.parser_calculate_scores_coordinates. Qed.
Print Assumptions C06_source_parser_calculate_scores_coordinates.

Theorem C06_source_parser_calculate_scores_params :
  Cli.params_kv SrcParser_calculate_scores.src_parser_calculate_scores.
Proof. exact C18SourceParser_calculate_scores.parser_calculate_scores_params. Qed.
Print Assumptions C06_source_parser_calculate_scores_params.

Theorem C06_source_parser_select_next_plate_fields :
  forall f, In f (Cli.sn_fields ++ Cli.logging_fields) -> Cli.declares SrcParser_select_next_plate.src_parser_select_next_plate f.
Proof. exact C18SourceParser_select_next_plate.parser_select_next_plate_fields. Qed.
Print Assumptions C06_source_parser_select_next_plate_fields.

Theorem C06_source_parser_select_next_plate_dests_derived :
  Cli.dests_derived SrcParser_select_next_plate.src_parser_select_next_plate.
Proof. exact C18SourceParser_select_next_plate.parser_select_next_plate_dests_derived. Qed.
Print Assumptions C06_source_parser_select_next_plate_dests_derived.

Theorem C06_source_parser_select_next_plate_dests_distinct :
  Cli.dests_distinct SrcParser_select_next_plate.src_parser_select_next_plate.
Proof. exact C18SourceParser_select_next_plate.parser_select_next_plate_dests_distinct. Qed.
Print Assumptions C06_source_parser_select_next_plate_dests_distinct.

Theorem C06_source_parser_select_next_plate_seed :
  Cli.seed_declared SrcParser_select_next_plate.src_parser_select_next_plate.
Proof. exact C18SourceParser_select_next_plate.parser_select_next_plate_seed. Qed.
Print Assumptions C06_source_parser_select_next_plate_seed.

Theorem C06_source_parser_select_next_plate_params :
  Cli.params_kv SrcParser_select_next_plate.src_parser_select_next_plate.
Proof. exact C18SourceParser_select_next_plate.parser_select_next_plate_params. Qed.
Print Assumptions C06_source_parser_select_next_plate_params.

(* ---- scorers that are NOT a function of the plate, chunks repeated ----
   RandomScorer (an anchored file) or a DBAL scorer that sub-samples triples answer differently at every call: with a chunk
   file repeated in the combine order one plate carries two different scores in the combined holder.  [pscorer_t]: the
   scorer of the call at position pos of the combine order; [pipeline_pos] = pipeline with the call at position pos made by
   scorer pos (for a constant family it IS pipeline).  The selection clause in that generality: the pipeline does not raise;
   the plate returned is a candidate, allowed by the policy, and the score SOME call stored for it is <= the score ANY call
   stored for ANY allowed plate (so a change that keeps only the last score of a plate before selecting is refuted);
   None only if nothing is allowed; and every allowed plate is scored by at least one call. *)
From Batchie Require Proofs.C06AnyScorer.
Theorem C06_select_sound_any_scorer : forall (scorer : Scores.pscorer_t) (policy : option Scores.policy_t) (s : Scores.screen)
    (batch : list Z) (n : Z) (order : list Z),
  (forall f, policy = Some f -> forall b c, incl (f b c) c) ->
  (1 <= n)%Z ->
  (batch = [] \/ exists b, In b batch /\ In b (map Scores.r_plate s)) ->
  (forall k, (0 <= k < n)%Z -> In k order) -> (forall k, In k order -> (0 <= k < n)%Z) ->
  exists r, Scores.pipeline_pos scorer policy s batch n order = Ok r /\
    match r with
    | None => Scores.eligible_plates policy s batch = []
    | Some pid =>
        (In pid (map Scores.r_plate s) /\ (exists r, In r s /\ Scores.r_plate r = pid /\ Scores.r_obs r = false) /\ ~ In pid batch) /\
        In pid (map Scores.p_id (Scores.eligible_plates policy s batch)) /\
        exists pos k ps,
          nth_error order pos = Some k /\ Scores.score_chunk s batch n k = Ok ps
          /\ In (pid, Scores.rows_for s batch (Scores.get_plate s pid)) ps /\
          forall q pos' k' ps', In q (Scores.eligible_plates policy s batch) -> nth_error order pos' = Some k' ->
            Scores.score_chunk s batch n k' = Ok ps' -> In (Scores.p_id q, Scores.rows_for s batch q) ps' ->
            (scorer pos pid (Scores.rows_for s batch (Scores.get_plate s pid)) <= scorer pos' (Scores.p_id q) (Scores.rows_for s batch q))%Z
    end.
Proof. exact C06AnyScorer.select_sound_pos_rows. Qed.
Print Assumptions C06_select_sound_any_scorer.

Theorem C06_any_scorer_allowed_is_scored : forall (policy : option Scores.policy_t) (s : Scores.screen) (batch : list Z) (n : Z) (order : list Z),
  (forall f, policy = Some f -> forall b c, incl (f b c) c) ->
  (1 <= n)%Z ->
  (batch = [] \/ exists b, In b batch /\ In b (map Scores.r_plate s)) ->
  (forall k, (0 <= k < n)%Z -> In k order) -> (forall k, In k order -> (0 <= k < n)%Z) ->
  forall q, In q (Scores.eligible_plates policy s batch) ->
  exists pos k ps, nth_error order pos = Some k /\ Scores.score_chunk s batch n k = Ok ps /\ In (Scores.p_id q, Scores.rows_for s batch q) ps.
Proof. exact C06AnyScorer.allowed_is_scored_pos_rows. Qed.
Print Assumptions C06_any_scorer_allowed_is_scored.

Theorem C06_pipeline_pos_constant : forall (scorer : Scores.scorer_t) policy s batch n order,
  Scores.pipeline_pos (fun _ => scorer) policy s batch n order = Scores.pipeline scorer policy s batch n order.
Proof. exact C06AnyScorer.pipeline_pos_constant. Qed.
Print Assumptions C06_pipeline_pos_constant.

(* ---- the three conditioning primitives of the score_chunk link are theorems ----
   C06_SCORE_CHUNK gives `ScreenSubset.concat(l)`, `a.combine(b)` and `filter_dataset_to_unique_treatments(x)` the meanings
   Scores.subset_concat, Scores.subset_union and Scores.uniq_first [] - the whole clause "scored on the union of its own and the
   batch plates' experiments reduced to one experiment per distinct condition" rests on them.  The three helpers are translated
   themselves (Generated/SrcViews.v, Generated/SrcPlates.v; equal to Model/Views.v by Props/C14.v); read through the
   representation [sc_rows] / [sc_subset] of the helper links above, each translation IS the meaning the primitive was given,
   and so is their composition as score_chunk makes it.  A condition = (sample id, treatment ids in column order) on both sides. *)
From Batchie Require Proofs.C06SourceBridge.
Theorem C06_model_is_source_conditioning_helpers :
  (forall a b c : view, view_ok a -> view_ok b -> v_parent b = v_parent a -> src_view_combine a b = Ok c ->
     sc_subset c = Scores.subset_union (sc_rows (v_parent a)) (sc_subset a) (sc_subset b)) /\
  (forall (p : Screen.screen) (vs : list view) (c : view),
     Forall (fun v => v_parent v = p /\ view_ok v) vs -> src_view_concat vs = Ok c ->
     Scores.subset_concat (sc_rows p) (map sc_subset vs) = Ok (sc_subset c)) /\
  (forall v v' : view, view_ok v -> screen_wf (v_parent v) -> src_filter_unique_view v = Ok v' ->
     sc_subset v' = Scores.uniq_first [] (sc_subset v)).
Proof.
  exact (conj C06SourceBridge.src_combine_is_subset_union
          (conj C06SourceBridge.src_concat_is_subset_concat C06SourceBridge.src_filter_unique_is_uniq_first)).
Qed.
Print Assumptions C06_model_is_source_conditioning_helpers.

(* composed as score_chunk composes them: filter_dataset_to_unique_treatments(plate.combine(ScreenSubset.concat(batch plates))) *)
Theorem C06_model_is_source_conditioning :
  forall (p : Screen.screen) (plate : view) (batch_plates : list view) (u c f : view),
  screen_wf p -> v_parent plate = p -> view_ok plate ->
  Forall (fun v => v_parent v = p /\ view_ok v) batch_plates ->
  src_view_concat batch_plates = Ok u -> src_view_combine plate u = Ok c -> src_filter_unique_view c = Ok f ->
  exists su, Scores.subset_concat (sc_rows p) (map sc_subset batch_plates) = Ok su /\
    sc_subset f = Scores.uniq_first [] (Scores.subset_union (sc_rows p) (sc_subset plate) su).
Proof. exact C06SourceBridge.src_conditioning_is_scores. Qed.
Print Assumptions C06_model_is_source_conditioning.
