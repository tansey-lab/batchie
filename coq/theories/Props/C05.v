(* C05 — A plate's DBAL score depends on that plate alone and equals the direct estimator.
   Statements only: a proof is `exact <lemma from Proofs/>` (or a split into such), a concrete example is closed by evaluation.  All theorems hold OF THE MODEL (Model/Dbal.v) for every
   oracle [orc] (ln = orc 0, exp = orc 1), every number of posterior samples T > 0 (the code needs T >= 3), every plate list
   (empty, one plate, size-0/size-1 plates included), all means, all variances, all matrices, every distance_factor.
   DOMAIN - read this before reading "all" as a claim about the code.  The model is total over exact rationals and
   agrees with numpy only where numpy computes with finite numbers:
     * variances > 0.  Then every alpha is > 0 (C05_domain_alpha_positive, padded cells included).  For alpha = 0 the model's
       1 / alpha is Qc's 0 while numpy gives inf / NaN; zero or negative variances can make alpha 0 or negative.
     * matrix entries >= 0.  Then every summed triple distance is >= 0 (C05_domain_distance_term): np.log sees 0 (-inf, modelled
       as None) or a positive number.  For a negative sum numpy gives NaN, the model the oracle's value.
     * distance_factor > 0.  The model reads df * -inf as -inf for every df; numpy gives NaN for df = 0 and +inf for df < 0.
     * no NaN / inf among means, variances, distances; NaN occurs only as the padding value of the variance array.
   These are the property's own quantifier (positive variances, symmetric non-negative matrices; distance_factor is 1 in the
   scorer); the differential run generates only such inputs.  Outside them the theorems are statements about the model alone.
   Floating-point rounding is not in the model (it computes the real-number value; the harness compares to 1e-9).
   plate_wf T pl : means and variances of pl are both T x n_exp arrays.
   triple_valid T t : the three sample indices of t are < T (what the unranking produces). *)
From Coq Require Import ZArith List QArith Qcanon Permutation Lia.
From Batchie Require Import Lib.Sexp Lib.Num Lib.PyRt Model.Unrank Model.Dbal
  Proofs.C05Pad Proofs.C05Lse Proofs.C05Kernel Proofs.C05Scorer Proofs.C05Inv Proofs.C05Relabel
  Proofs.C05Checked Generated.SrcDbal Proofs.C05Source Proofs.C05Dtype.
Import ListNotations.

(* the vectorised kernel on the 0-padded means / NaN-padded variances of a list of plates =
   the direct, unpadded double loop on each plate alone *)
Theorem C05_vectorised_eq_direct : forall orc T plates D df ts,
  (0 < T)%nat -> Forall (plate_wf T) plates -> Forall (triple_valid T) ts ->
  kernel orc (pad_means (map fst plates)) (pad_vars (map snd plates)) D df ts
  = map (direct orc D df ts) plates.
Proof. exact hetero_eq_direct. Qed.
Print Assumptions C05_vectorised_eq_direct.

(* padding-independence in general: ANY dense arrays that hold the plates (plate p in cells
   (p, i, e), e < n_exp; 0 / NaN in the other cells of the first T rows; any width >= the widest
   plate, any number of rows) give the same scores *)
Theorem C05_kernel_on_padding : forall orc T plates pred vars D df ts,
  represents T plates pred vars -> Forall (triple_valid T) ts ->
  kernel orc pred vars D df ts = map (direct orc D df ts) plates.
Proof. exact kernel_represents. Qed.
Print Assumptions C05_kernel_on_padding.

(* the code's padding is such a representation *)
Theorem C05_padding_represents : forall T plates,
  (0 < T)%nat -> Forall (plate_wf T) plates ->
  represents T plates (pad_means (map fst plates)) (pad_vars (map snd plates)).
Proof. exact pad_represents. Qed.
Print Assumptions C05_padding_represents.

(* the score at a plate's position in any plate list = its score when it is scored alone *)
Theorem C05_alone_in_list : forall orc T D df ts before pl after,
  (0 < T)%nat -> Forall (plate_wf T) (before ++ pl :: after) -> Forall (triple_valid T) ts ->
  nth (length before) (hetero orc (before ++ pl :: after) D df ts) None
  = nth 0 (hetero orc [pl] D df ts) None.
Proof. exact hetero_alone. Qed.
Print Assumptions C05_alone_in_list.

(* the order in which the triples are enumerated is irrelevant *)
Theorem C05_triple_order_irrelevant : forall orc D df ts ts' pl,
  Permutation ts ts' -> direct orc D df ts pl = direct orc D df ts' pl.
Proof. exact direct_perm_triples. Qed.
Print Assumptions C05_triple_order_irrelevant.

(* the scorer: whatever max_chunk >= 1 (sub-grouping by array_split), whatever the other plates,
   whatever the per-group draws (each a permutation of one reference enumeration ts0), every key
   is paired with the direct estimator of its own plate, in key order *)
Theorem C05_alone : forall orc T mc plates D draws ts0,
  (0 < T)%nat -> (0 < mc)%nat ->
  Forall (fun kp => plate_wf T (snd kp)) plates ->
  Forall (triple_valid T) ts0 ->
  length draws = ceil_div (length plates) mc ->
  Forall (Permutation ts0) draws ->
  scorer orc mc plates D draws = map (fun kp => (fst kp, direct orc D 1%Qc ts0 (snd kp))) plates.
Proof. exact scorer_eq_direct. Qed.
Print Assumptions C05_alone.

(* hence: the same plate under the same key in two different scorer calls (other plates, their
   sizes, max_chunk, plate order, draws all different) receives the same score *)
Theorem C05_alone_pairwise : forall orc T D ts0 mc1 plates1 draws1 mc2 plates2 draws2 k pl s1 s2,
  (0 < T)%nat -> Forall (triple_valid T) ts0 ->
  (0 < mc1)%nat -> Forall (fun kp => plate_wf T (snd kp)) plates1 ->
  length draws1 = ceil_div (length plates1) mc1 -> Forall (Permutation ts0) draws1 ->
  (0 < mc2)%nat -> Forall (fun kp => plate_wf T (snd kp)) plates2 ->
  length draws2 = ceil_div (length plates2) mc2 -> Forall (Permutation ts0) draws2 ->
  NoDup (map fst plates1) -> NoDup (map fst plates2) ->
  In (k, pl) plates1 -> In (k, pl) plates2 ->
  In (k, s1) (scorer orc mc1 plates1 D draws1) -> In (k, s2) (scorer orc mc2 plates2 D draws2) ->
  s1 = s2.
Proof. exact scorer_alone. Qed.
Print Assumptions C05_alone_pairwise.

(* homoscedastic wrapper = heteroscedastic wrapper on the row-constant variance arrays, as coded *)
Theorem C05_wrappers_agree : forall orc preds variances D df ts,
  length preds = length variances ->
  homo orc preds variances D df ts = hetero orc (homo_plates preds variances) D df ts.
Proof. exact homo_eq_hetero. Qed.
Print Assumptions C05_wrappers_agree.

Theorem C05_homo_eq_direct : forall orc T preds variances D df ts,
  (0 < T)%nat -> length preds = length variances ->
  Forall (plate_wf T) (homo_plates preds variances) -> Forall (triple_valid T) ts ->
  homo orc preds variances D df ts = map (direct orc D df ts) (homo_plates preds variances).
Proof. exact homo_eq_direct. Qed.
Print Assumptions C05_homo_eq_direct.

(* permuting the experiments (columns of means and variances alike) of one plate changes nothing *)
Theorem C05_perm_experiments : forall orc T D df ts before pl after pi,
  (0 < T)%nat -> Forall (plate_wf T) (before ++ pl :: after) -> Forall (triple_valid T) ts ->
  Permutation pi (seq 0 (n_exp pl)) ->
  hetero orc (before ++ permute_plate pi pl :: after) D df ts = hetero orc (before ++ pl :: after) D df ts.
Proof. exact hetero_perm_experiments. Qed.
Print Assumptions C05_perm_experiments.

Theorem C05_perm_experiments_direct : forall orc T D df ts pl pi,
  (0 < T)%nat -> plate_wf T pl -> Forall (triple_valid T) ts ->
  Permutation pi (seq 0 (n_exp pl)) ->
  direct orc D df ts (permute_plate pi pl) = direct orc D df ts pl.
Proof. exact direct_perm_experiments. Qed.
Print Assumptions C05_perm_experiments_direct.

(* the score is -inf exactly when every enumerated triple has zero summed distance *)
Theorem C05_finite_iff : forall orc D df ts pl,
  direct orc D df ts pl <> None <-> exists t, In t ts /\ k_dsum D t <> 0%Qc.
Proof. exact direct_finite_iff. Qed.
Print Assumptions C05_finite_iff.

(* relabelling the posterior samples by any permutation sg (new sample i = old sample sg[i]),
   consistently in means, variances and a symmetric matrix, leaves every score unchanged when
   both runs enumerate every triple a > b > c exactly once (in any order) *)
Theorem C05_relabel : forall orc T sg plates D df ts ts',
  (0 < T)%nat -> Permutation sg (seq 0 T) -> Forall (plate_wf T) plates -> sym_on T D ->
  complete T ts -> complete T ts' ->
  hetero orc (map (relabel_plate sg) plates) (relabel_matrix sg D) df ts' = hetero orc plates D df ts.
Proof. exact hetero_relabel. Qed.
Print Assumptions C05_relabel.

Theorem C05_relabel_direct : forall orc T sg D df ts ts' pl,
  (0 < T)%nat -> Permutation sg (seq 0 T) -> plate_wf T pl -> sym_on T D ->
  complete T ts -> complete T ts' ->
  direct orc (relabel_matrix sg D) df ts' (relabel_plate sg pl) = direct orc D df ts pl.
Proof. exact direct_relabel. Qed.
Print Assumptions C05_relabel_direct.

(* on well-formed input none of the ValueErrors fires: the entry point returns the pure value
   on the triples obtained from the recorded draw by the modelled unranking *)
Theorem C05_checked_ok : forall orc T plates D df idxs,
  (3 <= T)%nat -> plates <> [] -> Forall (plate_wf T) plates -> rect T T D ->
  hetero_checked orc plates D df idxs
  = res_bind (triples_of_draw T idxs) (fun ts => Ok (hetero orc plates D df ts)).
Proof. exact hetero_checked_ok. Qed.
Print Assumptions C05_checked_ok.

(* likewise the scorer as run through the wire (checks + unranking of one recorded draw per
   sub-group) returns the pure scorer value of C05_alone *)
Theorem C05_scorer_checked_ok : forall orc T D, (3 <= T)%nat -> rect T T D ->
  forall mc plates draws_idx draws_ts,
  (0 < mc)%nat -> plates <> [] ->
  Forall (fun kp => plate_wf T (snd kp)) plates ->
  Forall2 (fun idxs ts => triples_of_draw T idxs = Ok ts) draws_idx draws_ts ->
  scorer_checked orc mc plates D draws_idx = Ok (scorer orc mc plates D draws_ts).
Proof. exact scorer_checked_ok. Qed.
Print Assumptions C05_scorer_checked_ok.

(* ==== composition: the premise "all triples are enumerated" is DISCHARGED, not assumed ====
   What the source links provide about a call is a recorded rng.choice answer d obeying numpy's contract
   (choice_ok n k d: k distinct values of range(n)).  When the budget covers C(T,3) the call is
   rng.choice(C(T,3), size=C(T,3), replace=False); property C15's bijection then makes the unranked triples a complete
   enumeration, and C05_alone / C05_vectorised_eq_direct apply.  comb3 T = C(T,3) (C15_comb3_is_binomial). *)
From Batchie Require Import Model.Binom Proofs.C15UseSite Proofs.C05Compose Proofs.C05Domain.

(* a full draw unranks WITHOUT ERROR to every triple a > b > c below T exactly once, all of them valid *)
Theorem C05_full_draw_complete : forall (T : nat) (d : list Z),
  (3 <= T)%nat -> choice_ok (comb3 (Z.of_nat T)) (comb3 (Z.of_nat T)) d = true ->
  exists ts, triples_of_draw T d = Ok ts /\ complete T ts /\ Forall (triple_valid T) ts.
Proof. exact full_draw_complete. Qed.
Print Assumptions C05_full_draw_complete.

(* any contract-obeying draw (sub-sampled budgets included) unranks without error to k distinct valid triples: the
   hypothesis `triples_of_draw T idxs = Ok ts` of C05_checked_ok / C05_scorer_checked_ok always holds *)
Theorem C05_draw_valid : forall (T : nat) (k : Z) (d : list Z),
  choice_ok (comb3 (Z.of_nat T)) k d = true ->
  exists ts, triples_of_draw T d = Ok ts /\ Z.of_nat (length ts) = k /\ NoDup ts /\ Forall (triple_valid T) ts.
Proof. exact sub_draw_valid. Qed.
Print Assumptions C05_draw_valid.

(* END TO END on the translated GaussianDBALScorer.score: T >= 3 samples, a square T x T matrix, any max_chunk >= 1, any dict
   of well-formed plates, every recorded answer a full draw (budget >= C(T,3)): the translation returns - no error - each key
   with the direct estimator of ITS OWN plate on one reference enumeration ts0 (any complete one).  The right-hand side
   mentions neither max_chunk, nor the other plates, nor the draws: that is the independence the property states *)
Theorem C05_source_score_full_enumeration : forall orc (T mc : nat) (plates : list (Z * pyplate)) (D : arr2) (draws : list (list Z)) ts0,
  (3 <= T)%nat -> rect T T D -> (0 < mc)%nat ->
  NoDup (map fst plates) -> sel_uniform plates ->
  Forall (fun kp => plate_wf T (snd (snd kp))) plates ->
  (ceil_div (length plates) mc <= length draws)%nat ->
  Forall (fun d => choice_ok (comb3 (Z.of_nat T)) (comb3 (Z.of_nat T)) d = true) draws ->
  complete T ts0 ->
  src_score orc (Z.of_nat mc) plates D draws
  = Ok (map (fun kp => (fst kp, direct orc D 1%Qc ts0 (snd (snd kp)))) plates).
Proof. exact src_score_full_enumeration. Qed.
Print Assumptions C05_source_score_full_enumeration.

(* the same for the translated heteroscedastic wrapper ... *)
Theorem C05_source_hetero_full_enumeration : forall orc (T : nat) (plates : list plate) (D : arr2) df idxs ts0,
  (3 <= T)%nat -> rect T T D -> plates <> [] -> Forall (plate_wf T) plates ->
  choice_ok (comb3 (Z.of_nat T)) (comb3 (Z.of_nat T)) idxs = true -> complete T ts0 ->
  src_hetero orc (map fst plates) (map snd plates) D df idxs = Ok (map (direct orc D df ts0) plates).
Proof. exact src_hetero_full_enumeration. Qed.
Print Assumptions C05_source_hetero_full_enumeration.

(* ... and for the vectorised kernel through its TRANSLATED shape checks and its TRANSLATED index-to-triple run with a budget
   max_combos >= C(T,3) (then tensor expressions `kernel`, not translated) on the padded arrays of any plate list *)
Theorem C05_source_kernel_full_enumeration : forall orc (T : nat) (plates : list plate) (D : arr2) df (mc : Z) (d : list Z) rest ts0,
  (3 <= T)%nat -> rect T T D -> plates <> [] -> Forall (plate_wf T) plates ->
  (comb3 (Z.of_nat T) <= mc)%Z ->
  choice_ok (comb3 (Z.of_nat T)) (comb3 (Z.of_nat T)) d = true -> complete T ts0 ->
  (dor _ <- src_kernel_checks (pad_means (map fst plates)) (pad_vars (map snd plates)) D;
   dor r <- src_kernel_triples (pad_means (map fst plates)) mc (d :: rest);
   Ok (kernel orc (pad_means (map fst plates)) (pad_vars (map snd plates)) D df (nat_triples (fst r))))
  = Ok (map (direct orc D df ts0) plates).
Proof. exact src_kernel_full_enumeration. Qed.
Print Assumptions C05_source_kernel_full_enumeration.

(* ==== the domain on which the model's totalisations are never reached (see the header) ==== *)
(* positive variances: alpha > 0 on every cell the kernel computes with (NaN-padded cells carry variance 1) *)
Theorem C05_domain_alpha_positive : forall (vars : arr3n) p t e, vars_pos vars -> (0 < k_alpha vars p t e)%Qc.
Proof. exact k_alpha_pos. Qed.
Print Assumptions C05_domain_alpha_positive.
Theorem C05_domain_alpha_positive_direct : forall v1 v2 v3 : Qc,
  (0 < v1 -> 0 < v2 -> 0 < v3 -> 0 < v1 * v2 + v2 * v3 + v1 * v3)%Qc.
Proof. exact triple_alpha_pos. Qed.
Print Assumptions C05_domain_alpha_positive_direct.
(* non-negative matrix: the log-distance term is -inf exactly at summed distance 0, else df * ln of a POSITIVE number *)
Theorem C05_domain_distance_term : forall orc (D : arr2) df t, matrix_nonneg D ->
  (k_dsum D t = 0%Qc /\ k_ltd orc D df t = None) \/
  ((0 < k_dsum D t)%Qc /\ k_ltd orc D df t = Some (df * ln orc (k_dsum D t))%Qc).
Proof. exact k_ltd_domain. Qed.
Print Assumptions C05_domain_distance_term.

(* ---- non-vacuity: concrete instances, oracle = simple rational functions ---- *)
Definition ex_orc : oracle := fun code x => if Z.eqb code 0 then (x - 1)%Qc else (1 + x * Q2Qc (1 # 2))%Qc.
Definition q (n : Z) (d : positive) : Qc := Q2Qc (n # d).
(* T = 4; plate A has 2 experiments, plate B has 1 (so B is padded) *)
Definition ex_A : plate :=
  ([[q 1 2; q 0 1]; [q 1 1; q (-1) 4]; [q 3 2; q 1 8]; [q 0 1; q 2 1]],
   [[q 1 1; q 2 1]; [q 1 4; q 1 1]; [q 4 1; q 1 2]; [q 1 1; q 8 1]]).
Definition ex_B : plate :=
  ([[q 1 1]; [q (-1) 2]; [q 1 4]; [q 3 1]], [[q 2 1]; [q 1 8]; [q 1 1]; [q 1 2]]).
Definition ex_D : list (list Qc) :=
  [[q 0 1; q 1 1; q 0 1; q 2 1]; [q 1 1; q 0 1; q 0 1; q 1 2]; [q 0 1; q 0 1; q 0 1; q 0 1]; [q 2 1; q 1 2; q 0 1; q 0 1]].
Definition ex_ts : list triple := [(3, 2, 1); (2, 1, 0); (3, 1, 0); (3, 2, 0)]%nat.
Definition show (l : list ext) : list (option Q) := map (option_map this) l.

Example C05_ex_draw : triples_of_draw 4 [3; 0; 1; 2]%Z = Ok ex_ts.
Proof. vm_compute. reflexivity. Qed.

Example C05_ex_wf : Forall (plate_wf 4) [ex_A; ex_B] /\ Forall (triple_valid 4) ex_ts.
Proof.
  split.
  - repeat constructor; [exists 2%nat|exists 1%nat]; repeat constructor.
  - repeat constructor.
Qed.

(* padded arrays really are padded, the two plates get different finite scores, and they are the
   direct one-plate values *)
Example C05_ex_padding : map (map (map (option_map this))) (pad_vars (map snd [ex_A; ex_B]))
  = [[[Some (1#1); Some (2#1)]; [Some (1#4); Some (1#1)]; [Some (4#1); Some (1#2)]; [Some (1#1); Some (8#1)]];
     [[Some (2#1); None]; [Some (1#8); None]; [Some (1#1); None]; [Some (1#2); None]]]%Q.
Proof. vm_compute. reflexivity. Qed.

Example C05_ex_scores :
  show (hetero ex_orc [ex_A; ex_B] ex_D 1%Qc ex_ts) = show (map (direct ex_orc ex_D 1%Qc ex_ts) [ex_A; ex_B])
  /\ show (hetero ex_orc [ex_A; ex_B] ex_D 1%Qc ex_ts) = show [direct ex_orc ex_D 1%Qc ex_ts ex_A; direct ex_orc ex_D 1%Qc ex_ts ex_B]
  /\ show [direct ex_orc ex_D 1%Qc ex_ts ex_A] <> show [direct ex_orc ex_D 1%Qc ex_ts ex_B]
  /\ direct ex_orc ex_D 1%Qc ex_ts ex_A <> None.
Proof. vm_compute. repeat split; discriminate. Qed.

(* scorer: 3 keys, max_chunk 2 -> groups of sizes 2 and 1, each with its own draw order *)
Example C05_ex_scorer :
  map (fun ks => (fst ks, option_map this (snd ks)))
      (scorer ex_orc 2 [(7%Z, ex_B); (3%Z, ex_A); (5%Z, ex_B)] ex_D [ex_ts; rev ex_ts])
  = map (fun kp => (fst kp, option_map this (direct ex_orc ex_D 1%Qc ex_ts (snd kp))))
        [(7%Z, ex_B); (3%Z, ex_A); (5%Z, ex_B)].
Proof. vm_compute. reflexivity. Qed.

(* an all-zero matrix gives -inf; one positive pair makes the score finite *)
Example C05_ex_neg_inf :
  hetero ex_orc [ex_A; ex_B] (repeat (repeat 0%Qc 4) 4) 1%Qc ex_ts = [None; None].
Proof. vm_compute. reflexivity. Qed.

(* the premise "all triples enumerated" matters: two different sub-samples of the triples
   give different scores, so the theorems above are not true for trivial reasons *)
Example C05_ex_subsample_matters :
  option_map this (direct ex_orc ex_D 1%Qc [(3, 2, 1)]%nat ex_A)
  <> option_map this (direct ex_orc ex_D 1%Qc [(3, 1, 0)]%nat ex_A).
Proof. vm_compute. discriminate. Qed.

(* complete enumerations exist (T = 3: the single triple), and relabelling is exercised *)
Example C05_ex_complete : complete 3 [(2, 1, 0)]%nat.
Proof.
  split; [repeat constructor; intros []|].
  intros a b c. split.
  - intros [H|[]]. inversion H. lia.
  - intros H. left. assert (a = 2 /\ b = 1 /\ c = 0)%nat as (-> & -> & ->) by lia. reflexivity.
Qed.

Definition ex_C : plate := ([[q 1 2; q 0 1]; [q 1 1; q (-1) 4]; [q 3 2; q 1 8]], [[q 1 1; q 2 1]; [q 1 4; q 1 1]; [q 4 1; q 1 2]]).
Definition ex_D3 : list (list Qc) := [[q 0 1; q 1 1; q 3 1]; [q 1 1; q 0 1; q 1 2]; [q 3 1; q 1 2; q 0 1]].
Example C05_ex_relabel :
  relabel_plate [2; 0; 1]%nat ex_C <> ex_C
  /\ show (hetero ex_orc [relabel_plate [2; 0; 1]%nat ex_C] (relabel_matrix [2; 0; 1]%nat ex_D3) 1%Qc [(2, 1, 0)]%nat)
     = show (hetero ex_orc [ex_C] ex_D3 1%Qc [(2, 1, 0)]%nat)
  /\ hetero ex_orc [ex_C] ex_D3 1%Qc [(2, 1, 0)]%nat <> [None].
Proof. vm_compute. repeat split; discriminate. Qed.

(* ==== source-translation links ====
   The src_* functions are the Gallina translations of the functions of /repo's scoring/gaussian_dbal.py, regenerated
   on every run (Generated/SrcDbal.v; harness/py2gal.py with the configurations C05_* of harness/src_functions.py).
   Float arrays are lists of lists of exact rationals, NaN = None; a ScreenSubset is (selection_vector, (means,
   variances)) = what predict_mean_all / predict_variance_all return for it; `draws` are the recorded rng.choice answers. *)

(* GaussianDBALScorer.score, whole method, for EVERY integer max_chunk: the translation equals the model scorer (with
   the ZeroDivisionError / np.array_split ValueError of a non-positive max_chunk in front: scorer_py).  Hypotheses, all
   facts about every reachable call: the plates dict has distinct keys (it is a dict); the plates' selection vectors have
   one common length (they are views of one screen; they only feed a mask nothing reads); one recorded rng.choice answer
   is available per sub-group (the kernel is called once per sub-group). *)
Theorem C05_model_is_source_score : forall orc (max_chunk : Z) (plates : list (Z * pyplate)) (D : arr2) (draws : list (list Z)),
  NoDup (map fst plates) -> sel_uniform plates ->
  (ceil_div (length plates) (Z.to_nat max_chunk) <= length draws)%nat ->
  src_score orc max_chunk plates D draws = scorer_py orc max_chunk (forget_sel plates) D draws.
Proof. exact src_score_is_model. Qed.
Print Assumptions C05_model_is_source_score.

(* for a positive max_chunk that is the model scorer of C05_scorer_checked_ok / C05_alone itself *)
Theorem C05_model_is_source_score_positive_chunk : forall orc (mc : nat) (plates : list (Z * pyplate)) D draws,
  (0 < mc)%nat -> NoDup (map fst plates) -> sel_uniform plates ->
  (ceil_div (length plates) mc <= length draws)%nat ->
  src_score orc (Z.of_nat mc) plates D draws = scorer_checked orc mc (forget_sel plates) D draws.
Proof. exact src_score_is_scorer_checked. Qed.
Print Assumptions C05_model_is_source_score_positive_chunk.

(* pad_ragged_arrays_to_dense_array, whole function, any element type, any pad value, ALL inputs: np.max of no arrays
   raises, otherwise the model's pad_ragged *)
Theorem C05_model_is_source_pad_ragged_arrays_to_dense_array : forall (A : Type) (arrays : list (list (list A))) (pad : A),
  src_pad A arrays pad = match arrays with [] => Err 27%Z | _ => Ok (pad_ragged pad arrays) end.
Proof. exact src_pad_is_model. Qed.
Print Assumptions C05_model_is_source_pad_ragged_arrays_to_dense_array.

(* the two padding calls the scorer and the wrappers make (primitives of their translations) ARE that translation *)
Theorem C05_model_is_source_pad_means : forall ms, pad_means_py ms = src_pad Qc ms 0%Qc.
Proof. exact pad_means_py_is_source. Qed.
Print Assumptions C05_model_is_source_pad_means.
Theorem C05_model_is_source_pad_vars : forall vs, pad_vars_py vs = src_pad (option Qc) (map (map (map Some)) vs) None.
Proof. exact pad_vars_py_is_source. Qed.
Print Assumptions C05_model_is_source_pad_vars.

(* dbal_fast_gaussian_scoring_heteroscedastic, whole function, on the means / variances of ANY plate list *)
Theorem C05_model_is_source_heteroscedastic : forall orc (plates : list plate) D df idxs,
  src_hetero orc (map fst plates) (map snd plates) D df idxs
  = match plates with [] => Err 27%Z | _ => hetero_checked orc plates D df idxs end.
Proof. exact src_hetero_is_model. Qed.
Print Assumptions C05_model_is_source_heteroscedastic.

(* dbal_fast_gaussian_scoring_homoscedastic, whole function, ALL inputs *)
Theorem C05_model_is_source_homoscedastic : forall orc (preds : list arr2) (variances : arr2) D df idxs,
  src_homo orc preds variances D df idxs
  = match preds with
    | [] => match variances with [] => Err 27%Z | _ => Err 25%Z end
    | _ => homo_checked orc preds variances D df idxs
    end.
Proof. exact src_homo_is_model. Qed.
Print Assumptions C05_model_is_source_homoscedastic.

(* dbal_fast_gauss_scoring_vectorized: its three shape checks (a run of top-level statements), ALL inputs *)
Theorem C05_model_is_source_kernel_checks : forall (pred : arr3) (vars : arr3n) (D : arr2),
  src_kernel_checks pred vars D
  = let '(np, T, E) := shape3 pred in
    let '(np', T', E') := shape3 vars in
    if negb (Nat.eqb np np' && Nat.eqb T T' && Nat.eqb E E') then Err 20%Z
    else if negb (Nat.eqb (fst (shape2 D)) (snd (shape2 D))) then Err 21%Z
    else if negb (Nat.eqb (fst (shape2 D)) T) then Err 22%Z
    else Ok tt.
Proof. exact src_kernel_checks_spec. Qed.
Print Assumptions C05_model_is_source_kernel_checks.

(* its index-to-triple run (n_combos = comb(n_thetas, 3), the raise below 3 samples, min with the budget, rng.choice,
   get_combination_at_sorted_index per index, the three index arrays), for a budget >= 1 and a recorded answer d that
   obeys numpy's contract for rng.choice(comb, size=min(comb, budget), replace=False) *)
Theorem C05_model_is_source_kernel_triples : forall (pred : arr3) (mc : Z) (d : list Z) (rest : list (list Z)) np T E,
  shape3 pred = (np, T, E) -> (1 <= mc)%Z ->
  choice_ok (comb3 (Z.of_nat T)) (Z.min (comb3 (Z.of_nat T)) mc) d = true ->
  src_kernel_triples pred mc (d :: rest)
  = if (T <? 3)%nat then Err 23%Z
    else dor zs <- res_map_all (fun i => unrank3 i (Z.of_nat T)) d;
         dor t3 <- unzip3 zs;
         Ok (t3, rest).
Proof. exact src_kernel_triples_spec. Qed.
Print Assumptions C05_model_is_source_kernel_triples.

(* hence the model's checked kernel (what every theorem above about hetero_checked / scorer_checked runs) IS: the
   translated checks, then the translated index run on the recorded answer, then the tensor expressions [kernel]
   (not translated: correspondence only) on the triples that run delivers *)
Theorem C05_model_is_source_kernel : forall orc (pred : arr3) (vars : arr3n) (D : arr2) df (mc : Z) (d : list Z) rest,
  (1 <= mc)%Z ->
  (let T := Z.of_nat (snd (fst (shape3 pred))) in choice_ok (comb3 T) (Z.min (comb3 T) mc) d = true) ->
  kernel_checked orc pred vars D df d
  = dor _ <- src_kernel_checks pred vars D;
    dor r <- src_kernel_triples pred mc (d :: rest);
    Ok (kernel orc pred vars D df (nat_triples (fst r))).
Proof. exact kernel_checked_is_source. Qed.
Print Assumptions C05_model_is_source_kernel.

(* non-vacuity of the links' hypotheses: a dict of three plates with distinct keys and selection vectors of one length,
   two recorded draws obeying the contract; the translation runs to a value (no error), the one of C05_ex_scorer *)
Definition ex_py : list (Z * pyplate) :=
  [(7%Z, ([true; false; false], ex_B)); (3%Z, ([false; true; true], ex_A)); (5%Z, ([true; false; false], ex_B))].
Example C05_ex_source_hyps :
  NoDup (map fst ex_py) /\ sel_uniform ex_py /\ (ceil_div (length ex_py) (Z.to_nat 2) <= length [[3; 0; 1; 2]; [2; 1; 0; 3]]%Z)%nat
  /\ choice_ok (comb3 4) (Z.min (comb3 4) 5000) [3; 0; 1; 2]%Z = true.
Proof.
  split; [|split; [|split]].
  - repeat constructor; cbn; intuition discriminate.
  - exists 3%nat. repeat constructor.
  - vm_compute. lia.
  - vm_compute. reflexivity.
Qed.
Example C05_ex_source_score :
  option_map (map (fun ks => (fst ks, option_map this (snd ks))))
    (match src_score ex_orc 2 ex_py ex_D [[3; 0; 1; 2]; [2; 1; 0; 3]]%Z with Ok r => Some r | Err _ => None end)
  = Some (map (fun ks => (fst ks, option_map this (snd ks)))
              (scorer ex_orc 2 [(7%Z, ex_B); (3%Z, ex_A); (5%Z, ex_B)] ex_D [ex_ts; rev ex_ts])).
Proof. vm_compute. reflexivity. Qed.

(* ---- the constructor of GaussianDBALScorer (Generated/SrcInits.v): __init__ stores max_chunk and max_triples (defaults 50 / 5000,
   checked against the signature), the attributes the translated score reads / hands to the kernel as max_combos ---- *)
From Batchie Require Generated.SrcInits Proofs.C05Source_Init_DBALScorer.
Theorem C05_model_is_source_init : forall max_chunk max_triples : Z, SrcInits.src_dbal_scorer_init max_chunk max_triples = Ok (max_chunk, max_triples).
Proof. exact C05Source_Init_DBALScorer.src_dbal_scorer_init_stores. Qed.
Print Assumptions C05_model_is_source_init.

(* non-vacuity of the composition: T = 4, the recorded answers of C05_ex_source_hyps ARE full draws (C(4,3) = 4 <= 5000),
   ex_ts is a complete enumeration, the plates are well-formed, the matrix is 4 x 4 *)
Example C05_ex_full_enumeration_hyps :
  Forall (fun d => choice_ok (comb3 4) (comb3 4) d = true) [[3; 0; 1; 2]; [2; 1; 0; 3]]%Z
  /\ rect 4 4 ex_D /\ Forall (fun kp : Z * pyplate => plate_wf 4 (snd (snd kp))) ex_py.
Proof.
  split; [repeat constructor|]. split; [repeat constructor|].
  repeat constructor; [exists 1%nat|exists 2%nat|exists 1%nat]; repeat constructor.
Qed.
Example C05_ex_full_draw : exists ts, triples_of_draw 4 [3; 0; 1; 2]%Z = Ok ts /\ complete 4 ts.
Proof.
  destruct (C05_full_draw_complete 4 [3; 0; 1; 2]%Z ltac:(lia) eq_refl) as (ts & E & Hc & _). now exists ts.
Qed.

(* ---- the dtype of the dense array (/repo e2f4d4e: np.result_type over ALL the arrays and the pad value) ----
   The theorems above read a plate's values out of the dense array unchanged.  At the level of numpy dtypes that needs the dense
   array to hold every plate's dtype; [pad_dtype] is the dtype the repaired allocation takes (floating-point arrays by precision;
   checked against the real function on every run, wire op 5). *)
(* no plate is rounded when it is stored: the dense dtype holds the dtype of EVERY plate of the call, wherever it stands *)
Theorem C05_pad_dtype_holds_every_plate : forall ds dense,
  pad_dtype ds = Ok dense -> forall d, In d ds -> dt_le d dense = true.
Proof. exact pad_dtype_holds_every_plate. Qed.
Print Assumptions C05_pad_dtype_holds_every_plate.

Theorem C05_pad_dtype_stored_exactly : forall ds dense k,
  pad_dtype ds = Ok dense -> stored_exactly dense ds k = true.
Proof. exact pad_dtype_stored_exactly. Qed.
Print Assumptions C05_pad_dtype_stored_exactly.

(* and nothing is widened beyond need: the dense dtype is the dtype of one of the plates (an all-float32 call stays float32) *)
Theorem C05_pad_dtype_is_a_plate_dtype : forall ds dense, pad_dtype ds = Ok dense -> In dense ds.
Proof. exact pad_dtype_is_a_plate_dtype. Qed.
Print Assumptions C05_pad_dtype_is_a_plate_dtype.

(* the order of the plates (which plate stands first) does not matter *)
Theorem C05_pad_dtype_order_irrelevant : forall ds ds', Permutation ds ds' -> pad_dtype ds = pad_dtype ds'.
Proof. exact pad_dtype_perm. Qed.
Print Assumptions C05_pad_dtype_order_irrelevant.

(* the code BEFORE the repair (dtype of the first plate): a float64 plate behind a float32 plate was rounded, and the two orders
   of the same two plates were stored at different precisions *)
Theorem C05_pad_dtype_first_plate_refuted : exists ds dense k,
  pad_dtype_of true ds = Ok dense /\ stored_exactly dense ds k = false.
Proof. exact pad_dtype_first_only_rounds. Qed.
Print Assumptions C05_pad_dtype_first_plate_refuted.

Theorem C05_pad_dtype_first_plate_order_refuted : exists ds ds',
  Permutation ds ds' /\ pad_dtype_of true ds <> pad_dtype_of true ds'.
Proof. exact pad_dtype_first_only_order. Qed.
Print Assumptions C05_pad_dtype_first_plate_order_refuted.

Example C05_ex_pad_dtype : pad_dtype [F32; F64; F16] = Ok F64 /\ pad_dtype [F32; F16] = Ok F32 /\ pad_dtype [] = Err 27%Z
  /\ pad_dtype_of true [F32; F64; F16] = Ok F32.
Proof. vm_compute. repeat split. Qed.
