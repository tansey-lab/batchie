(* C03 — Identifiers stay stable through the whole simulation lifecycle.
   Statements only: a proof is `exact <lemma from Proofs/>` (or a split into such), a concrete example is closed by evaluation.

   Vocabulary (Proofs/C03Frozen.v, Model/Reveal.v, Model/Holdout.v):
     holdout_split p sel          the (training, test) pair the hold-out code constructs from parent p and the
                                  recorded selection vector sel
     history v ops s              fold_left (step v) ops s in the result monad
     lifecycle v p sel test ops   split, then the history on the chosen half
     variant v                    which of reveal_plates / mask_screen / unmask_screen pass the parent's mappings
                                  to Screen(...):  carry_mappings true  = the code as it stands (/repo e414171),
                                                   carry_mappings false = the construction before that repair
     frozen_to p s                s carries p's treatment and sample mapping verbatim, and every sample id /
                                  treatment id of s is p's mapping entry for that row's name / (name, dose)
   predict_stable (posterior samples predict the same for the same experiments at every stage) follows, and is
   stated at the end (C03_predict_stable and its variants): the models index their embeddings by exactly these ids
   (sparse_combo.py:675-713) and C09 proves predictions row-wise in the ids. *)
From Coq Require Import ZArith List Bool.
From Batchie Require Import Lib.Sexp Generated.Consts Generated.SrcArithC03 Model.Encode Model.Screen Model.Reveal Model.Holdout
  Proofs.C03Base Proofs.C03Screen Proofs.C12Reveal Proofs.C03Frozen Proofs.C03Witness Generated.SrcReveal
  Proofs.C12Source_Base Proofs.C12Source_Reveal Proofs.C12Source_Variant.
Import ListNotations.
Open Scope Z_scope.

(* both halves of ANY split carry the parent's mappings and number their rows by them — true of the code today *)
Theorem C03_split_keeps_mappings : forall p sel pr test,
  holdout_split p sel = Ok pr -> frozen_to p (half test pr).
Proof. exact split_frozen. Qed.
Print Assumptions C03_split_keeps_mappings.

(* the parent's own ids are its mapping's entries (so "frozen to p" means "same ids as p") *)
Theorem C03_parent_ids_are_its_mapping : forall p, constructed p -> frozen_to p p.
Proof. exact parent_frozen. Qed.
Print Assumptions C03_parent_ids_are_its_mapping.

(* REPAIRED construction: after any history on either half, mappings and ids are the parent's *)
(* the variant of the model that the theorems below prove frozen IS the one the source implements:
   the three booleans are read from the Screen(...) call sites of reveal_plates / mask_screen /
   unmask_screen on every run (do they pass treatment_mapping=screen.treatment_mapping and
   sample_mapping=screen.sample_mapping?) *)
Theorem C03_source_carries_mappings :
  {| carry_reveal := SRC_reveal_plates_carries_mappings; carry_mask := SRC_mask_screen_carries_mappings;
     carry_unmask := SRC_unmask_screen_carries_mappings |} = carry_mappings true.
Proof. reflexivity. Qed.
Print Assumptions C03_source_carries_mappings.

(* the same fact DERIVED FROM THE TRANSLATION of the three functions (Generated/SrcReveal.v, see Props/C12.v
   the C12_model_is_source theorems): Screen(...) is the model's constructor applied to the keyword arguments the call site passes,
   so a call site that stopped passing treatment_mapping= / sample_mapping= would translate to None there.
   src_step s o / src_lifecycle p sel test ops (Proofs/C12Source.v) run the TRANSLATED reveal_plates / mask_screen /
   unmask_screen (save+load and the split as in the model). *)
Theorem C03_model_is_source_step : forall s o, src_step s o = step (carry_mappings true) s o.
Proof. exact src_step_is_model. Qed.
Print Assumptions C03_model_is_source_step.

Theorem C03_model_is_source_lifecycle : forall p sel test ops,
  src_lifecycle p sel test ops = lifecycle (carry_mappings true) p sel test ops.
Proof. exact src_lifecycle_is_model. Qed.
Print Assumptions C03_model_is_source_lifecycle.

(* the translation DETERMINES the variant: the model equals the translated source on all inputs for exactly one
   variant, and that is the one the call-site constants above name - the constants are consistent with the
   translation (and no longer needed to know which variant the source is) *)
Theorem C03_source_variant_unique : forall v,
  (forall s o, src_step s o = step v s o) <->
  v = {| carry_reveal := SRC_reveal_plates_carries_mappings; carry_mask := SRC_mask_screen_carries_mappings;
         carry_unmask := SRC_unmask_screen_carries_mappings |}.
Proof. exact source_variant_unique. Qed.
Print Assumptions C03_source_variant_unique.

(* ids_frozen stated of the translated source functions themselves *)
Theorem C03_ids_frozen_of_source : forall p sel test ops s,
  src_lifecycle p sel test ops = Ok s -> frozen_to p s.
Proof. exact ids_frozen_of_source. Qed.
Print Assumptions C03_ids_frozen_of_source.

Theorem C03_ids_frozen : forall p sel test ops s,
  lifecycle (carry_mappings true) p sel test ops = Ok s -> frozen_to p s.
Proof. exact ids_frozen. Qed.
Print Assumptions C03_ids_frozen.

(* any variant: a history that only uses operations whose call site passes the mappings (save+load always
   does) keeps them — so the construction before the repair was safe exactly for histories of save / load alone *)
Theorem C03_ids_frozen_per_op : forall v p sel pr test ops s,
  holdout_split p sel = Ok pr ->
  (forall o, In o ops -> carries v o = true) ->
  history v ops (half test pr) = Ok s -> frozen_to p s.
Proof. exact ids_frozen_per_op. Qed.
Print Assumptions C03_ids_frozen_per_op.

(* same name => same id, same (treatment, dose) => same id, between any two stages of any two histories *)
Theorem C03_same_name_same_id : forall p s1 s2,
  frozen_to p s1 -> frozen_to p s2 ->
  (forall i j, (i < length (s_rows s1))%nat -> (j < length (s_rows s2))%nat ->
               sample_at s1 i = sample_at s2 j -> sample_id_at s1 i = sample_id_at s2 j) /\
  (forall i c j d, (i < length (s_rows s1))%nat -> (c < s_arity s1)%nat ->
                   (j < length (s_rows s2))%nat -> (d < s_arity s2)%nat ->
                   treat_at s1 i c = treat_at s2 j d -> treat_id_at s1 i c = treat_id_at s2 j d).
Proof. exact same_name_same_id. Qed.
Print Assumptions C03_same_name_same_id.

(* the experiment-space sizes (embedding sizes) of every stage equal the parent's: they never shrink *)
Theorem C03_sizes_never_shrink : forall p sel test ops s,
  lifecycle (carry_mappings true) p sel test ops = Ok s ->
  space_n_samples s = space_n_samples p /\ space_n_treatments s = space_n_treatments p.
Proof. exact sizes_never_shrink. Qed.
Print Assumptions C03_sizes_never_shrink.

(* The construction before the repair (no mappings passed): ids_frozen is FALSE.  There is a prepared simulation whose
   training half has sample ids 1 1 2 2 (the parent's) and after ONE reveal_plates has 0 0 1 1 for the same
   experiments; treatment ids likewise; the mappings differ from the parent's; the embedding sizes shrink. *)
Theorem C03_ids_frozen_refuted :
  exists rows sel p tr te s',
    mk_screen rows 1 [] None None true true = Ok p /\
    holdout_split p sel = Ok (tr, te) /\
    history (carry_mappings false) [Reveal [0]] tr = Ok s' /\
    map r_sample (s_rows s') = map r_sample (s_rows tr) /\
    s_sids tr = [1; 1; 2; 2] /\ s_sids s' = [0; 0; 1; 1] /\
    s_tids tr = [[1]; [1]; [2]; [2]] /\ s_tids s' = [[0]; [0]; [1]; [1]] /\
    s_smap s' <> s_smap p /\ s_tmap s' <> s_tmap p /\
    ~ frozen_to p s' /\
    (space_n_samples s' < space_n_samples p) /\ (space_n_treatments s' < space_n_treatments p).
Proof. exact reveal_refuted. Qed.
Print Assumptions C03_ids_frozen_refuted.

(* the same with a single mask_screen / a single unmask_screen in place of the reveal *)
Theorem C03_mask_refuted : refutes Mask.
Proof. exact mask_refuted. Qed.
Print Assumptions C03_mask_refuted.

Theorem C03_unmask_refuted : refutes Unmask.
Proof. exact unmask_refuted. Qed.
Print Assumptions C03_unmask_refuted.

(* non-vacuity: the witness simulation under the repaired construction runs a five-step history to the end
   (reveal, mask, unmask, save+load, reveal two plates) and keeps the ids 1 1 2 2 *)
Example C03_repaired_example :
  option_map s_sids (match lifecycle (carry_mappings true) w_parent w_sel false
                             [Reveal [0]; Mask; Unmask; SaveLoad; Reveal [1; 0]] with
                     | Ok s => Some s | Err _ => None end) = Some [1; 1; 2; 2].
Proof. vm_compute. reflexivity. Qed.
Example C03_test_half_example :
  option_map s_sids (match lifecycle (carry_mappings true) w_parent w_sel true [Mask; Reveal [0]] with
                     | Ok s => Some s | Err _ => None end) = Some [0; 0]
  /\ option_map s_sids (match lifecycle (carry_mappings false) w_parent w_sel true [SaveLoad; SaveLoad] with
                        | Ok s => Some s | Err _ => None end) = Some [0; 0].
Proof. vm_compute. split; reflexivity. Qed.

(* ---- the command-line wrappers prepare_retrospective_simulation.main and reveal_plate.main is what the source says NOW ----
   `src_cli_prepare` / `src_cli_reveal_plate` are the whole functions main of /repo's current
   batchie/cli/prepare_retrospective_simulation.py / reveal_plate.py, re-translated on every run (configurations CLI_PREPARE /
   CLI_REVEAL_PLATE -> Generated/SrcCli.v).  Cli.cli_prepare fixes the ORDER: filter, generator from --seed, initial plate or mask, plate
   generator, random reveal when there is no initial generator, smoother, the hold-out split LAST (on the smoothed screen), both saves;
   every drawing step receives the generator state its predecessor left.
   Model/Cli.v: the parsed arguments are a record of the plain argparse results (get_args() is not translated), `L` is a
   record of the library functions the wrapper calls over abstract types (each component stands for the library function
   of that name with its parameter list; `*_load_*` = what loading the file at a path yields), a main() denotes the list
   of (path, content) files it writes, Err = the exception that ends it.  The links hold for EVERY such record. *)
From Batchie Require Lib.PyRt Model.Cli Generated.SrcCli Proofs.C03SourceCli Proofs.C12SourceCli.
Theorem C03_model_is_source_cli_prepare_retrospective_simulation : forall (Scr Pl Ig Pg Ps : Type) (L : Cli.pr_lib Scr Pl Ig Pg Ps) (mix : Z -> Z) (a : Cli.pr_args),
  SrcCli.src_cli_prepare Scr Pl Ig Pg Ps L mix a
  = Cli.cli_prepare L mix a.
Proof. exact C03SourceCli.src_cli_prepare_is_model. Qed.
Print Assumptions C03_model_is_source_cli_prepare_retrospective_simulation.

Theorem C03_model_is_source_cli_reveal_plate : forall (Scr : Type) (L : Cli.rp_lib Scr) (a : Cli.rp_args),
  SrcCli.src_cli_reveal_plate Scr L a
  = Cli.cli_reveal_plate L a.
Proof. exact C12SourceCli.src_cli_reveal_plate_is_model. Qed.
Print Assumptions C03_model_is_source_cli_reveal_plate.

(* ---- the argument-handling glue of prepare_retrospective_simulation is what the source says NOW ----
   `src_pr_get_args` is the WHOLE function get_args of /repo's current batchie/cli/prepare_retrospective_simulation.py (parser.parse_args() is the primitive that
   yields the raw namespace; the statements after it - class lookup by name, required-argument annotations, cast of the KEY=VALUE
   parameters - are translated), `src_cli_prepare_cmd` is main() once more as a whole command, in which get_args() is the translated
   get_args and each `args.<x>_cls( **args.<x>_params)` is its `construct` on the two namespace attributes; both re-translated on every run (configurations
   ARGS_GET_ARGS_PR / ARGS_CMD_PR -> Generated/SrcCliArgs.v).  Model: the last part of Model/Cli.v; `I` = introspection.get_class /
   get_required_init_args_with_annotations (linked to their own translations in Props/C18.v), `P` = s.lower(), int(s), float(s), the call of
   another annotation object; cast_dict_to_type is the translated function (Props/C18.v).  The statements hold for EVERY such record. *)
From Batchie Require Proofs.C03SourceArgs Proofs.C18SourceIntrospect Generated.SrcCliArgs.
(* three class-valued options, resolved in source order (plate generator, initial plate generator, plate smoother), each only when
   given, each cast with the annotations of ITS OWN class; the plain arguments (--holdout-fraction among them) pass through unchanged *)
Theorem C03_model_is_source_cli_args_get_args : forall (Cls F O : Type) (I : Cli.introspect Cls) (P : Cli.pyprims F O)
  (raw : Cli.pr_ns Cls F O),
  SrcCliArgs.src_pr_get_args Cls F O I P raw = Cli.pr_get_args I P raw.
Proof. exact C03SourceArgs.src_pr_get_args_is_model. Qed.
Print Assumptions C03_model_is_source_cli_args_get_args.

Theorem C03_model_is_source_cli_args_prepare_retrospective_simulation :
  forall (Cls F O : Type) (I : Cli.introspect Cls) (P : Cli.pyprims F O) (Scr Pl Ig Pg Ps : Type)
         (construct_ig : Cls -> list (Cli.str * Cli.pval F O) -> result Ig)
         (construct_pg : Cls -> list (Cli.str * Cli.pval F O) -> result Pg)
         (construct_ps : Cls -> list (Cli.str * Cli.pval F O) -> result Ps) (L : Cli.pr_lib Scr Pl Ig Pg Ps) (mix : Z -> Z)
         (raw : Cli.pr_ns Cls F O),
  SrcCliArgs.src_cli_prepare_cmd Cls F O I P Scr Pl Ig Pg Ps construct_ig construct_pg construct_ps L mix raw
  = Cli.cli_prepare_cmd I P construct_ig construct_pg construct_ps L mix raw.
Proof. exact C03SourceArgs.src_cli_prepare_cmd_is_model. Qed.
Print Assumptions C03_model_is_source_cli_args_prepare_retrospective_simulation.

Theorem C03_model_is_source_cli_args_prepare_retrospective_simulation_world :
  forall (Mod Obj F O : Type) (W : Cli.pyworld Mod Obj) (P : Cli.pyprims F O) (Scr Pl Ig Pg Ps : Type)
         (construct_ig : Obj -> list (Cli.str * Cli.pval F O) -> result Ig)
         (construct_pg : Obj -> list (Cli.str * Cli.pval F O) -> result Pg)
         (construct_ps : Obj -> list (Cli.str * Cli.pval F O) -> result Ps) (L : Cli.pr_lib Scr Pl Ig Pg Ps) (mix : Z -> Z)
         (raw : Cli.pr_ns Obj F O),
  SrcCliArgs.src_cli_prepare_cmd Obj F O (C18SourceIntrospect.introspect_src W) P Scr Pl Ig Pg Ps construct_ig construct_pg construct_ps L mix raw
  = Cli.cli_prepare_cmd (Cli.introspect_of W) P construct_ig construct_pg construct_ps L mix raw.
Proof. exact C03SourceArgs.src_cli_prepare_cmd_world. Qed.
Print Assumptions C03_model_is_source_cli_args_prepare_retrospective_simulation_world.

Theorem C03_model_is_source_cli_args_plain_arguments_unchanged :
  forall (Cls F O : Type) (I : Cli.introspect Cls) (P : Cli.pyprims F O) (raw a : Cli.pr_ns Cls F O),
  SrcCliArgs.src_pr_get_args Cls F O I P raw = Ok a -> Cli.pr_plain a = Cli.pr_plain raw.
Proof. exact C03SourceArgs.src_pr_get_args_plain. Qed.
Print Assumptions C03_model_is_source_cli_args_plain_arguments_unchanged.

(* ---- the argparse option tables: get_parser() of prepare_retrospective_simulation / reveal_plate, re-read from /repo on every run by the fail-closed reader
   harness/argparse_reader.py (Generated/SrcParser_<command>.v; a get_parser that is not a plain sequence of literal
   parser.add_argument calls is refused and these theorems stop compiling).  What the argument records of Model/Cli.v assume of
   the namespace parse_args() yields - the premise of the C??_model_is_source_cli_* links - is provided by the declared options:
   Cli.declares = the attribute is the dest of EXACTLY ONE option, which stores the assumed kind of value and can be None exactly
   where the record has an option type; Cli.dests_derived = the dest the reader computed is argparse's derivation from the flags;
   Cli.dests_distinct = no dest and no flag is declared twice; Cli.seed_declared = --seed is an int option with a non-negative int
   default (get_prng_from_seed_argument never sees None); Cli.coordinates_int = --n-chunks / --chunk-index / --n-chains /
   --chain-index are int options that are never None; Cli.params_kv = every --*-param option accumulates through KVAppendAction;
   Cli.fraction_declared = --holdout-fraction is a float option with a default in [0, 1]. ---- *)

From Batchie Require Model.Cli Proofs.C18Parser Generated.SrcParser_prepare_retrospective_simulation Proofs.C18SourceParser_prepare_retrospective_simulation Generated.SrcParser_reveal_plate Proofs.C18SourceParser_reveal_plate.
Theorem C03_source_parser_prepare_retrospective_simulation_fields :
  forall f, In f (Cli.pr_fields ++ Cli.logging_fields) -> Cli.declares SrcParser_prepare_retrospective_simulation.src_parser_prepare_retrospective_simulation f.
Proof. exact C18SourceParser_prepare_retrospective_simulation.parser_prepare_retrospective_simulation_fields. Qed.
Print Assumptions C03_source_parser_prepare_retrospective_simulation_fields.

Theorem C03_source_parser_prepare_retrospective_simulation_dests_derived :
  Cli.dests_derived SrcParser_prepare_retrospective_simulation.src_parser_prepare_retrospective_simulation.
Proof. exact C18SourceParser_prepare_retrospective_simulation.parser_prepare_retrospective_simulation_dests_derived. Qed.
Print Assumptions C03_source_parser_prepare_retrospective_simulation_dests_derived.

Theorem C03_source_parser_prepare_retrospective_simulation_dests_distinct :
  Cli.dests_distinct SrcParser_prepare_retrospective_simulation.src_parser_prepare_retrospective_simulation.
Proof. exact C18SourceParser_prepare_retrospective_simulation.parser_prepare_retrospective_simulation_dests_distinct. Qed.
Print Assumptions C03_source_parser_prepare_retrospective_simulation_dests_distinct.

Theorem C03_source_parser_prepare_retrospective_simulation_seed :
  Cli.seed_declared SrcParser_prepare_retrospective_simulation.src_parser_prepare_retrospective_simulation.
Proof. exact C18SourceParser_prepare_retrospective_simulation.parser_prepare_retrospective_simulation_seed. Qed.
Print Assumptions C03_source_parser_prepare_retrospective_simulation_seed.

Theorem C03_source_parser_prepare_retrospective_simulation_params :
  Cli.params_kv SrcParser_prepare_retrospective_simulation.src_parser_prepare_retrospective_simulation.
Proof. exact C18SourceParser_prepare_retrospective_simulation.parser_prepare_retrospective_simulation_params. Qed.
Print Assumptions C03_source_parser_prepare_retrospective_simulation_params.

Theorem C03_source_parser_reveal_plate_fields :
  forall f, In f (Cli.rp_fields ++ Cli.logging_fields) -> Cli.declares SrcParser_reveal_plate.src_parser_reveal_plate f.
Proof. exact C18SourceParser_reveal_plate.parser_reveal_plate_fields. Qed.
Print Assumptions C03_source_parser_reveal_plate_fields.

Theorem C03_source_parser_reveal_plate_dests_derived :
  Cli.dests_derived SrcParser_reveal_plate.src_parser_reveal_plate.
Proof. exact C18SourceParser_reveal_plate.parser_reveal_plate_dests_derived. Qed.
Print Assumptions C03_source_parser_reveal_plate_dests_derived.

Theorem C03_source_parser_reveal_plate_dests_distinct :
  Cli.dests_distinct SrcParser_reveal_plate.src_parser_reveal_plate.
Proof. exact C18SourceParser_reveal_plate.parser_reveal_plate_dests_distinct. Qed.
Print Assumptions C03_source_parser_reveal_plate_dests_distinct.

(* ---- "posterior samples learned on one stage produce identical predictions for the same experiments on every later stage" ----
   frozen ids composed with C09's prediction model (Model/Predict.v: both shipped sample types, mean / viability / variance,
   every oracle).  pred_view s = the screen as the prediction code reads it (sample_ids and the columns of treatment_ids of s);
   sample_at / treat_at = WHICH experiment a row is (sample name, (treatment name, dose) per column). *)
From Coq Require Import QArith Qcanon.
From Batchie Require Lib.Num Model.Predict Generated.SrcPredict Proofs.C09Source.
From Batchie Require Import Proofs.C03Predict Proofs.C03PredictSource Proofs.C03PredictWitness.

(* any two screens frozen to one parent: the same experiment gets the same prediction from the same posterior sample *)
Theorem C03_predict_stable : forall (orc : Num.oracle) k th p s1 s2 i j v1 v2,
  frozen_to p s1 -> frozen_to p s2 -> s_arity s1 = s_arity s2 ->
  (i < length (s_rows s1))%nat -> (j < length (s_rows s2))%nat ->
  sample_at s1 i = sample_at s2 j ->
  (forall c, (c < s_arity s1)%nat -> treat_at s1 i c = treat_at s2 j c) ->
  Predict.theta_predict orc k th (pred_view s1) = Ok v1 ->
  Predict.theta_predict orc k th (pred_view s2) = Ok v2 ->
  nth i v1 0%Qc = nth j v2 0%Qc.
Proof. exact predict_stable. Qed.
Print Assumptions C03_predict_stable.

(* a whole later stage s2 whose row j is experiment idx[j] of stage s1 (any order, repeats, any subset): if s1 can be
   predicted, s2 can (no IndexError appears at a later stage) and its prediction is the corresponding entries of s1's *)
Theorem C03_predict_stable_stage : forall (orc : Num.oracle) k th p s1 s2 idx v1,
  frozen_to p s1 -> frozen_to p s2 -> s_arity s1 = s_arity s2 ->
  length idx = length (s_rows s2) ->
  Forall (fun i => (i < length (s_rows s1))%nat) idx ->
  (forall j, (j < length (s_rows s2))%nat ->
     sample_at s1 (nth j idx 0%nat) = sample_at s2 j /\
     forall c, (c < s_arity s1)%nat -> treat_at s1 (nth j idx 0%nat) c = treat_at s2 j c) ->
  Predict.theta_predict orc k th (pred_view s1) = Ok v1 ->
  Predict.theta_predict orc k th (pred_view s2) = Ok (Predict.take_idx 0%Qc idx v1).
Proof. exact predict_stable_stage. Qed.
Print Assumptions C03_predict_stable_stage.

(* pred_view is not a second hand model of the screen: for every constructed screen of arity 1 or 2 it stands (under C09's
   representation map Predict.pydata_of) for the object whose sample_ids / treatment_ids arrays are s_sids / s_tids *)
Theorem C03_pred_view_is_id_arrays : forall s, constructed s -> (s_arity s = 1 \/ s_arity s = 2)%nat ->
  Predict.pydata_of (pred_view s) = ids_object s.
Proof. exact pred_view_pydata. Qed.
Print Assumptions C03_pred_view_is_id_arrays.

(* any two stages (either half, any two histories) of one prepared simulation, repaired construction *)
Theorem C03_predict_stable_lifecycle : forall (orc : Num.oracle) k th p sel t1 ops1 t2 ops2 s1 s2 i j v1 v2,
  lifecycle (carry_mappings true) p sel t1 ops1 = Ok s1 ->
  lifecycle (carry_mappings true) p sel t2 ops2 = Ok s2 ->
  (i < length (s_rows s1))%nat -> (j < length (s_rows s2))%nat ->
  sample_at s1 i = sample_at s2 j ->
  (forall c, (c < s_arity p)%nat -> treat_at s1 i c = treat_at s2 j c) ->
  Predict.theta_predict orc k th (pred_view s1) = Ok v1 ->
  Predict.theta_predict orc k th (pred_view s2) = Ok v2 ->
  nth i v1 0%Qc = nth j v2 0%Qc.
Proof. exact predict_stable_lifecycle. Qed.
Print Assumptions C03_predict_stable_lifecycle.

(* the same stated of the TRANSLATED source on both sides: stages made by the translated reveal_plates / mask_screen /
   unmask_screen (Generated/SrcReveal.v), predictions by the translated predict_* methods of both sample types
   (Generated/SrcPredict.v; py_theta_predict = dispatch on the sample's class and the method) reading each stage's own id arrays *)
Theorem C03_predict_stable_of_source : forall (orc : Num.oracle) k th p sel t1 ops1 t2 ops2 s1 s2 i j v1 v2,
  src_lifecycle p sel t1 ops1 = Ok s1 ->
  src_lifecycle p sel t2 ops2 = Ok s2 ->
  (s_arity p = 1 \/ s_arity p = 2)%nat ->
  (i < length (s_rows s1))%nat -> (j < length (s_rows s2))%nat ->
  sample_at s1 i = sample_at s2 j ->
  (forall c, (c < s_arity p)%nat -> treat_at s1 i c = treat_at s2 j c) ->
  C09Source.py_theta_predict orc k th (ids_object s1) = Ok v1 ->
  C09Source.py_theta_predict orc k th (ids_object s2) = Ok v2 ->
  nth i v1 0%Qc = nth j v2 0%Qc.
Proof. exact predict_stable_of_source. Qed.
Print Assumptions C03_predict_stable_of_source.

(* the construction WITHOUT the mappings (the code before the repair) violates the clause: one posterior sample, one
   experiment, two stages of one simulation, two different predictions (witness of Proofs/C03Witness.v) *)
Theorem C03_predict_stable_refuted_without_mappings : forall orc : Num.oracle,
  exists rows sel p tr te s' th v1 v2,
    mk_screen rows 1 [] None None true true = Ok p /\
    holdout_split p sel = Ok (tr, te) /\
    history (carry_mappings false) [Reveal [0]] tr = Ok s' /\
    sample_at tr 0 = sample_at s' 0 /\ treat_at tr 0 0 = treat_at s' 0 0 /\
    Predict.theta_predict orc Predict.KMean th (pred_view tr) = Ok v1 /\
    Predict.theta_predict orc Predict.KMean th (pred_view s') = Ok v2 /\
    nth 0 v1 0%Qc <> nth 0 v2 0%Qc.
Proof. exact predict_stable_refuted_without_mappings. Qed.
Print Assumptions C03_predict_stable_refuted_without_mappings.

(* non-vacuity: the repaired construction on the same simulation - both stages are read as the same id rows and predicted alike *)
Example C03_predict_stable_example : forall orc : Num.oracle,
  pred_view w_train = Predict.Scr1 [(1, 1); (1, 1); (2, 2); (2, 2)] /\
  pred_view w_repaired = Predict.Scr1 [(1, 1); (1, 1); (2, 2); (2, 2)] /\
  Predict.theta_predict orc Predict.KMean w_theta (pred_view w_train) = Ok [qz 22; qz 22; qz 34; qz 34] /\
  Predict.theta_predict orc Predict.KMean w_theta (pred_view w_repaired) = Ok [qz 22; qz 22; qz 34; qz 34].
Proof. exact predict_stable_example. Qed.

(* ---- the hold-out split linked to the source at the ID / MAPPING level ----
   `src_balanced_holdout_ids` is the WHOLE function create_plate_balanced_holdout_set_among_masked_plates of /repo's current
   retrospective.py, re-translated on every run (configuration C03_BALANCED_HOLDOUT -> Generated/SrcHoldoutIds.v) with `screen` the
   model Screen (rows, ids, mappings) and the two Screen(...) calls the model's constructor applied to the keyword arguments THE CALL
   SITES pass (a call site that stopped passing treatment_mapping= / sample_mapping= translates to None there and the link fails).
   Holdout.balanced_holdout_ids = the selection vector the loop computes from the recorded rng.choice answers (C11's model of the
   loop), then Holdout.holdout_split: the hand model every theorem above is about. *)
From Batchie Require Model.Retro Model.RetroHoldout Generated.SrcHoldoutIds Proofs.C03Source_Holdout Proofs.C03Source_HoldoutLifecycle.
Theorem C03_model_is_source_holdout : forall num den counts p ds,
  SrcHoldoutIds.src_balanced_holdout_ids num den counts p ds = balanced_holdout_ids num den counts p ds.
Proof. exact C03Source_Holdout.src_balanced_holdout_ids_is_model. Qed.
Print Assumptions C03_model_is_source_holdout.

(* whatever the translated hold-out returns is holdout_split of the parent for a selection vector of the screen's length *)
Theorem C03_source_holdout_is_split : forall num den counts p ds pr ds',
  SrcHoldoutIds.src_balanced_holdout_ids num den counts p ds = Ok (pr, ds') ->
  exists sel, length sel = length (s_rows p) /\ holdout_split p sel = Ok pr.
Proof. exact C03Source_Holdout.src_holdout_is_split. Qed.
Print Assumptions C03_source_holdout_is_split.

(* both halves the translated hold-out returns carry the parent's mappings and number their rows by them *)
Theorem C03_source_holdout_keeps_mappings : forall num den counts p ds pr ds' test,
  SrcHoldoutIds.src_balanced_holdout_ids num den counts p ds = Ok (pr, ds') -> frozen_to p (half test pr).
Proof. exact C03Source_Holdout.src_holdout_frozen. Qed.
Print Assumptions C03_source_holdout_keeps_mappings.

(* ids_frozen with EVERY step a translated source function: translated hold-out, then any history of the translated
   reveal_plates / mask_screen / unmask_screen (and save + load) on either half *)
Theorem C03_ids_frozen_of_source_full : forall num den counts p ds test ops s,
  C03Source_HoldoutLifecycle.src_lifecycle_full num den counts p ds test ops = Ok s -> frozen_to p s.
Proof. exact C03Source_HoldoutLifecycle.ids_frozen_of_source_full. Qed.
Print Assumptions C03_ids_frozen_of_source_full.

(* non-vacuity: the translated hold-out on the witness parent (fraction 1, rng.choice answered [1; 0] for the one unobserved plate)
   returns the halves with the parent's sample ids 1 1 2 2 / 0 0 *)
Example C03_source_holdout_example :
  option_map (fun x => (s_sids (fst (fst x)), s_sids (snd (fst x)), snd x))
             (match SrcHoldoutIds.src_balanced_holdout_ids 1 1 None w_parent [Retro.DInts [1%nat; 0%nat]] with Ok x => Some x | Err _ => None end)
  = Some ([1; 1; 2; 2], [0; 0], []).
Proof. vm_compute. reflexivity. Qed.
