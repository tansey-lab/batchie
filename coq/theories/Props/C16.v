(* C16 — The k-per-sample policy yields batches with zero or exactly k plates per sample.
   Statements only: a proof is `exact <lemma from Proofs/>` (or a split into such), a concrete example is closed by evaluation.
   Vocabulary (Model/Policy.v): a plate is (id, sample ids of its rows); `filter_eligible k batch remaining`
   models KPerSamplePlatePolicy(k).filter_eligible_plates; `cnt c l` = number of plates of sample c in l;
   `step k` moves ANY eligible plate from the remaining plates to the batch (lists up to permutation);
   `reachable k u s` = s occurs in some selection history that starts from the empty batch with u the
   unobserved plates; `select_next` models select_next_plate, `sel_hist` its iteration.
   No hypothesis that the plates are single-sample is needed: with a multi-sample plate present the policy
   refuses (C16_multi_sample_refused) and no step exists. *)
From Coq Require Import ZArith List Permutation.
From Batchie Require Import Lib.Sexp Model.Policy Proofs.C16Policy Proofs.C16Hist Proofs.C16Select.
From Batchie Require Import Generated.SrcPolicy Proofs.C16Source.
From Batchie Require Import Generated.SrcScoringPolicy Proofs.C16SourceSelect.
Import ListNotations.
Open Scope Z_scope.

(* The model is what the source says NOW: `src_filter_eligible_plates` is the whole method
   KPerSamplePlatePolicy.filter_eligible_plates of /repo's current working tree, re-translated statement by
   statement on every run (harness/py2gal.py -> Generated/SrcPolicy.v: its five loops, the defaultdicts and
   the set, the raise); it equals the hand-written model for ALL k, batch and remaining plates, so every
   theorem below is a theorem about the translated source. *)
Theorem C16_model_is_source : forall k batch remaining,
  src_filter_eligible_plates k batch remaining = filter_eligible k batch remaining.
Proof. exact src_filter_eligible_is_model. Qed.
Print Assumptions C16_model_is_source.

(* The same for the caller: `src_select_next_plate_k` is the whole function batchie.scoring.main.select_next_plate of
   /repo's current working tree, re-translated on every run in this file's vocabulary (harness/src_functions.py
   C16_SELECT -> Generated/SrcScoringPolicy.v): a Plate object is a `plate`, `obs` its is_observed attribute, the
   policy object KPerSamplePlatePolicy(k) is `Some k` and its method is filter_eligible (= the translated method by
   C16_model_is_source), the ScoresHolder is the list of its slots.  Its default arguments, the two comprehensions
   that build the policy's arguments (= select_args), the sort, the early `return` of None and the minimum-score
   choice equal the model select_next for ALL inputs; the code returns the Plate screen.get_plate(id) after reading
   its name, the model the eligible ids and the chosen id. *)
Theorem C16_model_is_source_select_next_plate : forall (k : Z) (obs : plate -> bool) (scores : list (Z * Z))
    (ps : list plate) (batch : option (list Z)) (rng : option rng_t),
  src_select_next_plate_k obs scores ps (Some k) batch rng
  = dor r <- select_next k (map (fun p => (p, obs p)) ps) scores (match batch with Some b => b | None => [] end);
    match snd r with
    | None => Ok None
    | Some i => dor _ <- plate_name (get_plate ps i); Ok (Some (get_plate ps i))
    end.
Proof. exact src_select_next_plate_k_is_model. Qed.
Print Assumptions C16_model_is_source_select_next_plate.

(* with distinct plate ids (screen.plates is built from np.unique) the name lookup cannot fail: the code returns
   exactly the plate the model chose *)
Theorem C16_model_is_source_select_next_plate_distinct_ids : forall (k : Z) (obs : plate -> bool)
    (scores : list (Z * Z)) (ps : list plate) (batch : option (list Z)) (rng : option rng_t),
  NoDup (map plate_id ps) ->
  src_select_next_plate_k obs scores ps (Some k) batch rng
  = dor r <- select_next k (map (fun p => (p, obs p)) ps) scores (match batch with Some b => b | None => [] end);
    Ok (option_map (get_plate ps) (snd r)).
Proof. exact src_select_next_plate_k_distinct_ids. Qed.
Print Assumptions C16_model_is_source_select_next_plate_distinct_ids.

(* allowed plates = remaining plates restricted by some predicate: a subset, in the same order (every state) *)
Theorem C16_eligible_subset : forall k b r el,
  filter_eligible k b r = Ok el -> (exists f, el = filter f r) /\ (forall p, In p el -> In p r).
Proof. exact c16_eligible_subset. Qed.
Print Assumptions C16_eligible_subset.

(* once a sample has between 1 and k-1 plates in the batch, exactly that sample's remaining plates are
   allowed, and there is at least one *)
Theorem C16_in_progress_only : forall k u b r c el,
  1 <= k -> reachable k u (b, r) -> 0 < cnt c b < k -> filter_eligible k b r = Ok el ->
  el = filter (fun p => sample_of p =? c) r /\ el <> [] /\
  (forall p, In p el <-> In p r /\ sample_of p = c).
Proof. exact c16_in_progress_only. Qed.
Print Assumptions C16_in_progress_only.

(* a new sample is opened only if at least k of its plates remain (every state, reachable or not) *)
Theorem C16_open_needs_k : forall k b r el p,
  filter_eligible k b r = Ok el -> In p el -> cnt (sample_of p) b = 0 -> k <= cnt (sample_of p) r.
Proof. exact c16_open_needs_k. Qed.
Print Assumptions C16_open_needs_k.

(* every batch prefix: no sample exceeds k plates and at most one is incomplete *)
Theorem C16_one_incomplete : forall k u b r,
  1 <= k -> reachable k u (b, r) ->
  (forall c, 0 <= cnt c b <= k) /\
  (forall c1 c2, cnt c1 b mod k <> 0 -> cnt c2 b mod k <> 0 -> c1 = c2).
Proof. exact c16_one_incomplete. Qed.
Print Assumptions C16_one_incomplete.

(* every batch of m*k plates gives each sample zero or exactly k plates *)
Theorem C16_batch_shape : forall k u b r m,
  1 <= k -> reachable k u (b, r) -> Z.of_nat (length b) = m * k -> forall c, cnt c b = 0 \/ cnt c b = k.
Proof. exact c16_batch_shape. Qed.
Print Assumptions C16_batch_shape.

(* the policy can run dry only at such a boundary *)
Theorem C16_batch_ends_at_boundary : forall k u b r,
  1 <= k -> reachable k u (b, r) -> filter_eligible k b r = Ok [] -> forall c, cnt c b = 0 \/ cnt c b = k.
Proof. exact c16_batch_ends_at_boundary. Qed.
Print Assumptions C16_batch_ends_at_boundary.

(* plates that do not contain exactly one sample are refused, wherever they are *)
Theorem C16_multi_sample_refused : forall k b r p,
  In p (b ++ r) -> n_unique (rows p) <> 1 -> filter_eligible k b r = Err 1.
Proof. exact c16_multi_sample_refused. Qed.
Print Assumptions C16_multi_sample_refused.

Theorem C16_single_sample_accepted : forall k b r,
  (forall p, In p (b ++ r) -> n_unique (rows p) = 1) -> exists el, filter_eligible k b r = Ok el.
Proof. exact c16_single_sample_accepted. Qed.
Print Assumptions C16_single_sample_accepted.

(* select_next_plate hands the policy the screen's plates whose id is in the batch, and the unobserved
   plates whose id is not *)
Theorem C16_select_args : forall screen ids p,
  (In p (fst (select_args screen ids)) <-> exists o, In (p, o) screen /\ In (plate_id p) ids) /\
  (In p (snd (select_args screen ids)) <-> In (p, false) screen /\ ~ In (plate_id p) ids).
Proof. exact c16_select_args_spec. Qed.
Print Assumptions C16_select_args.

(* a plate returned by select_next_plate is allowed, unobserved and new, and adding its id to the batch ids
   is one step of the history relation (whatever the scores are) *)
Theorem C16_select_next_is_a_step : forall k screen scores ids elids i,
  NoDup (map id_of screen) ->
  select_next k screen scores ids = Ok (elids, Some i) ->
  step k (select_args screen ids) (select_args screen (ids ++ [i])) /\
  In i elids /\ ~ In i ids /\ exists p, In (p, false) screen /\ plate_id p = i.
Proof. exact c16_select_step. Qed.
Print Assumptions C16_select_next_is_a_step.

(* so every batch built by iterating select_next_plate from the empty batch is covered by the theorems above *)
Theorem C16_select_next_reachable : forall k screen ids,
  NoDup (map id_of screen) -> sel_hist k screen ids ->
  reachable k (snd (select_args screen [])) (select_args screen ids).
Proof. exact c16_select_reachable. Qed.
Print Assumptions C16_select_next_reachable.

(* ---- the screen evolves within a batch: the retrospective pipeline reveals the chosen plate before
   the next call, so the plates whose ids are in the batch ids ARE observed at the next call ---- *)
From Batchie Require Import Proofs.C16Reveal.

(* what the policy is handed does not depend on the observation flag of a plate whose id is in the batch ids *)
Theorem C16_select_args_reveal_invariant : forall i screen ids,
  In i ids -> select_args (reveal i screen) ids = select_args screen ids.
Proof. exact c16_select_args_reveal. Qed.
Print Assumptions C16_select_args_reveal_invariant.

Theorem C16_select_next_reveal_invariant : forall k js screen scores ids,
  incl js ids -> select_next k (reveal_all js screen) scores ids = select_next k screen scores ids.
Proof. exact c16_select_next_reveal_all. Qed.
Print Assumptions C16_select_next_reveal_invariant.

(* a history over an evolving screen (any plates already in the batch revealed between two calls) is a history over the
   first screen ... *)
Theorem C16_evolving_history_is_history : forall k screen0 screen ids,
  sel_hist_reveal k screen0 screen ids ->
  sel_hist k screen0 ids /\ forall ids', incl ids ids' -> select_args screen ids' = select_args screen0 ids'.
Proof. exact c16_sel_hist_reveal_is_sel_hist. Qed.
Print Assumptions C16_evolving_history_is_history.

(* ... hence every state it visits is reachable and covered by the theorems above *)
Theorem C16_select_next_reachable_evolving : forall k screen0 screen ids,
  NoDup (map id_of screen0) -> sel_hist_reveal k screen0 screen ids ->
  reachable k (snd (select_args screen0 [])) (select_args screen ids).
Proof. exact c16_select_reachable_evolving. Qed.
Print Assumptions C16_select_next_reachable_evolving.

(* the executable history the correspondence runs with reveals between the calls *)
Theorem C16_history_reveal_is_history : forall k screen ids tables flags,
  history_select_reveal k screen ids tables flags = history_select k screen ids tables.
Proof. exact c16_history_reveal. Qed.
Print Assumptions C16_history_reveal_is_history.

(* non-vacuity: after choosing plate 3 and revealing it, the next call (batch ids [3]) sees plate 3 observed *)
Example C16_evolving_example :
  sel_hist_reveal 2 [((1, [0]), false); ((2, [1]), false); ((3, [1]), false)]
                    (reveal_all [3] [((1, [0]), false); ((2, [1]), false); ((3, [1]), false)]) ([] ++ [3]) /\
  reveal_all [3] [((1, [0]), false); ((2, [1]), false); ((3, [1]), false)]
    = [((1, [0]), false); ((2, [1]), false); ((3, [1]), true)] /\
  select_next 2 [((1, [0]), false); ((2, [1]), false); ((3, [1]), true)] [(2, 5); (1, 0)] [3] = Ok ([2], Some 2).
Proof.
  split; [|split; vm_compute; reflexivity].
  eapply (selr_snoc 2 _ _ [] [(3, 0); (2, 5)] [2; 3] 3 [3]); [constructor | vm_compute; reflexivity | intros x Hx; exact Hx].
Qed.

(* non-vacuity.  screen: sample 0 has plates 0,1; sample 1 has plates 2,3; sample 2 has only plate 4; k = 2 *)
Definition ex_screen : list plate := [(0, [0]); (1, [0]); (2, [1]); (3, [1; 1]); (4, [2])].

(* the eligible ids along the history 1, 0, 3, 2: plate 4 is never allowed, the batch ends with 4 plates *)
Example C16_history_example :
  history_direct 2 [] ex_screen [1; 0; 3; 2] = Ok [[0; 1; 2; 3]; [0]; [2; 3]; [2]; []].
Proof. vm_compute. reflexivity. Qed.

(* a reachable state with a sample in progress, and what is allowed there *)
Example C16_reachable_example :
  reachable 2 ex_screen ([(1, [0])], [(0, [0]); (2, [1]); (3, [1; 1]); (4, [2])]) /\
  cnt 0 [(1, [0])] = 1 /\
  filter_eligible 2 [(1, [0])] [(0, [0]); (2, [1]); (3, [1; 1]); (4, [2])] = Ok [(0, [0])].
Proof.
  split; [|split; vm_compute; reflexivity].
  eapply reach_step; [apply reach_init|].
  apply (step_intro 2 [] ex_screen [(0, [0]); (1, [0]); (2, [1]); (3, [1; 1])] (1, [0])).
  - vm_compute. reflexivity.
  - right. left. reflexivity.
  - apply Permutation_refl.
  - apply perm_swap.
Qed.

Example C16_multi_sample_example : filter_eligible 2 [] [(0, [0]); (1, [0; 1])] = Err 1.
Proof. vm_compute. reflexivity. Qed.

(* through select_next_plate: plate 3 (score 1) beats plate 2 (score 5); the observed plate 0 and the
   better-scoring but not allowed plate 4 are not candidates *)
Example C16_select_example :
  select_next 2 [((0, [0]), true); ((1, [0]), false); ((2, [1]), false); ((3, [1]), false); ((4, [2]), false)]
              [(4, 0); (2, 5); (3, 1); (1, 7)] [] = Ok ([2; 3], Some 3).
Proof. vm_compute. reflexivity. Qed.

(* ---- the constructor (Generated/SrcInits.v): KPerSamplePlatePolicy.__init__ stores k, so the `self.k` the translated method reads
   (the parameter k of C16_model_is_source) is the k the policy was constructed with ---- *)
From Batchie Require Import Lib.PyRt Generated.SrcInits Proofs.C16Source_Init_Policy Proofs.C16Source_ConstructedPolicy.
Theorem C16_model_is_source_init : forall k : Z, src_k_per_sample_init k = Ok k.
Proof. exact src_k_per_sample_init_stores. Qed.
Print Assumptions C16_model_is_source_init.

(* the translated __init__ composed with the translated method: the policy constructed with k is the model's filter for k *)
Theorem C16_source_constructed_policy : forall k batch remaining,
  (dor k' <- src_k_per_sample_init k; src_filter_eligible_plates k' batch remaining) = filter_eligible k batch remaining.
Proof. exact constructed_policy_filters_with_its_k. Qed.
Print Assumptions C16_source_constructed_policy.

