(* C13 - Generated, smoothed and initial plates satisfy their documented shape guarantees.
   Statements only: a proof is `exact <lemma from Proofs/>` (or a split into such), a concrete example is closed by evaluation.
   One theorem per clause of the property, each for every oracle answer (recorded rng / heappop
   answers) for which the function returns Ok; numpy's documented contract on the answers is an
   explicit hypothesis ([ss_contract], [size_contract]) where the conclusion depends on it.
   Two clauses are false of the code as found (model parameter fixed = false): they are refuted by
   a witness, and proved of the repaired logic (fixed = true). *)
From Coq Require Import ZArith List Bool Permutation.
From Batchie Require Import Lib.Sexp Model.Encode Model.Screen Model.Retro Model.Pairwise Model.RetroInit
  Proofs.C11Lib Proofs.C11Select Proofs.C11Holdout Proofs.C13Filter Proofs.C13Optimal Proofs.C13Size
  Proofs.C13NPlate Proofs.C13SampleSeg Proofs.C13SampleSegEven Proofs.C13Shapes Proofs.C13MergeLib Proofs.C13TopBottom
  Proofs.C13MergeMin Proofs.C13MergeShapes Proofs.C13MergeMinPerSample Proofs.C13Ensemble Proofs.C11Init Proofs.C13Sparse Proofs.C13Pairwise
  Proofs.C13SparseTerm Proofs.C13PairwiseSingles Generated.SrcRetro Proofs.C11Source Generated.SrcRetroGen Proofs.C13Source Proofs.C13SourcePairwise.
Import ListNotations.

(* ---- the models are what the source says NOW (see Props/C11.v for the full list and what is trusted) ----
   `src_*` (Generated/SrcRetro.v) are whole functions of /repo's current working tree, re-translated on every run by
   harness/py2gal.py; the shape theorems below speak about [generate_plates] / [smooth_plates] (the wrappers around
   every shipped generator / smoother) and [merge_min]: each equals its translation for all inputs. *)
Theorem C13_model_is_source_generate_plates : forall rows ds,
  (forall f : inner, src_generate_plates f rows ds = wrap f rows ds) /\
  (forall g, src_generate_plates (generate_inner g) rows ds = generate_plates g rows ds).
Proof. exact src_generate_plates_is_model. Qed.
Print Assumptions C13_model_is_source_generate_plates.

Theorem C13_model_is_source_smooth_plates : forall rows ds,
  (forall f : inner, src_smooth_plates f rows ds = wrap f rows ds) /\
  (forall sm, src_smooth_plates (smooth_inner sm) rows ds = smooth_plates sm rows ds).
Proof. exact src_smooth_plates_is_model. Qed.
Print Assumptions C13_model_is_source_smooth_plates.

(* MergeMinPlateSmoother._smooth_plates with its `while True:` on explicit fuel: equal to [merge_min] (the subject of
   C13_mergemin_stop and C13_merge_same_sample) whenever the fuel exceeds the number of experiments *)
Theorem C13_model_is_source_merge_min_smooth_plates : forall min_size rows ds fuel,
  length rows < fuel ->
  src_merge_min_smooth_plates min_size rows ds fuel = merge_min min_size rows ds.
Proof. exact src_merge_min_is_model. Qed.
Print Assumptions C13_model_is_source_merge_min_smooth_plates.

(* MergeTopBottomPlateSmoother._smooth_plates: equal to [merge_tb] (the subject of C13_topbottom_halves / _counts) *)
Theorem C13_model_is_source_merge_tb_smooth_plates : forall n_iter rows,
  src_merge_tb_smooth_plates n_iter rows = merge_tb n_iter rows.
Proof. exact src_merge_tb_is_model. Qed.
Print Assumptions C13_model_is_source_merge_tb_smooth_plates.

(* ---- the shipped generators / smoothers, the initial plate and the combination filter (Generated/SrcRetroGen.v) ----
   Each `src_*` below is the WHOLE method of /repo's retrospective.py (data.py for the filter), re-translated on every run.
   Trusted: the translator and the primitives of the configurations C13_SAMPLE_SEG ... C13_COMBO_FILTER of
   harness/src_functions.py (their meanings: the last sections of Model/Retro.v and Model/RetroInit.v). *)

(* SampleSegregatingPermutationPlateGenerator._generate_plates: the loop over the samples, the size test, n_plates =
   ceil(len / float(max)), the permutation, np.array_split, both appends, the labelling loop, the final Screen(...).
   For every max >= 0, screen and answer stream it equals the model with numpy's IndexError of `plate_names[indices] = ...`
   made explicit ([sample_seg_checked]: the computed plates must consist of row numbers of the screen, tag 92); under
   numpy's permutation contract - the hypothesis of C13_sample_segregating_shape / _even - that check passes and it equals
   [sample_seg true]; so the translated wrapper around it equals [generate_plates (GSampleSeg true mx)], the subject of
   those theorems *)
Theorem C13_model_is_source_sample_segregating_generate_plates : forall mx rows ds, (0 <= mx)%Z ->
  src_sample_seg_generate_plates mx rows ds = sample_seg_checked mx rows ds /\
  (ss_contract mx rows (sample_names rows) ds -> src_sample_seg_generate_plates mx rows ds = sample_seg true mx rows ds) /\
  (ss_contract mx (unobserved rows) (sample_names (unobserved rows)) ds ->
   src_generate_plates (src_sample_seg_generate_plates mx) rows ds = generate_plates (GSampleSeg true mx) rows ds).
Proof. exact link_sample_segregating_generate_plates. Qed.
Print Assumptions C13_model_is_source_sample_segregating_generate_plates.

(* a negative max_plate_size: same outcome up to the error tag (Python draws the permutation, then np.array_split raises;
   the model raises without reading the answer, so an exhausted answer stream - not a Python behaviour - shows as tag 90
   instead of 3); on the empty screen both return it *)
Theorem C13_model_is_source_sample_segregating_generate_plates_negative_max : forall mx rows ds, (mx < 0)%Z ->
  match sample_seg true mx rows ds with
  | Ok r => src_sample_seg_generate_plates mx rows ds = Ok r
  | Err _ => exists t, src_sample_seg_generate_plates mx rows ds = Err t
  end.
Proof. exact src_sample_seg_negative_max. Qed.
Print Assumptions C13_model_is_source_sample_segregating_generate_plates_negative_max.

(* PlatePermutationPlateGenerator._generate_plates: the truthiness test of force_include_plate_names, both selection
   vectors, the np.any(~v) branch, rng.permutation of the plate names, the Screen(...) with the new names and an
   all-false mask, the `is not None` test and combine - for every force list (None and [] alike), screen, answer stream *)
Theorem C13_model_is_source_plate_permutation_generate_plates : forall force rows ds,
  src_plate_permutation_generate_plates force rows ds = plate_perm (match force with Some l => l | None => [] end) rows ds /\
  src_generate_plates (src_plate_permutation_generate_plates force) rows ds
  = generate_plates (GPerm (match force with Some l => l | None => [] end)) rows ds.
Proof. exact link_plate_permutation_generate_plates. Qed.
Print Assumptions C13_model_is_source_plate_permutation_generate_plates.

(* FixedSizeSmoother._smooth_plates: the loop over the plates with its three-way size test (< drop and continue, == keep,
   > rng.choice of plate_size of the plate's indices, np.isin, Plate(...)), the OR-loop over the results, subset().to_screen() *)
Theorem C13_model_is_source_fixed_size_smooth_plates : forall t rows ds,
  src_fixed_size_smooth_plates t rows ds = size_smooth t rows ds /\
  src_smooth_plates (src_fixed_size_smooth_plates t) rows ds = smooth_plates (SFixed t) rows ds.
Proof. exact link_fixed_size_smooth_plates. Qed.
Print Assumptions C13_model_is_source_fixed_size_smooth_plates.

(* OptimalSizeSmoother._smooth_plates: the three numpy statements choosing the size (sort of the plate sizes, argmax of
   size * (number of plates - position), the indexing; ValueError on a screen without plates), then the same loops *)
Theorem C13_model_is_source_optimal_size_smooth_plates : forall rows ds,
  src_optimal_size_smooth_plates rows ds = optimal_smooth rows ds /\
  src_smooth_plates src_optimal_size_smooth_plates rows ds = smooth_plates SOptimal rows ds.
Proof. exact link_optimal_size_smooth_plates. Qed.
Print Assumptions C13_model_is_source_optimal_size_smooth_plates.

(* NPlatePerCellLineSmoother._get_plate_sample_id (integer ids = ranks of the sample names) and ._smooth_plates: the
   counting loop `plate_counts[id] += 1` on the defaultdict, sample_names_by_id = screen.sample_mapping[0], the loop over
   the dict's items with the `<` test and the drop BY NAME screen.subset(screen.sample_names != sample_names_by_id[id]) -
   equal to the repaired model [nplate true] (the subject of C13_nplate_minimum) for every minimum and screen *)
Theorem C13_model_is_source_nplate_smooth_plates : forall m rows ds,
  (forall p, src_nplate_get_plate_sample_id rows (plate_vec p rows) = dor nm <- plate_sample p rows; Ok (sample_id_z rows nm)) /\
  src_nplate_smooth_plates m rows = nplate true m rows /\
  src_smooth_plates (fun s d => dor r <- src_nplate_smooth_plates m s; Ok (r, d)) rows ds = smooth_plates (SNPlate true m) rows ds.
Proof. exact link_nplate_smooth_plates. Qed.
Print Assumptions C13_model_is_source_nplate_smooth_plates.

(* BatchieEnsemblePlateSmoother._smooth_plates: the four calls in their order, each the translated smooth_plates wrapper
   around the translated _smooth_plates of the class the source names, with the constructor argument the source passes;
   fuel = the while-fuel of MergeMin (sufficient when it exceeds the number of experiments) *)
Theorem C13_model_is_source_ensemble_smooth_plates : forall ms n m rows ds fuel, length rows < fuel ->
  src_ensemble_smooth_plates ms n m rows ds fuel = ensemble true ms n m rows ds /\
  src_smooth_plates (fun s d => src_ensemble_smooth_plates ms n m s d fuel) rows ds = smooth_plates (SEnsemble true ms n m) rows ds.
Proof. exact link_ensemble_smooth_plates. Qed.
Print Assumptions C13_model_is_source_ensemble_smooth_plates.

(* SparseCoverPlateGenerator._generate_and_unmask_initial_plate inside the translated public wrapper
   InitialRetrospectivePlateGenerator.generate_and_unmask_initial_plate (core.py: the fully-observed check and its raise):
   the per-sample loop (both branches of `selection_vector.sum() > 0`), `while len(remaining_treatments) > 0` on explicit
   fuel, the reveal branch, the plate names and the final Screen(...) - equal to [sparse_cover] for every screen and answer
   stream whenever the fuel exceeds the number of recorded answers (each iteration reads one) OR the number of distinct
   treatment ids of the screen (each iteration covers a new one: C13_sparse_cover_loop_progress), e.g. fuel = S (ndistinct ..) *)
Theorem C13_model_is_source_sparse_cover_generate_and_unmask_initial_plate : forall ctrl reveal rows ds fuel,
  length ds < fuel \/ ndistinct (all_tids ctrl rows) < fuel ->
  (forall f : initial_inner,
     src_generate_and_unmask_initial_plate f rows ds = if negb (forallb r_mask rows) then Err 8%Z else f rows ds) /\
  src_sparse_cover ctrl reveal rows ds fuel = sparse_cover_inner ctrl reveal rows ds /\
  src_generate_and_unmask_initial_plate (fun s d => src_sparse_cover ctrl reveal s d fuel) rows ds = sparse_cover ctrl reveal rows ds.
Proof. exact link_sparse_cover_generate_and_unmask_initial_plate. Qed.
Print Assumptions C13_model_is_source_sparse_cover_generate_and_unmask_initial_plate.

(* ... and with C13_sparse_cover_terminates the fuel hypothesis is discharged: with #distinct-treatment-ids + 1 units of
   fuel the translated source returns on every fully observed screen for every contract-obeying, long enough answer stream *)
Theorem C13_model_is_source_sparse_cover_terminates : forall ctrl reveal rows ds,
  forallb r_mask rows = true ->
  sc_contract ctrl rows (sample_names rows) [] ds ->
  length (sample_names rows) + ndistinct (all_tids ctrl rows) <= length ds ->
  exists out ds',
    src_generate_and_unmask_initial_plate
      (fun s d => src_sparse_cover ctrl reveal s d (S (ndistinct (all_tids ctrl rows)))) rows ds = Ok (out, ds').
Proof. exact src_sparse_cover_terminates. Qed.
Print Assumptions C13_model_is_source_sparse_cover_terminates.

(* filter_dataset_to_treatments_that_appear_in_at_least_one_combo (data.py): the arity check and its raise, the vector of
   rows without a control entry, their ids plus the sentinel, the np.in1d / np.all row test, subset().to_screen() *)
Theorem C13_model_is_source_filter_dataset_to_treatments_that_appear_in_at_least_one_combo : forall ctrl arity rows,
  src_combo_filter ctrl arity rows = combo_filter ctrl arity rows.
Proof. exact src_combo_filter_is_model. Qed.
Print Assumptions C13_model_is_source_filter_dataset_to_treatments_that_appear_in_at_least_one_combo.

(* PairwisePlateGenerator._generate_plates: the combination / single-agent split, np.unique with counts, the anchor branch
   (argsort of the negated counts, the anchor ids, both `len // subset_size`, both permutations and array_splits, setdiff1d)
   and the plain branch, the two nested loops filling group_lookup and its sentinel entry, np.vectorize(group_lookup.get),
   n_control and the store of rng.choice(range(num_groups), size=n_control) (always empty on a combination screen), the row
   sort, hstack with the sample ids, np.unique(axis=0), the labelling loop, the Screen(...) of the combination experiments,
   the `is None` return, the loop over the samples of the single-agent experiments (count, eligible plates, the raise,
   rng.choice among them, the masked store), the second Screen(...) and combine - equal to [pairwise] for every control
   name, subset / anchor size, screen and answer stream whose first answer, when anchors are requested, is np.argsort's
   (positions of the unique-id array: [argsort_ok], a fact about every run - numpy's argsort returns a permutation of the
   positions; with anchor_size <= 0 it says nothing) *)
Theorem C13_model_is_source_pairwise_generate_plates : forall ctrl subset anchor rows ds,
  (argsort_ok anchor (length (unique_ids ctrl (filter (is_combo ctrl) rows))) ds ->
   src_pairwise_generate_plates ctrl subset anchor rows ds = pairwise ctrl subset anchor rows ds) /\
  (argsort_ok anchor (length (unique_ids ctrl (filter (is_combo ctrl) (unobserved rows)))) ds ->
   src_generate_plates (src_pairwise_generate_plates ctrl subset anchor) rows ds
   = generate_plates (GPairwise ctrl subset anchor) rows ds).
Proof. exact link_pairwise_generate_plates. Qed.
Print Assumptions C13_model_is_source_pairwise_generate_plates.

(* ---- sample-segregating generator ---- *)
Theorem C13_sample_segregating_shape : forall mx rows ds out ds',
  generate_plates (GSampleSeg true mx) rows ds = Ok (out, ds') ->
  ss_contract mx (unobserved rows) (sample_names (unobserved rows)) ds ->
  (forall r1 r2, In r1 (unobserved out) -> In r2 (unobserved out) ->
     r_plate r1 = r_plate r2 -> r_sample r1 = r_sample r2) /\
  (forall p, In p (plate_names_of (unobserved out)) ->
     (Z.of_nat (length (filter (in_plate p) (unobserved out))) <= mx)%Z).
Proof. exact sample_segregating_shape. Qed.
Print Assumptions C13_sample_segregating_shape.

(* "split across multiple equal sized plates": the generated plates of one sample are the chunks of
   np.array_split, so any two unobserved output plates holding experiments of the same sample differ in size by at
   most one (r1, r2 range over all unobserved output rows of one sample; the sizes are those of their plates) *)
Theorem C13_sample_segregating_even : forall mx rows ds out ds',
  generate_plates (GSampleSeg true mx) rows ds = Ok (out, ds') ->
  ss_contract mx (unobserved rows) (sample_names (unobserved rows)) ds ->
  forall r1 r2, In r1 (unobserved out) -> In r2 (unobserved out) -> r_sample r1 = r_sample r2 ->
    length (filter (in_plate (r_plate r1)) (unobserved out))
    <= length (filter (in_plate (r_plate r2)) (unobserved out)) + 1.
Proof. exact sample_segregating_even. Qed.
Print Assumptions C13_sample_segregating_even.

Definition w_row (s : Z) (p : name) (o : Z) : row :=
  {| r_sample := [s]; r_plate := p; r_treats := [([97], 1); ([98], 2)]%Z; r_obs := o; r_mask := false |}.
(* two samples with 2 and 3 experiments, max 3 *)
Definition w_ss : list row := [w_row 65 [112] 1; w_row 65 [112] 2; w_row 66 [112] 3; w_row 66 [112] 4; w_row 66 [112] 5]%Z.

(* the code as found: both samples end up in the single plate '' of 5 > 3 experiments *)
Theorem C13_sample_segregating_shape_refuted :
  exists mx rows ds out ds',
    generate_plates (GSampleSeg false mx) rows ds = Ok (out, ds') /\
    ss_contract mx (unobserved rows) (sample_names (unobserved rows)) ds /\
    (exists r1 r2, In r1 (unobserved out) /\ In r2 (unobserved out) /\
                   r_plate r1 = r_plate r2 /\ r_sample r1 <> r_sample r2) /\
    (exists p, In p (plate_names_of (unobserved out)) /\
               (mx < Z.of_nat (length (filter (in_plate p) (unobserved out))))%Z).
Proof.
  exists 3%Z, w_ss, [], (map (set_plate []) w_ss), [].
  split; [vm_compute; reflexivity|]. split; [vm_compute; exact I|]. split.
  - exists (set_plate [] (w_row 65 [112] 1)%Z), (set_plate [] (w_row 66 [112] 3)%Z).
    vm_compute. repeat split; try tauto. discriminate.
  - exists []. vm_compute. split; [tauto|reflexivity].
Qed.
Print Assumptions C13_sample_segregating_shape_refuted.

(* ---- pairwise generator ---- *)
(* every oracle answer the model accepts (the rng.choice answers for single-agent rows must come from
   the offered plate names, which numpy guarantees) *)
Theorem C13_pairwise_single_sample : forall ctrl subset anchor rows ds out ds',
  generate_plates (GPairwise ctrl subset anchor) rows ds = Ok (out, ds') -> one_sample (unobserved out).
Proof. exact pairwise_single_sample_w. Qed.
Print Assumptions C13_pairwise_single_sample.

(* [C13_pairwise_single_sample] is about the whole output (combination rows and single-agent rows alike).  Where the
   single-agent rows go, explicitly: every unobserved output row r - single-agent or not - sits on a plate
   generated_plate_k that holds a combination row c (no control entry) of r's own sample; so a single-agent
   experiment never opens a plate of its own and never lands on a plate of another sample *)
Theorem C13_pairwise_singles_join_combo_plates : forall ctrl subset anchor rows ds out ds',
  generate_plates (GPairwise ctrl subset anchor) rows ds = Ok (out, ds') ->
  forall r, In r (unobserved out) ->
    exists c k, In c (unobserved out) /\ is_combo ctrl c = true /\
                r_plate c = r_plate r /\ r_sample c = r_sample r /\ r_plate r = gen_name k.
Proof. exact pairwise_joins_combo_w. Qed.
Print Assumptions C13_pairwise_singles_join_combo_plates.

(* ---- sparse-cover initial plate ---- *)
(* every sample and every treatment id (None = control) of the screen occurs in an observed row; observed
   rows are labelled initial_plate and all the others carry one and the same label; nothing else changes *)
Theorem C13_sparse_cover_covers : forall ctrl reveal rows ds out ds',
  sparse_cover ctrl reveal rows ds = Ok (out, ds') ->
  (forall s, In s (sample_names rows) -> exists r, In r out /\ r_mask r = true /\ r_sample r = s) /\
  (forall t, In t (all_tids ctrl rows) -> exists r, In r out /\ r_mask r = true /\ In t (row_tids ctrl r)) /\
  (forall r, In r out -> r_plate r = if r_mask r then initial_plate else unobserved_plate) /\
  map core out = map core rows.
Proof. exact sparse_cover_covers. Qed.
Print Assumptions C13_sparse_cover_covers.

(* termination of the greedy cover.  [ndistinct l] = number of distinct treatment ids in l (None = the control
   sentinel counts as one id); [sc_remaining ctrl rows chosen] = np.setdiff1d(screen.treatment_ids, covered);
   [sc_offer_loop] / [sc_offer_sample] = the arrays handed to rng.choice.
   State by state: while ids remain the array offered by the while loop is not empty, whichever element rng.choice
   answers the number of distinct remaining ids strictly drops, and the per-sample arrays are not empty *)
Theorem C13_sparse_cover_loop_progress : forall ctrl rows chosen,
  (sc_remaining ctrl rows chosen <> [] -> sc_offer_loop ctrl rows chosen <> []) /\
  (forall i, In i (sc_offer_loop ctrl rows chosen) ->
     ndistinct (sc_remaining ctrl rows (chosen ++ [i])) < ndistinct (sc_remaining ctrl rows chosen)) /\
  (forall s, In s (sample_names rows) -> sc_offer_sample ctrl rows s chosen <> []).
Proof. exact sc_loop_progress. Qed.
Print Assumptions C13_sparse_cover_loop_progress.

(* whenever it returns: one answer per sample (used1), then at most as many while-loop iterations (used2, one answer
   each) as there are distinct treatment ids not covered by the per-sample phase, which are at most the distinct
   ids of the screen; the unused answers ds' are handed back *)
Theorem C13_sparse_cover_iterations : forall ctrl reveal rows ds out ds',
  sparse_cover ctrl reveal rows ds = Ok (out, ds') ->
  exists chosen1 used1 used2,
    ds = used1 ++ used2 ++ ds' /\
    sc_samples ctrl rows (sample_names rows) [] ds = Ok (chosen1, used2 ++ ds') /\
    length used1 = length (sample_names rows) /\
    length used2 <= ndistinct (sc_remaining ctrl rows chosen1) /\
    ndistinct (sc_remaining ctrl rows chosen1) <= ndistinct (all_tids ctrl rows).
Proof. exact sparse_cover_iterations. Qed.
Print Assumptions C13_sparse_cover_iterations.

(* for every fully observed screen (the empty one included) and every answer stream that obeys numpy's choice
   contract answer by answer ([sc_contract]: each answer asked for is one element of the array offered then) and
   holds #samples + #distinct treatment ids answers, the function returns: it never runs out of answers, never
   offers an empty array, and the final Screen(...) is accepted *)
Theorem C13_sparse_cover_terminates : forall ctrl reveal rows ds,
  forallb r_mask rows = true ->
  sc_contract ctrl rows (sample_names rows) [] ds ->
  length (sample_names rows) + ndistinct (all_tids ctrl rows) <= length ds ->
  exists out ds', sparse_cover ctrl reveal rows ds = Ok (out, ds').
Proof. exact sparse_cover_terminates. Qed.
Print Assumptions C13_sparse_cover_terminates.

(* ... having consumed between #samples and #samples + #distinct treatment ids answers *)
Theorem C13_sparse_cover_consumes : forall ctrl reveal rows ds out ds',
  sparse_cover ctrl reveal rows ds = Ok (out, ds') ->
  exists used, ds = used ++ ds' /\
    length (sample_names rows) <= length used <= length (sample_names rows) + ndistinct (all_tids ctrl rows).
Proof. exact sparse_cover_consumes. Qed.
Print Assumptions C13_sparse_cover_consumes.

(* ---- combination filter ---- *)
Theorem C13_combo_filter_exact : forall ctrl arity rows out,
  combo_filter ctrl arity rows = Ok out ->
  out = filter (keeps ctrl rows) rows /\
  forall r, keeps ctrl rows r = true <->
    forall t, In t (row_tids ctrl r) ->
      t = None \/ exists r', In r' rows /\ ~ In None (row_tids ctrl r') /\ In t (row_tids ctrl r').
Proof. intros ctrl arity rows out H. split; [exact (combo_filter_exact _ _ _ _ H)|apply keeps_spec]. Qed.
Print Assumptions C13_combo_filter_exact.

(* ---- fixed / optimal size ---- *)
Theorem C13_fixed_size_common : forall t rows ds out ds',
  smooth_plates (SFixed t) rows ds = Ok (out, ds') -> size_contract t (unobserved rows) ds ->
  forall p, In p (plate_names_of (unobserved out)) -> Z.of_nat (plate_count p (unobserved out)) = t.
Proof. exact fixed_size_common_w. Qed.
Print Assumptions C13_fixed_size_common.

Theorem C13_optimal_size_common : forall rows ds out ds',
  smooth_plates SOptimal rows ds = Ok (out, ds') ->
  size_contract (Z.of_nat (optimal_size (plate_sizes (unobserved rows)))) (unobserved rows) ds ->
  forall p, In p (plate_names_of (unobserved out)) ->
    plate_count p (unobserved out) = optimal_size (plate_sizes (unobserved rows)).
Proof. exact optimal_size_common_w. Qed.
Print Assumptions C13_optimal_size_common.

(* which plates survive, and with how many experiments (so: retained = size * #{plates >= size}) *)
Theorem C13_size_smooth_counts : forall t rows ds out ds',
  size_smooth t rows ds = Ok (out, ds') -> size_contract t rows ds ->
  forall p, In p (plate_names_of rows) ->
    Z.of_nat (plate_count p out) = if (t <=? psize p rows)%Z then t else 0%Z.
Proof. exact size_smooth_counts. Qed.
Print Assumptions C13_size_smooth_counts.

(* the optimal size retains the most experiments among all common sizes *)
Theorem C13_optimal_size_optimal : forall sizes s,
  (s * count_ge s sizes <= optimal_size sizes * count_ge (optimal_size sizes) sizes)%nat.
Proof. exact optimal_size_optimal. Qed.
Print Assumptions C13_optimal_size_optimal.

(* ---- per-sample minimum ---- *)
Theorem C13_nplate_minimum : forall m rows ds out ds',
  smooth_plates (SNPlate true m) rows ds = Ok (out, ds') ->
  forall s, In s (sample_names (unobserved out)) ->
    (m <= Z.of_nat (length (sample_plates s (unobserved out))))%Z.
Proof. exact nplate_minimum_w. Qed.
Print Assumptions C13_nplate_minimum.

(* ... and THROUGH the ensemble (MergeMin, MergeTopBottom, OptimalSize, then the per-sample minimum): the ensemble leaves no
   sample with fewer unobserved plates than configured either *)
Theorem C13_ensemble_minimum : forall ms n m rows ds out ds',
  smooth_plates (SEnsemble true ms n m) rows ds = Ok (out, ds') ->
  forall s, In s (sample_names (unobserved out)) ->
    (m <= Z.of_nat (length (sample_plates s (unobserved out))))%Z.
Proof. exact C13Ensemble.ensemble_minimum_w. Qed.
Print Assumptions C13_ensemble_minimum.

(* samples A: 1 plate, B: 3 plates, C: 1 plate; minimum 2 *)
Definition w_np : list row :=
  [w_row 65 [1] 1; w_row 66 [2] 2; w_row 66 [3] 3; w_row 66 [4] 4; w_row 67 [5] 5]%Z.

(* the code as found: A is dropped, ids are re-encoded, C's stale id 2 matches nothing: C stays with 1 < 2 plates *)
Theorem C13_nplate_minimum_refuted :
  exists m rows ds out ds',
    smooth_plates (SNPlate false m) rows ds = Ok (out, ds') /\
    exists s, In s (sample_names (unobserved out)) /\
              (Z.of_nat (length (sample_plates s (unobserved out))) < m)%Z.
Proof.
  exists 2%Z, w_np, [], (tl w_np), []. split; [vm_compute; reflexivity|].
  exists [67%Z]. vm_compute. split; [tauto|reflexivity].
Qed.
Print Assumptions C13_nplate_minimum_refuted.

(* ---- merge smoothers ---- *)
(* only plates of one sample are merged: whenever a merge smoother returns (and, for TopBottom, runs at
   least one iteration) every unobserved plate of the result holds one sample; with no iteration
   nothing is merged at all *)
Theorem C13_merge_same_sample : forall rows ds out ds',
  (forall ms, smooth_plates (SMergeMin ms) rows ds = Ok (out, ds') -> one_sample (unobserved out)) /\
  (forall n, smooth_plates (SMergeTB n) rows ds = Ok (out, ds') ->
     one_sample (unobserved out) \/ ((n <= 0)%Z /\ unobserved out = unobserved rows)).
Proof. exact merge_same_sample_w. Qed.
Print Assumptions C13_merge_same_sample.

(* min-merging stops exactly when the two smallest plates of a sample together exceed min_size:
   afterwards any two distinct unobserved plates of a sample together exceed it (for every heappop
   answer the model accepts, i.e. every answer that is a smallest plate), and if that already holds
   of the input nothing is merged *)
Theorem C13_mergemin_stop : forall ms rows ds out ds',
  smooth_plates (SMergeMin ms) rows ds = Ok (out, ds') ->
  (forall s, stop_rule s ms (unobserved out)) /\
  ((forall s, stop_rule s ms (unobserved rows)) -> unobserved out = unobserved rows).
Proof. exact mergemin_stop_w. Qed.
Print Assumptions C13_mergemin_stop.

(* one top-bottom iteration for sample s: n -> ceil(n/2) plates of s, other samples untouched;
   the loop breaks only when s has at most one plate *)
Theorem C13_topbottom_halves : forall s rows,
  match tb_iter s rows with
  | Ok (Some rows') =>
      one_sample rows' /\
      length (sample_plates s rows') = (length (sample_plates s rows) + 1) / 2 /\
      forall s', s' <> s -> sample_plates s' rows' = sample_plates s' rows
  | Ok None => one_sample rows /\ length (sample_plates s rows) <= 1
  | Err _ => True
  end.
Proof. exact tb_iter_halves. Qed.
Print Assumptions C13_topbottom_halves.

(* end to end: n_iterations halvings of the number of unobserved plates of every sample *)
Theorem C13_topbottom_counts : forall n rows ds out ds',
  smooth_plates (SMergeTB n) rows ds = Ok (out, ds') ->
  forall s, length (sample_plates s (unobserved out))
            = halve_n (Z.to_nat n) (length (sample_plates s (unobserved rows))).
Proof. exact topbottom_counts_w. Qed.
Print Assumptions C13_topbottom_counts.

(* sample A with plates of sizes 1,1,2,3 *)
Definition w_mm : list row :=
  [w_row 65 [1] 1; w_row 65 [2] 2; w_row 65 [3] 3; w_row 65 [3] 4; w_row 65 [4] 5; w_row 65 [4] 6; w_row 65 [4] 7]%Z.
(* min_size 4, heappop answers: plates 1,2 (1+1<=4: merged into plate 1), then plates {3, 4, 1+2}: pops 3 (size 2)
   and the merged plate (size 2): 2+2<=4 merged; then {4 (3), merged (4)}: 3+4>4 stop *)
Example C13_mergemin_example :
  option_map (fun r => (map r_plate (fst r), length (snd r)))
    (match smooth_plates (SMergeMin 4) w_mm
             [DInts [0]; DInts [0]; DInts [0]; DInts [1]; DInts [0]; DInts [0]] with Ok r => Some r | Err _ => None end)
  = Some ([[1]; [1]; [1]; [1]; [4]; [4]; [4]]%Z, 0).
Proof. vm_compute. reflexivity. Qed.
(* ... per sample (the other half of "exactly"): a sample whose unobserved plates ALREADY satisfy the stop rule is left
   untouched - the same plates, each with the same rows - whatever merging the other samples need.  (keeps_sample s a b unfolded.) *)
Theorem C13_mergemin_satisfied_sample_untouched : forall ms rows ds out ds',
  smooth_plates (SMergeMin ms) rows ds = Ok (out, ds') ->
  forall s, stop_rule s ms (unobserved rows) ->
    sample_plates s (unobserved out) = sample_plates s (unobserved rows) /\
    forall c, In c (sample_plates s (unobserved rows)) -> plate_vec c (unobserved out) = plate_vec c (unobserved rows).
Proof. exact C13MergeMinPerSample.mergemin_keeps_satisfied_w. Qed.
Print Assumptions C13_mergemin_satisfied_sample_untouched.
(* w_mm next to a sample B with plates of sizes 2 and 3 (2 + 3 > 4: B satisfies the rule, A does not): A is merged as above, B keeps its plates *)
Example C13_mergemin_per_sample_example :
  option_map (fun r => (map r_plate (fst r), length (snd r)))
    (match smooth_plates (SMergeMin 4) (w_mm ++ [w_row 66 [5] 8; w_row 66 [5] 9; w_row 66 [6] 10; w_row 66 [6] 11; w_row 66 [6] 12]%Z)
             [DInts [0]; DInts [0]; DInts [0]; DInts [1]; DInts [0]; DInts [0]; DInts [0]; DInts [0]] with Ok r => Some r | Err _ => None end)
  = Some ([[1]; [1]; [1]; [1]; [4]; [4]; [4]; [5]; [5]; [6]; [6]; [6]]%Z, 0).
Proof. vm_compute. reflexivity. Qed.
(* a heappop answer that is not a smallest plate is refused *)
Example C13_mergemin_bad_oracle :
  smooth_plates (SMergeMin 4) w_mm [DInts [3]; DInts [0]] = Err 93%Z.
Proof. vm_compute. reflexivity. Qed.
(* top-bottom, one iteration: 4 plates -> 2 *)
Example C13_topbottom_example :
  option_map (fun r => map r_plate (fst r))
    (match smooth_plates (SMergeTB 1) w_mm [] with Ok r => Some r | Err _ => None end)
  = Some [[1]; [2]; [2]; [2]; [1]; [1]; [1]]%Z.
Proof. vm_compute. reflexivity. Qed.

(* sparse cover on 3 fully observed rows (samples A, A, B; treatments a+b, a+control, c+b):
   answers 1, 2 for the samples, then 0 to cover treatment (b... already) - the loop needs no further answer *)
Definition w_sc : list row :=
  [ {| r_sample := [65]; r_plate := [112]; r_treats := [([97], 1); ([98], 1)]; r_obs := 1; r_mask := true |};
    {| r_sample := [65]; r_plate := [112]; r_treats := [([97], 1); ([], 0)]; r_obs := 2; r_mask := true |};
    {| r_sample := [66]; r_plate := [112]; r_treats := [([99], 1); ([98], 1)]; r_obs := 3; r_mask := true |} ]%Z.
Example C13_sparse_cover_example :
  option_map (fun r => (map r_mask (fst r), length (snd r)))
    (match sparse_cover [] false w_sc [DInts [1]; DInts [2]] with Ok r => Some r | Err _ => None end)
  = Some ([false; true; true], 0).
Proof. vm_compute. reflexivity. Qed.
(* an answer outside the offered array is refused *)
Example C13_sparse_cover_bad_oracle : sparse_cover [] false w_sc [DInts [2]; DInts [2]] = Err 94%Z.
Proof. vm_compute. reflexivity. Qed.

(* termination, non-vacuity: 2 samples + 4 distinct ids (a, b, c, control) = 6 answers; rows 0 and 2 for the samples
   leave the control id uncovered, the while loop is offered [1] only, answer 1 ends it; three answers are left *)
Definition w_sc_stream : list draw := [DInts [0]; DInts [2]; DInts [1]; DInts [7]; DInts [7]; DInts [7]].
Example C13_sparse_cover_contract_example :
  forallb r_mask w_sc = true /\ sc_contract [] w_sc (sample_names w_sc) [] w_sc_stream /\
  length (sample_names w_sc) + ndistinct (all_tids [] w_sc) = length w_sc_stream.
Proof. vm_compute. tauto. Qed.
Example C13_sparse_cover_terminates_example :
  option_map (fun r => (map r_mask (fst r), snd r))
    (match sparse_cover [] false w_sc w_sc_stream with Ok r => Some r | Err _ => None end)
  = Some ([true; true; true], [DInts [7]; DInts [7]; DInts [7]]) /\
  sc_offer_loop [] w_sc [0; 2] = [1] /\ ndistinct (sc_remaining [] w_sc [0; 2]) = 1.
Proof. vm_compute. auto. Qed.

(* the repaired logic on the same witnesses *)
Example C13_sample_segregating_fixed_witness :
  option_map (fun r => map r_plate (fst r))
    (match generate_plates (GSampleSeg true 3) w_ss [] with Ok r => Some r | Err _ => None end)
  = Some [gen_name 0; gen_name 0; gen_name 1; gen_name 1; gen_name 1].
Proof. vm_compute. reflexivity. Qed.
Example C13_nplate_fixed_witness :
  option_map (fun r => map r_sample (fst r))
    (match smooth_plates (SNPlate true 2) w_np [] with Ok r => Some r | Err _ => None end)
  = Some [[66]; [66]; [66]]%Z.
Proof. vm_compute. reflexivity. Qed.
(* a big sample is split by the recorded permutation; the contract hypothesis is satisfiable *)
Example C13_ss_contract_example :
  ss_contract 2 w_ss (sample_names w_ss) [DInts [4; 2; 3]].
Proof. vm_compute. split; [|exact I]. apply (Permutation_cons_app [2; 3] [] 4). apply Permutation_refl. Qed.
(* ... and the split itself: max 2, sample A (2 rows) keeps one plate, sample B (3 rows) is split 2 + 1 *)
Example C13_sample_segregating_even_example :
  option_map (fun r => map r_plate (fst r))
    (match generate_plates (GSampleSeg true 2) w_ss [DInts [4; 2; 3]] with Ok r => Some r | Err _ => None end)
  = Some [gen_name 0; gen_name 0; gen_name 1; gen_name 2; gen_name 1].
Proof. vm_compute. reflexivity. Qed.
(* pairwise with single-agent rows: samples A, B, each with one combination a+b and one single a; subset 1, no anchors;
   permutation answer [1; 0], empty control choice, singles assigned to the plate of their sample *)
Definition w_pw_row (s : Z) (single : bool) (o : Z) : row :=
  {| r_sample := [s]; r_plate := [112]%Z;
     r_treats := if single then [([97], 1); ([], 0)]%Z else [([97], 1); ([98], 1)]%Z; r_obs := o; r_mask := false |}.
Definition w_pw : list row := [w_pw_row 65 false 1; w_pw_row 65 true 2; w_pw_row 66 false 3; w_pw_row 66 true 4]%Z.
Example C13_pairwise_singles_example :
  option_map (fun r => (map r_sample (fst r), map r_plate (fst r), map (is_combo []) (fst r)))
    (match generate_plates (GPairwise [] 1 0) w_pw
             [DInts [1; 0]; DInts []; DNames [gen_name 0]; DNames [gen_name 1]] with Ok r => Some r | Err _ => None end)
  = Some ([[65]; [66]; [65]; [66]]%Z, [gen_name 0; gen_name 1; gen_name 0; gen_name 1], [true; true; false; false]).
Proof. vm_compute. reflexivity. Qed.
(* an assignment answer outside the plates of the sample (numpy's choice cannot give one) is refused *)
Example C13_pairwise_singles_bad_oracle :
  generate_plates (GPairwise [] 1 0) w_pw [DInts [1; 0]; DInts []; DNames [gen_name 1]; DNames [gen_name 1]] = Err 94%Z.
Proof. vm_compute. reflexivity. Qed.
(* the argsort hypothesis of the Pairwise link is satisfiable with anchors: ids 0 (a) and 1 (b), one anchor *)
Example C13_pairwise_argsort_ok_example :
  argsort_ok 1 (length (unique_ids [] (filter (is_combo []) w_pw))) [DInts [1; 0]; DInts [1]; DInts [0]; DInts []] /\
  length (unique_ids [] (filter (is_combo []) w_pw)) = 2.
Proof.
  split; [|vm_compute; reflexivity]. intros _. exists [1; 0], [DInts [1]; DInts [0]; DInts []]. split; [reflexivity|].
  vm_compute. repeat constructor.
Qed.

(* ================= the PRIMITIVES of the links above are theorems =================
   The configurations of the links above give a meaning, in the vocabulary of Model/Retro.v (a Screen = its experiments, a Plate =
   its selection vector, ids = ranks of sorted names), to the data.py helpers the smoothers call.  Those helpers are translated
   themselves (Generated/SrcViews.v, Generated/SrcPlates.v; Props/C14.v proves the translations equal to the models of
   Model/Views.v, where a Screen object carries its id arrays); the theorems below prove that each translation, read through the
   representation (rows of the Views screen = the Retro screen, selection vector of the view = the Retro plate), IS the meaning
   the primitive was given.  Side conditions are those of every reachable call: [screen_wf] / [screen_valid] hold of every
   constructed screen (C14_constructed_screens), [view_ok] of every view the constructors return, [plate_ids_fresh] /
   [sample_ids_fresh] ("the ids are what the encoder answers on the current names without a mapping") of every screen built
   without mappings and - for the plate ids - of the parent after every merge (clause 5 below). *)
From Batchie Require Import Lib.PyRt Model.Views Model.RetroHoldout Generated.SrcViews Generated.SrcPlates
  Proofs.C14Defs Proofs.C14ToScreen Proofs.C13SourceHelpers_Base Proofs.C13SourceHelpers_Merge Proofs.C13SourceHelpers_Plates
  Proofs.C13SourceHelpers_Order Proofs.C13SourceHelpers_SampleIds Proofs.C13SourceHelpers_PlateSampleIds.

(* primitive `__b.merge(__a)` -> [Retro.merge] (C13_MERGEMIN, C13_MERGETB): the translated Plate.merge on two plates of one screen
   object, of the parent's length, with a non-empty union, succeeds; the merged plate and the parent's rows afterwards are the
   two components of Retro.merge; the parent keeps its identity and everything but the rows and the plate ids; the plate ids are
   fresh again and the result is a well-formed view of the new parent *)
Theorem C13_model_is_source_plate_merge : forall self other : view,
  v_tag other = v_tag self -> view_ok self -> length (v_sel other) = length (v_sel self) ->
  screen_wf (v_parent self) -> vselect (vor (v_sel self) (v_sel other)) (s_rows (v_parent self)) <> [] ->
  exists v', src_plate_merge self other = Ok v' /\
    v_sel v' = fst (Retro.merge (v_sel self) (v_sel other) (s_rows (v_parent self))) /\
    s_rows (v_parent v') = snd (Retro.merge (v_sel self) (v_sel other) (s_rows (v_parent self))) /\
    v_tag v' = v_tag self /\ plate_ids_fresh (v_parent v') /\ screen_wf (v_parent v') /\ view_ok v' /\
    s_sids (v_parent v') = s_sids (v_parent self) /\ s_tids (v_parent v') = s_tids (v_parent self) /\
    s_arity (v_parent v') = s_arity (v_parent self) /\ s_ctrl (v_parent v') = s_ctrl (v_parent self).
Proof. exact src_plate_merge_is_retro_merge. Qed.
Print Assumptions C13_model_is_source_plate_merge.

(* primitive `__s.plates` -> [plates_of]: the translated Screen.plates of a screen object with fresh plate ids lists, in order,
   one view per sorted distinct plate NAME, whose selection vectors are plates_of's; all are views of that object *)
Theorem C13_model_is_source_plates : forall (tag : Z) (p : screen), screen_wf p -> plate_ids_fresh p ->
  exists vs, src_plates (tag, p) = Ok vs /\ map v_sel vs = plates_of (s_rows p) /\
             Forall (fun v => v_tag v = tag /\ v_parent v = p /\ view_ok v) vs.
Proof. exact src_plates_is_plates_of. Qed.
Print Assumptions C13_model_is_source_plates.

(* primitive `__p.size` -> [plate_size]; Plate.__lt__ (the order heapq uses) compares the numbers of selected rows; and what [pop]
   demands of a recorded heappop answer is exactly that no plate in the heap is smaller in that order *)
Theorem C13_model_is_source_plate_size_and_order :
  (forall v : view, screen_wf (v_parent v) -> view_ok v -> src_view_size v = Ok (plate_size (v_sel v))) /\
  (forall a b : view, view_ok a -> view_ok b -> src_plate_lt a b = Ok (vcount (v_sel a) <? vcount (v_sel b))) /\
  (forall (v : view) (heap : list view), view_ok v -> Forall view_ok heap ->
     forallb (fun w => vcount (v_sel v) <=? vcount w) (map v_sel heap) = true <->
     (forall w, In w heap -> src_plate_lt w v = Ok false)).
Proof. exact (conj src_view_size_is_plate_size (conj src_plate_lt_is_vcount_lt pop_minimality_is_plate_lt)). Qed.
Print Assumptions C13_model_is_source_plate_size_and_order.

(* primitive `__s.unique_sample_ids` -> [sample_names] (names stand for ids): with fresh sample ids the unique ids are 0 .. k-1,
   k = the number of distinct sample names, and id j selects exactly the rows of the j-th name of sample_names *)
Theorem C13_model_is_source_unique_sample_ids : forall s : pyscreen, sample_ids_fresh (snd s) ->
  let names := sample_names (s_rows (snd s)) in
  src_screen_unique_sample_ids s = Ok (map Z.of_nat (seq 0 (length names))) /\
  src_screen_n_unique_samples s = Ok (zlen names) /\
  (forall j, j < length names ->
     map (fun x => (x =? Z.of_nat j)%Z) (s_sids (snd s)) = map (in_sample (nth j names [])) (s_rows (snd s))).
Proof. exact src_unique_sample_ids_are_sample_names. Qed.
Print Assumptions C13_model_is_source_unique_sample_ids.

(* primitive `__p.unique_sample_ids` -> [plate_unique_samples] (_get_plate_sample_id): the plate's unique sample ids are the ranks,
   among the screen's sorted sample names, of plate_unique_samples - same length, same first element *)
Theorem C13_model_is_source_plate_unique_sample_ids : forall v : view, sample_ids_fresh (v_parent v) ->
  src_view_unique_sample_ids v
  = Ok (map (rank_in (sample_names (s_rows (v_parent v)))) (plate_unique_samples (v_sel v) (s_rows (v_parent v)))).
Proof. exact src_view_unique_sample_ids_are_plate_unique_samples. Qed.
Print Assumptions C13_model_is_source_plate_unique_sample_ids.

(* the side conditions are met by every constructed screen: built without mappings it has fresh plate AND sample ids *)
Theorem C13_constructed_screens_have_fresh_ids : forall rows ar ctrl tm sm og mg s,
  mk_screen rows ar ctrl tm sm og mg = Ok s -> plate_ids_fresh s /\ (sm = None -> sample_ids_fresh s).
Proof. exact mk_screen_ids_fresh. Qed.
Print Assumptions C13_constructed_screens_have_fresh_ids.

(* non-vacuity: three plates of one sample; the translated Screen.plates, then the translated merge of the second into the first,
   against Retro.plates_of / Retro.merge on the rows *)
Definition w_hp_row (p : Z) (o : Z) : row :=
  {| r_sample := [65]%Z; r_plate := [p]; r_treats := [([97], 1)]%Z; r_obs := o; r_mask := false |}.
Definition w_hp : list row := [w_hp_row 50 1; w_hp_row 49 2; w_hp_row 50 3; w_hp_row 51 4]%Z.
Example C13_helpers_example :
  match mk_screen w_hp 1 [] None None true true with
  | Ok s =>
      match (dor ps <- src_plates (7%Z, s); dor a <- list_get ps 0%Z; dor b <- list_get ps 1%Z;
             dor m <- src_plate_merge b a; Ok (map v_sel ps, m)) with
      | Ok (sels, m) =>
          sels = plates_of w_hp /\
          (v_sel m, s_rows (v_parent m)) = Retro.merge (nth 1 (plates_of w_hp) []) (nth 0 (plates_of w_hp) []) w_hp /\
          map r_plate (s_rows (v_parent m)) = [[50]; [50]; [50]; [51]]%Z /\ s_pids (v_parent m) = [0; 0; 0; 1]%Z
      | Err _ => False
      end
  | Err _ => False
  end.
Proof. vm_compute. repeat split. Qed.

(* ---- the constructors of the shipped generators / smoothers (retrospective.py; Generated/SrcInits.v, one translated __init__ per class):
   each stores its argument(s), so the attribute `self.<x>` its translated method reads - the model parameter of the links above - is
   the value the object was constructed with ---- *)
From Batchie Require Import Lib.PyRt Generated.SrcInits Proofs.C13Source_Init_SparseCover Proofs.C13Source_Init_Pairwise
  Proofs.C13Source_Init_PlatePermutation Proofs.C13Source_Init_SampleSeg Proofs.C13Source_Init_MergeMin Proofs.C13Source_Init_MergeTopBottom
  Proofs.C13Source_Init_FixedSize Proofs.C13Source_Init_NPlate Proofs.C13Source_Init_Ensemble Proofs.C13Source_ConstructedSmoothers.
Theorem C13_model_is_source_sparse_cover_init : forall reveal : bool, src_sparse_cover_init reveal = Ok reveal.
Proof. exact src_sparse_cover_init_stores. Qed.
Print Assumptions C13_model_is_source_sparse_cover_init.

Theorem C13_model_is_source_pairwise_init : forall subset_size anchor_size : Z, src_pairwise_init subset_size anchor_size = Ok (subset_size, anchor_size).
Proof. exact src_pairwise_init_stores. Qed.
Print Assumptions C13_model_is_source_pairwise_init.

Theorem C13_model_is_source_plate_permutation_init : forall force : option (list name), src_plate_permutation_init force = Ok force.
Proof. exact src_plate_permutation_init_stores. Qed.
Print Assumptions C13_model_is_source_plate_permutation_init.

Theorem C13_model_is_source_sample_segregating_init : forall max_plate_size : Z, src_sample_seg_init max_plate_size = Ok max_plate_size.
Proof. exact src_sample_seg_init_stores. Qed.
Print Assumptions C13_model_is_source_sample_segregating_init.

Theorem C13_model_is_source_merge_min_init : forall min_size : Z, src_merge_min_init min_size = Ok min_size.
Proof. exact src_merge_min_init_stores. Qed.
Print Assumptions C13_model_is_source_merge_min_init.

Theorem C13_model_is_source_merge_top_bottom_init : forall n_iterations : Z, src_merge_tb_init n_iterations = Ok n_iterations.
Proof. exact src_merge_tb_init_stores. Qed.
Print Assumptions C13_model_is_source_merge_top_bottom_init.

Theorem C13_model_is_source_fixed_size_init : forall plate_size : Z, src_fixed_size_init plate_size = Ok plate_size.
Proof. exact src_fixed_size_init_stores. Qed.
Print Assumptions C13_model_is_source_fixed_size_init.

Theorem C13_model_is_source_nplate_init : forall m : Z, src_nplate_init m = Ok m.
Proof. exact src_nplate_init_stores. Qed.
Print Assumptions C13_model_is_source_nplate_init.

Theorem C13_model_is_source_ensemble_init : forall min_size n_iterations m : Z, src_ensemble_init min_size n_iterations m = Ok (min_size, n_iterations, m).
Proof. exact src_ensemble_init_stores. Qed.
Print Assumptions C13_model_is_source_ensemble_init.

(* composed with the translated methods: a MergeMin smoother constructed with min_size merges up to that size ... *)
Theorem C13_source_constructed_merge_min : forall min_size rows ds fuel, (length rows < fuel)%nat ->
  (dor m <- src_merge_min_init min_size; src_merge_min_smooth_plates m rows ds fuel) = merge_min min_size rows ds.
Proof. exact constructed_merge_min_uses_its_min_size. Qed.
Print Assumptions C13_source_constructed_merge_min.

(* ... and the ensemble runs its four stages with the three parameters it was constructed with *)
Theorem C13_source_constructed_ensemble : forall ms n m rows ds fuel, (length rows < fuel)%nat ->
  (dor p <- src_ensemble_init ms n m; src_ensemble_smooth_plates (fst (fst p)) (snd (fst p)) (snd p) rows ds fuel)
  = ensemble true ms n m rows ds.
Proof. exact constructed_ensemble_uses_its_parameters. Qed.
Print Assumptions C13_source_constructed_ensemble.

