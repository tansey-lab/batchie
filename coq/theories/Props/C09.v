(* C09 — Predictions are pure, row-wise, treatment-order-symmetric and control-neutral.
   Statements only: a proof is `exact <lemma from Proofs/>` (or a split into such), a concrete example is closed by evaluation.  All statements hold for every
   parameter value, every row list and EVERY oracle [orc] (expit / exp / ln), unless a hypothesis
   about the oracle is written out.  Index validity is part of the model's top-level functions
   (an invalid index is [Err ERR_INDEX], as numpy raises IndexError), so the statements about
   [theta_predict] need no separate validity hypothesis.  Purity is checked by the harness. *)
From Coq Require Import ZArith List QArith Qcanon.
From Batchie Require Import Lib.Sexp Lib.Num Model.Predict Generated.SrcPredict
  Proofs.C09Lists Proofs.C09Predict Proofs.C09Main Proofs.C09Source.
Import ListNotations.
Open Scope Qc_scope.

(* --- row-wise: the vectorised code (column gathers, zeroing, elementwise products, row sums) is
   the map of a one-experiment formula over the rows *)
Theorem C09_rowwise_sparse2 : forall t rows, sp_mean2 t rows = map (sp_mean_row2 t) rows.
Proof. exact sp_mean2_rowwise. Qed.
Print Assumptions C09_rowwise_sparse2.

Theorem C09_rowwise_sparse1 : forall t rows, sp_mean1 t rows = map (sp_mean_row1 t) rows.
Proof. exact sp_mean1_rowwise. Qed.
Print Assumptions C09_rowwise_sparse1.

Theorem C09_rowwise_inter : forall orc t rows,
  in_mean2 t rows = map (in_mean_row2 t) rows /\ in_viab2 orc t rows = map (in_viab_row2 orc t) rows.
Proof. exact rowwise_inter. Qed.
Print Assumptions C09_rowwise_inter.

(* --- hence: predicting on any boolean-mask subset (Screen.subset, ScreenSubset.subset) of a
   screen that can be predicted gives the masked entries of the whole-screen prediction; any
   sample type, any of mean / viability / variance, any arity *)
Theorem C09_subset : forall orc k t scr mask v,
  theta_predict orc k t scr = Ok v ->
  theta_predict orc k t (scr_select mask scr) = Ok (select mask v).
Proof. exact predict_subset. Qed.
Print Assumptions C09_subset.

(* --- and on any list of row indices (permutations, repeats) *)
Theorem C09_take : forall orc k t scr idx v,
  Forall (fun i => (i < scr_size scr)%nat) idx ->
  theta_predict orc k t scr = Ok v ->
  theta_predict orc k t (scr_take idx scr) = Ok (take_idx 0 idx v).
Proof. exact predict_take. Qed.
Print Assumptions C09_take.

(* --- treatment-order symmetry, one experiment and whole screens (errors included) *)
Theorem C09_swap_row : forall ts ti s a b,
  sp_mean_row2 ts (s, a, b) = sp_mean_row2 ts (s, b, a) /\
  in_mean_row2 ti (s, a, b) = in_mean_row2 ti (s, b, a) /\
  in_single ti (s, a, b) = in_single ti (s, b, a).
Proof. exact swap_row_both. Qed.
Print Assumptions C09_swap_row.

Theorem C09_swap : forall orc k t scr, theta_predict orc k t (scr_swap scr) = theta_predict orc k t scr.
Proof. exact predict_swap. Qed.
Print Assumptions C09_swap.

(* --- control neutrality, sparse type.  The sentinel -1 gathers the LAST embedding row, which is
   zeroed in the copy: whatever that row holds, a pair with control predicts as the single agent.
   [sparse_wfb D t]: the embedding arrays are rectangular of width D (a numpy invariant). *)
Theorem C09_control_neutral_sparse : forall D t s a,
  sparse_wfb D t = true ->
  sp_mean_row2 t (s, a, CONTROL) = sp_mean_row1 t (s, a) /\
  sp_mean_row2 t (s, CONTROL, a) = sp_mean_row1 t (s, a).
Proof. exact control_neutral_sparse. Qed.
Print Assumptions C09_control_neutral_sparse.

(* screen level, mean (viab = false) and viability (viab = true): if the (agent, control) screen
   can be predicted then so can the single-agent screen, with the same values *)
Theorem C09_control_neutral_screen : forall orc D viab t rows v,
  sparse_wfb D t = true ->
  sp_predict orc viab t (Scr2 (map pad_control rows)) = Ok v ->
  sp_predict orc viab t (Scr1 rows) = Ok v.
Proof. exact control_neutral_screen. Qed.
Print Assumptions C09_control_neutral_screen.

Theorem C09_control_only_sparse : forall t s,
  sp_mean_row2 t (s, CONTROL, CONTROL) = salpha t + py_get 0 (sW0 t) s /\
  sp_mean_row1 t (s, CONTROL) = salpha t + py_get 0 (sW0 t) s.
Proof. exact control_only_sparse. Qed.
Print Assumptions C09_control_only_sparse.

(* --- control neutrality, interaction type: the interaction mean vanishes; the viability is the
   clipped product of the two looked-up single effects (the table holds 1 for the control) *)
Theorem C09_control_neutral_inter : forall t s a,
  in_mean_row2 t (s, a, CONTROL) = 0 /\ in_mean_row2 t (s, CONTROL, a) = 0.
Proof. exact control_neutral_inter. Qed.
Print Assumptions C09_control_neutral_inter.

Theorem C09_control_viability_inter : forall orc : oracle,
  (forall x, 0 < x -> orc ORC_EXP (orc ORC_LN x) = x) ->
  forall t s a,
    in_viab_row2 orc t (s, a, CONTROL) = clip_viab (lookup0 (ilookup t) s a * lookup0 (ilookup t) s CONTROL) /\
    in_viab_row2 orc t (s, CONTROL, a) = clip_viab (lookup0 (ilookup t) s CONTROL * lookup0 (ilookup t) s a).
Proof. exact control_viability_inter. Qed.
Print Assumptions C09_control_viability_inter.

(* --- viability *)
Theorem C09_viability_is_clipped_logistic : forall orc t scr v,
  sp_predict orc true t scr = Ok v ->
  exists m, sp_predict orc false t scr = Ok m /\ v = map (fun x => clip_viab (orc ORC_EXPIT x)) m.
Proof. exact sp_viability_is_clipped_logistic. Qed.
Print Assumptions C09_viability_is_clipped_logistic.

Theorem C09_viability_range : forall orc t scr v,
  theta_predict orc KViab t scr = Ok v -> Forall (fun x => VIAB_LO <= x /\ x <= VIAB_HI) v.
Proof. exact viability_range. Qed.
Print Assumptions C09_viability_range.

(* the clause "viability is the logistic of the modelled mean" is false of the interaction type,
   for the real functions and for any oracle with exp (ln x) = x (x > 0) and expit 0 = 1/2 *)
Theorem C09_inter_viability_not_logistic_refuted : forall orc : oracle,
  (forall x, 0 < x -> orc ORC_EXP (orc ORC_LN x) = x) ->
  orc ORC_EXPIT 0 = Q2Qc (1 # 2) ->
  exists t scr v m,
    theta_predict orc KViab (TI t) scr = Ok v /\ theta_predict orc KMean (TI t) scr = Ok m /\
    v <> map (viab_of_mean orc) m.
Proof. exact inter_viability_not_logistic'. Qed.
Print Assumptions C09_inter_viability_not_logistic_refuted.

(* --- variance: the reciprocal precision for every experiment, positive when the precision is *)
Theorem C09_variance : forall orc t scr v,
  theta_predict orc KVar t scr = Ok v ->
  v = repeat (1 / theta_prec t) (scr_size scr) /\
  (0 < theta_prec t -> Forall (fun x => 0 < x) v).
Proof. exact variance_spec. Qed.
Print Assumptions C09_variance.

(* --- stacked and averaged helpers *)
Theorem C09_all_rows : forall orc k h scr rows,
  predict_all orc k h scr = Ok rows ->
  length rows = h_n h /\
  forall i, (i < h_n h)%nat ->
    exists t, nth_error (h_thetas h) i = Some t /\ theta_predict orc k t scr = Ok (nth i rows []).
Proof. exact predict_all_rows. Qed.
Print Assumptions C09_all_rows.

Theorem C09_avg_exact : forall orc k h scr v,
  k <> KVar ->
  predict_avg orc k h scr = Ok v ->
  exists rows,
    predict_all orc k h scr = Ok rows /\ length v = scr_size scr /\
    forall j, (j < scr_size scr)%nat ->
      nth j v 0 = qsum (map (fun r => nth j r 0) rows) / qofnat (h_n h).
Proof. exact predict_avg_exact. Qed.
Print Assumptions C09_avg_exact.

(* ---------------------------------------------------------------- non-vacuity *)

Definition q (n : Z) (d : positive) : Qc := Q2Qc (n # d).

(* 2 samples, 2 treatments, width 2; the LAST embedding rows (the ones -1 gathers) are non-zero *)
Definition ex_sparse : sparse_theta :=
  {| sW := [[q 1 2; 1]; [0; q 3 1]]; sW0 := [1; q 2 1];
     sV2 := [[1; 1]; [q 5 1; q 7 1]]; sV1 := [[q 1 4; 0]; [q 9 1; q 9 1]]; sV0 := [q 1 8; q 11 1];
     salpha := q 1 2; sprec := q 4 1 |}.
Definition ex_inter : inter_theta :=
  {| iW := [[q 1 2; 1]; [0; q 3 1]]; iV2 := [[1; 1]; [q 5 1; q 7 1]]; iprec := q 2 1;
     ilookup := [(0%Z, (-1)%Z, 1); (0%Z, 0%Z, q 1 2); (0%Z, 1%Z, q 3 4);
                 (1%Z, (-1)%Z, 1); (1%Z, 0%Z, q 1 4); (1%Z, 1%Z, q 2 1)] |}.
Definition ex_rows : list (Z * Z * Z) := [(0, 0, -1); (1, -1, -1); (1, 0, 0); (0, 0, 1); (0, 1, 0); (1, -1, 1)]%Z.

Example C09_ex_wf : sparse_wfb 2 ex_sparse = true /\ inter_wfb 2 ex_inter = true.
Proof. vm_compute. split; reflexivity. Qed.

Example C09_ex_valid :
  forallb (sp_valid_row2 ex_sparse) ex_rows = true /\ forallb (in_valid_row2 ex_inter) ex_rows = true /\
  forallb (in_haskey_row2 ex_inter) ex_rows = true.
Proof. vm_compute. repeat split; reflexivity. Qed.

(* results are shown through [this] (the reduced fraction), which vm_compute can compare *)
Definition qs (r : result (list Qc)) : result (list Q) :=
  match r with Ok l => Ok (map this l) | Err e => Err e end.
Definition qss (r : result (list (list Qc))) : result (list (list Q)) :=
  match r with Ok l => Ok (map (map this) l) | Err e => Err e end.

Example C09_ex_last_row_nonzero :
  map this (py_get [] (sV2 ex_sparse) CONTROL) = [5 # 1; 7 # 1]%Q /\
  map this (py_get [] (sV1 ex_sparse) CONTROL) = [9 # 1; 9 # 1]%Q /\
  this (py_get 0 (sV0 ex_sparse) CONTROL) = (11 # 1)%Q.
Proof. vm_compute. repeat split; reflexivity. Qed.

(* the whole-screen mean: rows 0 / 5 are (agent, control) / (control, agent), row 1 is all-control
   (= alpha + W0[1]), rows 3 and 4 are the two orders of the same pair *)
Example C09_ex_mean :
  qs (theta_predict toy_orc KMean (TS ex_sparse) (Scr2 ex_rows))
  = Ok [7 # 4; 5 # 2; 23 # 4; 143 # 4; 143 # 4; 81 # 2]%Q.
Proof. vm_compute. reflexivity. Qed.

Example C09_ex_single_agent :
  qs (theta_predict toy_orc KMean (TS ex_sparse) (Scr1 [(0, 0); (1, 1)]%Z)) = Ok [7 # 4; 81 # 2]%Q.
Proof. vm_compute. reflexivity. Qed.

Example C09_ex_subset_and_order :
  qs (theta_predict toy_orc KMean (TS ex_sparse) (scr_select [true; false; false; true; false; true] (Scr2 ex_rows)))
  = Ok [7 # 4; 143 # 4; 81 # 2]%Q /\
  qs (theta_predict toy_orc KMean (TS ex_sparse) (scr_take [5; 0; 0; 3]%nat (Scr2 ex_rows)))
  = Ok [81 # 2; 7 # 4; 7 # 4; 143 # 4]%Q.
Proof. vm_compute. split; reflexivity. Qed.

Example C09_ex_inter :
  qs (theta_predict toy_orc KMean (TI ex_inter) (Scr2 ex_rows)) = Ok [0; 0; 3 # 1; 19 # 2; 19 # 2; 0]%Q /\
  qs (theta_predict toy_orc KViab (TI ex_inter) (Scr2 ex_rows))
  = Ok [1 # 2; 99 # 100; 99 # 100; 99 # 100; 99 # 100; 99 # 100]%Q.
Proof. vm_compute. split; reflexivity. Qed.

Example C09_ex_variance :
  qs (theta_predict toy_orc KVar (TS ex_sparse) (Scr2 ex_rows)) = Ok (repeat (1 # 4)%Q 6).
Proof. vm_compute. reflexivity. Qed.

Example C09_ex_holder :
  let h := {| h_n := 2; h_thetas := [TI ex_inter; TS ex_sparse] |} in
  let scr := Scr2 [(0, 0, -1); (0, 0, 1)]%Z in
  qss (predict_all toy_orc KMean h scr) = Ok [[0; 19 # 2]; [7 # 4; 143 # 4]]%Q /\
  qs (predict_avg toy_orc KMean h scr) = Ok [7 # 8; 181 # 8]%Q /\
  qss (predict_all toy_orc KVar h scr) = Ok [[1 # 2; 1 # 2]; [1 # 4; 1 # 4]]%Q.
Proof. vm_compute. repeat split; reflexivity. Qed.

(* the oracle hypotheses of C09_control_viability_inter / ..._refuted are satisfiable *)
Example C09_ex_oracle :
  (forall x, 0 < x -> toy_orc ORC_EXP (toy_orc ORC_LN x) = x) /\ toy_orc ORC_EXPIT 0 = Q2Qc (1 # 2).
Proof. exact toy_orc_ok. Qed.

(* index validity is a real restriction: out-of-range ids, and the sentinel itself on an
   embedding without rows, are IndexError *)
Example C09_ex_invalid :
  theta_predict toy_orc KMean (TS ex_sparse) (Scr2 [(0, 2, 0)]%Z) = Err ERR_INDEX /\
  py_valid 0 CONTROL = false /\
  theta_predict toy_orc KMean (TS ex_sparse) (ScrN 3 1) = Err ERR_ARITY /\
  theta_predict toy_orc KMean (TI ex_inter) (Scr1 [(0, 0)]%Z) = Err ERR_ARITY.
Proof. vm_compute. repeat split; reflexivity. Qed.

(* ---------------------------------------------------------------- the model is the source
   Generated/SrcPredict.v is re-translated from /repo's common.py, data.py and models/sparse_combo.py on every run
   (harness/py2gal.py, configurations C09_* of harness/src_functions.py).  The model's screens stand for the ScreenBase
   objects [pydata_of] gives: sample_ids of shape (n,), treatment_ids of shape (n, arity). *)

(* copy_array_with_control_treatments_set_to_zero, for an array whose axis-0 entries have ANY type A (z = the zeros of
   an entry's shape) and any default d: IndexError iff some id is outside [-n, n), else the gathered copy with the
   entries at the sentinel's positions zeroed; at rows and at numbers these are the model's gather_zero2 / gather_zero1 *)
Theorem C09_model_is_source_copy_zero : forall (A : Type) (z : A -> A) (d : A) arr ids,
  src_copy_zero A z arr ids
  = if forallb (py_valid (length arr)) ids then Ok (zero_where z ids (gather d arr ids)) else Err ERR_INDEX.
Proof. exact @src_copy_zero_is_model. Qed.
Print Assumptions C09_model_is_source_copy_zero.

Theorem C09_model_is_source_copy_zero_shapes : forall (V2 : list (list Qc)) (V0 : list Qc) ids,
  src_copy_zero vec zrow V2 ids = (if forallb (py_valid (length V2)) ids then Ok (gather_zero2 V2 ids) else Err ERR_INDEX) /\
  src_copy_zero qnum zscal V0 ids = (if forallb (py_valid (length V0)) ids then Ok (gather_zero1 V0 ids) else Err ERR_INDEX).
Proof. exact src_copy_zero_shapes. Qed.
Print Assumptions C09_model_is_source_copy_zero_shapes.

(* sparse_combo.predict on any arity-2 data and predict_single_drug on any arity-1 data, mean and viability, errors included *)
Theorem C09_model_is_source_predict : forall orc t rows viab,
  src_predict orc t (pydata_of (Scr2 rows)) viab = sp_predict orc viab t (Scr2 rows).
Proof. exact src_predict_is_model. Qed.
Print Assumptions C09_model_is_source_predict.

Theorem C09_model_is_source_predict_single_drug : forall orc t rows viab,
  src_predict_single_drug orc t (pydata_of (Scr1 rows)) viab = sp_predict orc viab t (Scr1 rows).
Proof. exact src_predict_single_drug_is_model. Qed.
Print Assumptions C09_model_is_source_predict_single_drug.

(* ScreenBase.size / treatment_arity *)
Theorem C09_model_is_source_size_arity : forall scr,
  src_data_size (pydata_of scr) = Ok (Z.of_nat (scr_size scr)) /\
  src_data_treatment_arity (pydata_of scr) = Ok (Z.of_nat (scr_arity scr)).
Proof. exact src_size_arity_is_model. Qed.
Print Assumptions C09_model_is_source_size_arity.

(* the methods of SparseDrugComboMCMCSample: the arity dispatch (1 -> predict_single_drug, 2 -> predict, else
   NotImplementedError) and the variance np.repeat(1 / precision, repeats=data.size).  [scr_okb]: the model's [ScrN a n]
   ("any other arity") is only meant for a other than 1 and 2 - an invariant of the model's screen type, true of every
   screen the harness or a theorem's non-vacuity example builds *)
Theorem C09_model_is_source_predict_viability : forall orc t scr, scr_okb scr = true ->
  src_sp_predict_viability orc t (pydata_of scr) = theta_predict orc KViab (TS t) scr.
Proof. exact src_sp_predict_viability_is_model. Qed.
Print Assumptions C09_model_is_source_predict_viability.

Theorem C09_model_is_source_predict_conditional_mean : forall orc t scr, scr_okb scr = true ->
  src_sp_predict_conditional_mean orc t (pydata_of scr) = theta_predict orc KMean (TS t) scr.
Proof. exact src_sp_predict_conditional_mean_is_model. Qed.
Print Assumptions C09_model_is_source_predict_conditional_mean.

Theorem C09_model_is_source_predict_conditional_variance : forall orc t scr,
  src_sp_predict_conditional_variance t (pydata_of scr) = theta_predict orc KVar (TS t) scr.
Proof. exact src_sp_predict_conditional_variance_is_model. Qed.
Print Assumptions C09_model_is_source_predict_conditional_variance.

(* the methods of SparseDrugComboInteractionMCMCSample (models/sparse_combo_interaction.py): the arity guard (ValueError),
   the gathered interaction, the single-effect comprehension over zip(sample_ids, column 0, column 1) with its KeyError,
   exp / log / both clips, the variance *)
Theorem C09_model_is_source_inter_predict_conditional_mean : forall orc t scr, scr_okb scr = true ->
  src_in_predict_conditional_mean t (pydata_of scr) = theta_predict orc KMean (TI t) scr.
Proof. exact src_in_predict_conditional_mean_is_model. Qed.
Print Assumptions C09_model_is_source_inter_predict_conditional_mean.

Theorem C09_model_is_source_inter_predict_viability : forall orc t scr, scr_okb scr = true ->
  src_in_predict_viability orc t (pydata_of scr) = theta_predict orc KViab (TI t) scr.
Proof. exact src_in_predict_viability_is_model. Qed.
Print Assumptions C09_model_is_source_inter_predict_viability.

Theorem C09_model_is_source_inter_predict_conditional_variance : forall orc t scr,
  src_in_predict_conditional_variance t (pydata_of scr) = theta_predict orc KVar (TI t) scr.
Proof. exact src_in_predict_conditional_variance_is_model. Qed.
Print Assumptions C09_model_is_source_inter_predict_conditional_variance.

(* hence the model's Theta interface IS the six translated methods ([py_theta_predict]: the dispatch on the sample's
   class and the method name) *)
Theorem C09_model_is_source_theta_predict : forall orc k t scr, scr_okb scr = true ->
  py_theta_predict orc k t (pydata_of scr) = theta_predict orc k t scr.
Proof. exact py_theta_predict_is_model. Qed.
Print Assumptions C09_model_is_source_theta_predict.

(* models/main.py.  The translations take the three Theta methods as a parameter pm (kind -> sample -> data -> result):
   for ANY implementation that agrees with the model on the samples the holder stores ... *)
Theorem C09_model_is_source_predict_viability_all : forall orc pm scr h,
  (forall t, In t (h_thetas h) -> pm KViab t (pydata_of scr) = theta_predict orc KViab t scr) ->
  src_predict_viability_all pm (pydata_of scr) h = predict_all orc KViab h scr.
Proof. exact src_predict_viability_all_is_model. Qed.
Print Assumptions C09_model_is_source_predict_viability_all.

Theorem C09_model_is_source_predict_mean_all : forall orc pm scr h,
  (forall t, In t (h_thetas h) -> pm KMean t (pydata_of scr) = theta_predict orc KMean t scr) ->
  src_predict_mean_all pm (pydata_of scr) h = predict_all orc KMean h scr.
Proof. exact src_predict_mean_all_is_model. Qed.
Print Assumptions C09_model_is_source_predict_mean_all.

Theorem C09_model_is_source_predict_variance_all : forall orc pm scr h,
  (forall t, In t (h_thetas h) -> pm KVar t (pydata_of scr) = theta_predict orc KVar t scr) ->
  src_predict_variance_all pm (pydata_of scr) h = predict_all orc KVar h scr.
Proof. exact src_predict_variance_all_is_model. Qed.
Print Assumptions C09_model_is_source_predict_variance_all.

Theorem C09_model_is_source_predict_mean_avg : forall orc pm scr h,
  (forall t, In t (h_thetas h) -> pm KMean t (pydata_of scr) = theta_predict orc KMean t scr) ->
  src_predict_mean_avg pm (pydata_of scr) h = predict_avg orc KMean h scr.
Proof. exact src_predict_mean_avg_is_model. Qed.
Print Assumptions C09_model_is_source_predict_mean_avg.

Theorem C09_model_is_source_predict_viability_avg : forall orc pm scr h,
  (forall t, In t (h_thetas h) -> pm KViab t (pydata_of scr) = theta_predict orc KViab t scr) ->
  src_predict_viability_avg pm (pydata_of scr) h = predict_avg orc KViab h scr.
Proof. exact src_predict_viability_avg_is_model. Qed.
Print Assumptions C09_model_is_source_predict_viability_avg.

(* ... in particular for the translated methods themselves: no hypothesis about the methods is left *)
Theorem C09_model_is_source_main : forall orc scr h, scr_okb scr = true ->
  src_predict_viability_all (py_theta_predict orc) (pydata_of scr) h = predict_all orc KViab h scr /\
  src_predict_mean_all (py_theta_predict orc) (pydata_of scr) h = predict_all orc KMean h scr /\
  src_predict_variance_all (py_theta_predict orc) (pydata_of scr) h = predict_all orc KVar h scr /\
  src_predict_mean_avg (py_theta_predict orc) (pydata_of scr) h = predict_avg orc KMean h scr /\
  src_predict_viability_avg (py_theta_predict orc) (pydata_of scr) h = predict_avg orc KViab h scr.
Proof. exact src_main_is_model. Qed.
Print Assumptions C09_model_is_source_main.

(* non-vacuity of the links: the translated functions computed on the example screens *)
Example C09_ex_source :
  qs (src_predict toy_orc ex_sparse (pydata_of (Scr2 ex_rows)) false)
  = Ok [7 # 4; 5 # 2; 23 # 4; 143 # 4; 143 # 4; 81 # 2]%Q /\
  qs (src_in_predict_viability toy_orc ex_inter (pydata_of (Scr2 ex_rows)))
  = Ok [1 # 2; 99 # 100; 99 # 100; 99 # 100; 99 # 100; 99 # 100]%Q /\
  (let h := {| h_n := 2; h_thetas := [TI ex_inter; TS ex_sparse] |} in
   qs (src_predict_mean_avg (py_theta_predict toy_orc) (pydata_of (Scr2 [(0, 0, -1); (0, 0, 1)]%Z)) h) = Ok [7 # 8; 181 # 8]%Q) /\
  src_predict toy_orc ex_sparse (pydata_of (Scr2 [(0, 2, 0)]%Z)) false = Err ERR_INDEX /\
  scr_okb (Scr2 ex_rows) = true /\ scr_okb (ScrN 3 1) = true.
Proof. vm_compute. repeat split; reflexivity. Qed.
