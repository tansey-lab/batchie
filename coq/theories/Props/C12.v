(* C12 — Plates are observed atomically; revealing is exact, monotone, value-preserving.
   Statements only: a proof is `exact <lemma from Proofs/>` (or a split into such), a concrete example is closed by evaluation.

   Vocabulary (Model/Reveal.v, Model/Screen.v, Proofs/C12Reveal.v):
     step v s o / history v ops s   the lifecycle operations reveal(ids) / mask / unmask / save+load on a screen,
                                    for ANY variant v (whether or not the call sites pass the mappings: C12 does
                                    not depend on the C03 defect)
     constructed s                  s was returned by some call of the Screen constructor
     plates_encoded s               the plate ids of s are the encoding of its plate names (true of every
                                    constructed screen and preserved by set_observed)
     reveal_row ids (r, pid)        r with mask := r_mask r || (pid in ids), nothing else touched
     row_core r                     (sample, plate, treatments with doses, stored observation bits)
   reveal_plates takes ONE screen; the plate ids are that screen's own (they are re-derived from the plate
   names on every construction), which is how the model selects. *)
From Coq Require Import ZArith List Bool.
From Batchie Require Import Lib.Sexp Generated.Consts Model.Encode Model.Screen Model.Reveal Model.Holdout
  Proofs.C03Base Proofs.C03Screen Proofs.C12Reveal Proofs.C12Counters Proofs.C03Frozen Proofs.C12Defined Proofs.C03Witness Proofs.C12Examples
  Generated.SrcReveal Proofs.C12Source_Base Proofs.C12Source_Reveal Proofs.C12Source_Variant Proofs.C12Source_SetObserved Proofs.C12Source.
Import ListNotations.
Open Scope Z_scope.

(* ---- atomic_invariant ---- *)
Theorem C12_atomic_invariant : forall v ops s0 s,
  constructed s0 -> history v ops s0 = Ok s -> plate_uniform (s_rows s) = true.
Proof. exact atomic_invariant. Qed.
Print Assumptions C12_atomic_invariant.

Theorem C12_atomic_invariant_lifecycle : forall v p sel test ops s,
  lifecycle v p sel test ops = Ok s -> plate_uniform (s_rows s) = true.
Proof. exact atomic_invariant_lifecycle. Qed.
Print Assumptions C12_atomic_invariant_lifecycle.

(* no operation of a history is ever refused because a plate would become mixed (error tag 2) *)
Theorem C12_history_never_mixed : forall v ops s0 s o,
  constructed s0 -> history v ops s0 = Ok s -> step v s o <> Err 2.
Proof. exact history_never_mixed. Qed.
Print Assumptions C12_history_never_mixed.

(* what plate_uniform says: rows of one plate have one mask *)
Theorem C12_plate_uniform_meaning : forall rows,
  plate_uniform rows = true <->
  (forall r1 r2, In r1 rows -> In r2 rows -> r_plate r1 = r_plate r2 -> r_mask r1 = r_mask r2).
Proof. exact plate_uniform_spec. Qed.
Print Assumptions C12_plate_uniform_meaning.

Theorem C12_constructed_plates_encoded : forall s, constructed s -> plates_encoded s.
Proof. exact constructed_plates. Qed.
Print Assumptions C12_constructed_plates_encoded.

(* ---- reveal_exact ---- *)
Theorem C12_reveal_exact : forall v s ids s',
  plates_encoded s -> reveal_plates v s ids = Ok s' ->
  s_rows s' = map (reveal_row ids) (combine (s_rows s) (s_pids s)) /\
  map row_core (s_rows s') = map row_core (s_rows s) /\
  s_pids s' = s_pids s /\ s_pmap s' = s_pmap s.
Proof. exact reveal_exact. Qed.
Print Assumptions C12_reveal_exact.

Theorem C12_reveal_mask : forall v s ids s',
  plates_encoded s -> reveal_plates v s ids = Ok s' ->
  map r_mask (s_rows s') = map (fun rp => r_mask (fst rp) || mem_Z (snd rp) ids) (combine (s_rows s) (s_pids s)).
Proof. exact reveal_mask_eq. Qed.
Print Assumptions C12_reveal_mask.

Theorem C12_reveal_monotone : forall v s ids s' i r r',
  plates_encoded s -> reveal_plates v s ids = Ok s' ->
  nth_error (s_rows s) i = Some r -> nth_error (s_rows s') i = Some r' ->
  row_core r' = row_core r /\ (r_mask r = true -> r_mask r' = true).
Proof. exact reveal_monotone. Qed.
Print Assumptions C12_reveal_monotone.

(* revealing is defined whenever its two guards pass (any variant; a call site that passes the mappings on
   needs them to pass the constructor's check, which holds for both halves of a split and is preserved).
   reveal_zero_guard (Model/Reveal.v) = the zero guard of the code as repaired by fix fx5: the selected values are all
   zero (or nothing is selected), or SOME selected plate's own values are all zero; C12_reveal_zero_guard_meaning below *)
Theorem C12_reveal_defined : forall v s ids,
  constructed s -> (carry_reveal v = true -> mappings_valid s) ->
  reveal_zero_guard s ids = false -> existsb obs_is_nan (revealed_values s ids) = false ->
  exists s', reveal_plates v s ids = Ok s'.
Proof. exact reveal_defined. Qed.
Print Assumptions C12_reveal_defined.

Theorem C12_step_defined : forall v s o,
  constructed s -> (carries v o = true -> mappings_valid s) ->
  match o with
  | Reveal ids => reveal_zero_guard s ids = false /\ existsb obs_is_nan (revealed_values s ids) = false
  | _ => True
  end -> exists s', step v s o = Ok s'.
Proof. exact step_defined. Qed.
Print Assumptions C12_step_defined.

Theorem C12_repaired_lifecycle_defined : forall p sel test ops s o,
  lifecycle (carry_mappings true) p sel test ops = Ok s ->
  match o with
  | Reveal ids => reveal_zero_guard s ids = false /\ existsb obs_is_nan (revealed_values s ids) = false
  | _ => True
  end -> exists s', step (carry_mappings true) s o = Ok s'.
Proof. exact repaired_lifecycle_defined. Qed.
Print Assumptions C12_repaired_lifecycle_defined.

(* ---- unobserved_drop ---- *)
Theorem C12_unobserved_drop : forall v s ids s',
  plates_encoded s -> reveal_plates v s ids = Ok s' ->
  n_unobserved_plates s = (n_unobserved_plates s' + length (newly_revealed s ids))%nat /\
  n_plates s' = n_plates s /\ unique_plate_ids s' = unique_plate_ids s.
Proof. exact unobserved_drop. Qed.
Print Assumptions C12_unobserved_drop.

(* what is counted: newly_revealed is the duplicate-free list of the screen's plate ids that are named in ids
   (however often, among whatever unknown ids) and were not observed; a plate is observed iff all its rows are *)
Theorem C12_newly_revealed_meaning : forall s ids,
  NoDup (newly_revealed s ids) /\
  forall pid, In pid (newly_revealed s ids) <-> (In pid (s_pids s) /\ In pid ids /\ plate_observed s pid = false).
Proof. exact newly_revealed_spec. Qed.
Print Assumptions C12_newly_revealed_meaning.

Theorem C12_unique_plate_ids_meaning : forall s,
  NoDup (unique_plate_ids s) /\ forall pid, In pid (unique_plate_ids s) <-> In pid (s_pids s).
Proof. exact unique_plate_ids_spec. Qed.
Print Assumptions C12_unique_plate_ids_meaning.

Theorem C12_plate_observed_meaning : forall s pid,
  plate_observed s pid = true <->
  (forall r, In (r, pid) (combine (s_rows s) (s_pids s)) -> r_mask r = true).
Proof. exact plate_observed_spec. Qed.
Print Assumptions C12_plate_observed_meaning.

Theorem C12_counters_add_up : forall s, (n_observed_plates s + n_unobserved_plates s = n_plates s)%nat.
Proof. exact observed_plus_unobserved. Qed.
Print Assumptions C12_counters_add_up.

(* ---- ctor_rules ---- *)
Theorem C12_ctor_rejects_mixed : forall rows a c tm sm r1 r2,
  arity_ok a rows = true -> In r1 rows -> In r2 rows -> r_plate r1 = r_plate r2 -> r_mask r1 <> r_mask r2 ->
  mk_screen rows a c tm sm true true = Err 2.
Proof. exact ctor_rejects_mixed. Qed.
Print Assumptions C12_ctor_rejects_mixed.

Theorem C12_ctor_err2_only_if_mixed : forall rows a c tm sm og mg,
  mk_screen rows a c tm sm og mg = Err 2 ->
  og = true /\ mg = true /\
  exists r1 r2, In r1 rows /\ In r2 rows /\ r_plate r1 = r_plate r2 /\ r_mask r1 <> r_mask r2.
Proof. exact ctor_err2_only_if_mixed. Qed.
Print Assumptions C12_ctor_err2_only_if_mixed.

Theorem C12_ctor_obs_without_mask : forall rows a c tm sm s,
  mk_screen rows a c tm sm true false = Ok s ->
  s_rows s = map (with_mask true) rows /\
  (forall r, In r (s_rows s) -> r_mask r = true) /\ map r_obs (s_rows s) = map r_obs rows.
Proof. exact ctor_obs_without_mask. Qed.
Print Assumptions C12_ctor_obs_without_mask.

Theorem C12_ctor_no_obs : forall rows a c tm sm mg s,
  mk_screen rows a c tm sm false mg = Ok s ->
  mg = false /\ (forall r, In r (s_rows s) -> r_mask r = false /\ r_obs r = 0) /\
  map (fun r => (r_sample r, r_plate r, r_treats r)) (s_rows s) = map (fun r => (r_sample r, r_plate r, r_treats r)) rows.
Proof. exact ctor_no_obs. Qed.
Print Assumptions C12_ctor_no_obs.

Theorem C12_ctor_mask_without_obs : forall rows a c tm sm,
  arity_ok a rows = true -> mk_screen rows a c tm sm false true = Err 7.
Proof. exact ctor_mask_without_obs. Qed.
Print Assumptions C12_ctor_mask_without_obs.

(* ---- set_observed_exact ---- *)
Theorem C12_set_observed_exact : forall s sel vals s',
  set_observed s sel vals = Ok s' ->
  length sel = length (s_rows s) /\
  (exists vs, (vs = vals \/ exists x, vals = [x] /\ vs = repeat x (count_true sel)) /\
              length vs = count_true sel /\
              forall i, nth_error (s_rows s') i =
                        match nth_error sel i with
                        | Some true => option_map (with_obs (nth (rank sel i) vs 0)) (nth_error (s_rows s) i)
                        | _ => nth_error (s_rows s) i
                        end) /\
  s_arity s' = s_arity s /\ s_ctrl s' = s_ctrl s /\ s_tmap s' = s_tmap s /\ s_smap s' = s_smap s /\ s_pmap s' = s_pmap s /\
  s_tids s' = s_tids s /\ s_sids s' = s_sids s /\ s_pids s' = s_pids s.
Proof. exact set_observed_exact. Qed.
Print Assumptions C12_set_observed_exact.

Theorem C12_set_observed_refuses : forall s sel vals,
  (length sel <> length (s_rows s) -> set_observed s sel vals = Err 10) /\
  (length sel = length (s_rows s) -> length vals <> count_true sel -> length vals <> 1%nat -> set_observed s sel vals = Err 11).
Proof. exact set_observed_refuses. Qed.
Print Assumptions C12_set_observed_refuses.

(* ---- reveal_refuses ---- *)
Theorem C12_reveal_refuses_zero : forall v s ids,
  forallb obs_is_zero (revealed_values s ids) = true -> reveal_plates v s ids = Err 8.
Proof. exact reveal_refuses_zero. Qed.
Print Assumptions C12_reveal_refuses_zero.

(* ids naming no plate of the screen — in particular the empty id list — select nothing, and np.all([]) is True *)
Theorem C12_reveal_refuses_unknown : forall v s ids,
  (forall pid, In pid ids -> ~ In pid (s_pids s)) -> reveal_plates v s ids = Err 8.
Proof. exact reveal_refuses_unknown. Qed.
Print Assumptions C12_reveal_refuses_unknown.

(* a NaN among the selected values: refused - with the NaN error (9) unless the zero guard, which the code tests first,
   already refused it (8: another selected plate holds only zeros; never because the selection is jointly zero) *)
Theorem C12_reveal_refuses_nan : forall v s ids,
  existsb obs_is_nan (revealed_values s ids) = true ->
  forallb obs_is_zero (revealed_values s ids) = false /\
  reveal_plates v s ids = Err (if reveal_zero_guard s ids then 8 else 9).
Proof. exact reveal_refuses_nan. Qed.
Print Assumptions C12_reveal_refuses_nan.

(* ---- the other operations are exact too ---- *)
Theorem C12_mask_exact : forall v s s',
  plates_encoded s -> mask_screen v s = Ok s' ->
  s_rows s' = map (with_mask false) (s_rows s) /\ s_pids s' = s_pids s /\ s_pmap s' = s_pmap s.
Proof. exact mask_exact. Qed.
Print Assumptions C12_mask_exact.

Theorem C12_unmask_exact : forall v s s',
  plates_encoded s -> unmask_screen v s = Ok s' ->
  s_rows s' = map (with_mask true) (s_rows s) /\ s_pids s' = s_pids s /\ s_pmap s' = s_pmap s.
Proof. exact unmask_exact. Qed.
Print Assumptions C12_unmask_exact.

Theorem C12_save_load_exact : forall s s',
  plates_encoded s -> save_load s = Ok s' ->
  s_rows s' = s_rows s /\ s_pids s' = s_pids s /\ s_pmap s' = s_pmap s.
Proof. exact save_load_exact. Qed.
Print Assumptions C12_save_load_exact.

(* ---- the model IS the source ----
   Generated/SrcReveal.v holds the translations (harness/py2gal.py, configurations C12_* of harness/src_functions.py) of
   the WHOLE functions batchie.retrospective.reveal_plates / mask_screen / unmask_screen and batchie.data.Screen.set_observed,
   and of the two statement runs of Screen.__init__ that decide observations / observation_mask, regenerated from the
   source on every run.  A Screen object is a [screen]; its array attributes are the columns of its rows (col_*, end of
   Model/Reveal.v); Screen(...) is the model's constructor applied to the keyword arguments THE CALL SITE passes (py_screen:
   an argument that is not passed is None), so that the call sites pass observation_mask = old | reveal_mask / zeros / ones
   and both id mappings is read from the source, not assumed.  Every theorem above about reveal_plates v / mask_screen v /
   unmask_screen v holds for all variants v, in particular for the source's. *)
Theorem C12_model_is_source_reveal_plates : forall (s : screen) (ids : list Z),
  src_reveal_plates s ids = reveal_plates (carry_mappings true) s ids.
Proof. exact src_reveal_plates_is_model. Qed.
Print Assumptions C12_model_is_source_reveal_plates.

Theorem C12_model_is_source_mask_screen : forall s : screen,
  src_mask_screen s = mask_screen (carry_mappings true) s.
Proof. exact src_mask_screen_is_model. Qed.
Print Assumptions C12_model_is_source_mask_screen.

Theorem C12_model_is_source_unmask_screen : forall s : screen,
  src_unmask_screen s = unmask_screen (carry_mappings true) s.
Proof. exact src_unmask_screen_is_model. Qed.
Print Assumptions C12_model_is_source_unmask_screen.

(* set_observed: the translated method acts on the two arrays it writes (self._observations, self._observation_mask);
   the model's result is the screen with these two columns replaced (set_cols) - nothing else is assigned by the method *)
Theorem C12_model_is_source_set_observed : forall (s : screen) (sel : list bool) (vals : list Z),
  set_observed s sel vals
  = dor p <- src_set_observed (col_obs s) (col_mask s) sel vals; Ok (set_cols s (fst p) (snd p)).
Proof. exact set_observed_is_src. Qed.
Print Assumptions C12_model_is_source_set_observed.

(* Screen.__init__, statement run 1 (observations None / mask None handling) on the arrays of a constructor call with
   observations given iff og and mask given iff mg: the model's Err 7, or the observation and mask columns of the rows
   the model's constructor stores (norm_rows = the `rows` mk_screen binds, Proofs/C03Screen.mk_screen_unfold) *)
Theorem C12_model_is_source_init_observations : forall (rows : list row) (og mg : bool),
  src_init_observations (if og then Some (map r_obs rows) else None) (if mg then Some (map r_mask rows) else None)
                        (Z.of_nat (length rows))
  = if negb og && mg then Err 7
    else Ok (map r_obs (norm_rows og mg rows), map r_mask (norm_rows og mg rows)).
Proof. exact src_init_observations_spec. Qed.
Print Assumptions C12_model_is_source_init_observations.

(* statement run 2 (the loop over np.unique(plate_names)) IS the model's plate_uniform *)
Theorem C12_model_is_source_init_plate_check : forall rows : list row,
  src_init_plate_check (map r_plate rows) (map r_mask rows) = if plate_uniform rows then Ok tt else Err 2.
Proof. exact src_init_plate_check_spec. Qed.
Print Assumptions C12_model_is_source_init_plate_check.

(* together: the model's constructor, whatever the call passes, refuses ragged rows, runs the translated mask rules, and
   is then the constructor on the rows they leave with observations and mask given *)
Theorem C12_model_is_source_init_mask_rules : forall rows a c tm sm og mg,
  mk_screen rows a c tm sm og mg
  = if negb (arity_ok a rows) then Err 1
    else dor rows' <- src_mask_rules rows og mg; mk_screen rows' a c tm sm true true.
Proof. exact mk_screen_is_src_mask_rules. Qed.
Print Assumptions C12_model_is_source_init_mask_rules.

(* the arrays the translated reveal_plates hands to numpy / zips into rows have one entry per row on every screen
   whose plate ids are encoded (every constructed screen): the case in which np_or / select / zip_rows would stop at
   a shorter list, where numpy raises, does not arise *)
Theorem C12_source_arrays_aligned : forall s ids,
  plates_encoded s ->
  length (np_isin (s_pids s) ids) = length (s_rows s) /\ length (col_obs s) = length (s_rows s) /\
  length (col_mask s) = length (s_rows s) /\ length (np_or (col_mask s) (np_isin (s_pids s) ids)) = length (s_rows s).
Proof. exact source_arrays_aligned. Qed.
Print Assumptions C12_source_arrays_aligned.

(* ---- non-vacuity (vm_compute).  w_parent (Proofs/C03Witness.v): plates p0 (unobserved, values 0.5 0.25),
   p1, p2 (observed); plate ids 0 1 2.  view r = (masks, n_unobserved_plates) of an Ok result; zrow p obs = an
   unobserved row on plate p with stored bits obs (Proofs/C12Examples.v). ---- *)
(* reveal plate 0, named twice, among an already observed and an unknown id: exactly p0 becomes observed,
   the counter drops from 1 to 0 = by the one newly revealed plate *)
Example C12_reveal_example :
  view (Ok w_parent) = Some ([false; false; true; true; true; true], 1%nat) /\
  view (reveal_plates (carry_mappings false) w_parent [0; 2; 0; 99]) = Some ([true; true; true; true; true; true], 0%nat) /\
  newly_revealed w_parent [0; 2; 0; 99] = [0].
Proof. vm_compute. repeat split; reflexivity. Qed.

(* revealing only already observed plates changes nothing; empty and unknown selections are refused *)
Example C12_reveal_observed_example :
  view (reveal_plates (carry_mappings true) w_parent [1; 2]) = view (Ok w_parent) /\
  reveal_plates (carry_mappings false) w_parent [] = Err 8 /\ reveal_plates (carry_mappings false) w_parent [99; -3] = Err 8.
Proof. vm_compute. repeat split; reflexivity. Qed.

(* a plate whose stored values are +0.0 and -0.0 is refused (8); one containing a NaN is refused (9); both together:
   the zero guard comes first (8); the zero plate (48) beside a plate holding 0.5 and 0.25 (50): refused (8) since fix
   fx5, while the plate 50 alone is revealed *)
Example C12_refuse_example :
  (dor s <- mk_screen [zrow 48 0; zrow 48 two63; zrow 49 9221120237041090560; zrow 49 4602678819172646912;
                       zrow 50 4602678819172646912; zrow 50 4598175219545276416] 1 [] None None true true;
   Ok (reveal_plates (carry_mappings false) s [0], reveal_plates (carry_mappings false) s [1],
       reveal_plates (carry_mappings false) s [0; 1], reveal_plates (carry_mappings false) s [0; 2],
       reveal_plates (carry_mappings false) s [2; 1],
       option_map fst (view (reveal_plates (carry_mappings false) s [2]))))
  = Ok (Err 8, Err 9, Err 8, Err 8, Err 9, Some [false; false; false; false; true; true]).
Proof. vm_compute. reflexivity. Qed.

(* constructor: a plate with mixed status is rejected *)
Example C12_mixed_example :
  mk_screen [zrow 48 1; with_mask true (zrow 48 1)] 1 [] None None true true = Err 2.
Proof. vm_compute. reflexivity. Qed.

(* set_observed on part of a plate is outside the atomicity clause: it leaves the plate mixed, and the next
   constructor call (here an unrelated reveal) is refused with the mixed-plate error *)
Example C12_set_observed_example :
  (dor s <- set_observed w_parent [true; false; false; false; false; false] [4607182418800017408];
   Ok (map r_obs (firstn 2 (s_rows s)), map r_mask (firstn 2 (s_rows s)), plate_uniform (s_rows s),
       reveal_plates (carry_mappings false) s [1]))
  = Ok ([4607182418800017408; 4598175219545276416], [true; false], false, Err 2).
Proof. vm_compute. reflexivity. Qed.

(* plate ids are per screen: the training half of the witness split lost plate p0, so its plates p1 p2 have
   ids 0 1 while the parent numbers them 1 2; reveal_plates(train, [0]) therefore addresses p1 *)
Example C12_plate_ids_per_screen_example :
  s_pids w_parent = [0; 0; 1; 1; 2; 2] /\ map r_plate (s_rows w_train) = map r_plate (skipn 2 (s_rows w_parent)) /\
  s_pids w_train = [0; 0; 1; 1].
Proof. vm_compute. repeat split; reflexivity. Qed.

(* the translated functions run: the reveal of C12_reveal_example, mask / unmask, and a partial-plate set_observed *)
Example C12_source_example :
  view (src_reveal_plates w_parent [0; 2; 0; 99]) = Some ([true; true; true; true; true; true], 0%nat) /\
  src_reveal_plates w_parent [] = Err 8 /\
  view (src_mask_screen w_parent) = Some ([false; false; false; false; false; false], 3%nat) /\
  view (src_unmask_screen w_parent) = Some ([true; true; true; true; true; true], 0%nat) /\
  (dor p <- src_set_observed (col_obs w_parent) (col_mask w_parent) [true; false; false; false; false; false] [4607182418800017408];
   Ok (firstn 2 (fst p), firstn 2 (snd p))) = Ok ([4607182418800017408; 4598175219545276416], [true; false]) /\
  src_set_observed (col_obs w_parent) (col_mask w_parent) [true] [0] = Err 10 /\
  src_init_observations None (Some [true]) 1 = Err 7 /\
  src_init_observations (Some [5]) None 1 = Ok ([5], [true]) /\
  src_init_plate_check [[48]; [49]; [48]] [true; false; false] = Err 2.
Proof. vm_compute. repeat split; reflexivity. Qed.

(* ---- the command-line wrappers reveal_plate.main and extract_screen_metadata.main is what the source says NOW ----
   `src_cli_reveal_plate` / `src_cli_extract_screen_metadata` are the whole functions main of /repo's current
   batchie/cli/reveal_plate.py / extract_screen_metadata.py, re-translated on every run (configurations CLI_REVEAL_PLATE /
   CLI_EXTRACT_METADATA -> Generated/SrcCli.v).
   Model/Cli.v: the parsed arguments are a record of the plain argparse results (get_args() is not translated), `L` is a
   record of the library functions the wrapper calls over abstract types (each component stands for the library function
   of that name with its parameter list; `*_load_*` = what loading the file at a path yields), a main() denotes the list
   of (path, content) files it writes, Err = the exception that ends it.  The links hold for EVERY such record. *)
From Batchie Require Lib.PyRt Model.Cli Generated.SrcCli Proofs.C12SourceCli Proofs.C12SourceCliReveal.
Theorem C12_model_is_source_cli_reveal_plate : forall (Scr : Type) (L : Cli.rp_lib Scr) (a : Cli.rp_args),
  SrcCli.src_cli_reveal_plate Scr L a
  = Cli.cli_reveal_plate L a.
Proof. exact C12SourceCli.src_cli_reveal_plate_is_model. Qed.
Print Assumptions C12_model_is_source_cli_reveal_plate.

Theorem C12_model_is_source_cli_extract_screen_metadata : forall (Scr Pl : Type) (L : Cli.em_lib Scr Pl) (a : Cli.em_args),
  SrcCli.src_cli_extract_screen_metadata Scr Pl L a
  = Cli.cli_extract_screen_metadata L a.
Proof. exact C12SourceCli.src_cli_extract_screen_metadata_is_model. Qed.
Print Assumptions C12_model_is_source_cli_extract_screen_metadata.

(* instance over this property's vocabulary, the library call standing for the TRANSLATED reveal_plates
   (Generated/SrcReveal.v): load, the model's reveal_plates with the mappings carried, save *)
Theorem C12_model_is_source_cli_reveal_plate_reveal : forall (load : Cli.path -> result screen) (a : Cli.rp_args),
  SrcCli.src_cli_reveal_plate screen (Cli.mk_rp_lib load src_reveal_plates) a
  = dor s <- load (Cli.rp_screen a);
    dor s' <- reveal_plates (carry_mappings true) s (Cli.rp_plate_id a);
    Ok [(Cli.rp_output a, s')].
Proof. exact C12SourceCliReveal.src_cli_reveal_plate_reveal. Qed.
Print Assumptions C12_model_is_source_cli_reveal_plate_reveal.

(* ---- the guards of reveal, read PER PLATE ("revealing refuses plates whose stored values are all zero or contain NaN") ----
   plate_values s pid = the stored values of the rows whose plate id is pid (Model/Reveal.v).  Since fix fx5 the code tests
   the zero guard on every selected plate by itself (after the joint test over the union of the selected rows, kept: it
   refuses the empty selection); the NaN guard is np.any over the union, i.e. per plate already.  The clause holds as the
   property words it: ONE named plate of the screen that is all zero, or contains a NaN, refuses the whole reveal. *)
From Batchie Require Proofs.C12PerPlate.
Theorem C12_reveal_refuses_zero_per_plate : forall v s ids pid,
  In pid ids -> In pid (s_pids s) -> forallb obs_is_zero (plate_values s pid) = true -> reveal_plates v s ids = Err 8.
Proof. exact C12PerPlate.reveal_refuses_zero_per_plate. Qed.
Print Assumptions C12_reveal_refuses_zero_per_plate.

(* tag 9, or tag 8 when the zero guard (tested first) fires as well *)
Theorem C12_reveal_refuses_nan_per_plate : forall v s ids pid,
  In pid ids -> existsb obs_is_nan (plate_values s pid) = true ->
  reveal_plates v s ids = Err (if reveal_zero_guard s ids then 8 else 9).
Proof. exact C12PerPlate.reveal_refuses_nan_per_plate. Qed.
Print Assumptions C12_reveal_refuses_nan_per_plate.

(* exactly when the zero guard fires *)
Theorem C12_reveal_zero_guard_meaning : forall s ids,
  reveal_zero_guard s ids = true <->
  forallb obs_is_zero (revealed_values s ids) = true \/
  exists pid, In pid ids /\ In pid (s_pids s) /\ forallb obs_is_zero (plate_values s pid) = true.
Proof. exact C12PerPlate.reveal_zero_guard_spec. Qed.
Print Assumptions C12_reveal_zero_guard_meaning.

(* conversely: every plate an ACCEPTED reveal names holds a non-zero value and no NaN *)
Theorem C12_reveal_ok_per_plate : forall v s ids s' pid,
  reveal_plates v s ids = Ok s' -> In pid ids -> In pid (s_pids s) ->
  forallb obs_is_zero (plate_values s pid) = false /\ existsb obs_is_nan (plate_values s pid) = false.
Proof. exact C12PerPlate.reveal_ok_per_plate. Qed.
Print Assumptions C12_reveal_ok_per_plate.

(* the code BEFORE fix fx5 (Model/Reveal.reveal_plates_joint: the zero guard over the union only) did not satisfy the
   per-plate clause: a constructed screen, an unobserved non-empty all-zero plate pid named in ids, which alone is refused
   (tag 8), and the old reveal returns a screen in which that plate is observed.  The repaired model and the TRANSLATED
   reveal_plates refuse the same call. *)
Theorem C12_reveal_refuses_zero_per_plate_refuted :
  exists s ids pid s',
    constructed s /\ In pid ids /\ In pid (s_pids s) /\ plate_observed s pid = false /\
    plate_values s pid <> [] /\ forallb obs_is_zero (plate_values s pid) = true /\
    reveal_plates_joint (carry_mappings true) s [pid] = Err 8 /\
    reveal_plates_joint (carry_mappings true) s ids = Ok s' /\ plate_observed s' pid = true /\
    reveal_plates (carry_mappings true) s ids = Err 8 /\ src_reveal_plates s ids = Err 8.
Proof. exact C12PerPlate.reveal_zero_guard_was_joint. Qed.
Print Assumptions C12_reveal_refuses_zero_per_plate_refuted.

(* ---- "the number of unobserved plates REPORTED for the screen" ----
   instance of C12_model_is_source_cli_extract_screen_metadata with the library record filled by the TRANSLATED
   Screen.plates / ScreenBase.is_observed / n_plates / n_unique_samples / n_unique_treatments / size (C12SourceCliCounters.em_src_lib;
   their links to Model/Views.v are C14's): on a constructed screen the JSON object's counters ARE Model/Reveal.v's n_plates,
   n_unobserved_plates, n_observed_plates - the counters C12_unobserved_drop and C12_counters_add_up speak about. *)
From Batchie Require Model.Views Proofs.C12SourceCliCounters.
Theorem C12_model_is_source_cli_extract_screen_metadata_counters :
  forall (load : Cli.path -> result Views.pyscreen) (a : Cli.em_args) (s : Views.pyscreen),
  load (Cli.em_screen a) = Ok s -> constructed (snd s) ->
  SrcCli.src_cli_extract_screen_metadata Views.pyscreen Views.view (C12SourceCliCounters.em_src_lib load) a
  = Ok [(Cli.em_output a,
         Cli.mk_meta (Z.of_nat (n_unique_samples_rows (snd s))) (Z.of_nat (length (Views.screen_unique_treatments (snd s))))
                     (Z.of_nat (length (s_tids (snd s)))) (Z.of_nat (n_plates (snd s)))
                     (Z.of_nat (n_unobserved_plates (snd s))) (Z.of_nat (n_observed_plates (snd s))))].
Proof. exact C12SourceCliCounters.src_cli_extract_screen_metadata_counters. Qed.
Print Assumptions C12_model_is_source_cli_extract_screen_metadata_counters.
