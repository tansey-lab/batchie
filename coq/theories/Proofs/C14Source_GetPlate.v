(* C14, one piece of Proofs/C14Source.v (conventions and objects: see there): Screen.get_plate *)
From Coq Require Import ZArith List.
From Batchie Require Import Model.Views Generated.SrcViews
  Proofs.PyRtLemmas Proofs.C14Source_ViewInit.
Import ListNotations.
Open Scope Z_scope.

Theorem src_get_plate_is_model : forall (s : pyscreen) (pid : Z),
  src_get_plate s pid = get_plate (fst s) (snd s) pid.
Proof. intros s pid. unfold src_get_plate. rewrite src_view_init_is_model, res_bind_ret. reflexivity. Qed.
