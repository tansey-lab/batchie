(* C05 / C15: the translated index-to-triple run of dbal_fast_gauss_scoring_vectorized (Generated/SrcDbal.v: src_kernel_triples,
   `n_plates, n_thetas, ... = predictions.shape` .. `idx3 = np.array(idx3)`) equals its specification in the vocabulary of
   Model/Dbal.v.  A file of its own (failure isolation): it mentions no other translated function, so property C15's use-site
   theorem (Proofs/C15UseSite.v) can import it without depending on the links of the scorer / wrappers / padding. *)
From Coq Require Import ZArith List Bool Lia.
From Batchie Require Import Lib.Sexp Model.Unrank Model.Dbal Generated.SrcDbal Proofs.PyRtLemmas.
Import ListNotations.

Lemma comb3_small T : (T < 3)%nat -> comb3 (Z.of_nat T) = 0%Z.
Proof. intros H. unfold comb3. destruct (Z.ltb_spec (Z.of_nat T) 3); [reflexivity|lia]. Qed.

Lemma comb3_pos T : (3 <= T)%nat -> (1 <= comb3 (Z.of_nat T))%Z.
Proof.
  intros H. unfold comb3. destruct (Z.ltb_spec (Z.of_nat T) 3); [lia|].
  apply Z.div_le_lower_bound; [lia|]. nia.
Qed.

(* numpy's contract as the boolean checked on every recorded answer *)
Lemma zdistinct_NoDup d : zdistinct d = true -> NoDup d.
Proof.
  induction d as [|x r IH]; intros H; [constructor|].
  cbn [zdistinct] in H. apply andb_prop in H as [Hx Hr]. constructor; [|now apply IH].
  intros Hin. apply negb_true_iff in Hx.
  assert (E : existsb (Z.eqb x) r = true) by (apply existsb_exists; exists x; split; [exact Hin|apply Z.eqb_refl]).
  congruence.
Qed.

Lemma choice_ok_spec n k d : choice_ok n k d = true ->
  Z.of_nat (length d) = k /\ NoDup d /\ forall i, In i d -> (0 <= i < n)%Z.
Proof.
  unfold choice_ok. intros H. apply andb_prop in H as [H Hd]. apply andb_prop in H as [Hl Hr].
  split; [now apply Z.eqb_eq|]. split; [now apply zdistinct_NoDup|].
  intros i Hi. rewrite forallb_forall in Hr. specialize (Hr i Hi). lia.
Qed.

(* the run: comb(n_thetas, 3), the raise, min with the budget, rng.choice, unranking per index, the three columns *)
Theorem src_kernel_triples_spec (pred : arr3) (mc : Z) (d : list Z) (rest : list (list Z)) np T E :
  shape3 pred = (np, T, E) ->
  (1 <= mc)%Z ->
  choice_ok (comb3 (Z.of_nat T)) (Z.min (comb3 (Z.of_nat T)) mc) d = true ->
  src_kernel_triples pred mc (d :: rest)
  = if (T <? 3)%nat then Err 23%Z
    else dor zs <- res_map_all (fun i => unrank3 i (Z.of_nat T)) d;
         dor t3 <- unzip3 zs;
         Ok (t3, rest).
Proof.
  intros Es Hmc Hok. unfold src_kernel_triples, shape3z. rewrite Es.
  destruct (Nat.ltb_spec T 3) as [Hlt|Hge].
  - now rewrite (comb3_small T Hlt).
  - pose proof (comb3_pos T Hge) as Hc. set (c := comb3 (Z.of_nat T)) in *.
    destruct (Z.eqb_spec c 0) as [|_]; [lia|]. cbn [negb].
    unfold rng_choice.
    destruct (Z.ltb_spec (Z.min c mc) 0) as [|_]; [lia|].
    destruct (Z.ltb_spec c (Z.min c mc)) as [|_]; [lia|].
    rewrite Hok. cbn [res_bind]. rewrite res_map_all_ret.
    destruct (res_map_all _ d) as [zs|t]; cbn [res_bind]; [|reflexivity].
    destruct (unzip3 zs) as [[[i1 i2] i3]|t]; reflexivity.
Qed.

(* the index arrays that run delivers, read as the model's list of triples *)
Definition nat3 (z : Z * Z * Z) : triple := (Z.to_nat (fst (fst z)), Z.to_nat (snd (fst z)), Z.to_nat (snd z)).

Lemma triples_via_unrank3 T d :
  triples_of_draw T d = dor zs <- res_map_all (fun i => unrank3 i (Z.of_nat T)) d; Ok (map nat3 zs).
Proof.
  unfold triples_of_draw. induction d as [|ix d IH]; cbn [res_map_all]; [reflexivity|].
  rewrite IH. clear IH. unfold triple_of_index, unrank3.
  destruct (unrank ix (Z.of_nat T) 3) as [l|t]; cbn [res_bind]; [|reflexivity].
  destruct l as [|a [|b [|c [|x l]]]]; cbn [res_bind]; try reflexivity.
  destruct (res_map_all _ d); reflexivity.
Qed.

Lemma nat_triples_unzip3 zs t3 : unzip3 zs = Ok t3 -> nat_triples t3 = map nat3 zs.
Proof.
  intros H. assert (E : t3 = (map (fun t => fst (fst t)) zs, map (fun t => snd (fst t)) zs, map (fun t => snd t) zs))
    by (destruct zs; [discriminate | now inversion H]).
  subst t3. clear H. unfold nat_triples. cbn [fst snd].
  induction zs as [|[[a b] c] zs IH]; cbn [map zip3_nat fst snd]; [reflexivity|]. now rewrite IH.
Qed.

(* a recorded answer that passed the contract check has min(C(T,3), max_combos) >= 1 entries, so the star-zip of its
   unranked rows cannot fail *)
Lemma unzip3_of_draw T mc d (zs : list (Z * Z * Z)) :
  (3 <= T)%nat -> (1 <= mc)%Z ->
  choice_ok (comb3 (Z.of_nat T)) (Z.min (comb3 (Z.of_nat T)) mc) d = true ->
  length zs = length d ->
  exists t3, unzip3 zs = Ok t3 /\ nat_triples t3 = map nat3 zs.
Proof.
  intros HT Hmc Hok Hlen. apply choice_ok_spec in Hok as (Hd & _). pose proof (comb3_pos T HT).
  destruct zs as [|z zs']; [cbn [length] in Hlen; lia|].
  eexists. split; [reflexivity|]. now apply nat_triples_unzip3.
Qed.
