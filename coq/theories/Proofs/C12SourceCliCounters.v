(* C12, clause "the number of unobserved plates REPORTED for the screen": the counters extract_screen_metadata.main
   writes, with the library calls of its model record instantiated by the TRANSLATED Screen.plates / ScreenBase.is_observed /
   n_plates / n_unique_samples / n_unique_treatments / size (Generated/SrcViews.v, SrcPlates.v; their own links are C14's),
   are Model/Reveal.v's n_unobserved_plates / n_observed_plates / n_plates of the loaded screen - the counters
   C12_unobserved_drop is about.  em_lib wants total functions; the translated ones return a result, which is read
   through ok_or (the theorem shows every one of them is Ok on a constructed screen, so the default is never used). *)
From Coq Require Import ZArith List Bool.
From Batchie Require Import Lib.ListX Lib.Sexp Model.Screen Model.Reveal Model.Views Model.Cli Generated.SrcViews Generated.SrcPlates Generated.SrcCli Proofs.C03Screen Proofs.C12SourceCli Proofs.C14Defs Proofs.C14Views Proofs.C14SourceHelpers Proofs.C14Source_Plates Proofs.C14Source_ScreenSize.
Import ListNotations.
Open Scope Z_scope.

Definition ok_or {A} (d : A) (r : result A) : A := match r with Ok x => x | Err _ => d end.

Definition em_src_lib (load : path -> result pyscreen) : em_lib pyscreen view :=
  mk_em_lib load
    (fun s => ok_or [] (src_plates s))
    (fun p => ok_or false (src_view_is_observed p))
    (fun s => ok_or 0 (src_screen_n_unique_samples s))
    (fun s => ok_or 0 (src_screen_n_unique_treatments s))
    (fun s => ok_or 0 (src_screen_size s))
    (fun s => ok_or 0 (src_screen_n_plates s)).

Lemma plate_view_observed (pid : Z) (rows : list row) (pids : list Z) :
  forallb (fun b : bool => b) (Views.select (map (fun x => x =? pid) pids) (map r_mask rows))
  = forallb (fun rp : row * Z => negb (snd rp =? pid) || r_mask (fst rp)) (combine rows pids).
Proof.
  revert pids; induction rows as [|r rows IH]; intros [|p pids]; cbn [map Views.select combine forallb]; try reflexivity.
  cbn [fst snd]. destruct (p =? pid); cbn [negb orb andb forallb]; now rewrite IH.
Qed.

(* Plate.is_observed of the plate Screen.plates builds for plate id pid *)
Lemma src_plate_is_observed tag s pid :
  ok_or false (src_view_is_observed {| v_tag := tag; v_parent := s; v_sel := map (fun x => x =? pid) (s_pids s) |})
  = plate_observed s pid.
Proof. rewrite (proj1 (proj2 (src_view_props_are_model _))). apply plate_view_observed. Qed.

Theorem src_cli_extract_screen_metadata_counters : forall (load : path -> result pyscreen) (a : em_args) (s : pyscreen),
  load (em_screen a) = Ok s -> constructed (snd s) ->
  src_cli_extract_screen_metadata pyscreen view (em_src_lib load) a
  = Ok [(em_output a,
         mk_meta (Z.of_nat (n_unique_samples_rows (snd s))) (Z.of_nat (length (screen_unique_treatments (snd s))))
                 (Z.of_nat (length (s_tids (snd s)))) (Z.of_nat (Reveal.n_plates (snd s)))
                 (Z.of_nat (n_unobserved_plates (snd s))) (Z.of_nat (n_observed_plates (snd s))))].
Proof.
  intros load a s Hload (rows & ar & c & tm & sm & og & mg & Hmk).
  assert (Hwf : screen_wf (snd s)) by (eapply mk_screen_wf; exact Hmk).
  rewrite src_cli_extract_screen_metadata_is_model. unfold cli_extract_screen_metadata, em_src_lib.
  cbn [em_load_screen em_plates em_is_observed em_n_unique_samples em_n_unique_treatments em_size em_n_plates].
  rewrite Hload. cbn [res_bind].
  destruct (src_screen_props_are_model s) as (_ & Hnp & _ & Hns & _ & Hnt & _).
  rewrite Hnp, Hns, Hnt, src_screen_size_is_model, src_plates_is_model, (plates_spec (fst s) (snd s) Hwf).
  cbn [ok_or]. unfold count_if. rewrite !filter_length_map.
  rewrite (filter_ext _ (fun pid => negb (plate_observed (snd s) pid))) by (intros pid; now rewrite src_plate_is_observed).
  rewrite (filter_ext (fun x => ok_or false _) (plate_observed (snd s))) by (intros pid; now rewrite src_plate_is_observed).
  reflexivity.
Qed.
