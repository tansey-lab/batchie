(* C06: np.array_split and Python indexing. *)
From Coq Require Import ZArith List Lia.
From Batchie Require Import Lib.ListX Model.Scores.
Import ListNotations.
Open Scope nat_scope.

Lemma split_point_mono len n k : split_point len n k <= split_point len n (S k).
Proof. unfold split_point. assert (k * (len / n) <= S k * (len / n)) by nia. lia. Qed.

Lemma split_point_0 len n : split_point len n 0 = 0.
Proof. unfold split_point. cbn [Nat.mul Nat.add]. lia. Qed.

Lemma split_point_n len n : 0 < n -> split_point len n n = len.
Proof.
  intros Hn. unfold split_point.
  pose proof (Nat.div_mod len n) as Hdm. pose proof (Nat.mod_upper_bound len n) as Hub.
  rewrite Nat.min_r by lia. nia.
Qed.

Lemma split_point_le len n k : 0 < n -> k <= n -> split_point len n k <= len.
Proof.
  intros Hn Hk. rewrite <- (split_point_n len n Hn) at 2. unfold split_point.
  assert (k * (len / n) <= n * (len / n)) by nia. lia.
Qed.

Lemma split_point_step len n k :
  split_point len n (S k) - split_point len n k = len / n + (if k <? len mod n then 1 else 0).
Proof.
  unfold split_point. destruct (k <? len mod n) eqn:E.
  - apply Nat.ltb_lt in E. rewrite !Nat.min_l by lia. nia.
  - apply Nat.ltb_ge in E. rewrite !Nat.min_r by lia. nia.
Qed.

Lemma array_split_length {A} (l : list A) n : length (array_split l n) = n.
Proof. unfold array_split. now rewrite map_length, seq_length. Qed.

Lemma array_split_concat {A} (l : list A) n : 0 < n -> concat (array_split l n) = l.
Proof.
  intros Hn. unfold array_split.
  rewrite (concat_slices l (split_point (length l) n) (split_point_mono _ _) n 0).
  cbn [Nat.add]. rewrite split_point_0, split_point_n by exact Hn.
  rewrite Nat.sub_0_r. cbn [skipn]. apply firstn_all.
Qed.

Lemma array_split_nth {A} (l : list A) n k : k < n ->
  nth k (array_split l n) [] =
  firstn (split_point (length l) n (S k) - split_point (length l) n k) (skipn (split_point (length l) n k) l).
Proof. intros Hk. unfold array_split. now rewrite nth_map_seq0. Qed.

Lemma array_split_sizes {A} (l : list A) n k : 0 < n -> k < n ->
  length (nth k (array_split l n) []) = length l / n + (if k <? length l mod n then 1 else 0).
Proof.
  intros Hn Hk. rewrite array_split_nth by exact Hk.
  rewrite firstn_length, skipn_length.
  pose proof (split_point_le (length l) n (S k) Hn ltac:(lia)) as H1.
  pose proof (split_point_mono (length l) n k) as H2.
  rewrite <- split_point_step. lia.
Qed.

Lemma array_split_slice {A} (l : list A) n c :
  In c (array_split l n) -> exists a b, c = firstn b (skipn a l).
Proof. unfold array_split. rewrite in_map_iff. intros (k & <- & _). eauto. Qed.

Lemma array_split_incl {A} (l : list A) n c : In c (array_split l n) -> incl c l.
Proof. intros H x Hx. apply array_split_slice in H. destruct H as (a & b & ->). eapply In_skipn, In_firstn, Hx. Qed.

Lemma array_split_In {A} (l : list A) n k x : In x (nth k (array_split l n) []) -> In x l.
Proof.
  intros H. destruct (nth_in_or_default k (array_split l n) []) as [Hc|E].
  - exact (array_split_incl _ _ _ Hc x H).
  - rewrite E in H. contradiction.
Qed.

Lemma array_split_cover {A} (l : list A) n x : 0 < n -> In x l ->
  exists k, k < n /\ In x (nth k (array_split l n) []).
Proof.
  intros Hn Hx. rewrite <- (array_split_concat l n Hn) in Hx.
  apply in_concat in Hx. destruct Hx as (c & Hc & Hxc).
  destruct (In_nth _ _ [] Hc) as (k & Hk & Hnth). rewrite array_split_length in Hk.
  exists k. split; [exact Hk|]. now rewrite Hnth.
Qed.

Lemma py_index_in_range {A} (l : list A) (k : Z) :
  (0 <= k < Z.of_nat (length l))%Z -> py_index l k = nth_error l (Z.to_nat k).
Proof.
  intros Hk. unfold py_index.
  destruct ((0 <=? k)%Z && (k <? Z.of_nat (length l))%Z)%bool eqn:E; [reflexivity|].
  apply Bool.andb_false_iff in E. destruct E as [E|E]; [apply Z.leb_gt in E|apply Z.ltb_ge in E]; lia.
Qed.

Lemma py_index_In {A} (l : list A) i c : py_index l i = Some c -> In c l.
Proof.
  unfold py_index. destruct (_ && _)%bool; [apply nth_error_In|]. destruct (_ && _)%bool; [apply nth_error_In|discriminate].
Qed.
