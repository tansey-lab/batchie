(* C19 — the resume theorems on worlds with torn (present but unreadable) completion markers, for the script WITH the repair
   (tfix = true: an unreadable marker counts as a missing one; Model/Orchestrate.v, section "torn completion markers").
   Reachable worlds: a reachable tree of the atomic model (Proofs/C19Main.v: canon c x) whose only torn marker, if any, sits in
   the one incomplete directory - the next step's.  One call from such a world: the torn directory is named and removed, or the
   call is the atomic model's; a tearing interruption leaves the next step's directory incomplete with a torn marker. *)
From Coq Require Import ZArith List Bool Lia.
From Batchie Require Import Model.Orchestrate Proofs.C19Base Proofs.C19Canon Proofs.C19Step Proofs.C19Main Proofs.C19Progress Proofs.C19Torn.
Import ListNotations.
Open Scope Z_scope.

Section TornResume.
Variables (md : mode) (bs n : nat) (fixed : bool).
Hypothesis Hbs : (1 <= bs)%nat.
Hypothesis Hn : (1 <= n)%nat.
Hypothesis Hfix : fixed = true \/ bs = 1%nat.

Local Notation canon := (canon md bs n).
Local Notation B := (Z.of_nat bs).

Definition Inv_t (tf : tfs) : Prop :=
  exists c x, fst tf = canon c x /\ state_ok md n c x /\
              (snd tf = [] \/ (snd tf = [step_of bs c] /\ is_inc x = true)).

Lemma inv_t_init : Inv_t ([], []).
Proof. destruct (reachable_init md bs n Hbs Hn) as (c & x & E & Hs). exists c, x. auto. Qed.

Lemma inv_t_atomic tf : Inv_t tf -> reachable md bs n (fst tf).
Proof. intros (c & x & E & Hs & _). now exists c, x. Qed.

Lemma inv_t_whole f : reachable md bs n f -> Inv_t (f, []).
Proof. intros (c & x & E & Hs). exists c, x. auto. Qed.

Definition sched_ok_t (sched : list tentry) : Prop := Forall (fun te => entry_ok (te_e te) = true) sched.

Lemma clear_meta_none d : f_meta (clear_meta d) = None.
Proof. reflexivity. Qed.

(* the incomplete directory of the next step holds a torn marker: it is named, the operator removes it *)
Lemma attempt_t_torn_inc c d te :
  okx c (XIncomplete d) -> (md = Retro -> (c <= n)%nat) ->
  attempt_t true md fixed B n (@pair fs torn_set (canon c (XIncomplete d)) [step_of bs c]) te
  = ((canon c XEmptyIter, []), GNamed 1 (step_of bs c)).
Proof.
  intros Hx Hcn.
  pose proof (examine_canon md bs n Hbs Hn fixed c _ Hx Hfix) as Ep. cbn [is_inc] in Ep.
  assert (Et : examine_t true fixed B (@pair fs torn_set (canon c (XIncomplete d)) [step_of bs c]) = TNamed 1 (step_of bs c)).
  { destruct (examine_t_repaired_cases fixed B (@pair fs torn_set (canon c (XIncomplete d)) [step_of bs c]))
      as [E|(s & E & Hs')]; rewrite E; cbn [fst snd] in *.
    - now rewrite Ep.
    - cbn [is_torn existsb] in Hs'. rewrite orb_false_r in Hs'. now apply step_eqb_eq in Hs' as ->. }
  unfold attempt_t. rewrite Et. cbn [fst snd untear filter]. rewrite step_eqb_refl. cbn [negb].
  now rewrite (rmtree_canon_inc md bs n Hbs Hn).
Qed.

Lemma inv_t_attempt tf te :
  Inv_t tf -> entry_ok (te_e te) = true ->
  let r := attempt_t true md fixed B n tf te in
  Inv_t (fst r) /\ call_ok md bs n (fst tf) (fst (fst r)) (snd r).
Proof.
  intros (c & x & E & Hs & Ht) He. destruct tf as [f torn]. cbn [fst snd] in E, Ht. subst f.
  pose proof (state_ok_le md n c x Hs) as Hcn. pose proof Hs as [Hx _].
  destruct (reachable_attempt md bs n fixed Hbs Hn Hfix (canon c x) (te_e te) (ex_intro _ c (ex_intro _ x (conj eq_refl Hs))) He)
    as [Hinv Hcall].
  cbn zeta. cbn [fst].
  destruct Ht as [->|[-> Hi]].
  - (* no torn marker: the atomic model's call, possibly followed by the tearing of the marker *)
    unfold attempt_t. rewrite examine_t_nil. cbn [fst snd].
    pose proof (attempt_examine md fixed B n (canon c x) (te_e te)) as Hex.
    destruct (examine fixed B (canon c x)) as [[[[i j] meta] scr]|w s]; cbn [tres_of_xres].
    + clear Hex.
      pose proof (attempt_canon_launch md bs n Hbs Hn fixed c x (te_e te)) as Hl.
      destruct (attempt md fixed B n (canon c x) (te_e te)) as [f1 g]. cbn [fst snd] in *.
      pose proof (conj (inv_t_whole f1 Hinv) Hcall) as Hplain.
      destruct g as [w s| |k|w|s l ps ok]; try (destruct k); cbn [untear filter]; try exact Hplain.
      destruct (te_torn te && last_is_meta ps && Nat.eqb (length ps) (e_k (te_e te) - 4));
        [|destruct (te_torn te && ok && Nat.eqb (S (length ps)) (e_k (te_e te) - 4)); exact Hplain].
      destruct (Hl s l ps ok Hx Hfix Hcn eq_refl) as (-> & Hnd & d & ->).
      rewrite (upd_plate_canon md bs n Hbs Hn). cbn [fst snd]. split.
      * exists c, (XIncomplete (clear_meta d)). cbn [fst snd]. split; [reflexivity|]. split; [|auto].
        split; [reflexivity|]. intros Emd. split; [exact (Hcn Emd)|]. intros ->.
        unfold all_done in Hnd. rewrite Emd, Nat.leb_refl in Hnd. discriminate.
      * destruct Hcall as (c0 & Hc0 & _ & Hg). exists c0. split; [exact Hc0|]. split; [|exact Hg].
        left. rewrite <- Hc0. now rewrite !(completed_canon md bs n Hbs Hn) by (exact Hx || reflexivity).
    + rewrite Hex in Hinv, Hcall. cbn [fst snd] in *. exact (conj (inv_t_whole _ Hinv) Hcall).
  - destruct x as [| |d]; try discriminate.
    rewrite (attempt_t_torn_inc c d te Hx Hcn).
    rewrite (attempt_named md bs n Hbs Hn fixed c d (te_e te) Hx Hfix Hcn) in Hinv, Hcall.
    exact (conj (inv_t_whole _ Hinv) Hcall).
Qed.

(* worlds stay reachable along a run, and its log never holds a failure that names nothing *)
Lemma inv_t_run : forall sched tf, sched_ok_t sched -> Inv_t tf ->
  let r := script_run_t true md fixed B n tf sched in
  Inv_t (fst r) /\ forall w, ~ In (GFail w) (snd r).
Proof.
  induction sched as [|e r IH]; intros tf Hs Hf; [split; [exact Hf|intros w []]|].
  inversion Hs as [|? ? He Hr]; subst. cbn [script_run_t].
  destruct (inv_t_attempt tf e Hf He) as [Hi Hc]. cbn zeta in Hi, Hc.
  destruct (attempt_t true md fixed B n tf e) as [tf1 g]. cbn [fst snd] in Hi, Hc.
  specialize (IH tf1 Hr Hi). cbn zeta in IH. destruct (script_run_t true md fixed B n tf1 r) as [tf2 gs].
  cbn [fst snd] in *. split; [apply IH|]. intros w [->|H]; [|exact (proj2 IH w H)].
  destruct Hc as (c0 & _ & _ & Hg). exact Hg.
Qed.

(* the property on worlds with torn markers, for the repaired script: for EVERY schedule whose entries may also say "the
   interruption comes while the last file is being published" the completed steps are exactly the first ones of the
   never-interrupted run, and no call ever ends in an exception that names no directory *)
Theorem resume_correct_t sched :
  sched_ok_t sched ->
  let r := script_run_t true md fixed B n ([], []) sched in
  completed (fst (fst r)) = ideal md bs n (length (completed (fst (fst r)))) /\
  (md = Retro -> (length (completed (fst (fst r))) <= n)%nat) /\
  (forall w, ~ In (GFail w) (snd r)).
Proof.
  intros Hs. cbn zeta. destruct (inv_t_run sched ([], []) Hs inv_t_init) as [Hi Hnf].
  destruct (reachable_completed md bs n Hbs Hn _ (inv_t_atomic _ Hi)) as [H1 H2]. auto.
Qed.

(* every single call along every such schedule is safe (C19_step_safe on worlds with torn markers) *)
Theorem step_safe_t sched te :
  sched_ok_t sched -> entry_ok (te_e te) = true ->
  let tf := fst (script_run_t true md fixed B n ([], []) sched) in
  let r := attempt_t true md fixed B n tf te in
  call_ok md bs n (fst tf) (fst (fst r)) (snd r).
Proof.
  intros Hs He. cbn zeta.
  destruct (inv_t_attempt _ te (proj1 (inv_t_run sched ([], []) Hs inv_t_init)) He) as [_ H]. exact H.
Qed.

(* a torn marker costs one call: the world a schedule leads to holds at most one torn marker, in the directory of the first
   step that is not complete, and the next call - whatever its entry - names exactly that directory (the operator removes it) *)
Theorem torn_marker_is_named sched te :
  sched_ok_t sched ->
  let tf := fst (script_run_t true md fixed B n ([], []) sched) in
  snd tf = [] \/
  (exists c, snd tf = [step_of bs c] /\ completed (fst tf) = ideal md bs n c /\
             let r := attempt_t true md fixed B n tf te in
             snd r = GNamed 1 (step_of bs c) /\ snd (fst r) = [] /\ completed (fst (fst r)) = ideal md bs n c).
Proof.
  intros Hs. cbn zeta.
  destruct (proj1 (inv_t_run sched ([], []) Hs inv_t_init)) as (c & x & E & Hi & Ht).
  destruct (fst (script_run_t true md fixed B n ([], []) sched)) as [f torn]. cbn [fst snd] in *. subst f.
  destruct Ht as [->|[-> Hinc]]; [left; reflexivity|right].
  destruct x as [| |d]; try discriminate. pose proof Hi as [Hx _].
  exists c. split; [reflexivity|]. split; [now apply (completed_canon md bs n Hbs Hn)|].
  rewrite (attempt_t_torn_inc c d te Hx (state_ok_le md n c _ Hi)). cbn [fst snd].
  split; [reflexivity|]. split; [reflexivity|]. now apply (completed_canon md bs n Hbs Hn).
Qed.

End TornResume.

(* progress of the retrospective mode on worlds with torn markers: as C19Progress, a torn marker costs the one call that
   names its directory - the same call an incomplete directory costs anyway *)
Section TornProgress.
Variables (bs n : nat) (fixed : bool).
Hypothesis Hbs : (1 <= bs)%nat.
Hypothesis Hn : (1 <= n)%nat.
Hypothesis Hfix : fixed = true \/ bs = 1%nat.
Local Notation canon := (canon Retro bs n).
Local Notation B := (Z.of_nat bs).

Theorem retro_progress_t sched0 es :
  sched_ok_t sched0 -> Forall good es ->
  let tf := fst (script_run_t true Retro fixed B n ([], []) sched0) in
  let tf' := fst (script_run_t true Retro fixed B n tf (map whole es)) in
  completed (fst tf') = ideal Retro bs n (length (completed (fst tf'))) /\
  (Nat.min n (length (completed (fst tf)) + length es - 1) <= length (completed (fst tf')) <= n)%nat /\
  (es <> [] -> snd tf' = []).
Proof.
  intros Hs Hes. cbn zeta.
  destruct (proj1 (inv_t_run Retro bs n fixed Hbs Hn Hfix sched0 ([], []) Hs (inv_t_init Retro bs n Hbs Hn)))
    as (c & x & E & Hi & Ht).
  destruct (fst (script_run_t true Retro fixed B n ([], []) sched0)) as [f torn]. cbn [fst snd] in *. subst f.
  pose proof (state_ok_le Retro n c x Hi eq_refl) as Hcn. pose proof Hi as [Hx _].
  destruct Ht as [->|[-> Hinc]].
  - rewrite script_run_t_conservative. cbn zeta. cbn [fst snd].
    destruct (run_good_any bs n fixed Hbs Hn Hfix es c x Hes Hx Hcn) as (c' & x' & E' & Hx' & Hc' & Hge). rewrite E'.
    rewrite !(completed_canon Retro bs n Hbs Hn) by assumption. rewrite !(ideal_length Retro bs n). auto.
  - destruct x as [| |d]; try discriminate. destruct es as [|e r].
    + cbn [map script_run_t fst snd length]. rewrite !(completed_canon Retro bs n Hbs Hn) by assumption.
      rewrite !(ideal_length Retro bs n). repeat split; try lia. congruence.
    + inversion Hes as [|? ? He Hr]; subst. cbn [map script_run_t].
      rewrite (attempt_t_torn_inc Retro bs n fixed Hbs Hn Hfix c d (whole e) Hx (fun _ => Hcn)).
      rewrite script_run_t_conservative. cbn zeta.
      destruct (run_good bs n fixed Hbs Hn Hfix r c XEmptyIter Hr I ltac:(intros d'; discriminate) Hcn) as (x' & E' & Hx' & _).
      destruct (script_run Retro fixed B n (canon c XEmptyIter) r) as [f2 gs]. cbn [fst snd] in *. subst f2.
      rewrite !(completed_canon Retro bs n Hbs Hn) by assumption. rewrite !(ideal_length Retro bs n).
      cbn [length]. repeat split; lia.
Qed.

(* n - c + 1 uninterrupted calls finish the simulation, torn marker or not *)
Theorem retro_rerun_finishes_t sched0 es :
  sched_ok_t sched0 -> Forall good es ->
  let tf := fst (script_run_t true Retro fixed B n ([], []) sched0) in
  (n + 1 <= length (completed (fst tf)) + length es)%nat ->
  completed (fst (fst (script_run_t true Retro fixed B n tf (map whole es)))) = crash_free Retro bs n.
Proof.
  intros Hs Hes. cbn zeta. intros Hlen.
  destruct (retro_progress_t sched0 es Hs Hes) as [E [[Hlo Hhi] _]]. cbn zeta in *.
  rewrite E. unfold crash_free. f_equal. lia.
Qed.

End TornProgress.
