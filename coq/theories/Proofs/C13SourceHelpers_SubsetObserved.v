(* C13 / C11, one of the pieces Proofs/C13SourceHelpers.v collects (its header describes the representation and the side conditions): Screen.subset_unobserved / subset_observed *)
From Coq Require Import ZArith List.
From Batchie Require Import Lib.Sexp Model.Screen Model.Views Model.Retro Generated.SrcViews Proofs.C14Defs Proofs.C14Lists Proofs.C14Views Proofs.C14Source_SubsetObserved Proofs.C13SourceHelpers_Base.
Import ListNotations.
Open Scope nat_scope.

Theorem src_subset_unobserved_is_retro : forall (t : Z) (p : screen), screen_wf p ->
  exists o, src_subset_unobserved (t, p) = Ok o /\ option_map view_rows o = Retro.subset_unobserved (s_rows p) /\
            (forall w, o = Some w -> v_tag w = t /\ v_parent w = p /\ view_ok w).
Proof.
  intros t p (_ & _ & HR & _). rewrite src_subset_unobserved_is_model. cbn [fst snd].
  unfold Views.subset_unobserved, Retro.subset_unobserved, unobserved, screen_mask. rewrite map_map, existsb_id_map_filter.
  destruct (filter (fun r => negb (r_mask r)) (s_rows p)) as [|r0 rest] eqn:E; cbn [PyRt.is_nil Retro.is_nil negb opt_result].
  - exists None. repeat split; discriminate.
  - rewrite screen_subset_ok by (now rewrite map_length). cbn [res_bind]. eexists. split; [reflexivity|].
    cbn [option_map]. unfold view_rows. cbn [v_sel v_parent]. rewrite select_map_filter, E. split; [reflexivity|].
    intros w [= <-]. unfold view_ok. cbn [v_sel v_parent v_tag]. now rewrite map_length.
Qed.

Theorem src_subset_observed_is_retro : forall (t : Z) (p : screen), screen_wf p ->
  exists o, src_subset_observed (t, p) = Ok o /\ option_map view_rows o = Retro.subset_observed (s_rows p) /\
            (forall w, o = Some w -> v_tag w = t /\ v_parent w = p /\ view_ok w).
Proof.
  intros t p (_ & _ & HR & _). rewrite src_subset_observed_is_model. cbn [fst snd].
  unfold Views.subset_observed, Retro.subset_observed, observed, screen_mask. rewrite existsb_id_map_filter.
  destruct (filter r_mask (s_rows p)) as [|r0 rest] eqn:E; cbn [PyRt.is_nil Retro.is_nil negb opt_result].
  - exists None. repeat split; discriminate.
  - rewrite screen_subset_ok by (now rewrite map_length). cbn [res_bind]. eexists. split; [reflexivity|].
    cbn [option_map]. unfold view_rows. cbn [v_sel v_parent]. rewrite select_map_filter, E. split; [reflexivity|].
    intros w [= <-]. unfold view_ok. cbn [v_sel v_parent v_tag]. now rewrite map_length.
Qed.
