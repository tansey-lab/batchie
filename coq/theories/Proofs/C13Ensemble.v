(* C13: the per-sample minimum THROUGH the ensemble smoother (MergeMin, MergeTopBottom, OptimalSize, NPlatePerCellLine in
   this order): the last stage is the per-sample-minimum smoother run on what the first three leave, so its guarantee is the
   ensemble's. *)
From Coq Require Import ZArith List.
From Batchie Require Import Lib.Sexp Proofs.PyRtLemmas Model.Screen Model.Retro Proofs.C13Wrap Proofs.C13NPlate Proofs.C13Shapes.
Import ListNotations.

Lemma unobserved_idem : forall rows, unobserved (unobserved rows) = unobserved rows.
Proof.
  intros rows. unfold unobserved. induction rows as [|r rows IH]; cbn [filter]; [reflexivity|].
  destruct (negb (r_mask r)) eqn:E; cbn [filter]; [rewrite E; now rewrite IH|exact IH].
Qed.

Theorem ensemble_minimum_w : forall ms n m rows ds out ds',
  smooth_plates (SEnsemble true ms n m) rows ds = Ok (out, ds') ->
  forall s, In s (sample_names (unobserved out)) ->
    (m <= Z.of_nat (length (sample_plates s (unobserved out))))%Z.
Proof.
  intros ms n m rows ds out ds' H s Hs. apply smooth_wrap_unobs in H as [[_ E]|H].
  - rewrite E in Hs. destruct Hs.
  - cbn [smooth_inner] in H. unfold ensemble in H.
    apply res_bind_inv in H as ([s1 d1] & E1 & H); cbn beta iota in H.
    apply res_bind_inv in H as ([s2 d2] & E2 & H); cbn beta iota in H.
    apply res_bind_inv in H as ([s3 d3] & E3 & H); cbn beta iota in H.
    change (smooth_plates (SNPlate true m) s3 d3 = Ok (unobserved out, ds')) in H.
    pose proof (nplate_minimum_w m s3 d3 (unobserved out) ds' H s) as Hmin.
    rewrite unobserved_idem in Hmin. now apply Hmin.
Qed.
