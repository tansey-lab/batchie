(* C04 downstream non-interference, SOURCE level: one loop iteration composed of the Gallina translations of /repo's
   functions (Generated/SrcScoring.v, SrcScoringPolicy.v, SrcDistMat.v, SrcGibbs.v, SrcTrain.v), each applied to what a
   screen's rows give it (Model/Downstream.v).  Every stage has a *_noninterference lemma (it answers alike on two
   screens that differ only behind the mask); training, scores and policy-free selection are also proved equal to their
   stage of Downstream.loop_iteration (lemmas *_is_model, through the C04 / C06 links).  One file per stage, each
   importing only the link proofs of its own functions, so that a refused translation breaks that stage alone. *)
From Coq Require Import ZArith List Qcanon.
From Batchie Require Import Lib.Sexp Lib.Num Model.Train Model.Downstream.
From Batchie Require Model.Scores Model.Gibbs.
From Batchie Require Export Proofs.C04DownSrc_Train Proofs.C04DownSrc_Dist Proofs.C04DownSrc_Scores Proofs.C04DownSrc_Policy
  Proofs.C04DownSrc_Cli.
Open Scope Z_scope.

Section SrcLoop.
Variables (V : Type) (vzero : V) (visz : V -> bool).
Variable run : Gibbs.data -> Gibbs.blk -> Gibbs.st -> Gibbs.gprog Gibbs.st.
Variable predict : Gibbs.st -> list (Z * list Z) -> list Qc.
Variable metric : list Qc -> list Qc -> V.
Variable scorer : list Gibbs.st -> list (list V) -> Scores.scorer_fn.
Variable orc : oracle.
Variable r32 : Qc -> oval.

Definition src_loop_iteration (c : loop_cfg) (rows : list trow)
  : result (list Gibbs.st * list (list V) * Scores.holder * option Z) :=
  dor th <- src_stage_thetas run orc r32 (lc_s0 c) (lc_vals c) rows;
  dor dm <- src_stage_dist V vzero visz Gibbs.st (lc_s0 c) predict metric th rows (lc_dchunks c) (lc_dorder c);
  dor h <- src_stage_scores (scorer th dm) rows (Some tt) (lc_batch c) (lc_schunks c) (lc_sorder c);
  dor sel <- match lc_policy c with
             | None => src_stage_select None h rows (lc_batch c) (Some tt)
             | Some k => src_stage_select_k k h rows (lc_batch c) (Some tt)
             end;
  Ok (th, dm, h, sel).

Lemma src_loop_iteration_noninterference c s1 s2 : same_except_masked s1 s2 ->
  src_loop_iteration c s1 = src_loop_iteration c s2.
Proof.
  intros H. unfold src_loop_iteration.
  rewrite (src_stage_thetas_noninterference run orc r32 (lc_s0 c) (lc_vals c) s1 s2 H).
  destruct (src_stage_thetas _ _ _ _ _ s2) as [th|e]; cbn [res_bind]; [|reflexivity].
  rewrite (src_stage_dist_noninterference V vzero visz Gibbs.st (lc_s0 c) predict metric th s1 s2 _ _ H).
  destruct (src_stage_dist _ _ _ _ _ _ _ th s2 _ _) as [dm|e]; cbn [res_bind]; [|reflexivity].
  rewrite (src_stage_scores_noninterference (scorer th dm) s1 s2 _ _ _ _ H).
  destruct (src_stage_scores _ s2 _ _ _ _) as [h|e]; cbn [res_bind]; [|reflexivity].
  destruct (lc_policy c) as [k|].
  - now rewrite (src_stage_select_k_noninterference k h s1 s2 _ _ H).
  - now rewrite (src_stage_select_noninterference None h s1 s2 _ _ H).
Qed.
End SrcLoop.

