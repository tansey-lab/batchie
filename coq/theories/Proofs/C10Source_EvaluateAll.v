(* C10: Metric.evaluate_all (Generated/SrcCoreSmall.v): the abstract `evaluate` applied to the stored samples of the holder, in their
   order, the first exception aborting *)
From Coq Require Import List.
From Batchie Require Import Lib.Sexp Model.Thetas Generated.SrcCoreSmall Proofs.PyRtLemmas Proofs.C10Source_Iter.
Import ListNotations.
Open Scope Z_scope.

Theorem src_metric_evaluate_all_is_map : forall (P S V : Type) (ev : theta P S -> result V) (h : pyobj P S),
  src_metric_evaluate_all P S V ev h = res_map_all ev (attr_thetas h).
Proof.
  intros P S V ev h. unfold src_metric_evaluate_all. rewrite src_holder_iter_is_thetas. cbn [res_bind].
  rewrite res_map_all_ret. apply res_bind_ret.
Qed.
