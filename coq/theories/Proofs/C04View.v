(* C04: the single_treatment_effects attribute of the observed subset handed to the model - AS CODED it depends on masked values
   (witness), computed from the observed rows it would not. *)
From Coq Require Import ZArith List QArith Qcanon.
From Batchie Require Import Model.Train Model.Downstream Proofs.C04Train.
Import ListNotations.
Open Scope Z_scope.

Definition v_half : Qc := Q2Qc (1 # 2).
Definition v_rows (masked : oval) : list trow :=
  [ {| t_sample := 0; t_plate := 0; t_treats := [0; -1]; t_obs := OFin v_half; t_mask := true |};
    {| t_sample := 0; t_plate := 1; t_treats := [0; -1]; t_obs := masked; t_mask := false |} ].

Lemma handed_view_single_effects_refuted :
  exists arity s1 s2, same_except_masked s1 s2 /\
    subset_observed_single_effects arity s1 = Some [[OFin v_half; OFin 1%Qc]] /\
    subset_observed_single_effects arity s2 = Some [[OFin (Q2Qc (3 # 4)); OFin 1%Qc]].
Proof.
  exists 2%nat, (v_rows (OFin v_half)), (v_rows (OFin 1%Qc)). split.
  - unfold v_rows. repeat constructor; cbn; discriminate.
  - split; vm_compute; reflexivity.
Qed.

(* every other array the observed subset exposes is a row selection of ids / names / doses / the observed values themselves *)
Lemma handed_view_rows s1 s2 : same_except_masked s1 s2 -> filter t_mask s1 = filter t_mask s2.
Proof.
  induction 1 as [|a b l1 l2 Hab _ IH]; [reflexivity|].
  cbn [filter]. destruct (t_mask a) eqn:Ha.
  - rewrite <- (row_agree_observed_eq a b Hab Ha), Ha. now f_equal.
  - destruct Hab as (_ & _ & _ & Hm & _). rewrite <- Hm, Ha. exact IH.
Qed.

Lemma handed_view_single_effects_repaired arity s1 s2 : same_except_masked s1 s2 ->
  subset_observed_single_effects_repaired arity s1 = subset_observed_single_effects_repaired arity s2.
Proof. intros H. unfold subset_observed_single_effects_repaired. now rewrite (handed_view_rows s1 s2 H). Qed.
