(* C01, one piece of Proofs/C01Source.v (which see): encode_treatment_arrays_to_0_indexed_ids *)
From Coq Require Import ZArith List Bool Lia.
From Batchie Require Import Lib.Sexp Lib.PyRt Generated.Consts Generated.SrcArithC01 Model.Encode
  Generated.SrcEncode Proofs.C01Sort Proofs.C01Encode Proofs.C01Source_Base.
Import ListNotations.
Open Scope Z_scope.

Lemma control_column ctrl (su : list tkey) :
  series_or (series_le0 (kcol_dose (df_fresh su))) (series_eq_name (kcol_name (df_fresh su)) ctrl) = map (is_control ctrl) su.
Proof.
  unfold kcol_dose, kcol_name. rewrite <- !(map_map snd), df_fresh_lab, lab_rows.
  unfold series_or, series_le0, series_eq_name.
  induction su as [|k su IH]; cbn [map combine fst snd]; [reflexivity|]. now rewrite IH.
Qed.

Lemma add_control_column ctrl (su : list tkey) : forall s,
  df_add_col (lab s su) (map (is_control ctrl) su) = lab s (map (fun k => (k, is_control ctrl k)) su).
Proof.
  unfold df_add_col. induction su as [|k su IH]; intros s; [reflexivity|].
  cbn [map]. rewrite !lab_cons. cbn [combine map fst snd]. now rewrite IH.
Qed.

(* the frame after `df_unique["new_index"] = df_unique.index - df_unique.is_control.cumsum()`, row by row:
   (label, ((index column, ((name, dose), is_control)), label - inclusive running count of controls)) *)
Fixpoint id_rows (ctrl : name) (s cum : Z) (su : list tkey) : nframe :=
  match su with
  | [] => []
  | k :: r =>
      let c := is_control ctrl k in
      let cum' := if c then cum + 1 else cum in
      (s, ((s, (k, c)), s - cum')) :: id_rows ctrl (s + 1) cum' r
  end.

Lemma new_index_column ctrl (su : list tkey) : forall s cum,
  let d2 : iframe := lab s (lab s (map (fun k => (k, is_control ctrl k)) su)) in
  df_add_col d2 (series_sub (df_index d2) (cumsum_from cum (icol_is_control d2))) = id_rows ctrl s cum su.
Proof.
  cbv zeta. unfold df_add_col, series_sub, df_index, icol_is_control.
  induction su as [|k su IH]; intros s cum; [reflexivity|].
  cbn [map]. rewrite !lab_cons. cbn [map fst snd cumsum_from combine id_rows]. now rewrite IH.
Qed.

Lemma id_rows_index ctrl su : forall s cum, df_index (id_rows ctrl s cum su) = zseq s (length su).
Proof.
  unfold df_index. induction su as [|k su IH]; intros s cum; [reflexivity|].
  cbn [id_rows map fst length]. now rewrite IH, zseq_S.
Qed.

Lemma id_rows_is_control ctrl su : forall s cum, ncol_is_control (id_rows ctrl s cum su) = map (is_control ctrl) su.
Proof.
  unfold ncol_is_control. induction su as [|k su IH]; intros s cum; [reflexivity|].
  cbn [id_rows map fst snd]. now rewrite IH.
Qed.

(* the labels a boolean column selects: the label of a position is among them exactly when the column holds there *)
Lemma series_select_incl {A} (m : list bool) (a : list A) : incl (series_select m a) a.
Proof.
  intros x Hx. apply in_map_iff in Hx as ([b y] & <- & Hx). apply filter_In in Hx as [Hx _]. exact (in_combine_r _ _ _ _ Hx).
Qed.

Lemma series_select_cons {A} (b : bool) m (x : A) a :
  series_select (b :: m) (x :: a) = (if b then [x] else []) ++ series_select m a.
Proof. unfold series_select. cbn [combine filter fst]. now destruct b. Qed.

Lemma selected_labels {A} (f : A -> bool) (l : list A) : forall s i a,
  nth_error l i = Some a -> existsb (Z.eqb (s + Z.of_nat i)) (series_select (map f l) (zseq s (length l))) = f a.
Proof.
  induction l as [|x l IH]; intros s i a Hn; [now destruct i|].
  cbn [length map]. rewrite zseq_S, series_select_cons, existsb_app. destruct i as [|i]; cbn [nth_error] in Hn.
  - inversion Hn; subst x. rewrite Z.add_0_r.
    (* the labels selected further down are all above s *)
    replace (existsb (Z.eqb s) (series_select _ _)) with false.
    + destruct (f a); cbn [existsb]; now rewrite ?Z.eqb_refl.
    + symmetry. apply not_true_is_false. intros H. apply existsb_exists in H as (z & Hz & E).
      apply series_select_incl, zseq_In in Hz. apply Z.eqb_eq in E. lia.
  - replace (s + Z.of_nat (S i)) with (s + 1 + Z.of_nat i) by lia. rewrite (IH (s + 1) i a Hn).
    destruct (f x); cbn [existsb]; [|reflexivity]. now rewrite (proj2 (Z.eqb_neq _ s)) by lia.
Qed.

(* override of the selected labels, then `del index`, `del is_control` = the model's assignment *)
Lemma id_rows_final ctrl su : forall s cum sel,
  (forall i k, nth_error su i = Some k -> existsb (Z.eqb (s + Z.of_nat i)) sel = is_control ctrl k) ->
  map snd (df_del_is_control (df_del_index (df_loc_set (id_rows ctrl s cum su) sel CONTROL_SENTINEL_VALUE)))
  = assign_from ctrl s cum su.
Proof.
  unfold df_del_is_control, df_del_index, df_loc_set.
  induction su as [|k su IH]; intros s cum sel H; [reflexivity|].
  cbn [id_rows assign_from map fst snd].
  pose proof (H 0%nat k eq_refl) as H0. cbn [Z.of_nat] in H0. rewrite Z.add_0_r in H0. rewrite H0.
  rewrite IH.
  - destruct (is_control ctrl k); reflexivity.
  - intros i k' Hi. rewrite <- (H (S i) k' Hi). f_equal. f_equal. lia.
Qed.

(* the whole `else` branch: the frame df_unique ends as, from the frame df *)
Definition src_built_frame (ctrl : name) (df : kframe) : mframe :=
  let df_unique : kframe := df_reset_drop (df_sort_values tkey_cmp (df_drop_duplicates tkey_eqb df)) in
  let is_control := series_or (series_le0 (kcol_dose df_unique)) (series_eq_name (kcol_name df_unique) ctrl) in
  let df_unique : cframe := df_add_col df_unique is_control in
  let df_unique : iframe := df_reset_keep df_unique in
  let df_unique : nframe := df_add_col df_unique (series_sub (df_index df_unique) (series_cumsum (icol_is_control df_unique))) in
  let selection := series_select (ncol_is_control df_unique) (df_index df_unique) in
  let df_unique : nframe := df_loc_set df_unique selection CONTROL_SENTINEL_VALUE in
  df_del_is_control (df_del_index df_unique).

Lemma src_built_frame_rows ctrl (keys : list tkey) :
  map snd (src_built_frame ctrl (df_fresh keys)) = build_tmapping ctrl keys.
Proof.
  unfold src_built_frame, build_tmapping. cbv zeta.
  rewrite (dedup_sort_reset tkey_eqb tkey_cmp keys tkey_eqb_eq tkey_cmp_spec).
  set (su := sort_uniq tkey_cmp keys). rewrite control_column.
  rewrite (df_fresh_lab su), add_control_column. unfold df_reset_keep. rewrite df_fresh_lab.
  unfold series_cumsum. rewrite new_index_column.
  rewrite id_rows_index, id_rows_is_control. apply id_rows_final.
  intros i k Hi. apply (selected_labels (is_control ctrl) su 0 i k Hi).
Qed.

Lemma mframe_cols (m : tmapping) (d : mframe) : map snd d = m ->
  mcol_name d = map (fun e => fst (fst e)) m /\ mcol_dose d = map (fun e => snd (fst e)) m /\ mcol_new_index d = map snd m.
Proof. intros <-. unfold mcol_name, mcol_dose, mcol_new_index. rewrite !map_map. repeat split. Qed.

(* merge + the NaN check + the four returned arrays, for any frame df_unique whose rows are a key-unique mapping m *)
Lemma src_encode_treatments_tail (keys : list tkey) (m : tmapping) (d : mframe) : map snd d = m -> NoDup (map fst m) ->
  (if negb (all_true (series_notna (jcol_new_index (df_merge_left tkey_eqb (df_fresh keys) d)))) then Err 5
   else Ok (jcol_new_index (df_merge_left tkey_eqb (df_fresh keys) d), mcol_name d, mcol_dose d, mcol_new_index d))
  = match opt_map_all (tlookup m) keys with
    | Some ids => Ok (map Some ids, map (fun e => fst (fst e)) m, map (fun e => snd (fst e)) m, map snd m)
    | None => Err 5
    end.
Proof.
  intros Hd Hn. rewrite (merge_left_ids tkey_eqb tkey_eqb_eq m Hn _ d Hd), df_fresh_lab, lab_rows.
  rewrite (map_ext _ _ (lookup_first_tlookup m)).
  destruct (mframe_cols m d Hd) as (-> & -> & ->).
  pose proof (notna_opt_map_all (tlookup m) keys) as H.
  destruct (opt_map_all (tlookup m) keys) as [ids|]; [destruct H as [-> ->] | rewrite H]; reflexivity.
Qed.

Theorem src_encode_treatments_is_model : forall (names : list name) (doses : list Z) (ctrl : name) (existing : option tmap_py),
  match existing with Some t => NoDup (map fst (tmap_py_rows t)) | None => True end ->
  src_encode_treatment_arrays names doses ctrl existing
  = if negb (Nat.eqb (length names) (length doses)) then Err 15
    else if match existing with Some t => negb (tmap_py_aligned t) | None => false end then Err 15
    else dor r <- encode_treatments (combine names doses) ctrl (option_map tmap_py_rows existing);
         Ok (map Some (fst r), map (fun e => fst (fst e)) (snd r), map (fun e => snd (fst e)) (snd r), map snd (snd r)).
Proof.
  intros names doses ctrl existing Hex. unfold src_encode_treatment_arrays, df_of_cols2.
  destruct (Nat.eqb (length names) (length doses)); cbn [negb res_bind]; [|reflexivity].
  set (keys := combine names doses). unfold encode_treatments.
  destruct existing as [[[a b] [isint c]]|]; cbn [is_some unwrap res_bind option_map fst snd].
  - unfold mframe_of_cols, df_of_cols3, tmap_py_aligned. cbn [fst snd].
    destruct (Nat.eqb (length a) (length b) && Nat.eqb (length b) (length c)); cbn [negb res_bind]; [|reflexivity].
    unfold tmap_py_rows in *. cbn [fst snd] in *. set (m := combine (combine a b) c) in *. cbv zeta.
    etransitivity; [apply (src_encode_treatments_tail keys m (df_fresh m)); [now rewrite df_fresh_lab, lab_rows | exact Hex]|].
    destruct (opt_map_all (tlookup m) keys); reflexivity.
  - cbv zeta. change (df_del_is_control _) with (src_built_frame ctrl (df_fresh keys)).
    etransitivity; [apply (src_encode_treatments_tail keys (build_tmapping ctrl keys)); [apply src_built_frame_rows | apply built_keys_NoDup]|].
    destruct (opt_map_all (tlookup (build_tmapping ctrl keys)) keys); reflexivity.
Qed.

(* the control comparison read from the source as a constant (Generated/SrcArithC01.v) is the operator the translation
   applies to the dose column: the constant is redundant, and consistent *)
Theorem src_dose_is_control_consistent : forall doses : list Z, series_le0 doses = map src_dose_is_control doses.
Proof. reflexivity. Qed.
