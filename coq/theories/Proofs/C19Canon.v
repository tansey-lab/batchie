(* C19 — the shape of reachable trees ("canonical trees") and what examine / plan_of
   compute on them. *)
From Coq Require Import ZArith List Bool Lia.
From Batchie Require Import Model.Orchestrate Proofs.C19Base.
Import ListNotations.
Open Scope Z_scope.

Section Canon.
Variables (md : mode) (bs n : nat).
Hypothesis Hbs : (1 <= bs)%nat.

Lemma dm_spec k : (k = (k / bs) * bs + k mod bs /\ k mod bs < bs)%nat.
Proof.
  split; [|apply Nat.mod_upper_bound; lia].
  rewrite Nat.mul_comm. apply Nat.div_mod. lia.
Qed.

Lemma dm_unique q r : (r < bs)%nat -> ((q * bs + r) / bs = q /\ (q * bs + r) mod bs = r)%nat.
Proof.
  intros Hr. split.
  - symmetry. apply (Nat.div_unique _ _ _ r); [exact Hr|lia].
  - symmetry. apply (Nat.mod_unique _ _ q r); [exact Hr|lia].
Qed.

Lemma dm_succ k :
  ((S k mod bs = 0 /\ S k / bs = S (k / bs) /\ k mod bs = bs - 1) \/
   (S k mod bs = S (k mod bs) /\ S k / bs = k / bs /\ S (k mod bs) < bs))%nat.
Proof.
  destruct (dm_spec k) as [Hk Hr].
  destruct (Nat.eq_dec (k mod bs) (bs - 1)) as [E|E].
  - left. destruct (dm_unique (S (k / bs)) 0) as [H1 H2]; [lia|].
    replace (S (k / bs) * bs + 0)%nat with (S k) in * by lia. tauto.
  - right. destruct (dm_unique (k / bs) (S (k mod bs))) as [H1 H2]; [lia|].
    replace (k / bs * bs + S (k mod bs))%nat with (S k) in * by lia. repeat split; [exact H2|exact H1|lia].
Qed.

Lemma dm_lt k c : (k < c)%nat -> (k / bs < c / bs \/ (k / bs = c / bs /\ k mod bs < c mod bs))%nat.
Proof.
  intros H. destruct (dm_spec k) as [Hk Hr]. destruct (dm_spec c) as [Hc Hrc].
  destruct (Nat.lt_trichotomy (k / bs) (c / bs)) as [L|[E|G]]; [now left| |].
  - right. split; [exact E|]. rewrite E in Hk. lia.
  - exfalso. assert ((c / bs + 1) * bs <= (k / bs) * bs)%nat by (apply Nat.mul_le_mono_r; lia). lia.
Qed.

Lemma div_same_batch c :
  Z.of_nat (c mod bs) < Z.of_nat bs - 1 -> (S c / bs = c / bs /\ S c mod bs = S (c mod bs))%nat.
Proof. intros H. destruct (dm_succ c) as [(H1 & H2 & H3)|(H1 & H2 & H3)]; [lia|tauto]. Qed.

(* the next-step arithmetic lands on step_of c *)
Lemma next_step_arith c' :
  (if Z.of_nat (c' mod bs) >=? Z.of_nat bs - 1
   then (Z.of_nat (c' / bs) + 1, 0)
   else (Z.of_nat (c' / bs), Z.of_nat (c' mod bs) + 1)) = step_of bs (S c').
Proof.
  unfold step_of. destruct (dm_succ c') as [(H1 & H2 & H3)|(H1 & H2 & H3)]; rewrite H1, H2.
  - replace (Z.of_nat (c' mod bs) >=? Z.of_nat bs - 1) with true by (symmetry; apply Z.geb_le; lia).
    f_equal; lia.
  - replace (Z.of_nat (c' mod bs) >=? Z.of_nat bs - 1) with false.
    + f_equal; lia.
    + symmetry. destruct (Z.geb_spec (Z.of_nat (c' mod bs)) (Z.of_nat bs - 1)); [lia|reflexivity].
Qed.

Hypothesis Hn : (1 <= n)%nat.

Definition ip (c : nat) : pdir := ideal_pdir md bs n c.
Definition plates_of (i a cnt : nat) : idir := tab (fun j => ip (i * bs + j)) a cnt.
Definition full_iter (i : nat) : idir := plates_of i 0 bs.

Inductive extra := XNone | XEmptyIter | XIncomplete (d : pdir).

Definition tail_of (x : extra) (J : nat) : idir :=
  match x with XIncomplete d => [(Z.of_nat J, d)] | _ => [] end.
Definition last_iter (I J : nat) (x : extra) : fs :=
  match J, x with
  | O, XNone => []
  | _, _ => [(Z.of_nat I, plates_of I 0 J ++ tail_of x J)]
  end.
Definition canon (c : nat) (x : extra) : fs :=
  tab full_iter 0 (c / bs) ++ last_iter (c / bs) (c mod bs) x.

Definition is_inc (x : extra) : bool := match x with XIncomplete _ => true | _ => false end.

Definition okx (c : nat) (x : extra) : Prop :=
  match x with
  | XNone => True
  | XEmptyIter => True      (* when c mod bs > 0 this is the same tree as XNone *)
  | XIncomplete d => f_meta d = None
  end.

Lemma canon_0 : canon 0 XNone = [].
Proof. unfold canon. rewrite Nat.div_0_l, Nat.mod_0_l by lia. reflexivity. Qed.

(* the incomplete directory, once it holds the ideal contents, is the next completed step *)
Lemma canon_complete c : canon c (XIncomplete (ip c)) = canon (S c) XNone.
Proof.
  unfold canon. destruct (dm_spec c) as [Hc Hr].
  assert (Hlast : plates_of (c / bs) 0 (c mod bs) ++ [(Z.of_nat (c mod bs), ip c)] = plates_of (c / bs) 0 (S (c mod bs))).
  { unfold plates_of. rewrite tab_S. cbn [Nat.add]. now rewrite <- Hc. }
  destruct (dm_succ c) as [(H1 & H2 & H3)|(H1 & H2 & H3)]; rewrite H1, H2.
  - rewrite tab_S. cbn [Nat.add last_iter]. rewrite app_nil_r.
    assert (E : last_iter (c / bs) (c mod bs) (XIncomplete (ip c)) = [(Z.of_nat (c / bs), full_iter (c / bs))]).
    { unfold last_iter, tail_of, full_iter. rewrite Hlast. replace (S (c mod bs)) with bs by lia. now destruct (c mod bs)%nat. }
    now rewrite E.
  - f_equal. unfold last_iter at 2. cbn [tail_of]. rewrite app_nil_r. rewrite <- Hlast.
    unfold last_iter, tail_of. now destruct (c mod bs)%nat.
Qed.

Lemma lookup_last_iter I J x :
  (0 < J)%nat \/ x <> XNone ->
  lookup (Z.of_nat I) (last_iter I J x) = Some (plates_of I 0 J ++ tail_of x J).
Proof.
  intros H. unfold last_iter. destruct J, x; try (cbn [lookup]; now rewrite Z.eqb_refl).
  destruct H; [lia|congruence].
Qed.

Lemma lookup_canon_last c x :
  (0 < c mod bs)%nat \/ x <> XNone ->
  lookup (Z.of_nat (c / bs)) (canon c x) = Some (plates_of (c / bs) 0 (c mod bs) ++ tail_of x (c mod bs)).
Proof.
  intros H. unfold canon. rewrite lookup_app, lookup_tab_out by lia. now apply lookup_last_iter.
Qed.

Lemma lookup_canon_none c : (c mod bs = 0)%nat -> lookup (Z.of_nat (c / bs)) (canon c XNone) = None.
Proof.
  intros H. unfold canon. rewrite lookup_app, lookup_tab_out by lia. rewrite H. reflexivity.
Qed.

Lemma get_plate_canon c x k : (k < c)%nat -> get_plate (canon c x) (step_of bs k) = Some (ip k).
Proof.
  intros Hk. unfold get_plate, step_of. cbn [fst snd].
  destruct (dm_spec k) as [Ek Hr].
  destruct (dm_lt k c Hk) as [L|[E L]].
  - unfold canon. rewrite lookup_app, lookup_tab_in by lia.
    unfold full_iter, plates_of. rewrite lookup_tab_in by lia. now rewrite <- Ek.
  - rewrite E, lookup_canon_last by lia. rewrite lookup_app. unfold plates_of.
    rewrite lookup_tab_in by lia. rewrite <- E. now rewrite <- Ek.
Qed.

Lemma sort_plates I a J x : sort_dirs (plates_of I a J ++ tail_of x (a + J)) = plates_of I a J ++ tail_of x (a + J).
Proof.
  apply sort_incr. destruct x; cbn [tail_of]; rewrite ?app_nil_r; try apply incr_tab.
  apply incr_app_last; [apply incr_tab|]. intros q Hq. apply tab_keys_lt in Hq. lia.
Qed.

Lemma sort_plates_of I a J : sort_dirs (plates_of I a J) = plates_of I a J.
Proof. apply sort_incr, incr_tab. Qed.

Lemma sort_canon c x : sort_dirs (canon c x) = canon c x.
Proof.
  apply sort_incr. unfold canon, last_iter.
  destruct (c mod bs)%nat, x; rewrite ?app_nil_r; try apply incr_tab;
    (apply incr_app_last; [apply incr_tab|]; intros q Hq; apply tab_keys_lt in Hq; lia).
Qed.

Definition meta_of (k : nat) : Z := match f_meta (ip k) with Some m => m | None => 0 end.

Lemma ip_meta k : f_meta (ip k) = Some (meta_of k).
Proof. unfold meta_of, ip, ideal_pdir. destruct md; [reflexivity|]. now destruct (k mod bs)%nat. Qed.

Lemma meta_of_retro k : md = Retro -> meta_of k = Z.of_nat (n - k - 1).
Proof.
  intros E. unfold meta_of, ip, ideal_pdir. rewrite E. cbn [f_meta]. unfold zlen. now rewrite seqZ_length.
Qed.

Definition st_done (k : nat) : exst :=
  mkx (Some (meta_of k)) (Z.of_nat (k / bs)) (Z.of_nat (k mod bs)) (Some (step_of bs k, ip k)).

Lemma examine_plates_app it st idx l1 l2 :
  examine_plates it st idx (l1 ++ l2)
  = xbind (examine_plates it st idx l1) (fun st' => examine_plates it st' (idx + Z.of_nat (length l1)) l2).
Proof.
  revert st idx; induction l1 as [|[pidx d] l1 IH]; intros st idx; cbn [app examine_plates length xbind].
  - now rewrite Z.add_0_r.
  - destruct (f_meta d); [|reflexivity]. destruct (negb (pidx =? idx)); [reflexivity|].
    rewrite IH. replace (idx + Z.of_nat (S (length l1))) with (idx + 1 + Z.of_nat (length l1)) by lia. reflexivity.
Qed.

Lemma examine_plates_tab i : forall cnt st a, (a + cnt <= bs)%nat ->
  examine_plates (Z.of_nat i) st (Z.of_nat a) (plates_of i a cnt)
  = XOk (match cnt with O => st | S m => st_done (i * bs + (a + m)) end).
Proof.
  induction cnt as [|cnt IH]; intros st a H; [reflexivity|].
  unfold plates_of. rewrite tab_cons. fold (plates_of i (S a) cnt). cbn [examine_plates].
  rewrite ip_meta, Z.eqb_refl. cbn [negb].
  replace (Z.of_nat a + 1) with (Z.of_nat (S a)) by lia. rewrite IH by lia.
  destruct (dm_unique i a) as [H1 H2]; [lia|].
  destruct cnt as [|m].
  - unfold st_done, step_of. rewrite Nat.add_0_r, H1, H2. reflexivity.
  - do 2 f_equal. lia.
Qed.

Lemma examine_iter_full fixed st i :
  examine_iter fixed st (Z.of_nat i, full_iter i) = XOk (st_done (i * bs + (bs - 1))).
Proof.
  unfold examine_iter, full_iter. cbn [fst snd]. rewrite sort_plates_of.
  destruct bs as [|b] eqn:Eb; [lia|]. rewrite <- Eb in *.
  assert (Hnil : is_nil (plates_of i 0 bs) = false) by (rewrite Eb; reflexivity).
  rewrite Hnil, andb_false_r. change 0 with (Z.of_nat 0) at 2.
  rewrite examine_plates_tab by lia. rewrite Eb. cbn [Nat.add]. do 3 f_equal. lia.
Qed.

Lemma examine_iters_full fixed : forall cnt st a rest,
  examine_iters fixed st (tab full_iter a cnt ++ rest)
  = examine_iters fixed (match cnt with O => st | S m => st_done ((a + m) * bs + (bs - 1)) end) rest.
Proof.
  induction cnt as [|cnt IH]; intros st a rest; [reflexivity|].
  rewrite tab_cons. cbn [app examine_iters]. rewrite examine_iter_full. cbn [xbind]. rewrite IH.
  destruct cnt as [|m]; [now rewrite Nat.add_0_r|]. do 3 f_equal. lia.
Qed.

Definition st_before (c : nat) : exst := match c with O => exst0 | S c' => st_done c' end.

Lemma st_before_plate0 c : bs = 1%nat -> x_plate (st_before c) = 0.
Proof.
  intros E. destruct c as [|c']; [reflexivity|]. cbn [st_before st_done x_plate]. rewrite E, Nat.mod_1_r. reflexivity.
Qed.

Lemma examine_last fixed st I J x :
  (J < bs)%nat -> (forall d, x = XIncomplete d -> f_meta d = None) ->
  examine_iters fixed st [(Z.of_nat I, plates_of I 0 J ++ tail_of x J)]
  = match x with
    | XIncomplete _ => XNamed 1 (Z.of_nat I, Z.of_nat J)
    | _ => XOk (match J with
                | O => if fixed then st else mkx (x_meta st) (x_iter st) 0 (x_leak st)
                | S m => st_done (I * bs + m)
                end)
    end.
Proof.
  intros HJ Hx. cbn [examine_iters]. unfold examine_iter. cbn [fst snd].
  pose proof (sort_plates I 0 J x) as Hs. cbn [Nat.add] in Hs. rewrite Hs.
  rewrite examine_plates_app. change 0 with (Z.of_nat 0) at 2. rewrite examine_plates_tab by lia. cbn [xbind Nat.add].
  unfold plates_of at 2. unfold tab at 1. rewrite map_length, seq_length.
  destruct J as [|m].
  - destruct x as [| |d]; cbn [tail_of app is_nil andb examine_plates xbind plates_of tab seq map].
    + rewrite andb_true_r. now destruct fixed.
    + rewrite andb_true_r. now destruct fixed.
    + rewrite (Hx d eq_refl). reflexivity.
  - destruct x as [| |d]; cbn [tail_of examine_plates xbind]; try reflexivity.
    rewrite (Hx d eq_refl). reflexivity.
Qed.

Lemma examine_iters_canon fixed c x :
  okx c x -> fixed = true \/ bs = 1%nat ->
  examine_iters fixed exst0 (canon c x)
  = if is_inc x then XNamed 1 (step_of bs c) else XOk (st_before c).
Proof.
  intros Hx Hfix. unfold canon. rewrite examine_iters_full.
  destruct (dm_spec c) as [Hc Hr]. unfold step_of.
  assert (Hxd : forall d, x = XIncomplete d -> f_meta d = None) by (intros d ->; exact Hx).
  (* state before the last iteration directory *)
  assert (Hpre : (c mod bs = 0)%nat ->
     match (c / bs)%nat with O => exst0 | S m => st_done ((0 + m) * bs + (bs - 1)) end = st_before c).
  { intros EJ. destruct (c / bs)%nat as [|m]; [replace c with O by lia; reflexivity|].
    destruct c as [|c']; [lia|]. cbn [st_before Nat.add]. f_equal. lia. }
  unfold last_iter. destruct (c mod bs)%nat as [|m] eqn:EJ.
  - destruct x as [| |d].
    + cbn [examine_iters]. now rewrite Hpre.
    + rewrite (examine_last fixed _ _ 0 XEmptyIter) by (lia || exact Hxd). rewrite Hpre by reflexivity.
      destruct Hfix as [->|E1]; [reflexivity|]. destruct fixed; [reflexivity|]. f_equal.
      pose proof (st_before_plate0 c E1) as Hp. destruct (st_before c) as [m0 i0 p0 l0]. cbn in Hp |- *. now subst p0.
    + rewrite (examine_last fixed _ _ 0 (XIncomplete d)) by (lia || exact Hxd). reflexivity.
  - rewrite (examine_last fixed _ _ (S m) x) by (lia || exact Hxd).
    destruct x; try reflexivity;
      (destruct c as [|c']; [lia|]; cbn [st_before is_inc]; do 2 f_equal; lia).
Qed.

(* what examine reads off the directory of the last completed step *)
Definition prev_meta (c : nat) : option Z := match c with O => None | S c' => Some (meta_of c') end.
Definition prev_screen (c : nat) : option spath :=
  match c with O => None | S c' => screen_of (Some (step_of bs c', ip c')) end.

Lemma examine_canon fixed c x :
  okx c x -> fixed = true \/ bs = 1%nat ->
  examine fixed (Z.of_nat bs) (canon c x)
  = if is_inc x then XNamed 1 (step_of bs c)
    else XOk (Z.of_nat (c / bs), Z.of_nat (c mod bs), prev_meta c, prev_screen c).
Proof.
  intros Hx Hfix. unfold examine. rewrite sort_canon, (examine_iters_canon fixed c x Hx Hfix).
  destruct (is_inc x); [reflexivity|]. cbn [xbind].
  destruct c as [|c']; [rewrite Nat.div_0_l, Nat.mod_0_l by lia; reflexivity|].
  cbn [st_before st_done x_meta x_plate x_iter x_leak prev_meta prev_screen].
  pose proof (next_step_arith c') as Ha. unfold step_of in Ha.
  destruct (Z.of_nat (c' mod bs) >=? Z.of_nat bs - 1); injection Ha as <- <-; reflexivity.
Qed.

End Canon.
