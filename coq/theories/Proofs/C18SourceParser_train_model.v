(* One piece of Proofs/C18SourceParser.v (which see): the option table of train_model.get_parser(), read from /repo on every run
   (Generated/SrcParser_train_model.v), provides what the argument record of that command assumes. *)
From Coq Require Import List.
From Batchie Require Import Model.Cli Proofs.C18Parser Generated.SrcParser_train_model.

Theorem parser_train_model_fields : forall f, In f (tm_fields ++ logging_fields) -> declares src_parser_train_model f.
Proof. apply declares_all. vm_compute. reflexivity. Qed.

Theorem parser_train_model_dests_derived : dests_derived src_parser_train_model.
Proof. apply dests_derived_sound. vm_compute. reflexivity. Qed.

Theorem parser_train_model_dests_distinct : dests_distinct src_parser_train_model.
Proof. apply dests_distinct_sound. vm_compute. reflexivity. Qed.

Theorem parser_train_model_seed : seed_declared src_parser_train_model.
Proof. apply seed_declaredb_sound. vm_compute. reflexivity. Qed.

Theorem parser_train_model_coordinates : coordinates_int src_parser_train_model.
Proof. apply coordinates_intb_sound. vm_compute. reflexivity. Qed.

Theorem parser_train_model_params : params_kv src_parser_train_model.
Proof. apply params_kvb_sound. vm_compute. reflexivity. Qed.
