(* C01 + C12: the constructor model [mk_screen] statement by statement from the source - the two translated
   observation-mask runs of Screen.__init__ (C12: Proofs/C12Source.v, src_mask_rules) followed by the translated
   id-encoding run (C01: Proofs/C01Source.v, src_init_ids). *)
From Coq Require Import ZArith List Bool.
From Batchie Require Import Lib.Sexp Model.Screen Generated.SrcScreenIds Proofs.C03Screen Proofs.C12Source
  Proofs.C01Source_Init.
Import ListNotations.
Open Scope Z_scope.

(* when the mask runs succeed they leave the rows the model stores, and those are plate-uniform *)
Lemma src_mask_rules_ok rows og mg rows' :
  src_mask_rules rows og mg = Ok rows' -> rows' = norm_rows og mg rows /\ plate_uniform rows' = true.
Proof.
  unfold src_mask_rules. rewrite src_init_observations_spec.
  destruct (negb og && mg); cbn [res_bind fst snd]; [discriminate|]. cbv zeta.
  rewrite <- (norm_rows_plate og mg rows), src_init_plate_check_spec.
  destruct (plate_uniform (norm_rows og mg rows)) eqn:U; cbn [res_bind]; [|discriminate].
  rewrite put_cols_norm. intros H. inversion H. subst. now split.
Qed.

Theorem mk_screen_is_source_runs : forall rows a c tm sm og mg,
  (0 < a)%nat ->
  match tm with Some (m, _) => NoDup (map fst m) | None => True end ->
  match sm with Some (m, _) => NoDup (map fst m) | None => True end ->
  (dor s <- mk_screen rows a c tm sm og mg; Ok (stored_ids s))
  = if negb (arity_ok a rows) then Err 1
    else dor rows' <- src_mask_rules rows og mg;
         src_init_ids (names_arr a rows') (doses_arr a rows') (map r_sample rows') (map r_plate rows')
                      (tmap_arg_py tm) (smap_arg_py sm) c.
Proof.
  intros rows a c tm sm og mg Ha Htm Hsm. rewrite mk_screen_is_src_mask_rules.
  destruct (arity_ok a rows) eqn:Ea; cbn [negb res_bind]; [|reflexivity].
  destruct (src_mask_rules rows og mg) as [rows'|t] eqn:E; cbn [res_bind]; [|reflexivity].
  apply src_mask_rules_ok in E as [-> U].
  rewrite (src_init_ids_is_model _ a c tm sm Ha Htm Hsm).
  rewrite (arity_ok_treats a rows (norm_rows og mg rows)) by apply norm_rows_treats.
  rewrite Ea, U. reflexivity.
Qed.
