(* C19: get_args of nextflow/scripts/batchie.py, re-translated from /repo on every run (Generated/SrcOrchArgs.v, configuration
   C19_GET_ARGS of harness/src_functions.py): the option table the four add_argument calls build is the model's orch_options,
   the function is argparse (Orchestrate.parse_known_args) on that table; and every namespace a successful parse yields has
   the attributes main() reads, at the types the model of main() assumes. *)
From Coq Require Import ZArith List Bool Lia.
From Batchie Require Import Model.Orchestrate Generated.SrcOrchArgs Proofs.C19Base.
Import ListNotations.
Open Scope Z_scope.

Lemma sbind_pair_ret {A B : Type} (r : sres (A * B)) : (dos x <- r; let '(a, b) := x in SOk (a, b)) = r.
Proof. destruct r as [[a b]|w s|d w]; reflexivity. Qed.

Theorem src_get_args_is_model : forall cmdline : list str,
  src_get_args cmdline = parse_known_args orch_options cmdline.
Proof.
  intros cmdline. unfold src_get_args. cbn [app]. exact (sbind_pair_ret (parse_known_args orch_options cmdline)).
Qed.

(* the attribute names argparse derives from the option strings are the ones main() reads *)
Lemma orch_dests : map o_dest orch_options = [D_screen; D_batch_size; D_mode; D_outdir].
Proof. reflexivity. Qed.

Lemma ns_get_set d k v ns : ns_get d (ns_set k v ns) = if zlist_eqb k d then Some v else ns_get d ns.
Proof.
  induction ns as [|[k0 x] ns IH]; cbn [ns_set ns_get].
  - reflexivity.
  - destruct (zlist_eqb k0 k) eqn:E0; cbn [ns_get].
    + apply zlist_eqb_eq in E0. subst k0. destruct (zlist_eqb k d); reflexivity.
    + destruct (zlist_eqb k0 d) eqn:E1; [|exact IH].
      apply zlist_eqb_eq in E1. subst k0.
      destruct (zlist_eqb k d) eqn:E2; [|reflexivity].
      apply zlist_eqb_eq in E2. subst k. now rewrite zlist_eqb_refl in E0.
Qed.

(* a value of the kind the option's conversion produces *)
Definition val_ok (t : argtype) (v : nsval) : Prop :=
  match t with
  | TStr => exists s, v = VStr s
  | TInt => exists z, v = VInt z
  | TChoice cs => exists s, v = VStr s /\ existsb (zlist_eqb s) cs = true
  end.

Lemma convert_ok t v x : convert_arg t v = SOk x -> val_ok t x.
Proof.
  destruct t as [| |cs]; cbn [convert_arg val_ok].
  - intros H; injection H as <-. eauto.
  - destruct v as [|c v]; [destruct (forallb is_alnum_dot []); discriminate|].
    destruct (uint_of_chars (c :: v)); [intros H; injection H as <-; eauto|].
    destruct (forallb is_alnum_dot (c :: v)); discriminate.
  - destruct (existsb (zlist_eqb v) cs) eqn:E; [|discriminate]. intros H; injection H as <-. eauto.
Qed.

Lemma find_opt_some table w o : find_opt table w = Some o -> In o table /\ o_flag o = w.
Proof. unfold find_opt. intros H. apply find_some in H as [Hi He]. split; [exact Hi | now apply zlist_eqb_eq]. Qed.

(* everything the scan stores was given with a declared option string that occurs on the command line, and has that
   option's kind of value *)
Definition given_ok (table : list optspec) (ws : list str) (ns : namespace) : Prop :=
  forall d v, ns_get d ns = Some v ->
  exists o, In o table /\ o_dest o = d /\ In (o_flag o) ws /\ val_ok (o_type o) v.

(* one pass over the command line (fuel n: an option consumes two words): what is stored stays given_ok, and the words handed
   on are words of the command line that are no option strings, in their order *)
Lemma scan_words_ok table : forall n ws all ns0 ex0 r,
  (length ws <= n)%nat -> incl ws all -> given_ok table all ns0 ->
  scan_words table ws ns0 ex0 = SOk r ->
  given_ok table all (fst r)
  /\ exists more, snd r = ex0 ++ more /\ forall w, In w more -> In w all /\ find_opt table w = None.
Proof.
  induction n as [|n IH]; intros ws all ns0 ex0 r Hl Hi G H.
  { destruct ws; [|cbn in Hl; lia]. cbn in H. injection H as <-. split; [exact G|].
    exists []. rewrite app_nil_r. split; [reflexivity | intros w []]. }
  destruct ws as [|w ws].
  { cbn in H. injection H as <-. split; [exact G|]. exists []. rewrite app_nil_r. split; [reflexivity | intros ? []]. }
  cbn [scan_words] in H. cbn [length] in Hl.
  destruct (find_opt table w) as [o|] eqn:Ef.
  - destruct ws as [|v ws]; [discriminate|].
    destruct (starts_with_dash v); [discriminate|].
    destruct (convert_arg (o_type o) v) as [x|? ?|? ?] eqn:Ec; cbn [sbind] in H; try discriminate.
    apply (IH ws all (ns_set (o_dest o) x ns0) ex0 r); [cbn [length] in Hl; lia | | | exact H].
    + intros a Ha. apply Hi. right. right. exact Ha.
    + intros d v0. rewrite ns_get_set. destruct (zlist_eqb (o_dest o) d) eqn:Ed; [|apply G].
      intros E; injection E as <-. apply zlist_eqb_eq in Ed.
      destruct (find_opt_some _ _ _ Ef) as [Hin Hfl]. exists o. repeat split; [exact Hin | exact Ed | | exact (convert_ok _ _ _ Ec)].
      rewrite Hfl. apply Hi. now left.
  - destruct (IH ws all ns0 (ex0 ++ [w]) r) as (G' & more & E & Hm); [lia | | exact G | exact H |].
    { intros a Ha. apply Hi. now right. }
    split; [exact G'|]. exists (w :: more). split; [now rewrite E, <- app_assoc|].
    intros a [<-|Ha]; [split; [apply Hi; now left | exact Ef] | exact (Hm a Ha)].
Qed.

Lemma given_ok_nil table all : given_ok table all [].
Proof. intros d v H. discriminate H. Qed.

(* the four options of the script's parser have four different attribute names: what the scan stored under an option's
   name was given with that option, and has its kind of value *)
Lemma orch_dest_inj o o' : In o orch_options -> In o' orch_options -> o_dest o = o_dest o' -> o = o'.
Proof. intros [<-|[<-|[<-|[<-|[]]]]] [<-|[<-|[<-|[<-|[]]]]] E; (reflexivity || discriminate E). Qed.

Lemma orch_given ws g o v :
  given_ok orch_options ws g -> In o orch_options -> ns_get (o_dest o) g = Some v ->
  In (o_flag o) ws /\ val_ok (o_type o) v.
Proof.
  intros G Ho E. destruct (G _ _ E) as (o' & Ho' & Hd & Hin & Hv).
  now rewrite <- (orch_dest_inj o' o Ho' Ho Hd).
Qed.

(* argparse's contract for this parser, derived from the model of parse_known_args and the TRANSLATED table: a parse that
   succeeds yields exactly the four attributes, a str for --screen and --outdir, an int for --batch-size (1 when the option is
   not on the command line), one of the two `choices` for --mode *)
Theorem parse_orch_options_shape : forall cmdline ns extra,
  parse_known_args orch_options cmdline = SOk (ns, extra) ->
  exists (scr out : str) (b : Z) (md : mode),
    ns = [(D_screen, VStr scr); (D_batch_size, VInt b);
          (D_mode, VStr (match md with Retro => L_retrospective | Prosp => L_prospective end)); (D_outdir, VStr out)]
    /\ (~ In L_batch_size cmdline -> b = 1).
Proof.
  intros cmdline ns extra. unfold parse_known_args.
  destruct (existsb (unmodelled_word orch_options) cmdline); [discriminate|].
  destruct (scan_words orch_options cmdline [] []) as [[g ex]|? ?|? ?] eqn:Es; cbn [sbind fst snd]; try discriminate.
  destruct (scan_words_ok orch_options (length cmdline) cmdline cmdline [] [] _ (le_n _) (incl_refl _) (given_ok_nil _ _) Es)
    as [G _]. cbn [fst] in G.
  unfold orch_options at 1. cbn [finish_namespace]. unfold o_dest. cbn [o_flag o_required o_default].
  change (dest_of_flag L_screen) with D_screen. change (dest_of_flag L_batch_size) with D_batch_size.
  change (dest_of_flag L_mode) with D_mode. change (dest_of_flag L_outdir) with D_outdir.
  destruct (ns_get D_screen g) as [v1|] eqn:E1; cbn [sbind]; [|discriminate].
  destruct (orch_given _ _ (mko L_screen TStr true None) v1 G ltac:(cbn; tauto) E1) as [_ [scr ->]].
  assert (Hb : exists b, (match ns_get D_batch_size g with Some v => SOk v | None => SOk (VInt 1) end) = SOk (VInt b : nsval)
                         /\ (~ In L_batch_size cmdline -> b = 1)).
  { destruct (ns_get D_batch_size g) as [v2|] eqn:E2; [|exists 1; auto].
    destruct (orch_given _ _ (mko L_batch_size TInt false (Some 1)) v2 G ltac:(cbn; tauto) E2) as [Hin [z ->]].
    exists z. split; [reflexivity|]. intros Hn. contradiction. }
  destruct Hb as (b & Eb & Hb1). cbn [negb]. rewrite Eb. cbn [sbind].
  destruct (ns_get D_mode g) as [v3|] eqn:E3; cbn [sbind]; [|discriminate].
  destruct (orch_given _ _ (mko L_mode (TChoice [L_retrospective; L_prospective]) true None) v3 G ltac:(cbn; tauto) E3)
    as [_ (m & -> & Hm)].
  cbn [o_type existsb] in Hm.
  assert (Hmd : exists md, m = match md with Retro => L_retrospective | Prosp => L_prospective end).
  { rewrite !orb_true_iff in Hm. destruct Hm as [Hm|[Hm|Hm]]; [| |discriminate Hm];
      apply zlist_eqb_eq in Hm; [exists Retro | exists Prosp]; exact Hm. }
  destruct Hmd as [md ->].
  destruct (ns_get D_outdir g) as [v4|] eqn:E4; cbn [sbind]; [|discriminate].
  destruct (orch_given _ _ (mko L_outdir TStr true None) v4 G ltac:(cbn; tauto) E4) as [_ [out ->]].
  intros H; injection H as <- _. exists scr, out, b, md. split; [reflexivity | exact Hb1].
Qed.

(* every args.<x> that the translated main() reads (C19_MAIN: args.mode, args.batch_size as fields; args.outdir, args.screen under
   os.path.abspath) is an attribute of every namespace the TRANSLATED get_args returns, with the type the model of main() assumes:
   mode one of the two names main() dispatches on (its `else: raise ValueError` is dead), batch_size an int, outdir and screen
   strings *)
Theorem src_get_args_gives_main_args : forall cmdline ns extra,
  src_get_args cmdline = SOk (ns, extra) ->
  exists (md : mode) (b : Z) (scr out : str),
    margs_of_ns ns = Some (mka (modename_of md) b)
    /\ ns_get D_screen ns = Some (VStr scr) /\ ns_get D_outdir ns = Some (VStr out)
    /\ map fst ns = map o_dest orch_options
    /\ (~ In L_batch_size cmdline -> b = 1).
Proof.
  intros cmdline ns extra H. rewrite src_get_args_is_model in H.
  destruct (parse_orch_options_shape _ _ _ H) as (scr & out & b & md & -> & Hb).
  exists md, b, scr, out. repeat split; try reflexivity; [|exact Hb].
  destruct md; reflexivity.
Qed.

(* no word of the remaining arguments is one of the script's own option strings (what launch_of_words assumes of the operator's
   extra words), and each of them stood on the command line *)
Theorem src_get_args_remaining : forall cmdline ns extra,
  src_get_args cmdline = SOk (ns, extra) ->
  forall w, In w extra -> In w cmdline /\ ~ In w (map o_flag orch_options).
Proof.
  intros cmdline ns extra H. rewrite src_get_args_is_model in H. unfold parse_known_args in H.
  destruct (existsb (unmodelled_word orch_options) cmdline); [discriminate|].
  destruct (scan_words orch_options cmdline [] []) as [[g ex]|? ?|? ?] eqn:Es; cbn [sbind fst snd] in H; try discriminate.
  destruct (finish_namespace orch_options g); cbn [sbind] in H; try discriminate. injection H as _ <-.
  destruct (scan_words_ok orch_options (length cmdline) cmdline cmdline [] [] _ (le_n _) (incl_refl _) (given_ok_nil _ _) Es)
    as (_ & more & E & Hm).
  cbn [snd app] in E. subst ex. intros w Hw. destruct (Hm w Hw) as [Hin Hf]. split; [exact Hin|].
  intros Hc. apply in_map_iff in Hc as (o & Ho & Hio).
  unfold find_opt in Hf. apply (find_none _ _ Hf) in Hio. rewrite Ho, zlist_eqb_refl in Hio. discriminate Hio.
Qed.
