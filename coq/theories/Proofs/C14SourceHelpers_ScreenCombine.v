(* C14, one piece of Proofs/C14SourceHelpers.v (which see): Screen.combine *)
From Coq Require Import List.
From Batchie Require Import Lib.Sexp Model.Encode Model.Screen Model.Views Generated.SrcPlates
  Proofs.PyRtLemmas Proofs.C14SourceHelpers_Base.
Import ListNotations.
Open Scope Z_scope.

Theorem src_screen_combine_is_model : forall a b : pyscreen, src_screen_combine a b = screen_combine (snd a) (snd b).
Proof.
  intros [ta a] [tb b]. unfold src_screen_combine, screen_combine. cbn [snd negb].
  destruct (negb (name_eqb (s_ctrl b) (s_ctrl a))); [reflexivity|].
  unfold concat2, screen_treatment_names, screen_treatment_doses. cbn [fst snd].
  destruct (Nat.eqb (s_arity a) (s_arity b)); cbn [negb res_bind]; [|reflexivity].
  rewrite res_bind_ret. unfold screen_of_arrays, screen_mask. cbn [fst snd]. now rewrite rows_of_arrays_app.
Qed.
