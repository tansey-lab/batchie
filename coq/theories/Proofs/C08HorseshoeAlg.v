(* C08: the horseshoe hyper-prior factors of Model/GibbsSpec.v as functions of one
   group of variables at a time (local precisions phi, their auxiliaries, global precisions eta,
   their auxiliaries), for the scalar-eta family (V0) and the vector-eta family (V2, V1).
   Everything here is about the specification only; the sampler enters in C08Horseshoe.v. *)
From Coq Require Import List QArith Qcanon.
From Batchie Require Import Lib.Num Model.Gibbs Model.GibbsSpec Proofs.C08Sums.
Import ListNotations.
Open Scope Qc_scope.

Lemma sumn_sub2 n m (f h : nat -> nat -> Qc) :
  sumn n (fun i => sumn m (fun k => f i k)) - sumn n (fun i => sumn m (fun k => h i k))
  = sumn n (fun i => sumn m (fun k => f i k - h i k)).
Proof. rewrite <- sumn_sub. apply sumn_ext; intros i _. now rewrite sumn_sub. Qed.

(* one half-Cauchy factor, spelled out *)
Lemma e_hc_eq ln j p a : e_hc ln j p a = ln p + qofZ 2 * (a + j) * p + qofZ 2 * a - ln 1.
Proof. unfold e_hc, e_gamma_n, e_gamma. field_half. Qed.

Section Alg.
Variable ln : Qc -> Qc.
Variable j : Qc.

(* as a function of the auxiliary: Gamma(1, 1 + p) *)
Lemma e_hc_aux p a a' : e_hc ln j p a - e_hc ln j p a' = gform ln 1 (1 + p) a a'.
Proof. rewrite !e_hc_eq. unfold gform. rewrite q2_eq. ring. Qed.

(* as a function of the precision, alone: the prior part of its conditional *)
Lemma e_hc_prec p p' a :
  e_hc ln j p a - e_hc ln j p' a = (ln p - ln p') + qofZ 2 * (a + j) * (p - p').
Proof. rewrite !e_hc_eq. ring. Qed.

Lemma e_hs_vec_aux n p a a' :
  e_hs_vec ln j n p a - e_hs_vec ln j n p a' = sumn n (fun i => gform ln 1 (1 + vnth p i) (vnth a i) (vnth a' i)).
Proof. unfold e_hs_vec. rewrite <- sumn_sub. apply sumn_ext; intros i _. apply e_hc_aux. Qed.

Lemma e_hc_tilt p a : e_hc ln j p a = e_hc ln 0 p a + qofZ 2 * j * p.
Proof. rewrite !e_hc_eq. ring. Qed.
Lemma e_hs_vec_tilt n p a : e_hs_vec ln j n p a = e_hs_vec ln 0 n p a + qofZ 2 * j * sumn n (fun i => vnth p i).
Proof.
  unfold e_hs_vec. rewrite <- sumn_scale, <- sumn_add. apply sumn_ext; intros i _. apply e_hc_tilt.
Qed.

Hypothesis ln_mul : forall a b, 0 < a -> 0 < b -> ln (a * b) = ln a + ln b.

(* the factors of the joint that mention phi0, eta0 or their auxiliaries *)
Definition blk0 (n : nat) (V phi : list Qc) (eta : Qc) (aphi : list Qc) (aeta : Qc) : Qc :=
  (sumn n (fun m => vnth phi m * eta * qsq (vnth V m)) - sumn n (fun m => ln (vnth phi m * eta)))
  + e_hs_vec ln j n phi aphi + e_hc ln j eta aeta.

Lemma blk0_phiaux n V phi eta a a' aeta :
  blk0 n V phi eta a aeta - blk0 n V phi eta a' aeta
  = sumn n (fun m => gform ln 1 (1 + vnth phi m) (vnth a m) (vnth a' m)).
Proof. unfold blk0. rewrite <- e_hs_vec_aux. ring. Qed.

Lemma blk0_etaaux n V phi eta aphi b b' :
  blk0 n V phi eta aphi b - blk0 n V phi eta aphi b' = gform ln 1 (1 + eta) b b'.
Proof. unfold blk0. rewrite <- e_hc_aux. ring. Qed.

Lemma blk0_phi n V x x' eta aphi aeta :
  0 < eta -> (forall m, (m < n)%nat -> 0 < vnth x m) -> (forall m, (m < n)%nat -> 0 < vnth x' m) ->
  blk0 n V x eta aphi aeta - blk0 n V x' eta aphi aeta
  = sumn n (fun m => gform ln 1 (vnth aphi m + half * eta * qsq (vnth V m) + j) (vnth x m) (vnth x' m)).
Proof.
  intros He Hx Hx'. unfold blk0, e_hs_vec.
  match goal with |- (?A - ?B + ?C + ?E) - (?A' - ?B' + ?C' + ?E) = _ =>
    transitivity ((A - A') - (B - B') + (C - C')); [ring|] end.
  rewrite <- !sumn_sub, <- sumn_add. apply sumn_ext; intros m Hm.
  rewrite e_hc_prec, (ln_mul _ _ (Hx m Hm) He), (ln_mul _ _ (Hx' m Hm) He).
  unfold gform. field_half.
Qed.

Lemma blk0_eta n V phi t t' aphi aeta :
  0 < t -> 0 < t' -> (forall m, (m < n)%nat -> 0 < vnth phi m) ->
  blk0 n V phi t aphi aeta - blk0 n V phi t' aphi aeta
  = gform ln (half * (1 + qnat n)) (aeta + half * sumn n (fun m => vnth phi m * qsq (vnth V m)) + j) t t'.
Proof.
  intros Ht Ht' Hp. unfold blk0.
  assert (Hl : forall z, 0 < z -> sumn n (fun m => ln (vnth phi m * z)) = sumn n (fun m => ln (vnth phi m)) + qnat n * ln z).
  { intros z Hz. rewrite <- sumn_const, <- sumn_add. apply sumn_ext; intros m Hm. apply ln_mul; [apply Hp, Hm|exact Hz]. }
  assert (Hs : forall z, sumn n (fun m => vnth phi m * z * qsq (vnth V m)) = z * sumn n (fun m => vnth phi m * qsq (vnth V m))).
  { intros z. rewrite <- sumn_scale. apply sumn_ext; intros m _. ring. }
  rewrite (Hl t Ht), (Hl t' Ht'), (Hs t), (Hs t').
  match goal with |- (?A - ?B + ?C + ?E) - (?A' - ?B' + ?C + ?E') = _ =>
    transitivity ((A - A') - (B - B') + (E - E')); [ring|] end.
  rewrite e_hc_prec. unfold gform. field_half.
Qed.

Definition blkK (n D : nat) (V phi : list (list Qc)) (eta : list Qc) (aphi : list (list Qc)) (aeta : list Qc) : Qc :=
  (sumn n (fun m => sumn D (fun k => vnth (rnth phi m) k * vnth eta k * qsq (vnth (rnth V m) k)))
   - sumn n (fun m => sumn D (fun k => ln (vnth (rnth phi m) k * vnth eta k))))
  + sumn n (fun m => e_hs_vec ln j D (rnth phi m) (rnth aphi m)) + e_hs_vec ln j D eta aeta.

Lemma blkK_phiaux n D V phi eta a a' aeta :
  blkK n D V phi eta a aeta - blkK n D V phi eta a' aeta
  = sumn n (fun m => sumn D (fun k => gform ln 1 (1 + vnth (rnth phi m) k) (vnth (rnth a m) k) (vnth (rnth a' m) k))).
Proof.
  unfold blkK.
  match goal with |- (?A + ?C + ?E) - (?A + ?C' + ?E) = _ => transitivity (C - C'); [ring|] end.
  rewrite <- sumn_sub. apply sumn_ext; intros m _. apply e_hs_vec_aux.
Qed.

Lemma blkK_etaaux n D V phi eta aphi b b' :
  blkK n D V phi eta aphi b - blkK n D V phi eta aphi b'
  = sumn D (fun k => gform ln 1 (1 + vnth eta k) (vnth b k) (vnth b' k)).
Proof. unfold blkK. rewrite <- e_hs_vec_aux. ring. Qed.

Lemma blkK_phi n D V x x' eta aphi aeta :
  (forall k, (k < D)%nat -> 0 < vnth eta k) ->
  (forall m k, (m < n)%nat -> (k < D)%nat -> 0 < vnth (rnth x m) k) ->
  (forall m k, (m < n)%nat -> (k < D)%nat -> 0 < vnth (rnth x' m) k) ->
  blkK n D V x eta aphi aeta - blkK n D V x' eta aphi aeta
  = sumn n (fun m => sumn D (fun k =>
      gform ln 1 (vnth (rnth aphi m) k + half * vnth eta k * qsq (vnth (rnth V m) k) + j) (vnth (rnth x m) k) (vnth (rnth x' m) k))).
Proof.
  intros He Hx Hx'. unfold blkK, e_hs_vec.
  match goal with |- (?A - ?B + ?C + ?E) - (?A' - ?B' + ?C' + ?E) = _ =>
    transitivity ((A - A') - (B - B') + (C - C')); [ring|] end.
  rewrite !sumn_sub2, <- sumn_add. apply sumn_ext; intros m Hm.
  rewrite <- sumn_add. apply sumn_ext; intros k Hk.
  rewrite e_hc_prec, (ln_mul _ _ (Hx m k Hm Hk) (He k Hk)), (ln_mul _ _ (Hx' m k Hm Hk) (He k Hk)).
  unfold gform. field_half.
Qed.

Lemma blkK_eta n D V phi t t' aphi aeta :
  (forall k, (k < D)%nat -> 0 < vnth t k) -> (forall k, (k < D)%nat -> 0 < vnth t' k) ->
  (forall m k, (m < n)%nat -> (k < D)%nat -> 0 < vnth (rnth phi m) k) ->
  blkK n D V phi t aphi aeta - blkK n D V phi t' aphi aeta
  = sumn D (fun k => gform ln (half * (1 + qnat n))
                       (vnth aeta k + half * sumn n (fun m => vnth (rnth phi m) k * qsq (vnth (rnth V m) k)) + j)
                       (vnth t k) (vnth t' k)).
Proof.
  intros Ht Ht' Hp. unfold blkK, e_hs_vec.
  match goal with |- (?A - ?B + ?C + ?E) - (?A' - ?B' + ?C + ?E') = _ =>
    transitivity ((A - A') - (B - B') + (E - E')); [ring|] end.
  rewrite !sumn_sub2, (sumn_swap n D), <- sumn_sub, <- sumn_add.
  apply sumn_ext; intros k Hk.
  rewrite (sumn_ext n _ (fun m => (vnth t k - vnth t' k) * (vnth (rnth phi m) k * qsq (vnth (rnth V m) k))
                                  - (ln (vnth t k) - ln (vnth t' k)))).
  2:{ intros m Hm. rewrite (ln_mul _ _ (Hp m k Hm Hk) (Ht k Hk)), (ln_mul _ _ (Hp m k Hm Hk) (Ht' k Hk)). ring. }
  rewrite sumn_sub.
  rewrite sumn_scale, sumn_const, e_hc_prec.
  unfold gform. field_half.
Qed.
End Alg.
