(* C19: validate_initial_output_dir_and_get_result_files_as_dict of nextflow/scripts/batchie.py, re-translated from /repo on
   every run (Generated/SrcOrchInit.v, configuration C19_VALIDATE_INITIAL of harness/src_functions.py), is the model's
   validate_initial; what that means in terms of the files the model's initial step publishes; and that on every tree the
   retrospective script can reach, a completed initial step is one the function accepts. *)
From Coq Require Import ZArith List Bool Lia.
From Batchie Require Import Model.Orchestrate Generated.SrcOrchInit Proofs.C19Base Proofs.C19Step Proofs.C19Main.
Import ListNotations.
Open Scope Z_scope.

Theorem src_validate_initial_is_model : forall p : plate_path,
  src_validate_initial p = validate_initial p.
Proof.
  intros [s d]. unfold src_validate_initial, validate_initial, glob_in_plate, glob_meta, produced. cbn [fst snd].
  destruct (f_training d) as [tr|], (f_meta d) as [m|], (f_test d); reflexivity.
Qed.

(* it returns the dict exactly when test.screen.h5, training.screen.h5 and screen_metadata.json are all there; the dict names
   the test and training screen of THAT directory and carries the metadata that is in it *)
Theorem validate_initial_some_iff : forall (p : plate_path) (r : initial_files),
  validate_initial p = SOk (Some r) <->
  initial_complete (snd p) = true /\ if_test r = SFile (fst p) KTest /\ if_training r = SFile (fst p) KTraining
  /\ f_meta (snd p) = Some (if_meta r).
Proof.
  intros [s d] [te tr m]. unfold validate_initial, initial_complete, initial_required, produced.
  cbn [fst snd forallb if_test if_training if_meta].
  destruct (f_training d) as [t|], (f_meta d) as [m0|], (f_test d); cbn [andb]; split;
    try (intros H; discriminate H); try (intros (H & _); discriminate H).
  - intros H. injection H as <- <- <-. auto.
  - intros (_ & -> & -> & H). injection H as <-. reflexivity.
Qed.

(* None: exactly when the training screen or the metadata is missing (whatever else is there) *)
Theorem validate_initial_none_iff : forall p : plate_path,
  validate_initial p = SOk None <-> produced (snd p) KTraining && produced (snd p) KMeta = false.
Proof.
  intros [s d]. unfold validate_initial, produced. cbn [fst snd].
  destruct (f_training d) as [t|], (f_meta d) as [m0|], (f_test d); cbn [andb]; split; intros H;
    (reflexivity || discriminate H).
Qed.

(* IndexError (test_screen_glob[0]): exactly when only the test screen is missing; nothing has been touched *)
Theorem validate_initial_raises_iff : forall (p : plate_path) done why,
  validate_initial p = SRaised done why <->
  produced (snd p) KTraining && produced (snd p) KMeta = true /\ produced (snd p) KTest = false /\ done = [] /\ why = 98.
Proof.
  intros [s d] done why. unfold validate_initial, produced. cbn [fst snd].
  destruct (f_training d) as [t|], (f_meta d) as [m0|], (f_test d); cbn [andb]; split;
    try (intros H; discriminate H); try (intros (H & H2 & _); (discriminate H || discriminate H2)).
  - intros H. injection H as <- <-. auto.
  - intros (_ & _ & -> & ->). reflexivity.
Qed.

(* never a named directory *)
Theorem validate_initial_never_names : forall (p : plate_path) w s, validate_initial p <> SNamed w s.
Proof.
  intros [s0 d] w s. unfold validate_initial. cbn [fst snd].
  destruct (f_training d), (f_meta d), (f_test d); discriminate.
Qed.

(* each required file missing in turn (the others present) *)
Theorem validate_initial_each_missing : forall s tr m by_ th di se ad,
  validate_initial (s, mkp (Some tr) true th di se ad (Some m) by_)
    = SOk (Some (mkif (SFile s KTest) (SFile s KTraining) m)) /\
  validate_initial (s, mkp None true th di se ad (Some m) by_) = SOk None /\
  validate_initial (s, mkp (Some tr) true th di se ad None by_) = SOk None /\
  validate_initial (s, mkp (Some tr) false th di se ad (Some m) by_) = SRaised [] 98.
Proof. intros. repeat split. Qed.

(* the files the function insists on are among those the pipeline's initial workflow publishes (expected (LInit _)) *)
Theorem initial_required_expected : forall md sc, incl initial_required (expected md (LInit sc)).
Proof. intros md sc k Hk. cbn in Hk |- *. intuition. Qed.

(* a run of the initial workflow that the model counts as complete (complete_run: every expected file published) leaves a
   directory the function accepts *)
Theorem complete_initial_run_validates : forall md sc (p : plate_path),
  complete_run md (LInit sc) (snd p) = true ->
  exists m, f_meta (snd p) = Some m /\
            validate_initial p = SOk (Some (mkif (SFile (fst p) KTest) (SFile (fst p) KTraining) m)).
Proof.
  intros md sc [s d]. unfold complete_run, expected, all_kinds, validate_initial, produced. cbn [fst snd forallb].
  destruct (f_training d) as [t|], (f_test d), (f_meta d) as [m|]; cbn [andb]; intros H;
    try discriminate H; try (rewrite ?andb_false_r in H; discriminate H).
  exists m. auto.
Qed.

(* in particular: what the model's pipeline publishes for the initial launch on n >= 1 plates *)
Theorem initial_outputs_validate : forall (n : nat) f sc s, (1 <= n)%nat ->
  validate_initial (s, outputs n f (LInit sc))
  = SOk (Some (mkif (SFile s KTest) (SFile s KTraining) (Z.of_nat n - 1))).
Proof.
  intros n f sc s Hn. destruct n as [|k]; [lia|].
  unfold outputs, sel_rev. rewrite select_head by (intros q []). rewrite reveal_head.
  unfold validate_initial. cbn [fst snd f_training f_meta f_test]. unfold zlen. rewrite seqZ_length.
  do 3 f_equal. lia.
Qed.

(* a job directory that carries the completion marker and is iter_0/plate_0 is accepted: the function returns the dict with
   that directory's test and training screen and n - 1 unobserved plates - never None, never the IndexError *)
Theorem reachable_initial_validates : forall (bs n : nat) fixed,
  (1 <= bs)%nat -> (1 <= n)%nat -> fixed = true \/ bs = 1%nat ->
  forall sched, Forall (fun e => entry_ok e = true) sched ->
  let f := fst (script_run Retro fixed (Z.of_nat bs) n [] sched) in
  forall p : plate_path, In p (completed f) -> fst p = (0, 0) ->
  validate_initial p = SOk (Some (mkif (SFile (0, 0) KTest) (SFile (0, 0) KTraining) (Z.of_nat n - 1))).
Proof.
  intros bs n fixed Hbs Hn Hfix sched Hs. cbn zeta. intros p Hin Hp.
  destruct (resume_correct Retro bs n fixed Hbs Hn Hfix sched Hs) as [Hc _]. cbn zeta in Hc.
  rewrite Hc in Hin. unfold ideal in Hin. apply in_map_iff in Hin as (c & <- & _).
  unfold ideal_step in Hp |- *. cbn [fst] in Hp.
  rewrite <- (step_of_0 bs n Hbs Hn) in Hp. apply (step_of_inj bs Hbs) in Hp. subst c.
  rewrite (step_of_0 bs n Hbs Hn). unfold validate_initial, ideal_pdir. cbn [fst snd f_training f_meta f_test].
  unfold zlen. rewrite seqZ_length. do 3 f_equal. lia.
Qed.

(* the same facts said of the translation (what Props/C19.v states) *)
Theorem src_validate_initial_accepts_iff : forall (p : plate_path) (r : initial_files),
  src_validate_initial p = SOk (Some r) <->
  forallb (produced (snd p)) [KTest; KTraining; KMeta] = true /\ if_test r = SFile (fst p) KTest
  /\ if_training r = SFile (fst p) KTraining /\ f_meta (snd p) = Some (if_meta r).
Proof. intros p r. rewrite src_validate_initial_is_model. exact (validate_initial_some_iff p r). Qed.

Theorem src_validate_initial_raises_iff : forall (p : plate_path) done why,
  src_validate_initial p = SRaised done why <->
  produced (snd p) KTraining && produced (snd p) KMeta = true /\ produced (snd p) KTest = false /\ done = [] /\ why = 98.
Proof. intros p done why. rewrite src_validate_initial_is_model. exact (validate_initial_raises_iff p done why). Qed.

Theorem src_validate_initial_none_iff : forall p : plate_path,
  src_validate_initial p = SOk None <-> produced (snd p) KTraining && produced (snd p) KMeta = false.
Proof. intros p. rewrite src_validate_initial_is_model. exact (validate_initial_none_iff p). Qed.

Theorem src_validate_initial_never_names : forall (p : plate_path) w s, src_validate_initial p <> SNamed w s.
Proof. intros p w s. rewrite src_validate_initial_is_model. apply validate_initial_never_names. Qed.

Theorem src_validate_initial_complete_run : forall md sc (p : plate_path),
  complete_run md (LInit sc) (snd p) = true ->
  exists m, f_meta (snd p) = Some m /\
            src_validate_initial p = SOk (Some (mkif (SFile (fst p) KTest) (SFile (fst p) KTraining) m)).
Proof. intros md sc p H. rewrite src_validate_initial_is_model. exact (complete_initial_run_validates md sc p H). Qed.

Theorem src_validate_initial_on_reachable_trees : forall (bs n : nat) fixed,
  (1 <= bs)%nat -> (1 <= n)%nat -> fixed = true \/ bs = 1%nat ->
  forall sched, Forall (fun e => entry_ok e = true) sched ->
  let f := fst (script_run Retro fixed (Z.of_nat bs) n [] sched) in
  forall p : plate_path, In p (completed f) -> fst p = (0, 0) ->
  src_validate_initial p = SOk (Some (mkif (SFile (0, 0) KTest) (SFile (0, 0) KTraining) (Z.of_nat n - 1))).
Proof.
  intros bs n fixed Hbs Hn Hfix sched Hs f p Hin Hp. rewrite src_validate_initial_is_model.
  exact (reachable_initial_validates bs n fixed Hbs Hn Hfix sched Hs p Hin Hp).
Qed.
