(* The argument-handling glue of the command-line wrappers: cli/argument_parsing.py.  The hand-written models
   Cli.str_to_bool / cast_dict / kv_append equal the translations of the WHOLE functions str_to_bool, cast_dict_to_type and
   KVAppendAction.__call__ of /repo, regenerated on every run (Generated/SrcCliArgs.v, configurations ARGS_* of
   harness/src_functions.py), for every record of string primitives and all inputs.

   Each link is proved in its own file - Proofs/C18SourceArgs_StrBool.v, C18SourceArgs_Cast.v (with the cast / resolve blocks every
   get_args() link uses), C18SourceArgs_KV.v, C18SourceArgs_Cmd.v (get_args() and main() of calculate_scores) - which is what
   the argument links of the OTHER wrappers import, so that they depend on the translations of str_to_bool and cast_dict_to_type
   only.  This file states the link of main() once more. *)
From Coq Require Import ZArith.
From Batchie Require Import Lib.Sexp Model.Cli Generated.SrcCliArgs Proofs.C18SourceArgs_Cmd.

Theorem src_cli_calculate_scores_cmd_is_model :
  forall (Cls F O : Type) (I : introspect Cls) (P : pyprims F O) (Scr Pl Th Dm Sc H : Type)
         (construct : Cls -> list (str * pval F O) -> result Sc) (L : cs_lib Scr Pl Th Dm Sc H) (mix : Z -> Z)
         (raw : cs_ns Cls F O),
  src_cli_calculate_scores_cmd Cls F O I P Scr Pl Th Dm Sc H construct L mix raw
  = cli_calculate_scores_cmd I P construct L mix raw.
Proof. exact C18SourceArgs_Cmd.src_cli_calculate_scores_cmd_is_model. Qed.
