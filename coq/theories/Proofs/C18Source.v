(* C18: the hand-written programs of Model/RandProg.v equal the translations of the corresponding functions of
   /repo, regenerated on every run (Generated/SrcRand.v, by harness/py2gal.py with the C18_* configurations of
   harness/src_functions.py, whose monad is RandProg's resumption type), for all inputs.

   Equality of programs is [prog_eq_on okA] (Model/RandProg.v): the same requests in the same order and the same
   outputs, for every answer the predicate [okA] admits - [any_answer] (all answers) for the random scorer and the
   DBAL sub-sampling, the numpy contract [valid_answer] for the two hold-out splits (an index outside the screen
   would make `selection_vector[indices] = True` raise; rng.choice returns elements of its pool).  It is sound
   for replay ([run]) and for execution against any generator ([exec]) - first part of this file. *)
From Coq Require Import ZArith List Bool Lia ZifyBool.
From Batchie Require Import Lib.Sexp Lib.PyRt Proofs.PyRtLemmas Model.RandProg Generated.SrcRand Proofs.C18RandProg.
Import ListNotations.
Open Scope Z_scope.

Section ProgEq.
  Context {Req Ans : Type} (okA : Req -> Ans -> bool).

  Lemma peq_refl : forall Out (p : prog Req Ans Out), prog_eq_on okA p p.
  Proof. intros Out p. induction p as [o | r k IH]; constructor. intros a _. apply IH. Qed.

  Lemma peq_sym : forall Out (p q : prog Req Ans Out), prog_eq_on okA p q -> prog_eq_on okA q p.
  Proof. intros Out p q H. induction H as [o | r k k' _ IH]; constructor. exact IH. Qed.

  Lemma peq_trans : forall Out (p q s : prog Req Ans Out),
    prog_eq_on okA p q -> prog_eq_on okA q s -> prog_eq_on okA p s.
  Proof.
    intros Out p q s H. revert s. induction H as [o | r k k' _ IH]; intros s Hs.
    - exact Hs.
    - inversion Hs as [| r0 k0 k'' Hk]; subst. constructor. intros a Ha. apply IH; [exact Ha | apply Hk; exact Ha].
  Qed.

  Lemma peq_bind : forall A B (p p' : prog Req Ans A) (f f' : A -> prog Req Ans B),
    prog_eq_on okA p p' -> (forall a, prog_eq_on okA (f a) (f' a)) -> prog_eq_on okA (bind p f) (bind p' f').
  Proof.
    intros A B p p' f f' H Hf. induction H as [o | r k k' _ IH]; cbn [bind]; [apply Hf | constructor; exact IH].
  Qed.

  Lemma peq_bind_assoc : forall A B C (p : prog Req Ans A) (f : A -> prog Req Ans B) (g : B -> prog Req Ans C),
    prog_eq_on okA (bind (bind p f) g) (bind p (fun x => bind (f x) g)).
  Proof.
    intros A B C p f g. induction p as [o | r k IH]; cbn [bind]; [apply peq_refl | constructor; intros a _; apply IH].
  Qed.

  Lemma peq_assoc_l : forall A B C (p : prog Req Ans A) (f : A -> prog Req Ans B) (g : B -> prog Req Ans C) q,
    prog_eq_on okA (bind p (fun x => bind (f x) g)) q -> prog_eq_on okA (bind (bind p f) g) q.
  Proof. intros A B C p f g q H. eapply peq_trans; [apply peq_bind_assoc | exact H]. Qed.

  Lemma peq_assoc_r : forall A B C (p : prog Req Ans A) (f : A -> prog Req Ans B) (g : B -> prog Req Ans C) q,
    prog_eq_on okA q (bind p (fun x => bind (f x) g)) -> prog_eq_on okA q (bind (bind p f) g).
  Proof. intros A B C p f g q H. apply peq_sym, peq_assoc_l, peq_sym, H. Qed.

  (* replace the first program by an equal [bind q h], then compare what follows each output of [q] *)
  Lemma peq_bind_step : forall A B C D (p : prog Req Ans A) (q : prog Req Ans B) (h : B -> prog Req Ans A)
                               (F : A -> prog Req Ans D) (g : B -> prog Req Ans C) (K : C -> prog Req Ans D),
    prog_eq_on okA p (bind q h) ->
    (forall b, prog_eq_on okA (bind (h b) F) (bind (g b) K)) ->
    prog_eq_on okA (bind p F) (bind (bind q g) K).
  Proof.
    intros A B C D p q h F g K Hp Hk.
    eapply peq_trans; [apply peq_bind; [exact Hp | intros r; apply peq_refl] |].
    apply peq_assoc_l, peq_assoc_r. apply peq_bind; [apply peq_refl | exact Hk].
  Qed.

  Lemma peq_bind_ret : forall A (p : prog Req Ans A), prog_eq_on okA (bind p (fun x => Ret x)) p.
  Proof. intros A p. induction p as [o | r k IH]; cbn [bind]; constructor. intros a _. apply IH. Qed.

  (* a weaker contract admits more answers: equality for it is the stronger statement *)
  Lemma peq_weaken : forall (ok2 : Req -> Ans -> bool) Out (p q : prog Req Ans Out),
    (forall r a, ok2 r a = true -> okA r a = true) -> prog_eq_on okA p q -> prog_eq_on ok2 p q.
  Proof. intros ok2 Out p q Hw H. induction H as [o | r k k' _ IH]; constructor. intros a Ha. apply IH, Hw, Ha. Qed.

  (* soundness for execution against a generator whose answers satisfy the contract *)
  Lemma peq_exec : forall Out S (gen : S -> Req -> Ans * S) (p q : prog Req Ans Out),
    (forall s r, okA r (fst (gen s r)) = true) -> prog_eq_on okA p q -> forall s, exec gen p s = exec gen q s.
  Proof.
    intros Out S gen p q Hg H. induction H as [o | r k k' _ IH]; intros s; [reflexivity|].
    cbn [exec]. rewrite (IH (fst (gen s r)) (Hg s r) (snd (gen s r))). reflexivity.
  Qed.

  (* soundness for replay: a successful replay whose consumed answers satisfy the contract *)
  Lemma peq_run : forall Out (p q : prog Req Ans Out), prog_eq_on okA p q ->
    forall answers o rs, run p answers = Ok (o, rs) -> all_ok okA rs answers = true -> run q answers = Ok (o, rs).
  Proof.
    intros Out p q H. induction H as [o0 | r k k' _ IH]; intros answers o rs Hr Hok; [exact Hr|].
    cbn [run] in *. destruct answers as [| a rest]; [discriminate|].
    destruct (run (k a) rest) as [[o1 rs1] | t] eqn:E; [| discriminate].
    inversion Hr; subst o rs. cbn [all_ok] in Hok. apply andb_true_iff in Hok as [Ha Hrest].
    rewrite (IH a Ha rest o1 rs1 E Hrest). reflexivity.
  Qed.
End ProgEq.

(* with no condition on the answers the two programs replay alike on EVERY answer list, failures included *)
Lemma peq_run_any : forall Req Ans Out (p q : prog Req Ans Out), prog_eq_on any_answer p q ->
  forall answers, run p answers = run q answers.
Proof.
  intros Req Ans Out p q H. induction H as [o | r k k' _ IH]; intros answers; [reflexivity|].
  cbn [run]. destruct answers as [| a rest]; [reflexivity|]. rewrite (IH a eq_refl rest). reflexivity.
Qed.

Lemma all_ok_valid : forall rs al, answers_ok rs al = true -> all_ok valid_answer rs al = true.
Proof.
  induction rs as [| r rs IH]; intros al H; [reflexivity|]. destruct al as [| a al]; cbn [answers_ok all_ok] in *; [discriminate|].
  apply andb_true_iff in H as [Ha Hr]. rewrite Ha, (IH al Hr). reflexivity.
Qed.

(* scoring/rand.py: RandomScorer.score *)
(* the comprehension's loop, for an arbitrary body equal to the canonical one, followed by anything; [d] = the dict
   built so far *)
Lemma scorer_loop {B : Type} (f : list (Z * Z) -> Z -> rprog (list (Z * Z))) (Ksrc : list (Z * Z) -> rprog B) :
  (forall d k, f d k = Draw RRandom (fun a => Ret (Ok (dict_set d k (hd 0 a))))) ->
  forall plates d (K : list (Z * Z) -> prog req ans (result B)),
    NoDup (map fst d ++ plates) ->
    (forall out, prog_eq_on any_answer (Ksrc (d ++ out)) (K out)) ->
    prog_eq_on any_answer (rp_bind (rp_fold f plates d) Ksrc) (bind (for_each random_scorer_body plates) K).
Proof.
  intros Hf. induction plates as [| k r IH]; intros d K Hnd HK.
  - cbn. rewrite <- (app_nil_r d). apply HK.
  - cbn [rp_fold for_each]. rewrite Hf. unfold random_scorer_body at 1. cbn [rp_bind bind].
    constructor. intros a _. cbn [bind]. apply peq_assoc_r. cbn [bind].
    rewrite dict_set_fresh by (apply NoDup_remove_2 in Hnd; intros X; apply Hnd, in_or_app; now left).
    apply (IH _ (fun out => K ((k, hd 0 a) :: out))).
    + rewrite map_app. cbn [map fst]. rewrite <- app_assoc. exact Hnd.
    + intros out. rewrite <- app_assoc. apply HK.
Qed.

(* the keys of a dict are pairwise distinct: [NoDup plates] holds of every reachable input *)
Theorem src_random_scorer_is_model : forall plates, NoDup plates ->
  prog_eq_on any_answer (src_random_scorer_score plates) (lift_ok (random_scorer_prog plates)).
Proof.
  intros plates Hnd. unfold src_random_scorer_score, lift_ok, random_scorer_prog.
  apply scorer_loop; [reflexivity | exact Hnd |]. intros out. apply peq_refl.
Qed.

(* scoring/gaussian_dbal.py: the triple sub-sampling; here the two programs are the same term up to computation *)
Theorem src_dbal_subsample_is_model : forall n_thetas max_combos,
  src_dbal_subsample n_thetas max_combos = dbal_subsample_prog n_thetas max_combos.
Proof.
  intros n m. unfold src_dbal_subsample, dbal_subsample_prog. destruct (binom3 n =? 0); reflexivity.
Qed.

(* laws of the source vocabulary *)
Lemma rp_bind_draw {B : Type} (r : req) (f : ans -> rprog B) : rp_bind (rp_draw r) f = Draw r f.
Proof. reflexivity. Qed.

Lemma rp_bind_ok {A B : Type} (a : A) (f : A -> rprog B) : rp_bind (Ret (Ok a)) f = f a.
Proof. reflexivity. Qed.

Lemma rp_lift_ret {A : Type} (e : result A) : (dop r <- rp_lift e; rp_ret r) = Ret e.
Proof. destruct e; reflexivity. Qed.

(* A source loop that threads a state [repr acc] against a model loop that collects one list per item: if one turn of
   the source is the model's body followed by appending its output to [acc], then the source loop followed by [Ksrc] is
   the model loop followed by any [K] that agrees with [Ksrc] on the final state. *)
Lemma rp_fold_for_each {E S A C : Type} (okA : req -> ans -> bool) (repr : list E -> S)
      (f : S -> A -> rprog S) (body : A -> prog req ans (list E)) (Ksrc : S -> rprog C) :
  forall l,
    (forall acc x, In x l ->
       prog_eq_on okA (f (repr acc) x) (bind (body x) (fun b => Ret (Ok (repr (acc ++ b)))))) ->
    forall acc (K : list (list E) -> prog req ans (result C)),
      (forall bs, prog_eq_on okA (Ksrc (repr (acc ++ concat bs))) (K bs)) ->
      prog_eq_on okA (rp_bind (rp_fold f l (repr acc)) Ksrc) (bind (for_each body l) K).
Proof.
  induction l as [| x l IH]; intros Hf acc K HK.
  - cbn. rewrite <- (app_nil_r acc). apply (HK []).
  - cbn [rp_fold for_each]. unfold rp_bind at 1 2. apply peq_assoc_l.
    eapply peq_bind_step; [apply Hf; now left |]. intros b. cbn [bind]. apply peq_assoc_r. cbn [bind].
    apply (IH (fun acc' x' Hx => Hf acc' x' (or_intror Hx)) (acc ++ b) (fun bs => K (b :: bs))).
    intros bs. rewrite <- app_assoc. apply (HK (b :: bs)).
Qed.

Lemma memZ_In : forall x l, memZ x l = true <-> In x l.
Proof.
  intros x l. unfold memZ. rewrite existsb_exists. split.
  - intros (y & Hy & E). apply Z.eqb_eq in E. now subst.
  - intros H. exists x. split; [exact H | apply Z.eqb_refl].
Qed.

Lemma memZ_app : forall x a b, memZ x (a ++ b) = memZ x a || memZ x b.
Proof. intros. unfold memZ. apply existsb_app. Qed.

Lemma in_zrange : forall n i, In i (zrange n) <-> 0 <= i < n.
Proof.
  intros n i. unfold zrange. rewrite in_map_iff. split.
  - intros (j & <- & Hj). apply in_seq in Hj. lia.
  - intros H. exists (Z.to_nat i). split; [lia | apply in_seq; lia].
Qed.

Lemma zrange_length : forall n, length (zrange n) = Z.to_nat n.
Proof. intros. unfold zrange. now rewrite map_length, seq_length. Qed.

Lemma zlen_mask_of : forall size l, zlen (mask_of size l) = Z.of_nat (Z.to_nat size).
Proof. intros. unfold zlen, mask_of. now rewrite map_length, zrange_length. Qed.

Lemma zrange_to_nat : forall n, zrange (Z.of_nat (Z.to_nat n)) = zrange n.
Proof. intros. unfold zrange. now rewrite Nat2Z.id. Qed.

Lemma mask_zeros_is_mask_of : forall size, mask_zeros size = mask_of size [].
Proof.
  intros. unfold mask_zeros, mask_of. rewrite <- zrange_length.
  induction (zrange size) as [| x l IH]; cbn [length repeat map]; [reflexivity | now rewrite IH].
Qed.

Lemma map_combine_map {A B C : Type} (g : A -> B) (h : A * B -> C) :
  forall l, map h (combine l (map g l)) = map (fun x => h (x, g x)) l.
Proof. induction l as [| x l IH]; cbn [map combine]; [reflexivity | now rewrite IH]. Qed.

(* numpy's index-array store on a vector that is [mask_of size acc], for indices inside the screen *)
Lemma mask_set_true_valid : forall size acc idx, (forall i, In i idx -> 0 <= i < size) ->
  mask_set_true (mask_of size acc) idx = Ok (mask_of size (acc ++ idx)).
Proof.
  intros size acc idx Hin. unfold mask_set_true. rewrite zlen_mask_of.
  assert (Hn : forall i, In i idx -> 0 <= i < Z.of_nat (Z.to_nat size)) by (intros i Hi; apply Hin in Hi; lia).
  replace (forallb _ idx) with true.
  2:{ symmetry. apply forallb_forall. intros i Hi. apply Hn in Hi. lia. }
  replace (map (wrap_index (Z.of_nat (Z.to_nat size))) idx) with idx.
  2:{ rewrite <- (map_id idx) at 1. apply map_ext_in. intros i Hi. apply Hn in Hi. unfold wrap_index.
      destruct (i <? 0) eqn:E; [lia | reflexivity]. }
  rewrite zrange_to_nat. unfold mask_of at 1. rewrite map_combine_map. cbn [fst snd].
  unfold mask_of. f_equal. apply map_ext. intros i. now rewrite memZ_app.
Qed.

Lemma memZ_filter : forall (p : Z -> bool) i l, memZ i (filter p l) = memZ i l && p i.
Proof. intros p i l. apply eq_true_iff_eq. now rewrite andb_true_iff, !memZ_In, filter_In. Qed.

(* the representation map forgets nothing: the vector of the held rows is the vector of the chosen rows *)
Lemma mask_of_held : forall size l, mask_of size (held_of size l) = mask_of size l.
Proof.
  intros size l. unfold mask_of, held_of. apply map_ext_in. intros i Hi.
  rewrite memZ_filter. apply memZ_In in Hi. rewrite Hi. reflexivity.
Qed.

Lemma valid_choice_in_pool : forall pool k rep a, valid_answer (RChoice pool k rep) a = true ->
  forall i, In i a -> In i pool.
Proof.
  intros pool k rep a H i Hi. cbn [valid_answer] in H.
  apply andb_true_iff in H as [H _]. apply andb_true_iff in H as [_ H].
  rewrite forallb_forall in H. apply memZ_In, H, Hi.
Qed.

(* the two Screen(...) constructions after the draws *)
Lemma holdout_tail {Scr : Type} (mk_keep mk_hold : Scr -> list bool -> result Scr) (screen : Scr) (sel : list bool) :
  (dop k <- rp_lift (mk_keep screen sel); dop h <- rp_lift (mk_hold screen sel); rp_ret (k, h))
  = Ret (holdout_finish mk_keep mk_hold screen sel).
Proof.
  unfold holdout_finish, rp_lift, rp_ret. cbn [rp_bind bind].
  destruct (mk_keep screen sel) as [k | t]; cbn [res_bind]; [| reflexivity].
  cbn [rp_bind bind]. destruct (mk_hold screen sel) as [h | t]; reflexivity.
Qed.

(* retrospective.py: create_random_holdout *)
Theorem src_random_holdout_is_model :
  forall (Scr : Type) (scr_size : Scr -> Z) (mk_keep mk_hold : Scr -> list bool -> result Scr) num den screen,
  prog_eq_on valid_answer
    (src_random_holdout Scr scr_size mk_keep mk_hold num den screen)
    (if (num <? 0) || (den <? num) then Ret (Err 5)
     else bind (random_holdout_prog (scr_size screen) num den)
               (fun held => Ret (holdout_finish mk_keep mk_hold screen (mask_of (scr_size screen) held)))).
Proof.
  intros Scr scr_size mk_keep mk_hold num den screen. unfold src_random_holdout, random_holdout_prog.
  destruct ((num <? 0) || (den <? num)); [apply peq_refl|].
  cbv zeta. unfold rp_choice. rewrite rp_bind_draw, mask_zeros_is_mask_of. cbn [bind].
  constructor. intros a Ha.
  rewrite mask_set_true_valid.
  2:{ intros i Hi. apply in_zrange. exact (valid_choice_in_pool _ _ _ _ Ha i Hi). }
  unfold rp_lift at 1. rewrite rp_bind_ok, holdout_tail, mask_of_held. apply peq_refl.
Qed.

(* retrospective.py: create_plate_balanced_holdout_set_among_masked_plates *)
(* hypotheses = facts about every reachable screen: every row lies on exactly one plate, so the plates' index
   lists have [screen.size] entries in all (H1) and every entry is a row number (H2) *)
Theorem src_balanced_holdout_is_model :
  forall (Scr : Type) (scr_size : Scr -> Z) (scr_plates : Scr -> list plate_t)
         (mk_keep mk_hold : Scr -> list bool -> result Scr) num den screen,
  scr_size screen = zlen (concat (map fst (scr_plates screen))) ->
  (forall pl i, In pl (scr_plates screen) -> In i (fst pl) -> 0 <= i < scr_size screen) ->
  prog_eq_on valid_answer
    (src_balanced_holdout_prog Scr scr_size scr_plates mk_keep mk_hold num den screen)
    (if (num <? 0) || (den <? num) then Ret (Err 5)
     else bind (balanced_holdout_prog (scr_plates screen) num den)
               (fun held => Ret (holdout_finish mk_keep mk_hold screen (mask_of (scr_size screen) held)))).
Proof.
  intros Scr scr_size scr_plates mk_keep mk_hold num den screen H1 H2.
  unfold src_balanced_holdout_prog, balanced_holdout_prog.
  destruct ((num <? 0) || (den <? num)); [apply peq_refl|].
  apply peq_assoc_r. cbn [bind]. cbv zeta. rewrite mask_zeros_is_mask_of.
  apply (rp_fold_for_each valid_answer (mask_of (scr_size screen))).
  - intros acc pl Hpl. unfold balanced_holdout_body. destruct (snd pl).
    + cbn [bind]. rewrite app_nil_r. apply peq_refl.
    + unfold rp_choice. rewrite rp_bind_draw. cbn [bind]. constructor. intros a Ha.
      rewrite mask_set_true_valid; [apply peq_refl |].
      intros i Hi. apply (H2 pl i Hpl). exact (valid_choice_in_pool _ _ _ _ Ha i Hi).
  - intros chosen. cbn [app]. rewrite holdout_tail, <- H1, mask_of_held. apply peq_refl.
Qed.

Theorem src_random_scorer_trace : forall plates answers, NoDup plates ->
  (length plates <= length answers)%nat ->
  run (src_random_scorer_score plates) answers
  = Ok (Ok (map (fun xa => (fst xa, hd 0 (snd xa))) (combine plates answers)), map (fun _ => RRandom) plates).
Proof.
  intros plates answers Hnd Hl.
  rewrite (peq_run_any _ _ _ _ _ (src_random_scorer_is_model plates Hnd)). unfold lift_ok.
  rewrite run_bind_ret, (random_scorer_trace plates answers Hl). reflexivity.
Qed.

Theorem src_balanced_holdout_trace :
  forall (Scr : Type) (scr_size : Scr -> Z) (scr_plates : Scr -> list plate_t)
         (mk_keep mk_hold : Scr -> list bool -> result Scr) num den screen answers out reqs,
  scr_size screen = zlen (concat (map fst (scr_plates screen))) ->
  (forall pl i, In pl (scr_plates screen) -> In i (fst pl) -> 0 <= i < scr_size screen) ->
  (num <? 0) || (den <? num) = false ->
  run (src_balanced_holdout_prog Scr scr_size scr_plates mk_keep mk_hold num den screen) answers = Ok (out, reqs) ->
  all_ok valid_answer reqs answers = true ->
  reqs = map (balanced_holdout_req num den) (filter (fun pl => negb (snd pl)) (scr_plates screen)).
Proof.
  intros Scr scr_size scr_plates mk_keep mk_hold num den screen answers out reqs H1 H2 Hfr Hrun Hok.
  pose proof (src_balanced_holdout_is_model Scr scr_size scr_plates mk_keep mk_hold num den screen H1 H2) as Heq.
  rewrite Hfr in Heq.
  destruct (run_bind_ret_ok _ _ _ _ _ _ _ (peq_run valid_answer _ _ _ Heq answers out reqs Hrun Hok)) as [held Hm].
  exact (balanced_holdout_trace _ _ _ _ _ _ Hm).
Qed.

(* retrospective.py: FixedSizeSmoother / OptimalSizeSmoother._smooth_plates *)
(* a loop whose body neither raises nor draws is a fold_left *)
Lemma rp_fold_pure {S A : Type} (f : S -> A -> rprog S) (g : S -> A -> S) :
  (forall s a, f s a = rp_ret (g s a)) -> forall l s, rp_fold f l s = rp_ret (fold_left g l s).
Proof.
  intros H l. induction l as [| a l IH]; intros s; cbn [rp_fold fold_left]; [reflexivity|].
  rewrite H. cbn [rp_ret rp_bind bind]. apply IH.
Qed.

Theorem src_fixed_size_is_model :
  forall (Scr : Type) (scr_size : Scr -> Z) (scr_plates : Scr -> list (list bool)) (mk_subset : Scr -> list bool -> result Scr)
         plate_size screen,
  prog_eq_on any_answer
    (src_fixed_size_smooth Scr scr_size scr_plates mk_subset plate_size screen)
    (bind (size_smoother_prog (scr_plates screen) (scr_size screen) plate_size) (fun v => Ret (mk_subset screen v))).
Proof.
  intros Scr scr_size scr_plates mk_subset t screen. unfold src_fixed_size_smooth, size_smoother_prog.
  apply peq_assoc_r. cbn [bind]. cbv zeta.
  apply (rp_fold_for_each any_answer (fun kept => kept)) with (acc := []).
  - intros acc v _. unfold size_smoother_body.
    destruct (count_true v <? t) eqn:E1; [cbn [bind]; rewrite app_nil_r; apply peq_refl |].
    destruct (count_true v =? t) eqn:E2; [apply peq_refl |].
    destruct (count_true v >? t) eqn:E3; [apply peq_refl | lia].
  - intros kept. cbn [app]. rewrite (rp_fold_pure _ bor_mask) by reflexivity.
    unfold rp_ret at 1. rewrite rp_bind_ok, rp_lift_ret. apply peq_refl.
Qed.

(* OptimalSizeSmoother._smooth_plates is FixedSizeSmoother._smooth_plates, word for word, at the computed size *)
Theorem src_optimal_size_is_model :
  forall (Scr : Type) (scr_size : Scr -> Z) (scr_plates : Scr -> list (list bool)) (mk_subset : Scr -> list bool -> result Scr)
         (opt_size : list Z -> result Z) screen,
  prog_eq_on any_answer
    (src_optimal_size_smooth Scr scr_size scr_plates mk_subset opt_size screen)
    (match opt_size (map count_true (scr_plates screen)) with
     | Err e => Ret (Err e)
     | Ok t => bind (size_smoother_prog (scr_plates screen) (scr_size screen) t) (fun v => Ret (mk_subset screen v))
     end).
Proof.
  intros Scr scr_size scr_plates mk_subset opt_size screen. unfold src_optimal_size_smooth.
  destruct (opt_size (map count_true (scr_plates screen))) as [t | e]; [| apply peq_refl].
  exact (src_fixed_size_is_model Scr scr_size scr_plates mk_subset t screen).
Qed.

(* the request trace of the translated FixedSizeSmoother: one choice per plate larger than the size, in plate order *)
Theorem src_fixed_size_trace :
  forall (Scr : Type) (scr_size : Scr -> Z) (scr_plates : Scr -> list (list bool)) (mk_subset : Scr -> list bool -> result Scr)
         plate_size screen answers out reqs,
  run (src_fixed_size_smooth Scr scr_size scr_plates mk_subset plate_size screen) answers = Ok (out, reqs) ->
  reqs = map (size_smoother_req (scr_size screen) plate_size) (filter (fun v => plate_size <? count_true v) (scr_plates screen)).
Proof.
  intros Scr scr_size scr_plates mk_subset t screen answers out reqs Hrun.
  rewrite (peq_run_any _ _ _ _ _ (src_fixed_size_is_model Scr scr_size scr_plates mk_subset t screen)) in Hrun.
  destruct (run_bind_ret_ok _ _ _ _ _ _ _ Hrun) as [final Hfinal]. unfold size_smoother_prog in Hfinal.
  destruct (run_bind_ret_ok _ _ _ _ _ _ _ Hfinal) as [kept Hloop].
  apply (for_each_reqs _ _ (size_smoother_body (scr_size screen) t)) with (2 := Hloop).
  intros v al b rs. unfold size_smoother_body, size_smoother_req.
  destruct (count_true v <? t) eqn:E1; [replace (t <? count_true v) with false by lia; now inversion 1 |].
  destruct (count_true v =? t) eqn:E2; [replace (t <? count_true v) with false by lia; now inversion 1 |].
  replace (t <? count_true v) with true by lia. cbn [run]. destruct al; now inversion 1.
Qed.

(* retrospective.py: PlatePermutationPlateGenerator._generate_plates *)
Theorem src_plate_permutation_is_model :
  forall (Scr : Type) (scr_size : Scr -> Z) (scr_plate_names : Scr -> list Z) (mk_subset : Scr -> list bool -> result Scr)
         (mk_renamed : Scr -> list Z -> result Scr) (mk_combine : Scr -> Scr -> result Scr) force screen,
  prog_eq_on any_answer
    (src_plate_permutation Scr scr_size scr_plate_names mk_subset mk_renamed mk_combine force screen)
    (match pp_split mk_subset screen (pp_selection force (scr_plate_names screen) (scr_size screen)) with
     | Err e => Ret (Err e)
     | Ok (tp, np) => bind (plate_permutation_prog (scr_plate_names tp))
                           (fun new_names => Ret (pp_finish mk_renamed mk_combine tp np new_names))
     end).
Proof.
  intros Scr scr_size scr_plate_names mk_subset mk_renamed mk_combine force screen.
  unfold src_plate_permutation, pp_split.
  set (sv := pp_selection force (scr_plate_names screen) (scr_size screen)).
  assert (Hsv : (if opt_list_truthy force
                 then dop u <- rp_unwrap force;
                      rp_ret (map (fun n => negb (memZ n u)) (scr_plate_names screen))
                 else rp_ret (mask_ones (scr_size screen))) = rp_ret sv).
  { subst sv. unfold pp_selection. destruct force as [[| x l] |]; reflexivity. }
  cbv zeta. rewrite Hsv. unfold rp_ret at 1. rewrite rp_bind_ok.
  unfold rp_lift, rp_permutation, rp_draw, plate_permutation_prog, pp_finish.
  destruct (existsb negb sv).
  - destruct (mk_subset screen sv) as [tp | e]; cbn [rp_bind bind res_bind]; [| apply peq_refl].
    destruct (mk_subset screen (map negb sv)) as [np | e]; cbn [rp_bind bind res_bind rp_ret]; [| apply peq_refl].
    constructor. intros a _. cbn [bind].
    destruct (mk_renamed tp a) as [p | e]; cbn [rp_bind bind res_bind is_some rp_unwrap rp_ret]; [| apply peq_refl].
    destruct (mk_combine p np); apply peq_refl.
  - destruct (mk_subset screen sv) as [tp | e]; cbn [rp_bind bind res_bind rp_ret]; [| apply peq_refl].
    constructor. intros a _. cbn [bind].
    destruct (mk_renamed tp a) as [p | e]; cbn [rp_bind bind res_bind is_some rp_ret]; apply peq_refl.
Qed.

(* retrospective.py: SampleSegregatingPermutationPlateGenerator._generate_plates *)

(* the loop over the samples, for any source body one turn of which is the model's body followed by appending the new
   plates to those made so far ([acc]) *)
Lemma seg_loop (mx : Z) (rows : Z -> list Z) (f : list (list Z) -> Z -> rprog (list (list Z))) :
  (forall acc i, prog_eq_on any_answer (f acc i)
     (bind (sample_seg_body mx (rows i)) (fun r => Ret (match r with Ok ps => Ok (acc ++ ps) | Err e => Err e end)))) ->
  forall ids acc,
    prog_eq_on any_answer (rp_fold f ids acc)
      (bind (sample_seg_plates mx (map rows ids))
            (fun r => Ret (match r with Ok ps => Ok (acc ++ ps) | Err e => Err e end))).
Proof.
  intros Hf. induction ids as [| i rest IH]; intros acc.
  - cbn. rewrite app_nil_r. apply peq_refl.
  - cbn [rp_fold map sample_seg_plates]. unfold rp_bind.
    eapply peq_bind_step; [apply Hf |]. intros [ps | e]; cbn [bind]; [| apply peq_refl].
    eapply peq_trans; [apply IH |]. apply peq_assoc_r.
    apply peq_bind; [apply peq_refl |]. intros [qs | e]; cbn [bind]; [rewrite app_assoc |]; apply peq_refl.
Qed.

Lemma enumerate_z_zz {A : Type} (l : list A) : enumerate_z l = enumerate_zz l.
Proof. unfold enumerate_z, enumerate_zz, zrange, zlen. now rewrite Nat2Z.id. Qed.

(* the labelling loop, for an arbitrary body equal to the canonical one *)
Lemma label_loop (f : list Z -> Z * list Z -> rprog (list Z)) :
  (forall l k idx, f l (k, idx) = Ret (label_set l idx k)) ->
  forall kps labels, rp_fold f kps labels = Ret (label_all labels kps).
Proof.
  intros Hf. induction kps as [| [k idx] kps IH]; intros labels; cbn [rp_fold label_all]; [reflexivity|].
  rewrite Hf. destruct (label_set labels idx k) as [l | e]; cbn [rp_bind bind res_bind]; [apply IH | reflexivity].
Qed.

Theorem src_sample_segregating_is_model :
  forall (Scr : Type) (scr_size : Scr -> Z) (scr_sample_ids : Scr -> list Z) (scr_sample_rows : Scr -> Z -> list Z)
         (mk_labelled : Scr -> list Z -> result Scr) max_plate_size screen,
  prog_eq_on any_answer
    (src_sample_segregating Scr scr_size scr_sample_ids scr_sample_rows mk_labelled max_plate_size screen)
    (bind (sample_seg_prog (map (scr_sample_rows screen) (scr_sample_ids screen)) (scr_size screen) max_plate_size)
          (fun r => Ret (match r with Ok labels => mk_labelled screen labels | Err e => Err e end))).
Proof.
  intros Scr scr_size scr_sample_ids scr_sample_rows mk_labelled mx screen.
  unfold src_sample_segregating, sample_seg_prog. cbv zeta. unfold rp_bind at 1.
  eapply peq_bind_step; [apply (seg_loop mx (scr_sample_rows screen)) |].
  { intros acc i. unfold sample_seg_body.
    destruct (zlen (scr_sample_rows screen i) >? mx); [| apply peq_refl].
    unfold rp_lift at 1. destruct (ceil_div_float (zlen (scr_sample_rows screen i)) mx) as [n | e]; [| apply peq_refl].
    unfold rp_permutation. rewrite rp_bind_ok, rp_bind_draw. cbn [rp_bind bind]. constructor. intros a _.
    unfold rp_lift at 1. destruct (array_split_z a n) as [ps | e]; [| apply peq_refl].
    rewrite rp_bind_ok, (rp_fold_pure _ (fun r p => r ++ [p])), fold_snoc by reflexivity. apply peq_refl. }
  intros [ps | e]; cbn [bind app]; [| apply peq_refl].
  rewrite label_loop by (intros l k idx; apply rp_lift_ret).
  rewrite enumerate_z_zz.
  destruct (label_all (labels_blank (scr_size screen)) (enumerate_zz ps)) as [labels | e]; [| apply peq_refl].
  rewrite rp_bind_ok, rp_lift_ret. apply peq_refl.
Qed.
