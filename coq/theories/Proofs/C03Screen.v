(* C03 / C12: inversion and construction lemmas for the Screen constructor [mk_screen], the
   characterisation of [plate_uniform], and the ids of a constructed screen read by row and column
   (the flatten side of the column-major layout is in Proofs/C01Screen.v). *)
From Coq Require Import ZArith List Bool Lia.
From Batchie Require Import Lib.Sexp Lib.ListX Model.Encode Model.Screen Proofs.C03Base Proofs.C01Screen.
Import ListNotations.
Open Scope Z_scope.

(* the rows the constructor stores: mask / observations defaulted as the arguments say ([norm_rows_same]: C01Screen's
   function of that name) *)
Definition norm_rows (og mg : bool) (rows : list row) : list row :=
  if og then
    (if mg then rows
     else map (fun r => {| r_sample := r_sample r; r_plate := r_plate r; r_treats := r_treats r;
                           r_obs := r_obs r; r_mask := true |}) rows)
  else map (fun r => {| r_sample := r_sample r; r_plate := r_plate r; r_treats := r_treats r;
                        r_obs := 0; r_mask := false |}) rows.

Definition arity_ok (a : nat) (rows : list row) : bool :=
  forallb (fun r => Nat.eqb (length (r_treats r)) a) rows.
Definition tmap_bad (tm : option (tmapping * bool)) : bool :=
  match tm with Some (m, isint) => negb (zero_indexed isint (map snd m)) | None => false end.
Definition smap_bad (sm : option (nmapping * bool)) : bool :=
  match sm with Some (m, isint) => negb (zero_indexed isint (map snd m)) | None => false end.

Lemma mk_screen_unfold rows a c tm sm og mg :
  mk_screen rows a c tm sm og mg =
  if negb (arity_ok a rows) then Err 1
  else if negb og && mg then Err 7
  else
    let rows' := norm_rows og mg rows in
    if negb (plate_uniform rows') then Err 2
    else if tmap_bad tm then Err 3
    else if smap_bad sm then Err 4
    else
      dor te <- encode_treatments (the_tkeys a rows') c (option_map fst tm);
      let '(tflat, tmp) := te in
      dor se <- encode_names (map r_sample rows') (option_map fst sm) 6;
      let '(sids, smp) := se in
      dor pe <- encode_names (map r_plate rows') None 6;
      let '(pids, pmp) := pe in
      Ok {| s_rows := rows'; s_arity := a; s_ctrl := c;
            s_tmap := tmp; s_smap := smp; s_pmap := pmp;
            s_tids := unflatten_cols a (length rows') tflat;
            s_sids := sids; s_pids := pids |}.
Proof. reflexivity. Qed.

Set Implicit Arguments.
Record built (rows : list row) (a : nat) (c : name) (tm : option (tmapping * bool))
  (sm : option (nmapping * bool)) (og mg : bool) (s : screen) (tflat : list Z) : Prop := {
  b_arity_ok : arity_ok a rows = true;
  b_flags : negb og && mg = false;
  b_uniform : plate_uniform (norm_rows og mg rows) = true;
  b_tmap_ok : tmap_bad tm = false;
  b_smap_ok : smap_bad sm = false;
  b_treats : encode_treatments (the_tkeys a (norm_rows og mg rows)) c (option_map fst tm) = Ok (tflat, s_tmap s);
  b_samples : encode_names (map r_sample (norm_rows og mg rows)) (option_map fst sm) 6 = Ok (s_sids s, s_smap s);
  b_plates : encode_names (map r_plate (norm_rows og mg rows)) None 6 = Ok (s_pids s, s_pmap s);
  b_rows : s_rows s = norm_rows og mg rows;
  b_ar : s_arity s = a;
  b_ctrl : s_ctrl s = c;
  b_tids : s_tids s = unflatten_cols a (length (norm_rows og mg rows)) tflat
}.
Unset Implicit Arguments.

Lemma mk_screen_inv {rows a c tm sm og mg s} :
  mk_screen rows a c tm sm og mg = Ok s -> exists tflat, built rows a c tm sm og mg s tflat.
Proof.
  rewrite mk_screen_unfold.
  destruct (arity_ok a rows) eqn:E1; cbn [negb]; [|discriminate].
  destruct (negb og && mg) eqn:E2; [discriminate|].
  cbv zeta.
  destruct (plate_uniform (norm_rows og mg rows)) eqn:E3; cbn [negb]; [|discriminate].
  destruct (tmap_bad tm) eqn:E4; [discriminate|].
  destruct (smap_bad sm) eqn:E5; [discriminate|].
  destruct (encode_treatments _ c (option_map fst tm)) as [[tflat tmp]|] eqn:E6; cbn [res_bind]; [|discriminate].
  destruct (encode_names (map r_sample _) (option_map fst sm) 6) as [[sids smp]|] eqn:E7; cbn [res_bind]; [|discriminate].
  destruct (encode_names (map r_plate _) None 6) as [[pids pmp]|] eqn:E8; cbn [res_bind]; [|discriminate].
  intros H. inversion H; subst s; clear H. exists tflat.
  constructor; cbn [s_rows s_arity s_ctrl s_tmap s_smap s_pmap s_tids s_sids s_pids]; auto.
Qed.

Lemma mk_screen_arity rows a c tm sm og mg s : mk_screen rows a c tm sm og mg = Ok s -> s_arity s = a.
Proof. intros H. destruct (mk_screen_inv H) as [tflat B]. exact (b_ar B). Qed.

Lemma mk_screen_ok rows a c tm sm og mg tflat tmp sids smp pids pmp :
  arity_ok a rows = true -> negb og && mg = false ->
  plate_uniform (norm_rows og mg rows) = true -> tmap_bad tm = false -> smap_bad sm = false ->
  encode_treatments (the_tkeys a (norm_rows og mg rows)) c (option_map fst tm) = Ok (tflat, tmp) ->
  encode_names (map r_sample (norm_rows og mg rows)) (option_map fst sm) 6 = Ok (sids, smp) ->
  encode_names (map r_plate (norm_rows og mg rows)) None 6 = Ok (pids, pmp) ->
  mk_screen rows a c tm sm og mg =
  Ok {| s_rows := norm_rows og mg rows; s_arity := a; s_ctrl := c; s_tmap := tmp; s_smap := smp; s_pmap := pmp;
        s_tids := unflatten_cols a (length (norm_rows og mg rows)) tflat; s_sids := sids; s_pids := pids |}.
Proof.
  intros E1 E2 E3 E4 E5 E6 E7 E8. rewrite mk_screen_unfold, E1, E2. cbn [negb]. cbv zeta.
  rewrite E3, E4, E5, E6. cbn [negb res_bind]. rewrite E7. cbn [res_bind]. rewrite E8. reflexivity.
Qed.

(* a screen some constructor call returned *)
Definition constructed (s : screen) : Prop :=
  exists rows a c tm sm og mg, mk_screen rows a c tm sm og mg = Ok s.

Lemma norm_rows_same : norm_rows = C01Screen.norm_rows.
Proof. reflexivity. Qed.

Lemma norm_rows_tt rows : norm_rows true true rows = rows.
Proof. reflexivity. Qed.

Lemma norm_rows_length og mg rows : length (norm_rows og mg rows) = length rows.
Proof. exact (C01Screen.norm_rows_length og mg rows). Qed.
Lemma norm_rows_sample og mg rows : map r_sample (norm_rows og mg rows) = map r_sample rows.
Proof. exact (norm_rows_samples og mg rows). Qed.
Lemma norm_rows_plate og mg rows : map r_plate (norm_rows og mg rows) = map r_plate rows.
Proof. exact (norm_rows_plates og mg rows). Qed.
Lemma norm_rows_treats og mg rows : map r_treats (norm_rows og mg rows) = map r_treats rows.
Proof. exact (C01Screen.norm_rows_treats og mg rows). Qed.

Lemma arity_ok_treats a rows rows' : map r_treats rows' = map r_treats rows -> arity_ok a rows' = arity_ok a rows.
Proof.
  unfold arity_ok. revert rows'; induction rows as [|r rows IH]; intros [|r' rows'] H; cbn [map] in H; try discriminate; [reflexivity|].
  inversion H. cbn [forallb]. rewrite H1. f_equal. now apply IH.
Qed.

Lemma first_mask_Some p rows b :
  first_mask p rows = Some b -> exists r, In r rows /\ r_plate r = p /\ r_mask r = b.
Proof.
  induction rows as [|r rows IH]; cbn [first_mask]; [discriminate|].
  destruct (name_eqb (r_plate r) p) eqn:E.
  - intros H; inversion H. apply name_eqb_eq in E. exists r. repeat split; auto. now left.
  - intros H. destruct (IH H) as (r' & Hin & Hp & Hm). exists r'. repeat split; auto. now right.
Qed.

Lemma first_mask_In r rows : In r rows -> exists b, first_mask (r_plate r) rows = Some b.
Proof.
  induction rows as [|r' rows IH]; cbn [first_mask In]; [tauto|].
  intros [H|H].
  - subst. rewrite name_eqb_refl. now eexists.
  - destruct (name_eqb (r_plate r') (r_plate r)); [now eexists|now apply IH].
Qed.

Lemma first_mask_row r rows :
  In r rows -> exists r0, In r0 rows /\ r_plate r0 = r_plate r /\ first_mask (r_plate r) rows = Some (r_mask r0).
Proof.
  intros Hr. destruct (first_mask_In r rows Hr) as [b Hb].
  destruct (first_mask_Some _ _ _ Hb) as (r0 & Hin & Hp & <-). now exists r0.
Qed.

Lemma plate_uniform_spec rows :
  plate_uniform rows = true <->
  (forall r1 r2, In r1 rows -> In r2 rows -> r_plate r1 = r_plate r2 -> r_mask r1 = r_mask r2).
Proof.
  unfold plate_uniform. rewrite forallb_forall. split.
  - intros H r1 r2 H1 H2 Hp.
    pose proof (H r1 H1) as A1. pose proof (H r2 H2) as A2. rewrite Hp in A1.
    destruct (first_mask (r_plate r2) rows) as [b|]; [|discriminate].
    apply eqb_prop in A1. apply eqb_prop in A2. congruence.
  - intros H r Hr. destruct (first_mask_row r rows Hr) as (r0 & Hin & Hp & ->).
    rewrite (H r0 r Hin Hr Hp). apply eqb_reflx.
Qed.

Lemma plate_uniform_false rows :
  plate_uniform rows = false ->
  exists r1 r2, In r1 rows /\ In r2 rows /\ r_plate r1 = r_plate r2 /\ r_mask r1 <> r_mask r2.
Proof.
  unfold plate_uniform. intros H. apply forallb_false_iff in H. destruct H as (r & Hr & Hneg).
  destruct (first_mask_row r rows Hr) as (r0 & Hin & Hp & E). rewrite E in Hneg.
  exists r0, r. repeat split; auto. now apply eqb_false_iff.
Qed.

Lemma unflatten_cols_nth a n flat i c :
  (i < n)%nat -> (c < a)%nat ->
  nth c (nth i (unflatten_cols a n flat) []) 0 = nth (c * n + i) flat 0.
Proof.
  intros Hi Hc. unfold unflatten_cols. rewrite (nth_map_seq0 _ [] n i Hi). now rewrite nth_map_seq0.
Qed.

Lemma unflatten_cols_length a n flat : length (unflatten_cols a n flat) = n.
Proof. unfold unflatten_cols. now rewrite map_length, seq_length. Qed.

Lemma the_tkeys_length a rows : length (the_tkeys a rows) = (a * length rows)%nat.
Proof. unfold the_tkeys. now rewrite flatten_length, map_length. Qed.

Lemma the_tkeys_nth a rows d c i :
  (c < a)%nat -> (i < length rows)%nat ->
  nth (c * length rows + i) (the_tkeys a rows) ([], 0) = nth c (r_treats (nth i rows d)) ([], 0).
Proof.
  intros Hc Hi. unfold the_tkeys. rewrite <- (map_length r_treats rows).
  rewrite flatten_nth by (try rewrite map_length; assumption).
  now rewrite (nth_map_lt r_treats rows [] d i Hi).
Qed.

(* the ids a constructed screen stores are the entries of its own mappings for its own rows *)
Lemma constructed_lookups s : constructed s ->
  opt_map_all (nlookup (s_smap s)) (map r_sample (s_rows s)) = Some (s_sids s) /\
  exists tflat,
    opt_map_all (tlookup (s_tmap s)) (the_tkeys (s_arity s) (s_rows s)) = Some tflat /\
    s_tids s = unflatten_cols (s_arity s) (length (s_rows s)) tflat.
Proof.
  intros (rows & a & c & tm & sm & og & mg & H). destruct (mk_screen_inv H) as [tflat B].
  rewrite (b_rows B), (b_ar B). split.
  - exact (proj2 (encode_names_inv _ _ _ _ _ (b_samples B))).
  - exists tflat. split.
    + exact (proj2 (encode_treatments_inv _ _ _ _ _ (b_treats B))).
    + exact (b_tids B).
Qed.
