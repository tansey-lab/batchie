(* One piece of Proofs/C18SourceArgs.v (which see): argument_parsing.str_to_bool *)
From Batchie Require Import Model.Cli Generated.SrcCliArgs.

Theorem src_str_to_bool_is_model : forall {F O : Type} (P : pyprims F O) (s : str),
  src_str_to_bool F O P s = str_to_bool P s.
Proof. intros. reflexivity. Qed.
