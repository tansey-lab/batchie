(* C14 (and C13 / C11, whose Proofs/C13SourceHelpers_<Piece>.v files import the pieces below): the small helpers of batchie.data that
   every other linked function uses as a primitive are themselves translated from /repo (Generated/SrcPlates.v, configurations H14_* of
   harness/src_functions.py) and proved equal to their hand-written models at the end of Model/Views.v, for all inputs (select_unique: one array or more):
     ScreenBase.is_observed / n_plates / unique_plate_ids / unique_sample_ids / n_unique_samples / unique_treatments /
       n_unique_treatments / treatment_arity, on a Screen object and on a ScreenSubset / Plate object
     Plate.plate_id / plate_name / __lt__ / merge
     Screen.combine
     common.select_unique_zipped_numpy_arrays, filter_dataset_to_unique_treatments (on a ScreenSubset and on a Screen)
   Objects as in Proofs/C14Source.v: a Screen object is [pyscreen] = (identity tag, contents), a ScreenSubset / Plate a [view].

   The links live in the pieces Proofs/C14SourceHelpers_<Piece>.v, one per translated function (or per pair stated together), so that
   a file of another property imports the link of the one helper it calls and not the translations of all of them; this file
   collects the pieces and states the one-line properties together, as Props/C14.v does. *)
From Coq Require Import ZArith List.
From Batchie Require Import Lib.Sexp Model.Screen Model.Views Generated.SrcPlates.
From Batchie Require Export Proofs.C14SourceHelpers_Base Proofs.C14SourceHelpers_ScreenObserved Proofs.C14SourceHelpers_ScreenNPlates
  Proofs.C14SourceHelpers_ScreenSamples Proofs.C14SourceHelpers_ScreenTreatments Proofs.C14SourceHelpers_ScreenArity
  Proofs.C14SourceHelpers_ViewUniquePlateIds Proofs.C14SourceHelpers_ViewObserved Proofs.C14SourceHelpers_ViewNPlates
  Proofs.C14SourceHelpers_ViewUniqueSamples Proofs.C14SourceHelpers_ViewNUniqueSamples Proofs.C14SourceHelpers_ViewTreatments
  Proofs.C14SourceHelpers_ViewArity Proofs.C14SourceHelpers_PlateId Proofs.C14SourceHelpers_PlateName
  Proofs.C14SourceHelpers_PlateLt Proofs.C14SourceHelpers_PlateMerge Proofs.C14SourceHelpers_ScreenCombine
  Proofs.C14SourceHelpers_SelectUnique Proofs.C14SourceHelpers_FilterView Proofs.C14SourceHelpers_FilterScreen.
Import ListNotations.
Open Scope Z_scope.

(* the one-line properties of ScreenBase, on a Screen object ... *)
Theorem src_screen_props_are_model : forall s : pyscreen,
  src_screen_is_observed s = Ok (screen_is_observed (snd s)) /\
  src_screen_n_plates s = Ok (Z.of_nat (length (screen_unique_pids (snd s)))) /\
  src_screen_unique_sample_ids s = Ok (screen_unique_sids (snd s)) /\
  src_screen_n_unique_samples s = Ok (Z.of_nat (length (screen_unique_sids (snd s)))) /\
  src_screen_unique_treatments s = Ok (screen_unique_treatments (snd s)) /\
  src_screen_n_unique_treatments s = Ok (Z.of_nat (length (screen_unique_treatments (snd s)))) /\
  src_screen_treatment_arity s = Ok (Z.of_nat (s_arity (snd s))).
Proof.
  intros s.
  exact (conj (src_screen_is_observed_is_model s) (conj (src_screen_n_plates_is_model s)
        (conj (src_screen_unique_sample_ids_is_model s) (conj (src_screen_n_unique_samples_is_model s)
        (conj (src_screen_unique_treatments_is_model s) (conj (src_screen_n_unique_treatments_is_model s)
              (src_screen_treatment_arity_is_model s))))))).
Qed.

(* ... and on a ScreenSubset / Plate object *)
Theorem src_view_props_are_model : forall v : view,
  src_view_unique_plate_ids v = Ok (view_unique_pids v) /\
  src_view_is_observed v = Ok (view_is_observed v) /\
  src_view_n_plates v = Ok (Z.of_nat (length (view_unique_pids v))) /\
  src_view_unique_sample_ids v = Ok (view_unique_sids v) /\
  src_view_n_unique_samples v = Ok (Z.of_nat (length (view_unique_sids v))) /\
  src_view_unique_treatments v = Ok (view_unique_treatments v) /\
  src_view_n_unique_treatments v = Ok (Z.of_nat (length (view_unique_treatments v))) /\
  src_view_treatment_arity v = Ok (Z.of_nat (s_arity (v_parent v))).
Proof.
  intros v.
  exact (conj (src_view_unique_plate_ids_is_model v) (conj (src_view_is_observed_is_model v)
        (conj (src_view_n_plates_is_model v) (conj (src_view_unique_sample_ids_is_model v)
        (conj (src_view_n_unique_samples_is_model v) (conj (src_view_unique_treatments_is_model v)
        (conj (src_view_n_unique_treatments_is_model v) (src_view_treatment_arity_is_model v)))))))).
Qed.
