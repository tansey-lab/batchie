(* C01, one piece of Proofs/C01Source.v (which see): encode_1d_array_to_0_indexed_ids *)
From Coq Require Import ZArith List.
From Batchie Require Import Lib.Sexp Lib.PyRt Model.Encode Generated.SrcEncode Proofs.C01Sort
  Proofs.C01Encode Proofs.C01Source_Base.
Import ListNotations.
Open Scope Z_scope.

Lemma number_rows (su : list name) : forall s,
  map snd (df_rename_index (lab s (lab s su))) = number_from s su.
Proof.
  unfold df_rename_index. induction su as [|k su IH]; intros s; [reflexivity|].
  rewrite !lab_cons. cbn [map fst snd number_from]. now rewrite IH.
Qed.

Lemma src_built_nframe_rows (names : list name) :
  map snd (df_rename_index (df_reset_keep (df_reset_drop (df_sort_values name_cmp (df_drop_duplicates name_eqb (df_fresh names))))))
  = build_nmapping names.
Proof.
  rewrite (dedup_sort_reset name_eqb name_cmp names name_eqb_eq name_cmp_spec).
  unfold df_reset_keep, build_nmapping. rewrite !df_fresh_lab. apply number_rows.
Qed.

Lemma src_encode_1d_tail (names : list name) (m : nmapping) (d : vmframe) (tag : Z) : map snd d = m -> NoDup (map fst m) ->
  (if negb (all_true (series_notna (jcol_new_index (df_merge_left name_eqb (vframe_of_col names) d)))) then Err tag
   else Ok (jcol_new_index (df_merge_left name_eqb (vframe_of_col names) d), vmcol_val d, vmcol_new_index d))
  = match opt_map_all (nlookup m) names with
    | Some ids => Ok (map Some ids, map fst m, map snd m)
    | None => Err tag
    end.
Proof.
  intros Hd Hn. unfold vframe_of_col.
  rewrite (merge_left_ids name_eqb name_eqb_eq m Hn _ d Hd), df_fresh_lab, lab_rows.
  rewrite (map_ext _ _ (lookup_first_nlookup m)).
  unfold vmcol_val, vmcol_new_index. rewrite <- Hd, !map_map.
  pose proof (notna_opt_map_all (nlookup (map snd d)) names) as H.
  destruct (opt_map_all (nlookup (map snd d)) names) as [ids|]; [destruct H as [-> ->] | rewrite H]; reflexivity.
Qed.

Theorem src_encode_1d_is_model : forall (names : list name) (existing : option smap_py),
  match existing with Some t => NoDup (map fst (smap_py_rows t)) | None => True end ->
  src_encode_1d_array names existing
  = if match existing with Some t => negb (smap_py_aligned t) | None => false end then Err 15
    else dor r <- encode_names names (option_map smap_py_rows existing) 6;
         Ok (map Some (fst r), map fst (snd r), map snd (snd r)).
Proof.
  intros names existing Hex. unfold src_encode_1d_array, encode_names.
  destruct existing as [[a [isint c]]|]; cbn [is_some unwrap res_bind option_map fst snd].
  - unfold vmframe_of_cols, df_of_cols2, smap_py_aligned. cbn [fst snd].
    destruct (Nat.eqb (length a) (length c)); cbn [negb res_bind]; [|reflexivity].
    unfold smap_py_rows in *. cbn [fst snd] in *. set (m := combine a c) in *. cbv zeta.
    etransitivity; [apply (src_encode_1d_tail names m (df_fresh m)); [now rewrite df_fresh_lab, lab_rows | exact Hex]|].
    destruct (opt_map_all (nlookup m) names); reflexivity.
  - cbv zeta. etransitivity; [apply (src_encode_1d_tail names (build_nmapping names)); [apply src_built_nframe_rows | apply nbuilt_keys_NoDup]|].
    destruct (opt_map_all (nlookup (build_nmapping names)) names); reflexivity.
Qed.
