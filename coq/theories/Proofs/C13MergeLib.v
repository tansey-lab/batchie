(* C13: what one Plate.merge does to the plates of a one-sample-per-plate screen. *)
From Coq Require Import ZArith List Bool Permutation.
From Batchie Require Import Lib.ListX Lib.Sexp Proofs.PyRtLemmas Model.Encode Model.Screen Model.Retro Proofs.C11Lib Proofs.C13NPlate.
Import ListNotations.
Open Scope nat_scope.

Definition one_sample (rows : list row) : Prop :=
  forall r1 r2, In r1 rows -> In r2 rows -> r_plate r1 = r_plate r2 -> r_sample r1 = r_sample r2.

(* name-level description of merging the plates called a and b *)
Definition in_ab (a b : name) (r : row) : bool := in_plate a r || in_plate b r.
Definition first_plate (a b : name) (rows : list row) : name :=
  match filter (in_ab a b) rows with r :: _ => r_plate r | [] => [] end.
Definition relab (a b nm : name) (r : row) : row := if in_ab a b r then set_plate nm r else r.
Definition merge_names (a b : name) (rows : list row) : list row :=
  map (relab a b (first_plate a b rows)) rows.

Lemma vor_map {A} (f g : A -> bool) : forall l, vor (map f l) (map g l) = map (fun x => f x || g x) l.
Proof. induction l as [|x l IH]; cbn [map vor]; [reflexivity|]. now rewrite IH. Qed.
Lemma vrelabel_map (h : row -> bool) nm : forall l,
  vrelabel (map h l) nm l = map (fun r => if h r then set_plate nm r else r) l.
Proof. induction l as [|x l IH]; cbn [map vrelabel]; [reflexivity|]. now rewrite IH. Qed.

Lemma merge_exact : forall a b rows,
  merge (plate_vec a rows) (plate_vec b rows) rows = (map (in_ab a b) rows, merge_names a b rows).
Proof.
  intros a b rows. unfold merge, plate_vec. rewrite vor_map. fold (in_ab a b).
  rewrite <- filter_vselect, vrelabel_map. reflexivity.
Qed.

Lemma first_plate_cases : forall a b rows,
  (forall r, In r rows -> in_ab a b r = false) \/ first_plate a b rows = a \/ first_plate a b rows = b.
Proof.
  intros a b rows. unfold first_plate. destruct (filter (in_ab a b) rows) as [|r l] eqn:E.
  - left. intros r Hr. destruct (in_ab a b r) eqn:Er; [|reflexivity].
    assert (In r (filter (in_ab a b) rows)) by (apply filter_In; auto). rewrite E in H. contradiction.
  - right. assert (Hin : In r (filter (in_ab a b) rows)) by (rewrite E; now left).
    apply filter_In in Hin as [_ Hr]. unfold in_ab in Hr. apply orb_true_iff in Hr as [Hr|Hr];
      apply in_plate_true in Hr; auto.
Qed.

Lemma relab_sample : forall a b nm r, r_sample (relab a b nm r) = r_sample r.
Proof. intros. unfold relab. now destruct (in_ab a b r). Qed.
Lemma relab_plate : forall a b nm r, r_plate (relab a b nm r) = if in_ab a b r then nm else r_plate r.
Proof. intros. unfold relab. now destruct (in_ab a b r). Qed.
Lemma merge_names_strip : forall a b rows, map strip (merge_names a b rows) = map strip rows.
Proof.
  intros. unfold merge_names. rewrite map_map. apply map_ext. intros r. unfold relab.
  now destruct (in_ab a b r).
Qed.

Lemma in_ab_false : forall a b r, in_ab a b r = false <-> r_plate r <> a /\ r_plate r <> b.
Proof.
  intros a b r. unfold in_ab. rewrite orb_false_iff. unfold in_plate. now rewrite !name_eqb_neq.
Qed.
Lemma in_ab_true : forall a b r, in_ab a b r = true <-> r_plate r = a \/ r_plate r = b.
Proof. intros a b r. unfold in_ab. rewrite orb_true_iff. now rewrite !in_plate_true. Qed.

Lemma filter_sample_merge : forall a b nm s' rows,
  (forall r, In r rows -> in_sample s' r = true -> in_ab a b r = false) ->
  map r_plate (filter (in_sample s') (map (relab a b nm) rows)) = map r_plate (filter (in_sample s') rows).
Proof.
  intros a b nm s' rows. induction rows as [|r rows IH]; intros H; cbn [map filter]; [reflexivity|].
  unfold in_sample at 1. rewrite relab_sample. fold (in_sample s' r).
  destruct (in_sample s' r) eqn:E; cbn [map].
  - rewrite relab_plate, (H r (or_introl eq_refl) E). f_equal. apply IH. intros; apply H; auto. now right.
  - apply IH. intros; apply H; auto. now right.
Qed.

Section Effect.
Variables (s a b : name) (rows : list row).
Hypothesis Hone : one_sample rows.
Hypothesis Ha : In a (sample_plates s rows).
Hypothesis Hb : In b (sample_plates s rows).
Hypothesis Hab : a <> b.

Let nm := first_plate a b rows.
Let rows' := merge_names a b rows.

Lemma ab_sample : forall r, In r rows -> in_ab a b r = true -> r_sample r = s.
Proof.
  intros r Hr Hin. apply in_ab_true in Hin.
  apply In_sample_plates in Ha as (ra & Hra & Hsa & Hpa). apply In_sample_plates in Hb as (rb & Hrb & Hsb & Hpb).
  destruct Hin as [E|E]; [rewrite <- Hsa; apply Hone|rewrite <- Hsb; apply Hone]; auto; congruence.
Qed.

Lemma eff_nm : nm = a \/ nm = b.
Proof.
  destruct (first_plate_cases a b rows) as [Hno|H]; [|exact H]. exfalso.
  apply In_sample_plates in Ha as (ra & Hra & _ & Hpa). specialize (Hno ra Hra).
  apply in_ab_false in Hno. tauto.
Qed.

Lemma In_rows' : forall r', In r' rows' <-> exists r, In r rows /\ r' = relab a b nm r.
Proof. intros r'. unfold rows', merge_names. rewrite in_map_iff. fold nm. firstorder. Qed.

Lemma eff_one_sample : one_sample rows'.
Proof.
  intros r1' r2' H1 H2 Hp. apply In_rows' in H1 as (r1 & Hr1 & ->). apply In_rows' in H2 as (r2 & Hr2 & ->).
  rewrite !relab_sample. rewrite !relab_plate in Hp.
  destruct (in_ab a b r1) eqn:E1; destruct (in_ab a b r2) eqn:E2.
  - rewrite (ab_sample r1 Hr1 E1), (ab_sample r2 Hr2 E2). reflexivity.
  - exfalso. apply in_ab_false in E2. destruct eff_nm as [E|E]; rewrite E in Hp; intuition congruence.
  - exfalso. apply in_ab_false in E1. destruct eff_nm as [E|E]; rewrite E in Hp; intuition congruence.
  - now apply Hone.
Qed.

(* afterwards the plates of s are the merged plate and those that were not merged *)
Lemma eff_plates : forall p,
  In p (sample_plates s rows') <-> In p (sample_plates s rows) /\ (p = nm \/ (p <> a /\ p <> b)).
Proof.
  assert (Hnm_in : In nm (sample_plates s rows)) by (destruct eff_nm as [->| ->]; assumption).
  intros p. split.
  - intros H. apply In_sample_plates in H as (r' & Hr' & Hs & Hp). apply In_rows' in Hr' as (r & Hr & ->).
    rewrite relab_sample in Hs. rewrite relab_plate in Hp. destruct (in_ab a b r) eqn:E; subst p.
    + auto.
    + apply in_ab_false in E. split; [apply In_sample_plates; eauto|now right].
  - intros [Hp [->|Hne]]; apply In_sample_plates.
    + apply In_sample_plates in Hnm_in as (r & Hr & Hs & Hp').
      exists (relab a b nm r). split; [apply In_rows'; eauto|]. rewrite relab_sample, relab_plate. split; [exact Hs|].
      replace (in_ab a b r) with true; [reflexivity|]. symmetry. apply in_ab_true.
      destruct eff_nm as [E|E]; [left|right]; congruence.
    + apply In_sample_plates in Hp as (r & Hr & Hs & <-).
      exists (relab a b nm r). split; [apply In_rows'; eauto|]. rewrite relab_sample, relab_plate. split; [exact Hs|].
      replace (in_ab a b r) with false; [reflexivity|]. symmetry. now apply in_ab_false.
Qed.

(* ... one fewer than before *)
Lemma eff_plates_length : length (sample_plates s rows) = S (length (sample_plates s rows')).
Proof.
  set (other := if name_eqb nm a then b else a).
  assert (Ho : In other (sample_plates s rows) /\ forall p, (p = nm \/ (p <> a /\ p <> b)) <-> p <> other).
  { unfold other. destruct eff_nm as [En|En]; rewrite En.
    - rewrite name_eqb_refl. split; [exact Hb|]. intros p.
      destruct (list_eq_dec Z.eq_dec p a); intuition congruence.
    - replace (name_eqb b a) with false by (symmetry; apply name_eqb_neq; congruence). split; [exact Ha|]. intros p.
      destruct (list_eq_dec Z.eq_dec p b); intuition congruence. }
  destruct Ho as [Hin Hiff].
  change (S (length (sample_plates s rows'))) with (length (other :: sample_plates s rows')).
  apply Permutation_length, NoDup_Permutation; [apply NoDup_sort_uniq|constructor; [|apply NoDup_sort_uniq]|].
  - rewrite eff_plates, Hiff. tauto.
  - intros p. cbn [In]. rewrite eff_plates, Hiff.
    destruct (list_eq_dec Z.eq_dec p other) as [->|Hne]; [tauto|]. intuition congruence.
Qed.

Lemma eff_other_samples : forall s', s' <> s -> sample_plates s' rows' = sample_plates s' rows.
Proof.
  intros s' Hs'. unfold sample_plates, rows', merge_names. f_equal. apply filter_sample_merge.
  intros r Hr Hin. destruct (in_ab a b r) eqn:E; [|reflexivity]. apply in_sample_true in Hin.
  rewrite (ab_sample r Hr E) in Hin. congruence.
Qed.

Lemma eff_other_vec : forall c, c <> a -> c <> b -> plate_vec c rows' = plate_vec c rows.
Proof.
  intros c Hca Hcb. unfold plate_vec, rows', merge_names. rewrite map_map. apply map_ext. intros r.
  unfold in_plate. rewrite relab_plate. destruct (in_ab a b r) eqn:E; [|reflexivity].
  apply in_ab_true in E. fold nm.
  assert (nm <> c) by (destruct eff_nm as [->| ->]; congruence).
  assert (r_plate r <> c) by (destruct E as [->| ->]; congruence).
  transitivity false; [now apply name_eqb_neq|symmetry; now apply name_eqb_neq].
Qed.

Lemma eff_merged_vec : plate_vec nm rows' = map (in_ab a b) rows.
Proof.
  unfold plate_vec, rows', merge_names. rewrite map_map. apply map_ext. intros r.
  unfold in_plate. rewrite relab_plate. fold nm. destruct (in_ab a b r) eqn:E; [apply name_eqb_refl|].
  apply in_ab_false in E. apply name_eqb_neq. destruct eff_nm as [->| ->]; tauto.
Qed.
End Effect.

(* plates_of_sample: the plates whose sample is s *)
Lemma plates_of_sample_spec : forall s rows ps,
  plates_of_sample s rows = Ok ps ->
  one_sample rows /\ NoDup ps /\ forall p, In p ps <-> In p (sample_plates s rows).
Proof.
  intros s rows ps H. unfold plates_of_sample in H.
  apply res_bind_inv in H as (sps & Er & H); cbn beta iota in H.
  apply res_map_all_Forall2 in Er. inversion H; subst ps. clear H. rewrite (plates_with_combine rows s _ _ Er).
  fold (one_sample_plates rows sps) in Er. split; [|split].
  - intros r1 r2 H1 H2 Hp. pose proof (one_sample_row rows sps Er r1 H1) as E1.
    pose proof (one_sample_row rows sps Er r2 H2) as E2. rewrite Hp in E1. congruence.
  - apply NoDup_filter, NoDup_sort_uniq.
  - intros p. now apply (In_plates_with rows sps).
Qed.
