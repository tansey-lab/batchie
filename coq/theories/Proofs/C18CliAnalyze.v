(* C18 about cli/analyze_model_evaluation.main (the WHOLE function, re-translated on every run: Generated/SrcCliAnalyze.v,
   configuration CLI_ANALYZE; link Proofs/C20SourceCli_AnalyzeMain.v): where the generators of its two bootstraps come from.
   seaborn.regplot(seed=s) draws the confidence band of its regression from numpy.random.default_rng(s)
   (Model/CliAnalyze.v: regplot_rng).  Since the repair "fix: analyze_model_evaluation ignored --seed" both regplot-drawing
   calls of main() carry seed=args.seed: the generators of a run are a function of --seed alone, whatever the operating
   system's entropy source answers.  The wrapper before the repair (cli_analyze_gen false: the keyword absent) is refuted. *)
From Coq Require Import ZArith List.
From Batchie Require Import Lib.Sexp Model.CliAnalyze Generated.SrcCliAnalyze Proofs.C20SourceCli_AnalyzeMain.
Import ListNotations.
Open Scope Z_scope.

(* the regplot-drawing calls of a run of the model, for either variant *)
Lemma cli_analyze_gen_regplot_seeds :
  forall (b : bool) (Scr Th Ev Co F : Type) (L : an_lib Scr Th Ev Co F) (a : an_args) evs,
  cli_analyze_gen b L a = Ok evs ->
  an_regplot_seeds evs = let sd := if b then Some (an_seed a) else None in [sd; sd].
Proof.
  intros b Scr Th Ev Co F L a evs. unfold cli_analyze_gen.
  destruct (res_map_all (an_load_thetas L) (an_thetas a)) as [hs|t]; cbn [res_bind]; [|discriminate].
  destruct (an_concat_thetas L hs) as [th|t]; cbn [res_bind]; [|discriminate].
  destruct (an_load_screen L (an_screen a)) as [scr|t]; cbn [res_bind]; [|discriminate].
  destruct (an_load_eval L (an_model_evaluation a)) as [e|t]; cbn [res_bind]; [|discriminate].
  destruct (an_correlation_matrix L scr th) as [c|t]; cbn [res_bind]; [|discriminate].
  intros H. injection H as <-. reflexivity.
Qed.

(* the translated main(): a run that completes makes exactly two regplot-drawing calls, both with seed=--seed *)
Theorem src_cli_analyze_regplot_seeds :
  forall (Scr Th Ev Co F : Type) (L : an_lib Scr Th Ev Co F) (a : an_args) evs,
  src_cli_analyze Scr Th Ev Co F L a = Ok evs ->
  an_regplot_seeds evs = [Some (an_seed a); Some (an_seed a)].
Proof.
  intros Scr Th Ev Co F L a evs H. rewrite src_cli_analyze_is_model in H. unfold cli_analyze in H.
  exact (cli_analyze_gen_regplot_seeds true Scr Th Ev Co F L a evs H).
Qed.

(* ... hence its bootstrap generators are default_rng(--seed), in every world *)
Theorem src_cli_analyze_bootstrap_seeded :
  forall (Scr Th Ev Co F G W : Type) (of_seed : Z -> G) (of_entropy : W -> G) (L : an_lib Scr Th Ev Co F) (a : an_args) (w : W),
  an_bootstrap_rngs of_seed of_entropy (src_cli_analyze Scr Th Ev Co F L a) w
  = match src_cli_analyze Scr Th Ev Co F L a with
    | Ok _ => [of_seed (an_seed a); of_seed (an_seed a)]
    | Err _ => []
    end.
Proof.
  intros Scr Th Ev Co F G W of_seed of_entropy L a w.
  destruct (src_cli_analyze Scr Th Ev Co F L a) as [evs|t] eqn:E; [|reflexivity].
  unfold an_bootstrap_rngs. rewrite (src_cli_analyze_regplot_seeds Scr Th Ev Co F L a evs E). reflexivity.
Qed.

(* two runs on the same files with the same --seed, under ANY two answers of the entropy source: the same bootstrap
   generators *)
Theorem src_cli_analyze_entropy_free :
  forall (Scr Th Ev Co F G W : Type) (of_seed : Z -> G) (of_entropy : W -> G) (L : an_lib Scr Th Ev Co F) (a : an_args) (w1 w2 : W),
  an_bootstrap_rngs of_seed of_entropy (src_cli_analyze Scr Th Ev Co F L a) w1
  = an_bootstrap_rngs of_seed of_entropy (src_cli_analyze Scr Th Ev Co F L a) w2.
Proof. intros. rewrite !src_cli_analyze_bootstrap_seeded. reflexivity. Qed.

(* the wrapper before the repair: there are files, a --seed and two answers of the entropy source for which the two runs
   bootstrap from different generators (every run that completes does: its generators ARE the entropy's) *)
Definition ex_unit_lib : an_lib unit unit unit unit unit :=
  {| an_load_thetas := fun _ => Ok tt; an_concat_thetas := fun _ => Ok tt; an_load_screen := fun _ => Ok tt;
     an_load_eval := fun _ => Ok tt; an_correlation_matrix := fun _ _ => Ok tt;
     an_mse := fun _ => tt; an_mse_variance := fun _ => tt; an_inter_chain := fun _ => tt |}.
Definition ex_unit_args (seed : Z) : an_args := mk_an_args [1] [2] [[3]] [4] seed.

Theorem cli_analyze_unseeded_bootstrap :
  forall (Scr Th Ev Co F G W : Type) (of_seed : Z -> G) (of_entropy : W -> G) (L : an_lib Scr Th Ev Co F) (a : an_args) (w : W),
  an_bootstrap_rngs of_seed of_entropy (cli_analyze_gen false L a) w
  = match cli_analyze_gen false L a with
    | Ok _ => [of_entropy w; of_entropy w]
    | Err _ => []
    end.
Proof.
  intros Scr Th Ev Co F G W of_seed of_entropy L a w.
  destruct (cli_analyze_gen false L a) as [evs|t] eqn:E; [|reflexivity].
  unfold an_bootstrap_rngs. rewrite (cli_analyze_gen_regplot_seeds false Scr Th Ev Co F L a evs E). reflexivity.
Qed.

Theorem cli_analyze_unseeded_refuted :
  exists (L : an_lib unit unit unit unit unit) (a : an_args) (w1 w2 : Z),
    an_bootstrap_rngs (fun z => z) (fun w => w) (cli_analyze_gen false L a) w1
    <> an_bootstrap_rngs (fun z => z) (fun w => w) (cli_analyze_gen false L a) w2.
Proof. exists ex_unit_lib, (ex_unit_args 3), 10, 11. vm_compute. discriminate. Qed.
