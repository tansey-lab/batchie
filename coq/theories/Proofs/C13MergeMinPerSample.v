(* C13, MergeMin "stops EXACTLY when ...", the per-sample half: a sample whose unobserved plates already satisfy the stop
   rule is left untouched - same plates, same rows on each - however much merging the other samples need.
   (C13_mergemin_stop states this only when EVERY sample satisfies the rule.) *)
From Coq Require Import List.
From Batchie Require Import Lib.Sexp Model.Retro Proofs.C13Wrap Proofs.C13MergeMin.
Import ListNotations.
Open Scope nat_scope.

Theorem mergemin_keeps_satisfied_w : forall ms rows ds out ds',
  smooth_plates (SMergeMin ms) rows ds = Ok (out, ds') ->
  forall s, stop_rule s ms (unobserved rows) -> keeps_sample s (unobserved rows) (unobserved out).
Proof.
  intros ms rows ds out ds' H s Hs. apply smooth_wrap_unobs in H as [[E1 E2]|H].
  - rewrite E1, E2. apply keeps_refl.
  - cbn [smooth_inner] in H. eapply merge_min_keeps_satisfied; eauto.
Qed.
