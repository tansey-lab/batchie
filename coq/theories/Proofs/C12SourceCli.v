(* The command-line wrappers reveal_plate.main and extract_screen_metadata.main: the hand-written models of
   Model/Cli.v equal the translations of the WHOLE functions of /repo, regenerated on every run (Generated/SrcCli.v,
   configurations CLI_REVEAL_PLATE / CLI_EXTRACT_METADATA of harness/src_functions.py), for every record of library
   functions and all parsed arguments. *)
From Coq Require Import ZArith List Lia.
From Batchie Require Import Lib.Sexp Lib.PyRt Model.Cli Generated.SrcCli Proofs.PyRtLemmas.
Import ListNotations.
Open Scope Z_scope.

Theorem src_cli_reveal_plate_is_model : forall (Scr : Type) (L : rp_lib Scr) (a : rp_args),
  src_cli_reveal_plate Scr L a = cli_reveal_plate L a.
Proof.
  intros. unfold src_cli_reveal_plate, cli_reveal_plate. cbv zeta.
  (* both sides make the same library calls in the same order: case analysis on each call in turn *)
  repeat cli_step. all: reflexivity.
Qed.

(* the counting loop, for an arbitrary body equal to the canonical one *)
Lemma count_loop {A : Type} (p : A -> bool) (f : Z * Z -> A -> result (Z * Z)) :
  (forall s x, f s x = Ok (if p x then (fst s + 1, snd s) else (fst s, snd s + 1))) ->
  forall l s, res_fold f l s = Ok (fst s + count_if p l, snd s + count_if (fun x => negb (p x)) l).
Proof.
  intros Hf l. unfold count_if. induction l as [|x l IH]; intros [n m]; cbn [res_fold filter length fst snd].
  - now rewrite !Z.add_0_r.
  - rewrite Hf. cbn [res_bind fst snd]. destruct (p x); cbn [negb length]; rewrite IH; cbn [fst snd]; f_equal; f_equal; lia.
Qed.

Theorem src_cli_extract_screen_metadata_is_model : forall (Scr Pl : Type) (L : em_lib Scr Pl) (a : em_args),
  src_cli_extract_screen_metadata Scr Pl L a = cli_extract_screen_metadata L a.
Proof.
  intros. unfold src_cli_extract_screen_metadata, cli_extract_screen_metadata. cbv zeta.
  cli_step.
  rewrite (count_loop (em_is_observed L)).
  - cbn [res_bind fst snd app]. rewrite !Z.add_0_l. reflexivity.
  - intros [n m] x. cbn [fst snd]. destruct (em_is_observed L x); reflexivity.
Qed.
