(* C09: the statements of Props/C09.v that join several results of C09Predict.v. *)
From Coq Require Import List QArith Qcanon.
From Batchie Require Import Lib.Sexp Lib.Num Model.Predict Proofs.C09Predict.
Import ListNotations.
Open Scope Qc_scope.

Lemma sparse_wfb_V1 D t : sparse_wfb D t = true -> rectb D (sV1 t) = true.
Proof. unfold sparse_wfb. rewrite !andb_true_iff. tauto. Qed.

Lemma rowwise_inter orc t rows :
  in_mean2 t rows = map (in_mean_row2 t) rows /\ in_viab2 orc t rows = map (in_viab_row2 orc t) rows.
Proof. split; [apply in_mean2_rowwise|apply in_viab2_rowwise]. Qed.

Lemma swap_row_both ts ti s a b :
  sp_mean_row2 ts (s, a, b) = sp_mean_row2 ts (s, b, a) /\
  in_mean_row2 ti (s, a, b) = in_mean_row2 ti (s, b, a) /\
  in_single ti (s, a, b) = in_single ti (s, b, a).
Proof. split; [apply sp_mean_row2_swap|split; [apply in_mean_row2_swap|apply in_single_swap]]. Qed.

Lemma control_neutral_sparse D t s a :
  sparse_wfb D t = true ->
  sp_mean_row2 t (s, a, CONTROL) = sp_mean_row1 t (s, a) /\
  sp_mean_row2 t (s, CONTROL, a) = sp_mean_row1 t (s, a).
Proof.
  intros H. apply sparse_wfb_V1 in H. split; [eapply sp_control_right|eapply sp_control_left]; eassumption.
Qed.

Lemma control_neutral_screen orc D viab t rows v :
  sparse_wfb D t = true ->
  sp_predict orc viab t (Scr2 (map pad_control rows)) = Ok v ->
  sp_predict orc viab t (Scr1 rows) = Ok v.
Proof. intros H. apply sparse_wfb_V1 in H. eapply sp_control_screen; eassumption. Qed.

Lemma control_only_sparse t s :
  sp_mean_row2 t (s, CONTROL, CONTROL) = salpha t + py_get 0 (sW0 t) s /\
  sp_mean_row1 t (s, CONTROL) = salpha t + py_get 0 (sW0 t) s.
Proof. split; [apply sp_control_both|apply sp_control_single]. Qed.

Lemma control_neutral_inter t s a :
  in_mean_row2 t (s, a, CONTROL) = 0 /\ in_mean_row2 t (s, CONTROL, a) = 0.
Proof. split; [apply in_control_right|apply in_control_left]. Qed.

Lemma control_viability_inter (orc : oracle) :
  (forall x, 0 < x -> orc ORC_EXP (orc ORC_LN x) = x) ->
  forall t s a,
    in_viab_row2 orc t (s, a, CONTROL) = clip_viab (lookup0 (ilookup t) s a * lookup0 (ilookup t) s CONTROL) /\
    in_viab_row2 orc t (s, CONTROL, a) = clip_viab (lookup0 (ilookup t) s CONTROL * lookup0 (ilookup t) s a).
Proof. intros H t s a. split; [now apply in_control_viab_right|now apply in_control_viab_left]. Qed.

Lemma inter_viability_not_logistic' (orc : oracle) :
  (forall x, 0 < x -> orc ORC_EXP (orc ORC_LN x) = x) ->
  orc ORC_EXPIT 0 = Q2Qc (1 # 2) ->
  exists t scr v m,
    theta_predict orc KViab (TI t) scr = Ok v /\ theta_predict orc KMean (TI t) scr = Ok m /\
    v <> map (viab_of_mean orc) m.
Proof. intros H1 H2. now apply inter_viability_not_logistic. Qed.

(* an oracle meeting the two hypotheses used above (besides the real functions) *)
Definition toy_orc : oracle := fun c x => if (c =? ORC_EXPIT)%Z then x + Q2Qc (1 # 2) else x.

Lemma toy_orc_ok : (forall x, 0 < x -> toy_orc ORC_EXP (toy_orc ORC_LN x) = x) /\ toy_orc ORC_EXPIT 0 = Q2Qc (1 # 2).
Proof. split; [intros x _; reflexivity|]. unfold toy_orc. cbn [Z.eqb ORC_EXPIT Pos.eqb]. ring. Qed.
