(* C10: BayesianModel.__init__ (Generated/SrcInits.v) stores its argument: `self.experiment_space`, which the translated
   methods of the class read, is the value the object was constructed with *)
From Batchie Require Import Lib.Sexp Generated.SrcInits.

Theorem src_bayesian_model_init_stores : forall (Sp : Type) (experiment_space : Sp), src_bayesian_model_init Sp experiment_space = Ok experiment_space.
Proof. reflexivity. Qed.
