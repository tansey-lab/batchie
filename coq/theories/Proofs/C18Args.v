(* Properties of the argument-handling models of Model/Cli.v (str_to_bool, convert / cast_dict, kv_append / kv_parse):
   what a list of KEY=VALUE words becomes.  Through Proofs/C18SourceArgs.v these are statements about the translated
   source of cli/argument_parsing.py. *)
From Coq Require Import ZArith List Bool Lia.
From Batchie Require Import Lib.Sexp Lib.PyRt Model.Cli.
Import ListNotations.
Open Scope Z_scope.

Lemma str_eqb_refl (a : str) : str_eqb a a = true.
Proof. induction a as [|x a IH]; cbn [str_eqb]; [reflexivity|]. now rewrite Z.eqb_refl, IH. Qed.

Lemma str_eqb_eq (a b : str) : str_eqb a b = true <-> a = b.
Proof.
  split; [|intros ->; apply str_eqb_refl].
  revert b. induction a as [|x a IH]; intros [|y b] H; cbn [str_eqb] in H; try discriminate; [reflexivity|].
  apply andb_true_iff in H. destruct H as [H1 H2]. apply Z.eqb_eq in H1. apply IH in H2. now subst.
Qed.

Lemma str_eqb_neq (a b : str) : a <> b -> str_eqb a b = false.
Proof. intros H. destruct (str_eqb a b) eqn:E; [|reflexivity]. now apply str_eqb_eq in E. Qed.

Lemma str_in_In (s : str) (l : list str) : str_in s l = true <-> In s l.
Proof.
  unfold str_in. rewrite existsb_exists. split.
  - intros [x [Hx E]]. apply str_eqb_eq in E. now subst.
  - intros H. exists s. split; [exact H|apply str_eqb_refl].
Qed.

Section Prims.
  Context {F O : Type} (P : pyprims F O).

  Lemma str_to_bool_true (s : str) : In (p_lower P s) true_words -> str_to_bool P s = Ok true.
  Proof. intros H. unfold str_to_bool. apply str_in_In in H. now rewrite H. Qed.

  Lemma words_disjoint (w : str) : In w false_words -> ~ In w true_words.
  Proof.
    assert (H : forallb (fun w => negb (str_in w true_words)) false_words = true) by reflexivity.
    rewrite forallb_forall in H. intros Hf Ht%str_in_In. apply H in Hf. now rewrite Ht in Hf.
  Qed.

  Lemma str_to_bool_false (s : str) : In (p_lower P s) false_words -> str_to_bool P s = Ok false.
  Proof.
    intros H. unfold str_to_bool.
    destruct (str_in (p_lower P s) true_words) eqn:E.
    - apply str_in_In in E. now apply words_disjoint in H.
    - apply str_in_In in H. now rewrite H.
  Qed.

  Lemma str_to_bool_unknown (s : str) :
    ~ In (p_lower P s) true_words -> ~ In (p_lower P s) false_words -> str_to_bool P s = Err 22.
  Proof.
    intros Ht Hf. unfold str_to_bool.
    destruct (str_in (p_lower P s) true_words) eqn:E1; [now apply str_in_In in E1|].
    destruct (str_in (p_lower P s) false_words) eqn:E2; [now apply str_in_In in E2|reflexivity].
  Qed.

  (* the answer determines the spelling class *)
  Lemma str_to_bool_ok (s : str) (b : bool) :
    str_to_bool P s = Ok b -> In (p_lower P s) (if b then true_words else false_words).
  Proof.
    unfold str_to_bool.
    destruct (str_in (p_lower P s) true_words) eqn:E1.
    - intros H. injection H as <-. now apply str_in_In.
    - destruct (str_in (p_lower P s) false_words) eqn:E2; [|discriminate].
      intros H. injection H as <-. now apply str_in_In.
  Qed.

  Lemma convert_bool (v : str) : convert P ABool v = dor b <- str_to_bool P v; Ok (VBool b).
  Proof. reflexivity. Qed.
  Lemma convert_int (v : str) : convert P AInt v = dor z <- p_int P v; Ok (VInt z).
  Proof. reflexivity. Qed.
  Lemma convert_float (v : str) : convert P AFloat v = dor f <- p_float P v; Ok (VFloat f).
  Proof. reflexivity. Qed.
  Lemma convert_str (v : str) : convert P AStr v = Ok (VStr v).
  Proof. reflexivity. Qed.
  Lemma convert_none (v : str) : convert P ANone v = Err 26.
  Proof. reflexivity. Qed.
  Lemma convert_other (n : Z) (v : str) : convert P (AOther n) v = dor o <- p_call_other P n v; Ok (VOther o).
  Proof. reflexivity. Qed.

  Definition cast_item (types : list (str * ann)) (kv : str * str) : result (str * pval F O) :=
    dor t <- kdict_get str_eqb 25 types (fst kv); dor x <- convert P t (snd kv); Ok (fst kv, x).

  Lemma kdict_set_fresh {V : Type} (d : list (str * V)) (k : str) (v : V) :
    ~ In k (map fst d) -> kdict_set str_eqb d k v = d ++ [(k, v)].
  Proof.
    induction d as [|[k' v'] d IH]; intros H; cbn [kdict_set app]; [reflexivity|].
    cbn [map fst In] in H. rewrite str_eqb_neq by tauto. rewrite IH by tauto. reflexivity.
  Qed.

  Lemma in_kdict_set {V : Type} (d : list (str * V)) (k : str) (v : V) (kv : str * V) :
    In kv (kdict_set str_eqb d k v) -> (k, v) = kv \/ In kv d.
  Proof.
    induction d as [|[k' v'] d IH]; cbn [kdict_set In]; [tauto|].
    destruct (str_eqb k' k) eqn:E; cbn [In]; [|tauto].
    apply str_eqb_eq in E. subst k'. tauto.
  Qed.

  Lemma cast_items_exact (types : list (str * ann)) :
    forall items acc, NoDup (map fst acc ++ map fst items) ->
    cast_items P types items acc = dor l <- res_map_all (cast_item types) items; Ok (acc ++ l).
  Proof.
    induction items as [|[k v] r IH]; intros acc H; cbn [cast_items res_map_all res_bind]; [now rewrite app_nil_r|].
    unfold cast_item at 1. cbn [fst snd].
    destruct (kdict_get str_eqb 25 types k) as [t|e]; cbn [res_bind]; [|reflexivity].
    destruct (convert P t v) as [x|e]; cbn [res_bind]; [|reflexivity].
    cbn [map fst] in H.
    rewrite kdict_set_fresh.
    - rewrite IH.
      + destruct (res_map_all (cast_item types) r) as [l|e]; cbn [res_bind]; [|reflexivity].
        now rewrite <- app_assoc.
      + rewrite map_app. cbn [map fst]. now rewrite <- app_assoc.
    - apply NoDup_remove_2 in H. intros X. apply H. apply in_or_app. now left.
  Qed.

  Theorem cast_dict_exact (d : list (str * str)) (types : list (str * ann)) :
    NoDup (map fst d) -> cast_dict P d types = res_map_all (cast_item types) d.
  Proof.
    intros H. unfold cast_dict. rewrite cast_items_exact by exact H.
    destruct (res_map_all (cast_item types) d); reflexivity.
  Qed.
End Prims.

Lemma str_prefix_eq (x : Z) (s : str) : str_prefix s_eq (x :: s) = (61 =? x).
Proof. cbn [str_prefix s_eq]. apply andb_true_r. Qed.

Lemma split_go_part (n : Z) : forall (k : str) (cur rest : str), ~ In 61 k ->
  split_go s_eq 0 n cur (k ++ rest) = split_go s_eq 0 n (rev k ++ cur) rest.
Proof.
  induction k as [|x k IH]; intros cur rest H; [reflexivity|].
  cbn [app]. cbn [split_go]. rewrite str_prefix_eq.
  replace (61 =? x) with false by (symmetry; apply Z.eqb_neq; intros E; apply H; left; now symmetry).
  rewrite andb_false_r. cbn [In] in H. rewrite IH by tauto. cbn [rev]. now rewrite <- app_assoc.
Qed.

Lemma split_go_cut (n : Z) (cur rest : str) : n <> 0 ->
  split_go s_eq 0 n cur (61 :: rest) = rev cur :: split_go s_eq 0 (n - 1) [] rest.
Proof.
  intros H. cbn [split_go]. rewrite str_prefix_eq, Z.eqb_refl, andb_true_r.
  replace (n =? 0) with false by (symmetry; now apply Z.eqb_neq). reflexivity.
Qed.

Lemma split_go_nocut : forall (s cur : str), split_go s_eq 0 0 cur s = [rev cur ++ s].
Proof.
  induction s as [|x s IH]; intros cur; cbn [split_go]; [now rewrite app_nil_r|].
  cbn [Z.eqb negb andb]. rewrite IH. cbn [rev]. now rewrite <- app_assoc.
Qed.

Lemma split_go_end (n : Z) (cur : str) : split_go s_eq 0 n cur [] = [rev cur].
Proof. reflexivity. Qed.

Lemma first_eq (v : str) : In 61 v -> exists v1 v2, v = v1 ++ 61 :: v2 /\ ~ In 61 v1.
Proof.
  induction v as [|x v IH]; intros H; [destruct H|].
  destruct (Z.eq_dec x 61) as [->|N].
  - exists [], v. split; [reflexivity|intros []].
  - destruct H as [H|H]; [congruence|]. destruct (IH H) as [v1 [v2 [E N1]]].
    exists (x :: v1), v2. split; [now rewrite E|]. intros [X|X]; [congruence|tauto].
Qed.

Definition kv_word (kv : str * str) : str := fst kv ++ 61 :: snd kv.

(* one word: the parts of `w.split("=", 2)` decide *)
Lemma kv_append_word (dest : option (list (str * str))) (w : str) :
  kv_append dest [w] = match split_go s_eq 0 2 [] w with
                       | [k; v] => Ok (Some (kdict_set str_eqb (opt_or_empty dest) k v))
                       | _ => Err 21
                       end.
Proof. reflexivity. Qed.

Theorem kv_append_ok (dest : option (list (str * str))) (k v : str) : ~ In 61 k -> ~ In 61 v ->
  kv_append dest [k ++ 61 :: v] = Ok (Some (kdict_set str_eqb (opt_or_empty dest) k v)).
Proof.
  intros Hk Hv. rewrite kv_append_word. rewrite split_go_part by exact Hk. rewrite split_go_cut by lia.
  rewrite <- (app_nil_r v) at 1. rewrite split_go_part by exact Hv. rewrite split_go_end.
  rewrite !app_nil_r, !rev_involutive. reflexivity.
Qed.

Theorem kv_append_no_equals (dest : option (list (str * str))) (w : str) : ~ In 61 w ->
  kv_append dest [w] = Err 21.
Proof.
  intros H. rewrite kv_append_word.
  rewrite <- (app_nil_r w) at 1. rewrite split_go_part by exact H. rewrite split_go_end. reflexivity.
Qed.

(* maxsplit = 2: a VALUE containing '=' makes three parts and the word is refused *)
Theorem kv_append_value_with_equals (dest : option (list (str * str))) (k v : str) : ~ In 61 k -> In 61 v ->
  kv_append dest [k ++ 61 :: v] = Err 21.
Proof.
  intros Hk Hv. destruct (first_eq v Hv) as [v1 [v2 [-> N1]]].
  rewrite kv_append_word.
  rewrite split_go_part by exact Hk. rewrite split_go_cut by lia.
  rewrite split_go_part by exact N1. rewrite split_go_cut by lia.
  change (2 - 1 - 1) with 0. rewrite split_go_nocut. reflexivity.
Qed.

Lemma kv_parse_words : forall (kvs : list (str * str)) (dest : option (list (str * str))),
  (forall kv, In kv kvs -> ~ In 61 (fst kv) /\ ~ In 61 (snd kv)) ->
  kv_parse dest (map kv_word kvs) =
  Ok (match kvs with
      | [] => dest
      | _ => Some (fold_left (fun d kv => kdict_set str_eqb d (fst kv) (snd kv)) kvs (opt_or_empty dest))
      end).
Proof.
  induction kvs as [|[k v] r IH]; intros dest H; cbn [map kv_parse]; [reflexivity|].
  unfold kv_word at 1. cbn [fst snd].
  destruct (H (k, v) (or_introl eq_refl)) as [Hk Hv]. cbn [fst snd] in Hk, Hv.
  rewrite kv_append_ok by assumption. cbn [res_bind].
  rewrite IH by (intros kv Hin; apply H; now right).
  cbn [fold_left fst snd opt_or_empty]. destruct r; reflexivity.
Qed.

Lemma fold_kdict_set_distinct : forall (kvs d : list (str * str)), NoDup (map fst d ++ map fst kvs) ->
  fold_left (fun d kv => kdict_set str_eqb d (fst kv) (snd kv)) kvs d = d ++ kvs.
Proof.
  induction kvs as [|[k v] r IH]; intros d H; cbn [fold_left]; [now rewrite app_nil_r|].
  cbn [fst snd map] in *. rewrite kdict_set_fresh.
  - rewrite IH; [now rewrite <- app_assoc|]. rewrite map_app. cbn [map fst]. now rewrite <- app_assoc.
  - apply NoDup_remove_2 in H. intros X. apply H. apply in_or_app. now left.
Qed.

(* distinct keys: the dict is the list of the (KEY, VALUE) pairs, in command-line order; no words: None *)
Theorem kv_parse_distinct (kvs : list (str * str)) :
  (forall kv, In kv kvs -> ~ In 61 (fst kv) /\ ~ In 61 (snd kv)) -> NoDup (map fst kvs) ->
  kv_parse None (map kv_word kvs) = Ok (match kvs with [] => None | _ => Some kvs end).
Proof.
  intros H ND. rewrite kv_parse_words by exact H. destruct kvs as [|kv r]; [reflexivity|].
  cbn [opt_or_empty]. rewrite fold_kdict_set_distinct by exact ND. reflexivity.
Qed.

(* a repeated KEY: the later VALUE wins, the key keeps its first place *)
Theorem kv_parse_repeated (k v1 v2 : str) : ~ In 61 k -> ~ In 61 v1 -> ~ In 61 v2 ->
  kv_parse None [k ++ 61 :: v1; k ++ 61 :: v2] = Ok (Some [(k, v2)]).
Proof.
  intros Hk H1 H2. cbn [kv_parse]. rewrite kv_append_ok by assumption. cbn [res_bind].
  rewrite kv_append_ok by assumption. cbn [res_bind opt_or_empty kdict_set]. now rewrite str_eqb_refl.
Qed.

(* end to end: the words KEY=VALUE ... of one option are cast to exactly the typed values *)
Theorem words_cast_exactly {F O : Type} (P : pyprims F O) (kvs : list (str * str)) (types : list (str * ann)) :
  (forall kv, In kv kvs -> ~ In 61 (fst kv) /\ ~ In 61 (snd kv)) -> NoDup (map fst kvs) ->
  (dor d <- kv_parse None (map kv_word kvs); cast_params P d types) = res_map_all (cast_item P types) kvs.
Proof.
  intros H ND. rewrite kv_parse_distinct by assumption. cbn [res_bind].
  destruct kvs as [|kv r]; [reflexivity|]. cbn [cast_params]. now apply cast_dict_exact.
Qed.

(* the statements of Props/C18.v that collect several of the lemmas above *)
Lemma bool_spellings {F O : Type} (P : pyprims F O) (s : str) :
  (In (p_lower P s) true_words -> str_to_bool P s = Ok true) /\
  (In (p_lower P s) false_words -> str_to_bool P s = Ok false) /\
  (forall b, str_to_bool P s = Ok b -> In (p_lower P s) (if b then true_words else false_words)).
Proof. split; [apply str_to_bool_true|]. split; [apply str_to_bool_false|apply str_to_bool_ok]. Qed.

Lemma converter_table {F O : Type} (P : pyprims F O) (v : str) :
  convert P ABool v = (dor b <- str_to_bool P v; Ok (VBool b)) /\
  convert P AInt v = (dor z <- p_int P v; Ok (VInt z)) /\
  convert P AFloat v = (dor f <- p_float P v; Ok (VFloat f)) /\
  convert P AStr v = Ok (VStr v) /\
  convert P ANone v = Err 26 /\
  (forall n, convert P (AOther n) v = (dor o <- p_call_other P n v; Ok (VOther o))).
Proof. repeat split. Qed.

Lemma kv_word_cases (dest : option (list (str * str))) (k v w : str) :
  (~ In 61 k -> ~ In 61 v -> kv_append dest [k ++ 61 :: v] = Ok (Some (kdict_set str_eqb (opt_or_empty dest) k v))) /\
  (~ In 61 w -> kv_append dest [w] = Err 21) /\
  (~ In 61 k -> In 61 v -> kv_append dest [k ++ 61 :: v] = Err 21).
Proof. split; [apply kv_append_ok|]. split; [apply kv_append_no_equals|apply kv_append_value_with_equals]. Qed.
