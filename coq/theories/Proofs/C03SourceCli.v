(* The command-line wrapper prepare_retrospective_simulation.main: the hand-written model Cli.cli_prepare (the ORDER
   of the steps, each drawing step on the generator state its predecessor left) equals the translation of the WHOLE
   function of /repo, regenerated on every run (Generated/SrcCli.v, configuration CLI_PREPARE of
   harness/src_functions.py), for every record of library functions and all parsed arguments. *)
From Coq Require Import ZArith List.
From Batchie Require Import Model.Cli Generated.SrcCli Proofs.PyRtLemmas Proofs.C06SourceCli_Prng.
Import ListNotations.
Open Scope Z_scope.

(* every pair in the context split into its components, so that `let '(a, b) := p` and fst p / snd p read alike *)
Ltac split_pairs := repeat match goal with p : (_ * _)%type |- _ => destruct p end; cbn [fst snd].

Theorem src_cli_prepare_is_model :
  forall (Scr Pl Ig Pg Ps : Type) (L : pr_lib Scr Pl Ig Pg Ps) (mix : Z -> Z) (a : pr_args),
  src_cli_prepare Scr Pl Ig Pg Ps L mix a = cli_prepare L mix a.
Proof.
  intros. unfold src_cli_prepare, cli_prepare. cbv zeta.
  rewrite src_get_prng_is_model.
  (* one case split per call of main, in source order (cli_step, Proofs/PyRtLemmas.v): each branch then reads the same on both sides *)
  repeat (cli_step; split_pairs).
  all: reflexivity.
Qed.
