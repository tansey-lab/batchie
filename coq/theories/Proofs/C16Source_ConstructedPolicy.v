(* C16: a policy object constructed with k filters with that k - the translated __init__ composed with the translated method *)
From Coq Require Import ZArith List.
From Batchie Require Import Lib.Sexp Model.Policy Generated.SrcInits Generated.SrcPolicy
  Proofs.C16Source Proofs.C16Source_Init_Policy.
Import ListNotations.
Open Scope Z_scope.

Theorem constructed_policy_filters_with_its_k : forall k batch remaining,
  (dor k' <- src_k_per_sample_init k; src_filter_eligible_plates k' batch remaining) = filter_eligible k batch remaining.
Proof. intros. rewrite src_k_per_sample_init_stores. cbn [res_bind]. apply src_filter_eligible_is_model. Qed.
