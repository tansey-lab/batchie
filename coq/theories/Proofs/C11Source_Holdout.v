(* C11, the piece of Proofs/C11Source.v (which see) that only C11 states: create_plate_balanced_holdout_set_among_masked_plates *)
From Coq Require Import ZArith List Bool Arith.
From Batchie Require Import Lib.Sexp Lib.PyRt Model.Encode Model.Screen Model.Retro Model.RetroHoldout
  Generated.SrcRetro Proofs.C11Source.
Import ListNotations.
Open Scope nat_scope.

(* the loop over the plates, for an arbitrary body equal to the canonical one and an arbitrary continuation that
   drops what is left of the oracle counts *)
Lemma ho_for {B : Type} (num : Z) (den : positive) (rows : screen_t)
      (f : option (list Z) * list draw * bvec -> bvec -> result (option (list Z) * list draw * bvec))
      (K : option (list Z) * list draw * bvec -> result B) (k : bvec -> list draw -> result B) :
  (forall c d sel v, f (c, d, sel) v =
     if vec_observed v rows then Ok (c, d, sel)
     else
       dor nc <- ceil_count (plate_size v) num den c; let '(n, c') := nc in
       dor xd <- choose (vec_indices v) n d; let '(idx, d') := xd in
       Ok (c', d', set_true (length rows) sel idx)) ->
  (forall c d sel, K (c, d, sel) = k sel d) ->
  forall plates c d sel,
    res_bind (res_fold f (map (fun p => plate_vec p rows) plates) (c, d, sel)) K
    = dor x <- ho_plates (length rows) num den rows plates c d sel; k (fst x) (snd x).
Proof.
  intros Hf HK. induction plates as [|p plates IH]; intros c d sel; cbn [map res_fold ho_plates res_bind fst snd]; [apply HK|].
  rewrite Hf. unfold vec_observed. rewrite vselect_plate_vec. fold (plate_observed p rows).
  destruct (plate_observed p rows); cbn [res_bind]; [apply IH|].
  unfold ceil_count, plate_size. rewrite Nat2Z.id.
  destruct (next_count (vcount (plate_vec p rows)) num den c) as [[n c']|t]; cbn [res_bind]; [|reflexivity].
  unfold choose. destruct (take_ints d) as [[idx d']|t]; cbn [res_bind]; [|reflexivity].
  destruct (negb (Z.of_nat (length idx) =? n)%Z); cbn [res_bind]; [reflexivity|].
  unfold set_true. apply IH.
Qed.

Theorem src_balanced_holdout_is_model : forall num den counts rows ds,
  src_balanced_holdout num den counts rows ds = holdout_balanced num den counts rows ds.
Proof.
  intros num den counts rows ds. unfold src_balanced_holdout, holdout_balanced.
  destruct ((num <? 0)%Z || (Z.pos den <? num)%Z); [reflexivity|].
  unfold plates_of.
  rewrite (ho_for num den rows _ _ (fun sel d => dor kh <- split_by sel rows; Ok (kh, d))).
  - destruct (ho_plates _ num den rows _ counts ds _) as [[sel d]|t]; reflexivity.
  - intros c d sel v. reflexivity.
  - intros c d sel. unfold split_by, screen_without, screen_observed_of. cbv beta.
    destruct (construct (vselect (map negb sel) rows)) as [k|t]; cbn [res_bind]; [|reflexivity].
    destruct (construct (map (set_mask true) (vselect sel rows))) as [h|t]; reflexivity.
Qed.
