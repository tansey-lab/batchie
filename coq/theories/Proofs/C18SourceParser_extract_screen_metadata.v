(* One piece of Proofs/C18SourceParser.v (which see): the option table of extract_screen_metadata.get_parser(), read from /repo on every run
   (Generated/SrcParser_extract_screen_metadata.v), provides what the argument record of that command assumes. *)
From Coq Require Import List.
From Batchie Require Import Model.Cli Proofs.C18Parser Generated.SrcParser_extract_screen_metadata.

Theorem parser_extract_screen_metadata_fields : forall f, In f (em_fields ++ logging_fields) -> declares src_parser_extract_screen_metadata f.
Proof. apply declares_all. vm_compute. reflexivity. Qed.

Theorem parser_extract_screen_metadata_dests_derived : dests_derived src_parser_extract_screen_metadata.
Proof. apply dests_derived_sound. vm_compute. reflexivity. Qed.

Theorem parser_extract_screen_metadata_dests_distinct : dests_distinct src_parser_extract_screen_metadata.
Proof. apply dests_distinct_sound. vm_compute. reflexivity. Qed.
