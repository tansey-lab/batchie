(* The reporting site of property C20: cli/analyze_model_evaluation.main.  The hand-written model CliAnalyze.cli_analyze
   equals the translation of the WHOLE function of /repo, regenerated on every run (Generated/SrcCliAnalyze.v,
   configuration CLI_ANALYZE of harness/src_functions.py), for every record of library functions and all parsed
   arguments; consequences: what a successful run reports, and that the three reported numbers are the definitions. *)
From Coq Require Import ZArith List QArith Qcanon.
From Batchie Require Import Lib.Sexp Model.CliAnalyze Model.Metrics Generated.SrcCliAnalyze
  Proofs.C20Spec Proofs.C20Metrics Generated.SrcMetrics Proofs.C20SourceMetrics.
From Batchie Require Export Proofs.C20SourceCli_AnalyzeMain.
Import ListNotations.
Open Scope Z_scope.

(* a run whose loads succeed reports exactly this, in this order: the similarity matrix is computed on the loaded --screen
   and the concatenation of ALL --thetas files in argument order; every plot of the evaluation and the summary come from
   the loaded --model-evaluation; which metric goes under which key *)
Theorem src_cli_analyze_reports :
  forall (Scr Th Ev Co F : Type) (L : an_lib Scr Th Ev Co F) (a : an_args) hs th scr e c,
  res_map_all (an_load_thetas L) (an_thetas a) = Ok hs ->
  an_concat_thetas L hs = Ok th ->
  an_load_screen L (an_screen a) = Ok scr ->
  an_load_eval L (an_model_evaluation a) = Ok e ->
  an_correlation_matrix L scr th = Ok c ->
  src_cli_analyze Scr Th Ev Co F L a
  = Ok [AnMkdir (an_output_dir a);
        AnHeat c (an_output_dir a, N_heat);
        AnScatter e (an_output_dir a, N_scatter) (Some (an_seed a));
        AnScatterSample e (an_output_dir a, N_scatter_sample) (Some (an_seed a));
        AnViolin e (an_output_dir a, N_violin) None;
        AnViolin e (an_output_dir a, N_violin99) (Some 99);
        AnSummary (mk_an_summary (an_mse L e) (an_mse_variance L e) (an_inter_chain L e)) (an_output_dir a, N_summary)].
Proof.
  intros Scr Th Ev Co F L a hs th scr e c H1 H2 H3 H4 H5.
  rewrite src_cli_analyze_is_model. unfold cli_analyze, cli_analyze_gen.
  rewrite H1. cbn [res_bind]. rewrite H2. cbn [res_bind]. rewrite H3. cbn [res_bind]. rewrite H4. cbn [res_bind].
  rewrite H5. cbn [res_bind]. reflexivity.
Qed.

(* whatever summary a run reports is the summary of the loaded evaluation *)
Lemma reported_summary_of :
  forall (Scr Th Ev Co F : Type) (L : an_lib Scr Th Ev Co F) (a : an_args) e s,
  an_load_eval L (an_model_evaluation a) = Ok e ->
  reported_summary (src_cli_analyze Scr Th Ev Co F L a) = Some s ->
  s = mk_an_summary (an_mse L e) (an_mse_variance L e) (an_inter_chain L e).
Proof.
  intros Scr Th Ev Co F L a e s He. rewrite src_cli_analyze_is_model. unfold cli_analyze, cli_analyze_gen.
  destruct (res_map_all (an_load_thetas L) (an_thetas a)) as [hs|t]; cbn [res_bind reported_summary]; [|discriminate].
  destruct (an_concat_thetas L hs) as [th|t]; cbn [res_bind reported_summary]; [|discriminate].
  destruct (an_load_screen L (an_screen a)) as [scr|t]; cbn [res_bind reported_summary]; [|discriminate].
  rewrite He. cbn [res_bind].
  destruct (an_correlation_matrix L scr th) as [c|t]; cbn [res_bind reported_summary]; [|discriminate].
  cbn [flat_map app]. intros H. injection H as <-. reflexivity.
Qed.

(* the reported numbers are the definitions: the library's metric methods being the TRANSLATED ModelEvaluation.mse /
   mse_variance / inter_chain_mse_variance (Generated/SrcMetrics.v) at the loaded evaluation, which is one the (translated)
   constructor built *)
Theorem reported_summary_is_definition :
  forall (Scr Th Co : Type) (L : an_lib Scr Th evaluation Co (result Qc)) (a : an_args) m P o ch nm e s,
  an_load_eval L (an_model_evaluation a) = Ok e ->
  mk_eval m P o ch nm = Ok e ->
  an_mse L e = src_ev_mse e -> an_mse_variance L e = src_ev_mse_variance e ->
  an_inter_chain L e = src_ev_inter_chain_mse_variance m e ->
  reported_summary (src_cli_analyze Scr Th evaluation Co (result Qc) L a) = Some s ->
  let nan := Nat.eqb (length P) 0 || Nat.eqb m 0 in
  sum_mse s = (if nan then Err E_NAN else Ok (mse_def P o (length P) m))
  /\ sum_mse_variance s = (if nan then Err E_NAN else Ok (mse_variance_def P o (length P) m))
  /\ sum_inter_chain s = (if nan then Err E_NAN else Ok (inter_chain_def P o ch (length P) m)).
Proof.
  intros Scr Th Co L a m P o ch nm e s He Hm H1 H2 H3 Hs nan.
  rewrite (reported_summary_of _ _ _ _ _ L a e s He Hs). cbn [sum_mse sum_mse_variance sum_inter_chain].
  rewrite H1, H2, H3.
  rewrite (src_ev_mse_is_model m P o ch nm e Hm), (src_ev_mse_variance_is_model m P o ch nm e Hm),
    (src_ev_inter_chain_is_model m P o ch nm e Hm).
  rewrite (mse_eq m P o ch nm e Hm), (mse_variance_eq m P o ch nm e Hm), (inter_chain_eq m P o ch nm e Hm).
  repeat split; reflexivity.
Qed.
