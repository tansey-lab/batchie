(* Generic lemmas behind C11 (and reused by C13): names, relabelling, boolean selection,
   sub-multisets, the generate_plates / smooth_plates wrapper. *)
From Coq Require Import List Bool Arith Lia Permutation.
From Batchie Require Import Proofs.PyRtLemmas Lib.ListX Lib.Sexp Model.Encode Model.Screen Model.Retro.
From Batchie Require Export Proofs.C01Sort.
Import ListNotations.
Open Scope nat_scope.

Lemma name_mem_In : forall x l, name_mem x l = true <-> In x l.
Proof. exact (existsb_eqb_In name_eqb name_eqb_eq). Qed.

Lemma NoDup_sort_uniq : forall l, NoDup (sort_uniq name_cmp l).
Proof. exact (sort_uniq_NoDup name_cmp name_cmp_spec). Qed.

Lemma In_sample_names : forall rows s, In s (sample_names rows) <-> exists r, In r rows /\ r_sample r = s.
Proof.
  intros rows s. unfold sample_names. rewrite (sort_uniq_In _ name_cmp_spec), in_map_iff. firstorder.
Qed.
Lemma In_plate_names_of : forall rows p, In p (plate_names_of rows) <-> exists r, In r rows /\ r_plate r = p.
Proof.
  intros rows p. unfold plate_names_of. rewrite (sort_uniq_In _ name_cmp_spec), in_map_iff. firstorder.
Qed.

Lemma in_plate_true : forall p r, in_plate p r = true <-> r_plate r = p.
Proof. intros. unfold in_plate. apply name_eqb_eq. Qed.
Lemma in_sample_true : forall s r, in_sample s r = true <-> r_sample r = s.
Proof. intros. unfold in_sample. apply name_eqb_eq. Qed.

Lemma strip_set_plate : forall p r, strip (set_plate p r) = strip r.
Proof. reflexivity. Qed.
Lemma strip_set_mask_false : forall r, r_mask r = false -> strip (set_mask false r) = strip r.
Proof. intros r H. unfold strip, set_mask. cbn. now rewrite H. Qed.
Lemma set_plate_sample : forall p r, r_sample (set_plate p r) = r_sample r.
Proof. reflexivity. Qed.
Lemma set_plate_mask : forall p r, r_mask (set_plate p r) = r_mask r.
Proof. reflexivity. Qed.
Lemma set_plate_plate : forall p r, r_plate (set_plate p r) = p.
Proof. reflexivity. Qed.

Lemma strip_mask : forall a b, strip a = strip b -> r_mask a = r_mask b.
Proof. intros a b H. unfold strip in H. congruence. Qed.
Lemma strip_sample : forall a b, strip a = strip b -> r_sample a = r_sample b.
Proof. intros a b H. unfold strip in H. congruence. Qed.

Definition unmasked (rows : list row) : Prop := Forall (fun r => r_mask r = false) rows.

Lemma unmasked_unobserved : forall rows, unmasked (unobserved rows).
Proof.
  intros rows. apply Forall_forall. intros r [_ H]%filter_In. now apply negb_true_iff in H.
Qed.

Lemma unmasked_filter : forall f rows, unmasked rows -> unmasked (filter f rows).
Proof. intros f rows. apply incl_Forall, incl_filter. Qed.

Lemma observed_all : forall rows, unobserved rows = [] -> observed rows = rows.
Proof.
  induction rows as [|r rows IH]; cbn [unobserved observed filter]; [reflexivity|].
  destruct (r_mask r); cbn [negb]; [|discriminate]. intros H. f_equal. now apply IH.
Qed.

Lemma unmasked_incl_strip : forall a b, incl (map strip a) (map strip b) -> unmasked b -> unmasked a.
Proof.
  intros a b Hi Hb. apply Forall_forall. intros r Hr.
  apply (in_map strip), Hi, in_map_iff in Hr as (r' & E & Hr').
  rewrite <- (strip_mask _ _ E). exact (proj1 (Forall_forall _ _) Hb r' Hr').
Qed.

Lemma unmasked_of_strip : forall a b, map strip a = map strip b -> unmasked b -> unmasked a.
Proof. intros a b E. apply unmasked_incl_strip. rewrite E. apply incl_refl. Qed.

Lemma enum_from_snd {A} : forall (l : list A) k, map snd (enum_from k l) = l.
Proof. induction l as [|a l IH]; intros k; cbn [enum_from map snd]; [reflexivity|]. now rewrite IH. Qed.
Lemma enum_from_fst {A} : forall (l : list A) k, map fst (enum_from k l) = seq k (length l).
Proof. induction l as [|a l IH]; intros k; cbn [enum_from map fst seq length]; [reflexivity|]. now rewrite IH. Qed.
Lemma enum_from_length {A} : forall (l : list A) k, length (enum_from k l) = length l.
Proof. induction l as [|a l IH]; intros k; cbn [enum_from length]; [reflexivity|]. now rewrite IH. Qed.
Lemma In_enum_from {A} : forall (l : list A) k i a,
  In (i, a) (enum_from k l) <-> k <= i /\ nth_error l (i - k) = Some a.
Proof.
  induction l as [|x l IH]; intros k i a; cbn [enum_from In].
  - split; [tauto|]. intros [_ H]. now destruct (i - k).
  - rewrite IH. split.
    + intros [H|[H1 H2]].
      * inversion H; subst. split; [lia|]. now rewrite Nat.sub_diag.
      * split; [lia|]. replace (i - k) with (S (i - S k)) by lia. exact H2.
    + intros [H1 H2]. destruct (Nat.eq_dec i k) as [->|Hne].
      * left. rewrite Nat.sub_diag in H2. cbn in H2. congruence.
      * right. split; [lia|]. replace (i - k) with (S (i - S k)) in H2 by lia. exact H2.
Qed.

Lemma relabel_conserves : forall (f : nat -> row -> name) rows k,
  map strip (map (fun ir => set_plate (f (fst ir) (snd ir)) (snd ir)) (enum_from k rows)) = map strip rows.
Proof.
  intros f rows. induction rows as [|r rows IH]; intros k; cbn [enum_from map]; [reflexivity|].
  now rewrite IH.
Qed.

Lemma vrelabel_strip : forall v nm rows, map strip (vrelabel v nm rows) = map strip rows.
Proof.
  induction v as [|b v IH]; intros nm [|r rows]; cbn [vrelabel map]; try reflexivity.
  rewrite IH. now destruct b.
Qed.
Lemma vrelabel_length : forall v nm rows, length (vrelabel v nm rows) = length rows.
Proof. intros. rewrite <- (map_length strip), vrelabel_strip. apply map_length. Qed.

Lemma combine_relabel_strip_gen {A} (g : A -> name) : forall (xs : list A) rows,
  length xs = length rows -> unmasked rows ->
  map strip (map (fun x => set_mask false (set_plate (g (fst x)) (snd x))) (combine xs rows)) = map strip rows.
Proof.
  induction xs as [|n xs IH]; intros [|r rows] Hl Hu; try discriminate; [reflexivity|].
  cbn [combine map fst snd]. inversion Hu; subst. rewrite IH by (cbn in Hl; auto; lia).
  f_equal. rewrite strip_set_mask_false by (now rewrite set_plate_mask). apply strip_set_plate.
Qed.

Lemma combine_relabel_strip : forall (names : list name) rows,
  length names = length rows -> unmasked rows ->
  map strip (map (fun x => set_mask false (set_plate (fst x) (snd x))) (combine names rows)) = map strip rows.
Proof. intros. now apply (combine_relabel_strip_gen (fun n => n)). Qed.

Definition submulti {A} (a b : list A) : Prop := exists rest, Permutation (a ++ rest) b.

Lemma submulti_refl {A} : forall l : list A, submulti l l.
Proof. intros l. exists []. now rewrite app_nil_r. Qed.
Lemma submulti_trans {A} : forall a b c : list A, submulti a b -> submulti b c -> submulti a c.
Proof.
  intros a b c [r1 H1] [r2 H2]. exists (r1 ++ r2). rewrite app_assoc. rewrite H1. exact H2.
Qed.
Lemma submulti_map {A B} (f : A -> B) : forall a b, submulti a b -> submulti (map f a) (map f b).
Proof. intros a b [r H]. exists (map f r). rewrite <- map_app. now apply Permutation_map. Qed.
Lemma submulti_of_eq {A} : forall a b : list A, a = b -> submulti a b.
Proof. intros a b ->. apply submulti_refl. Qed.
Lemma submulti_In {A} : forall (a b : list A) x, submulti a b -> In x a -> In x b.
Proof. intros a b x [r H] Hx. eapply Permutation_in; [exact H|]. apply in_or_app. now left. Qed.

Lemma filter_partition {A} (f : A -> bool) : forall l,
  Permutation (filter f l ++ filter (fun x => negb (f x)) l) l.
Proof.
  induction l as [|a l IH]; cbn [filter app]; [constructor|].
  destruct (f a); cbn [negb app].
  - now constructor.
  - etransitivity; [symmetry; apply Permutation_middle|]. now constructor.
Qed.

Lemma filter_submulti {A} (f : A -> bool) : forall l, submulti (filter f l) l.
Proof. intros l. eexists. apply filter_partition. Qed.

Lemma vselect_partition {A} : forall (v : bvec) (l : list A), length v = length l ->
  Permutation (vselect (map negb v) l ++ vselect v l) l.
Proof.
  induction v as [|b v IH]; intros [|x l] Hl; try discriminate; cbn [vselect map app]; [constructor|].
  cbn in Hl. destruct b; cbn [negb app].
  - etransitivity; [symmetry; apply Permutation_middle|]. constructor. apply IH. lia.
  - constructor. apply IH. lia.
Qed.

Lemma vselect_submulti {A} : forall (v : bvec) (l : list A), submulti (vselect v l) l.
Proof.
  induction v as [|b v IH]; intros [|x l]; cbn [vselect]; try (exists []; constructor).
  - exists (x :: l). apply Permutation_refl.
  - destruct (IH l) as [r H]. destruct b.
    + exists r. cbn [app]. now constructor.
    + exists (x :: r). etransitivity; [symmetry; apply Permutation_middle|]. now constructor.
Qed.

Lemma unobserved_observed_partition : forall rows, Permutation (unobserved rows ++ observed rows) rows.
Proof.
  intros rows. unfold unobserved, observed.
  etransitivity; [apply Permutation_app_comm|].
  etransitivity; [|apply (filter_partition r_mask rows)]. reflexivity.
Qed.

Lemma filter_vselect {A} (f : A -> bool) : forall l, filter f l = vselect (map f l) l.
Proof.
  induction l as [|a l IH]; cbn [filter map vselect]; [reflexivity|]. destruct (f a); now rewrite IH.
Qed.

Lemma construct_ok : forall rows out, construct rows = Ok out -> out = rows.
Proof. intros rows out. unfold construct. destruct (plate_uniform rows); congruence. Qed.

Lemma is_nil_true {A} : forall l : list A, is_nil l = true <-> l = [].
Proof. intros [|a l]; cbn; split; congruence. Qed.

Lemma wrap_ok : forall f rows ds out ds',
  wrap f rows ds = Ok (out, ds') ->
  (unobserved rows = [] /\ out = rows /\ ds' = ds) \/
  (unobserved rows <> [] /\ exists nu, f (unobserved rows) ds = Ok (nu, ds') /\ out = nu ++ observed rows).
Proof.
  intros f rows ds out ds' H. unfold wrap in H.
  destruct (is_nil (unobserved rows)) eqn:Eu.
  - apply is_nil_true in Eu. left. injection H as <- <-. auto.
  - right. split; [intros E; now rewrite E in Eu|].
    apply res_bind_inv in H as ([nu ds1] & Ef & H).
    destruct (is_nil (observed rows)) eqn:Eo.
    + apply is_nil_true in Eo. injection H as <- <-. exists nu. now rewrite Eo, app_nil_r.
    + apply res_bind_inv in H as (c & ->%construct_ok & [= <- <-]). eauto.
Qed.

(* what the wrapper hands on of a relation [R] between the inner function's output and its (unobserved) input,
   when [R] lets no row through that is not, its label aside, a row of the input *)
Lemma wrap_conserves (R : list row -> list row -> Prop) f :
  R [] [] -> (forall nu u, R nu u -> incl (map strip nu) (map strip u)) ->
  (forall u ds nu ds', unmasked u -> f u ds = Ok (nu, ds') -> R nu u) ->
  forall rows ds out ds', wrap f rows ds = Ok (out, ds') ->
  exists nu, out = nu ++ observed rows /\ unmasked nu /\ R nu (unobserved rows).
Proof.
  intros R0 Rincl Hf rows ds out ds' [(E & -> & _)|(_ & nu & Hnu & ->)]%wrap_ok.
  - exists []. rewrite E. repeat split; [now rewrite observed_all|constructor|exact R0].
  - pose proof (unmasked_unobserved rows) as Hu. apply Hf in Hnu; [|exact Hu].
    exists nu. repeat split; [|exact Hnu]. eapply unmasked_incl_strip; [apply Rincl, Hnu|exact Hu].
Qed.

Lemma unobserved_unmasked : forall rows, unmasked rows -> unobserved rows = rows /\ observed rows = [].
Proof.
  induction rows as [|r rows IH]; intros H; [split; reflexivity|].
  inversion H as [|? ? Hr Hrest]; subst. destruct (IH Hrest) as [H1 H2].
  cbn [unobserved observed filter]. rewrite Hr. cbn [negb]. split; [f_equal; exact H1|exact H2].
Qed.

(* on a fully unobserved screen the wrapper is the inner function (or the identity on the empty screen) *)
Lemma wrap_unmasked : forall f rows ds out ds',
  unmasked rows -> wrap f rows ds = Ok (out, ds') ->
  (rows = [] /\ out = [] /\ ds' = ds) \/ (rows <> [] /\ f rows ds = Ok (out, ds')).
Proof.
  intros f rows ds out ds' Hu H. destruct (unobserved_unmasked rows Hu) as [H1 H2].
  apply wrap_ok in H. rewrite H1, H2 in H. destruct H as [(E & -> & ->)|(Hne & nu & Hf & ->)].
  - left. subst. auto.
  - right. rewrite app_nil_r. auto.
Qed.
