(* C13: FixedSize / OptimalSize smoothing leave only plates of one common size (under numpy's
   choice contract). *)
From Coq Require Import ZArith List Lia.
From Batchie Require Import Lib.Sexp Proofs.PyRtLemmas Model.Encode Model.Screen Model.Retro Proofs.C11Lib Proofs.C11Gen Proofs.C11Smooth Proofs.C11Select Proofs.C11Holdout.
Import ListNotations.
Open Scope nat_scope.

Definition psize (p : name) (rows : list row) : Z := Z.of_nat (plate_count p rows).
(* plates larger than the target, in plate order: one rng.choice each *)
Definition big_plates (t : Z) (rows : list row) : list name :=
  filter (fun p => (t <? psize p rows)%Z) (plate_names_of rows).
(* numpy: rng.choice(plate_indices, t, replace=False) answers t distinct indices of the plate *)
Definition size_contract (t : Z) (rows : list row) (ds : list draw) : Prop :=
  Forall2 (fun q d => exists idx, d = DInts idx /\ NoDup idx /\ incl idx (idx_where (in_plate q) rows)
                                  /\ Z.of_nat (length idx) = t)
          (big_plates t rows) (firstn (length (big_plates t rows)) ds).

Lemma psize_vcount : forall p rows, Z.of_nat (vcount (plate_vec p rows)) = psize p rows.
Proof. intros. unfold psize, plate_count, plate_vec. now rewrite vcount_map. Qed.

Lemma size_results_spec : forall t rows plates ds K0 vs ds',
  size_results t (length rows) rows plates ds = Ok (vs, ds') ->
  exists assoc bigs : list (name * list nat),
    fold_left vor vs (vof_idx (length rows) K0) = vof_idx (length rows) (K0 ++ concat (map snd assoc)) /\
    map fst assoc = filter (fun p => (t <=? psize p rows)%Z) plates /\
    map fst bigs = filter (fun p => (t <? psize p rows)%Z) plates /\
    ds = map (fun qd => DInts (snd qd)) bigs ++ ds' /\
    forall q d, In (q, d) assoc ->
      (psize q rows = t /\ d = idx_where (in_plate q) rows) \/ ((t < psize q rows)%Z /\ In (q, d) bigs).
Proof.
  intros t rows plates. induction plates as [|p plates IH]; intros ds K0 vs ds' H; cbn [size_results] in H.
  - inversion H; subst. exists [], []. cbn. rewrite app_nil_r. repeat split; auto. intros q d [].
  - rewrite psize_vcount in H. cbn [filter].
    destruct (psize p rows <? t)%Z eqn:E1.
    + apply Z.ltb_lt in E1.
      replace (t <=? psize p rows)%Z with false by (symmetry; apply Z.leb_gt; lia).
      replace (t <? psize p rows)%Z with false by (symmetry; apply Z.ltb_ge; lia).
      now apply IH.
    + apply Z.ltb_ge in E1. destruct (psize p rows =? t)%Z eqn:E2.
      * apply Z.eqb_eq in E2.
        replace (t <=? psize p rows)%Z with true by (symmetry; apply Z.leb_le; lia).
        replace (t <? psize p rows)%Z with false by (symmetry; apply Z.ltb_ge; lia).
        apply res_bind_inv in H as ([vs1 ds1] & Er & H); cbn beta iota in H.
        inversion H; subst vs ds1. cbn [fold_left]. rewrite plate_vec_vof, vor_vof_idx.
        apply (IH ds (K0 ++ idx_where (in_plate p) rows)) in Er as (assoc & bigs & Hs & Hf & Hb & Hd & Hq).
        exists ((p, idx_where (in_plate p) rows) :: assoc), bigs. cbn [map fst snd concat].
        rewrite <- app_assoc in Hs. repeat split; auto.
        -- now rewrite Hf.
        -- intros q d [E|Hin]; [inversion E; subst; left; auto|now apply Hq].
      * apply Z.eqb_neq in E2.
        replace (t <=? psize p rows)%Z with true by (symmetry; apply Z.leb_le; lia).
        replace (t <? psize p rows)%Z with true by (symmetry; apply Z.ltb_lt; lia).
        destruct (t <? 0)%Z; [discriminate|].
        apply res_bind_inv in H as ([idx ds1] & Et & H); cbn beta iota in H.
        apply take_ints_ok in Et. subst ds.
        apply res_bind_inv in H as ([vs1 ds2] & Er & H); cbn beta iota in H.
        inversion H; subst vs ds2. cbn [fold_left]. rewrite vor_vof_idx.
        apply (IH ds1 (K0 ++ idx)) in Er as (assoc & bigs & Hs & Hf & Hb & Hd & Hq).
        exists ((p, idx) :: assoc), ((p, idx) :: bigs). cbn [map fst snd concat app].
        rewrite <- app_assoc in Hs. repeat split; auto.
        -- now rewrite Hf.
        -- now rewrite Hb.
        -- now rewrite Hd.
        -- intros q d [E|Hin].
           ++ inversion E; subst. right. split; [lia|now left].
           ++ destruct (Hq _ _ Hin) as [Hl|[Hl Hr]]; [now left|right; split; [exact Hl|now right]].
Qed.

Theorem size_smooth_counts : forall t rows ds out ds',
  size_smooth t rows ds = Ok (out, ds') -> size_contract t rows ds ->
  forall p, In p (plate_names_of rows) ->
    Z.of_nat (plate_count p out) = if (t <=? psize p rows)%Z then t else 0%Z.
Proof.
  intros t rows ds out ds' H HC p Hp. unfold size_smooth in H.
  apply res_bind_inv in H as ([vs ds1] & Er & H); cbn beta iota in H.
  inversion H; subst out ds1. clear H. rewrite repeat_false_vof_idx.
  apply (size_results_spec t rows _ ds []) in Er as (assoc & bigs & Hs & Hf & Hb & Hd & Hq).
  rewrite Hs. cbn [app].
  assert (Hbig : forall q d, In (q, d) bigs ->
            NoDup d /\ incl d (idx_where (in_plate q) rows) /\ Z.of_nat (length d) = t).
  { unfold size_contract, big_plates in HC. rewrite <- Hb, map_length in HC.
    rewrite Hd, firstn_app, map_length, Nat.sub_diag, firstn_O, app_nil_r in HC.
    rewrite firstn_all2 in HC by (rewrite map_length; lia).
    intros q d Hin. destruct (Forall2_map_assoc _ _ _ HC q d Hin) as (idx & E & Hnd & Hincl & Hl).
    cbn in E. inversion E; subst. auto. }
  assert (Hok : plate_assoc_ok rows assoc).
  { split.
    - rewrite Hf. apply NoDup_filter, NoDup_sort_uniq.
    - intros q d Hin. destruct (Hq _ _ Hin) as [[_ ->]|[_ Hin']].
      + split; [apply NoDup_idx_where|apply incl_refl].
      + destruct (Hbig _ _ Hin') as (H1 & H2 & _). auto. }
  change (plate_count p (vselect (vof_idx (length rows) (concat (map snd assoc))) rows))
    with (sel_count (concat (map snd assoc)) (in_plate p) rows).
  destruct (t <=? psize p rows)%Z eqn:E.
  - assert (Hin : In p (map fst assoc)) by (rewrite Hf; apply filter_In; auto).
    apply in_map_iff in Hin as ([q d] & Eq & Hin). cbn in Eq. subst q.
    rewrite (proj1 (sel_count_assoc rows assoc p Hok) d Hin).
    destruct (Hq _ _ Hin) as [[Hsz ->]|[_ Hin']].
    + rewrite idx_where_length. exact Hsz.
    + now destruct (Hbig _ _ Hin') as (_ & _ & Hl).
  - rewrite (proj2 (sel_count_assoc rows assoc p Hok)); [reflexivity|].
    rewrite Hf. intros Hin. apply filter_In in Hin as [_ Hin]. congruence.
Qed.

Lemma plate_count_pos : forall p rows, In p (plate_names_of rows) -> 0 < plate_count p rows.
Proof.
  intros p rows H. apply In_plate_names_of in H as (r & Hr & Hp). unfold plate_count.
  assert (Hin : In r (filter (in_plate p) rows)) by (apply filter_In; split; [exact Hr|now apply in_plate_true]).
  destruct (filter (in_plate p) rows); [contradiction|cbn; lia].
Qed.

(* every plate left has exactly t experiments *)
Theorem fixed_size_common : forall t rows ds out ds',
  size_smooth t rows ds = Ok (out, ds') -> size_contract t rows ds ->
  forall p, In p (plate_names_of out) -> Z.of_nat (plate_count p out) = t.
Proof.
  intros t rows ds out ds' H HC p Hp.
  assert (Hp' : In p (plate_names_of rows)).
  { destruct (size_smooth_selects _ _ _ _ _ H) as [v ->].
    apply In_plate_names_of in Hp as (r & Hr & Hpl). apply In_plate_names_of. exists r. split; [|exact Hpl].
    eapply submulti_In; [apply vselect_submulti|eassumption]. }
  pose proof (size_smooth_counts _ _ _ _ _ H HC p Hp') as Hc.
  pose proof (plate_count_pos p out Hp) as Hpos.
  destruct (t <=? psize p rows)%Z; [exact Hc|lia].
Qed.

Theorem optimal_size_common : forall rows ds out ds',
  optimal_smooth rows ds = Ok (out, ds') ->
  size_contract (Z.of_nat (optimal_size (plate_sizes rows))) rows ds ->
  (forall p, In p (plate_names_of out) -> plate_count p out = optimal_size (plate_sizes rows)) /\
  (forall p, In p (plate_names_of rows) ->
     plate_count p out = if optimal_size (plate_sizes rows) <=? plate_count p rows
                         then optimal_size (plate_sizes rows) else 0).
Proof.
  intros rows ds out ds' H HC. unfold optimal_smooth in H. destruct (is_nil rows); [discriminate|]. split.
  - intros p Hp. pose proof (fixed_size_common _ _ _ _ _ H HC p Hp). lia.
  - intros p Hp. pose proof (size_smooth_counts _ _ _ _ _ H HC p Hp) as Hc. unfold psize in Hc.
    destruct (optimal_size (plate_sizes rows) <=? plate_count p rows) eqn:E.
    + apply Nat.leb_le in E.
      replace (Z.of_nat (optimal_size (plate_sizes rows)) <=? Z.of_nat (plate_count p rows))%Z with true in Hc
        by (symmetry; apply Z.leb_le; lia). lia.
    + apply Nat.leb_gt in E.
      replace (Z.of_nat (optimal_size (plate_sizes rows)) <=? Z.of_nat (plate_count p rows))%Z with false in Hc
        by (symmetry; apply Z.leb_gt; lia). lia.
Qed.

Lemma plate_sizes_counts : forall rows, plate_sizes rows = map (fun p => plate_count p rows) (plate_names_of rows).
Proof.
  intros rows. unfold plate_sizes. apply map_ext. intros p. unfold plate_vec, plate_count. apply vcount_map.
Qed.
