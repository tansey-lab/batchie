(* C14: what each constructor and operation of Model/Views.v returns when it succeeds, and when it is refused: mk_view, subset,
   combine, invert, concat, subset_observed / unobserved, get_plate / plates, to_screen. *)
From Coq Require Import ZArith List Bool Lia Sorted.
From Batchie Require Import Lib.Sexp Lib.ListX Model.Encode Model.Screen Model.Views
  Proofs.C14Defs Proofs.C14Lists Proofs.C14Unique.
From Batchie Require Proofs.C01Sort Proofs.C01Props Proofs.C03Screen.
Import ListNotations.
Open Scope nat_scope.

Lemma mk_view_inv tag p isb sel v : mk_view tag p isb sel = Ok v ->
  isb = true /\ length sel = screen_size p /\ v = {| v_tag := tag; v_parent := p; v_sel := sel |}.
Proof.
  unfold mk_view. destruct isb; cbn [negb]; [|discriminate].
  destruct (Nat.eqb_spec (length sel) (screen_size p)) as [E|E]; cbn [negb]; [|discriminate].
  now intros [= <-].
Qed.

Lemma mk_view_ok tag p sel : length sel = screen_size p ->
  mk_view tag p true sel = Ok {| v_tag := tag; v_parent := p; v_sel := sel |}.
Proof. intros H. unfold mk_view. cbn [negb]. rewrite H, Nat.eqb_refl. reflexivity. Qed.

Lemma mk_view_bad_length tag p isb sel v : length sel <> screen_size p -> mk_view tag p isb sel <> Ok v.
Proof. intros H E. apply mk_view_inv in E. tauto. Qed.

(* Screen.subset repeats the two checks of the constructor it then calls *)
Lemma screen_subset_mk_view tag p isb sel : screen_subset tag p isb sel = mk_view tag p isb sel.
Proof.
  unfold screen_subset, mk_view. destruct (negb isb); [reflexivity|].
  now destruct (negb (length sel =? screen_size p)).
Qed.

Lemma screen_subset_ok tag p sel : length sel = screen_size p ->
  screen_subset tag p true sel = Ok {| v_tag := tag; v_parent := p; v_sel := sel |}.
Proof. rewrite screen_subset_mk_view. apply mk_view_ok. Qed.

Lemma encode_names_length names ex tag ids m : encode_names names ex tag = Ok (ids, m) -> length ids = length names.
Proof.
  unfold encode_names. destruct (opt_map_all _ names) eqn:E; [|discriminate].
  intros [= <- _]. now apply opt_map_all_length in E.
Qed.

Lemma unflatten_cols_wf arity n flat :
  length (unflatten_cols arity n flat) = n /\ Forall (fun t => length t = arity) (unflatten_cols arity n flat).
Proof.
  unfold unflatten_cols. split; [now rewrite map_length, seq_length|].
  apply Forall_forall. intros t Ht. apply in_map_iff in Ht. destruct Ht as (j & <- & _).
  now rewrite map_length, seq_length.
Qed.

Lemma mk_screen_wf rows ar ctrl tm sm og mg s : mk_screen rows ar ctrl tm sm og mg = Ok s -> screen_wf s.
Proof.
  intros H. pose proof (C01Props.mk_screen_spec H) as S. unfold screen_wf, screen_size.
  rewrite (C01Props.ms_tids S), (C01Props.ms_sids S), (C01Props.ms_pids S), !map_length.
  repeat split. apply Forall_map.
  eapply Forall_impl; [|exact (C01Props.ms_lens S)]. cbn. intros r Hr. now rewrite map_length.
Qed.

Lemma mk_screen_rows rows ar ctrl s : mk_screen rows ar ctrl None None true true = Ok s ->
  s_rows s = rows /\ s_arity s = ar /\ s_ctrl s = ctrl.
Proof.
  intros H. destruct (C03Screen.mk_screen_inv H) as [tflat B].
  exact (conj (C03Screen.b_rows B) (conj (C03Screen.b_ar B) (C03Screen.b_ctrl B))).
Qed.

Lemma view_size_where v : view_ok v -> view_size v = length (np_where (v_sel v)).
Proof. intros H. unfold view_size, view_tids. now apply select_length. Qed.

Lemma view_subset_eq v isb inner : view_ok v ->
  view_subset v isb inner =
  if negb isb then Err 21%Z
  else if negb (length inner =? view_size v) then Err 22%Z
  else Ok {| v_tag := v_tag v; v_parent := v_parent v; v_sel := expand (v_sel v) inner |}.
Proof.
  intros Hok. unfold view_subset. rewrite scatter_where, mk_view_ok; [reflexivity|].
  rewrite expand_length. exact Hok.
Qed.

Lemma view_subset_ok v inner : view_ok v -> length inner = view_size v ->
  view_subset v true inner = Ok {| v_tag := v_tag v; v_parent := v_parent v; v_sel := expand (v_sel v) inner |}.
Proof. intros Hok HL. rewrite view_subset_eq, HL, Nat.eqb_refl by exact Hok. reflexivity. Qed.

Lemma subset_compose v isb inner v' : view_ok v -> view_subset v isb inner = Ok v' ->
  v_tag v' = v_tag v /\ v_parent v' = v_parent v /\ view_ok v' /\
  np_where (v_sel v') = select inner (np_where (v_sel v)) /\
  forall A (col : list A), length col = length (v_sel v) ->
    select (v_sel v') col = select inner (select (v_sel v) col).
Proof.
  intros Hok. rewrite view_subset_eq by exact Hok. destruct isb; [|discriminate].
  destruct (Nat.eqb_spec (length inner) (view_size v)) as [HL|]; [|discriminate].
  intros [= <-]. cbn [v_tag v_parent v_sel]. rewrite view_size_where in HL by exact Hok.
  repeat split.
  - unfold view_ok. cbn [v_sel v_parent]. rewrite expand_length. exact Hok.
  - now apply where_expand.
  - intros A col Hc. apply select_expand. rewrite select_length by now symmetry. exact HL.
Qed.

Lemma subset_refused v isb inner :
  (isb = false -> view_subset v isb inner = Err 21%Z) /\
  (isb = true -> length inner <> view_size v -> view_subset v isb inner = Err 22%Z).
Proof.
  unfold view_subset. split.
  - now intros ->.
  - intros -> H. cbn [negb]. destruct (Nat.eqb_spec (length inner) (view_size v)); [contradiction|reflexivity].
Qed.

Lemma view_combine_inv a b c : view_combine a b = Ok c ->
  v_tag b = v_tag a /\ length (bor_vec (v_sel a) (v_sel b)) = screen_size (v_parent a) /\
  c = {| v_tag := v_tag a; v_parent := v_parent a; v_sel := bor_vec (v_sel a) (v_sel b) |}.
Proof.
  unfold view_combine. destruct (Z.eqb_spec (v_tag b) (v_tag a)) as [E|E]; cbn [negb]; [|discriminate].
  intros H. apply mk_view_inv in H. tauto.
Qed.

Lemma combine_union a b c : view_ok a -> view_ok b -> v_parent b = v_parent a -> view_combine a b = Ok c ->
  v_tag c = v_tag a /\ v_parent c = v_parent a /\ view_ok c /\
  forall i, nth i (v_sel c) false = nth i (v_sel a) false || nth i (v_sel b) false.
Proof.
  intros Ha Hb Hp H. apply view_combine_inv in H. destruct H as (_ & HL & ->). cbn [v_tag v_parent v_sel].
  repeat split; [exact HL|]. intros i. apply nth_bor_vec. unfold view_ok in *. congruence.
Qed.

Lemma combine_total a b : view_ok a -> view_ok b -> v_parent b = v_parent a -> v_tag b = v_tag a ->
  exists c, view_combine a b = Ok c.
Proof.
  intros Ha Hb Hp Ht. unfold view_combine. rewrite Ht, Z.eqb_refl. cbn [negb].
  eexists. apply mk_view_ok. rewrite bor_vec_length; [exact Ha|]. unfold view_ok in *. congruence.
Qed.

Lemma combine_different_parent a b : v_tag a <> v_tag b -> view_combine a b = Err 23%Z.
Proof.
  intros H. unfold view_combine. destruct (Z.eqb_spec (v_tag b) (v_tag a)) as [E|E]; [congruence|reflexivity].
Qed.

Lemma invert_complement v : view_ok v ->
  exists v', view_invert v = Ok v' /\ v_tag v' = v_tag v /\ v_parent v' = v_parent v /\ view_ok v' /\
    forall i, i < length (v_sel v) -> nth i (v_sel v') false = negb (nth i (v_sel v) false).
Proof.
  intros H. eexists. split; [apply mk_view_ok; now rewrite map_length|]. cbn [v_tag v_parent v_sel].
  repeat split; [unfold view_ok; cbn; now rewrite map_length|]. intros i Hi. now apply nth_map_negb.
Qed.

Lemma view_invert_inv v v' : view_invert v = Ok v' ->
  v' = {| v_tag := v_tag v; v_parent := v_parent v; v_sel := map negb (v_sel v) |}.
Proof. intros H. apply mk_view_inv in H. tauto. Qed.

Lemma concat_loop_spec tag0 n acc vs s :
  length acc = n ->
  Forall (fun v => v_tag v = tag0 -> length (v_sel v) = n) vs ->
  concat_loop tag0 (Some acc) vs = Ok (Some s) ->
  length s = n /\ Forall (fun v => v_tag v = tag0) vs /\
  forall i, nth i s false = nth i acc false || existsb (fun v => nth i (v_sel v) false) vs.
Proof.
  revert acc; induction vs as [|v r IH]; intros acc HL HF; cbn [concat_loop existsb].
  - intros [= <-]. repeat split; [exact HL|constructor|]. intros i. now rewrite orb_false_r.
  - destruct (Z.eqb_spec (v_tag v) tag0) as [E|E]; cbn [negb]; [|discriminate].
    inversion HF as [|? ? Hv HF']; subst. specialize (Hv eq_refl).
    intros H. apply IH in H; [|now rewrite bor_vec_length|exact HF'].
    destruct H as (H1 & H2 & H3). repeat split; [exact H1|now constructor|].
    intros i. rewrite H3, nth_bor_vec by congruence. now rewrite orb_assoc.
Qed.

Lemma concat_loop_head v0 vs :
  concat_loop (v_tag v0) None (v0 :: vs) = concat_loop (v_tag v0) (Some (v_sel v0)) vs.
Proof. cbn [concat_loop]. now rewrite Z.eqb_refl. Qed.

(* views carrying the first one's tag have the first one's length: all that union needs *)
Lemma concat_union_gen v0 vs c :
  Forall (fun v => v_tag v = v_tag v0 -> length (v_sel v) = length (v_sel v0)) vs ->
  view_concat (v0 :: vs) = Ok c ->
  v_tag c = v_tag v0 /\ v_parent c = v_parent v0 /\ length (v_sel c) = length (v_sel v0) /\
  Forall (fun v => v_tag v = v_tag v0) vs /\
  forall i, nth i (v_sel c) false = existsb (fun v => nth i (v_sel v) false) (v0 :: vs).
Proof.
  intros HF. destruct vs as [|v1 r]; cbn [view_concat].
  - intros [= <-]. repeat split; [constructor|]. intros i. cbn [existsb]. now rewrite orb_false_r.
  - rewrite concat_loop_head.
    destruct (concat_loop (v_tag v0) (Some (v_sel v0)) (v1 :: r)) as [[s|]|] eqn:E; cbn [res_bind]; try discriminate.
    apply (concat_loop_spec _ _ _ _ _ eq_refl HF) in E. destruct E as (H1 & H2 & H3).
    intros H. apply mk_view_inv in H. destruct H as (_ & _ & ->). cbn [v_tag v_parent v_sel].
    repeat split; [exact H1|exact H2|]. intros i. rewrite H3. reflexivity.
Qed.

Lemma concat_union p vs c :
  Forall (fun v => v_parent v = p /\ view_ok v) vs -> view_concat vs = Ok c ->
  v_parent c = p /\ view_ok c /\ Forall (fun v => v_tag v = v_tag c) vs /\
  forall i, nth i (v_sel c) false = existsb (fun v => nth i (v_sel v) false) vs.
Proof.
  intros HF. destruct vs as [|v0 r]; [discriminate|].
  inversion HF as [|? ? [Hp0 Hv0] HF']; subst. intros H.
  apply concat_union_gen in H.
  - destruct H as (Ht & Hp & HL & HT & Hi). repeat split; [exact Hp| |constructor|exact Hi].
    + unfold view_ok in *. congruence.
    + now symmetry.
    + eapply Forall_impl; [|exact HT]. cbn. intros v Hv. congruence.
  - eapply Forall_impl; [|exact HF']. cbn. intros v [Hp Hv] _. unfold view_ok in *. congruence.
Qed.

Lemma concat_empty : view_concat [] = Err 24%Z.
Proof. reflexivity. Qed.

Lemma concat_single v : view_concat [v] = Ok v.
Proof. reflexivity. Qed.

Lemma concat_loop_refuses tag0 acc vs :
  Exists (fun v => v_tag v <> tag0) vs -> concat_loop tag0 acc vs = Err 23%Z.
Proof.
  revert acc; induction vs as [|v r IH]; intros acc H; [inversion H|]. cbn [concat_loop].
  destruct (Z.eqb_spec (v_tag v) tag0) as [E|E]; cbn [negb]; [|reflexivity].
  inversion H as [? ? H0|? ? H0]; subst; [contradiction|]. now apply IH.
Qed.

Lemma concat_different_parent v0 vs :
  Exists (fun v => v_tag v <> v_tag v0) vs -> view_concat (v0 :: vs) = Err 23%Z.
Proof.
  intros H. destruct vs as [|v1 r]; [inversion H|]. cbn [view_concat].
  rewrite concat_loop_head. now rewrite concat_loop_refuses.
Qed.

Lemma nth_screen_mask p i : nth i (screen_mask p) false = row_observed p i.
Proof. unfold screen_mask, row_observed. apply nth_map_error. Qed.

Lemma existsb_id_false l : existsb (fun b : bool => b) l = false <-> forall i, nth i l false = false.
Proof.
  induction l as [|b l IH]; cbn [existsb].
  - split; [intros _ [|i]; reflexivity|reflexivity].
  - rewrite orb_false_iff, IH. split.
    + intros [-> H] [|i]; [reflexivity|apply H].
    + intros H. split; [apply (H 0)|intros i; apply (H (S i))].
Qed.

Lemma observed_split tag p : screen_wf p ->
  let n := screen_size p in
  (subset_observed tag p = None <-> forall i, row_observed p i = false) /\
  (subset_unobserved tag p = None <-> forall i, i < n -> row_observed p i = true) /\
  (forall r, subset_observed tag p = Some r ->
     exists v, r = Ok v /\ v_tag v = tag /\ v_parent v = p /\ view_ok v /\
       (forall i, nth i (v_sel v) false = row_observed p i) /\ Forall (fun b => b = true) (view_mask v)) /\
  (forall r, subset_unobserved tag p = Some r ->
     exists v, r = Ok v /\ v_tag v = tag /\ v_parent v = p /\ view_ok v /\
       (forall i, i < n -> nth i (v_sel v) false = negb (row_observed p i)) /\ Forall (fun b => b = false) (view_mask v)).
Proof.
  intros (_ & _ & HR & _) n.
  assert (HL : length (screen_mask p) = n) by (unfold screen_mask; now rewrite map_length).
  unfold subset_observed, subset_unobserved. rewrite !screen_subset_ok by now rewrite ?map_length.
  split; [|split; [|split]].
  - transitivity (existsb (fun b => b) (screen_mask p) = false); [now destruct (existsb _ _)|].
    rewrite existsb_id_false. now setoid_rewrite nth_screen_mask.
  - transitivity (existsb (fun b => b) (map negb (screen_mask p)) = false); [now destruct (existsb _ _)|].
    rewrite existsb_id_false. split.
    + intros H i Hi. specialize (H i). rewrite nth_map_negb, nth_screen_mask in H by lia.
      now destruct (row_observed p i).
    + intros H i. destruct (Nat.lt_ge_cases i n) as [Hi|Hi]; [|apply nth_overflow; rewrite map_length; lia].
      rewrite nth_map_negb, nth_screen_mask, H by lia. reflexivity.
  - intros r. destruct (existsb _ _); [|discriminate]. intros [= <-].
    eexists. split; [reflexivity|]. cbn [v_tag v_parent v_sel].
    repeat split; [exact HL|apply nth_screen_mask|].
    (* the mask column selected by itself *)
    unfold view_mask. cbn [v_sel v_parent]. fold (screen_mask p).
    rewrite <- (map_id (screen_mask p)) at 1. rewrite select_map_filter.
    apply Forall_forall. intros b Hb. now apply filter_In in Hb.
  - intros r. destruct (existsb _ _); [|discriminate]. intros [= <-].
    eexists. split; [reflexivity|]. cbn [v_tag v_parent v_sel].
    repeat split; [unfold view_ok; cbn; now rewrite map_length| |].
    + intros i Hi. rewrite nth_map_negb by lia. now rewrite nth_screen_mask.
    + unfold view_mask. cbn [v_sel v_parent]. fold (screen_mask p). rewrite select_map_filter.
      apply Forall_forall. intros b Hb. apply filter_In in Hb. now destruct b.
Qed.

Lemma get_plate_spec tag p pid : screen_wf p ->
  exists v, get_plate tag p pid = Ok v /\ v_tag v = tag /\ v_parent v = p /\ view_ok v /\
    forall i, nth i (v_sel v) false = row_on_plate p pid i.
Proof.
  intros (_ & HP & _). eexists. split; [apply mk_view_ok; now rewrite map_length|]. cbn [v_tag v_parent v_sel].
  repeat split; [unfold view_ok; cbn; now rewrite map_length|].
  intros i. unfold row_on_plate. apply (nth_map_error (fun x => (x =? pid)%Z)).
Qed.

Lemma plates_spec tag p : screen_wf p ->
  plates tag p = Ok (map (fun pid => {| v_tag := tag; v_parent := p; v_sel := map (fun x => (x =? pid)%Z) (s_pids p) |})
                         (sort_uniq Z.compare (s_pids p))).
Proof.
  intros (_ & HP & _). unfold plates. apply res_map_all_ok. intros pid _. apply mk_view_ok. now rewrite map_length.
Qed.

Lemma plates_partition tag p vs : screen_wf p -> plates tag p = Ok vs ->
  let ids := sort_uniq Z.compare (s_pids p) in
  StronglySorted Z.lt ids /\ NoDup ids /\ (forall x, In x ids <-> In x (s_pids p)) /\
  length vs = length ids /\
  (forall j, j < length ids ->
     v_tag (nth j vs (Build_view 0 p [])) = tag /\ v_parent (nth j vs (Build_view 0 p [])) = p /\
     view_ok (nth j vs (Build_view 0 p [])) /\
     forall i, nth i (v_sel (nth j vs (Build_view 0 p []))) false = row_on_plate p (nth j ids 0%Z) i) /\
  (forall i, i < screen_size p -> exists j, j < length ids /\ row_on_plate p (nth j ids 0%Z) i = true /\
     forall j', j' < length ids -> row_on_plate p (nth j' ids 0%Z) i = true -> j' = j).
Proof.
  intros Hwf H ids. rewrite plates_spec in H by exact Hwf. injection H as <-. fold ids.
  destruct Hwf as (_ & HP & _).
  assert (Hn : NoDup ids) by apply (C01Sort.sort_uniq_NoDup Z.compare C01Sort.Zcmp_spec).
  assert (Hin : forall x, In x ids <-> In x (s_pids p)) by apply (C01Sort.sort_uniq_In Z.compare C01Sort.Zcmp_spec).
  split; [exact (C01Sort.sort_uniq_sorted Z.compare C01Sort.Zcmp_spec (s_pids p))|].
  split; [exact Hn|]. split; [exact Hin|]. split; [apply map_length|]. split.
  - intros j Hj. rewrite (nth_map_lt _ _ _ 0%Z) by exact Hj. cbn [v_tag v_parent v_sel].
    repeat split; [unfold view_ok; cbn; now rewrite map_length|].
    intros i. unfold row_on_plate. apply (nth_map_error (fun x => (x =? nth j ids 0%Z)%Z)).
  - intros i Hi. rewrite <- HP in Hi.
    destruct (nth_error (s_pids p) i) as [x|] eqn:E; [|apply nth_error_None in E; lia].
    assert (Hx : In x ids) by (apply Hin; eapply nth_error_In; eassumption).
    destruct (In_nth _ _ 0%Z Hx) as (j & Hj & Ej). exists j. unfold row_on_plate. rewrite E.
    repeat split; [exact Hj|now apply Z.eqb_eq|].
    intros j' Hj' E'. apply Z.eqb_eq in E'.
    apply (proj1 (NoDup_nth ids 0%Z) Hn); [exact Hj'|exact Hj|]. rewrite Ej. now symmetry.
Qed.

Lemma to_screen_rows v s : to_screen v = Ok s ->
  s_rows s = view_rows v /\ s_arity s = s_arity (v_parent v) /\ s_ctrl s = s_ctrl (v_parent v) /\ screen_wf s.
Proof.
  intros H. pose proof (mk_screen_wf _ _ _ _ _ _ _ _ H) as Hwf. apply mk_screen_rows in H. tauto.
Qed.
