(* C18 - the mirror image of the frame theorem (Proofs/C18RandProg.v `frame`): a randomised step whose requests are ALL
   served from the process-global component - what the variational grid model's training does (set_rng stores the generator
   made from the seed, nothing ever reads it; numpy.random.choice, torch.randperm and pyro's sample statements draw from the
   global numpy / torch generators) - is a function of the global state alone: the generator it was given is returned
   untouched and has NO influence on output, requests or answers.  Together with `global_draws_refuted` this is why such a
   step violates the property for every seed: the seed is not an input of it at all.  G is any type, e.g. the pair
   (numpy global state, torch global state). *)
From Batchie Require Import Model.RandProg Proofs.C18RandProg.

Lemma global_only_frame :
  forall (Req Ans Out S G : Type) (ggen : G -> Req -> Ans * G) (wstep : S * G -> Req -> Ans * (S * G))
         (p : prog Req Ans Out),
  (forall s g r, wstep (s, g) r = (fst (ggen g r), (s, snd (ggen g r)))) ->
  forall s g,
    o_out (exec wstep p (s, g)) = o_out (exec ggen p g)
    /\ o_reqs (exec wstep p (s, g)) = o_reqs (exec ggen p g)
    /\ o_answers (exec wstep p (s, g)) = o_answers (exec ggen p g)
    /\ o_final (exec wstep p (s, g)) = (s, o_final (exec ggen p g)).
Proof.
  intros Req Ans Out S G ggen wstep p Hglob s g.
  apply (exec_simulation Out G (S * G) ggen wstep (fun w g' => w = (s, g'))); [| reflexivity].
  intros w g' r ->. rewrite Hglob. split; reflexivity.
Qed.

Lemma from_global_is_global : forall (Req Ans S G : Type) (ggen : G -> Req -> Ans * G) (s : S) (g : G) r,
  from_global ggen (s, g) r = (fst (ggen g r), (s, snd (ggen g r))).
Proof. reflexivity. Qed.

(* the given generator (the seed) is irrelevant: two runs with DIFFERENT own states and the same global state agree *)
Lemma given_generator_unread :
  forall (Req Ans Out S G : Type) (ggen : G -> Req -> Ans * G) (p : prog Req Ans Out) (s1 s2 : S) (g : G),
    o_out (exec (from_global ggen) p (s1, g)) = o_out (exec (from_global ggen) p (s2, g))
    /\ o_reqs (exec (from_global ggen) p (s1, g)) = o_reqs (exec (from_global ggen) p (s2, g))
    /\ o_answers (exec (from_global ggen) p (s1, g)) = o_answers (exec (from_global ggen) p (s2, g))
    /\ fst (o_final (exec (from_global ggen) p (s1, g))) = s1
    /\ snd (o_final (exec (from_global ggen) p (s1, g))) = snd (o_final (exec (from_global ggen) p (s2, g))).
Proof.
  intros Req Ans Out S G ggen p s1 s2 g.
  destruct (global_only_frame Req Ans Out S G ggen (from_global ggen) p (from_global_is_global Req Ans S G ggen) s1 g) as (A1 & A2 & A3 & A4).
  destruct (global_only_frame Req Ans Out S G ggen (from_global ggen) p (from_global_is_global Req Ans S G ggen) s2 g) as (B1 & B2 & B3 & B4).
  rewrite A1, A2, A3, A4, B1, B2, B3, B4. cbn [fst snd]. repeat split; reflexivity.
Qed.

(* the reading behind the harness's observation "modulo the known leak": a run is a function of its world, so with the
   global component equal at the start of both runs (same seeds for numpy / torch / every unseeded construction) the runs
   are equal; nothing about [from_global] is used *)
Lemma global_only_repeatable_from_equal_global :
  forall (Req Ans Out S G : Type) (ggen : G -> Req -> Ans * G) (p : prog Req Ans Out) (s : S) (g1 g2 : G),
    g1 = g2 -> exec (from_global ggen) p (s, g1) = exec (from_global ggen) p (s, g2).
Proof. intros; subst; reflexivity. Qed.
