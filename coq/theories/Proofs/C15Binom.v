(* C15: facts about the binomial coefficient (Pascal recursion on nat, lifted to Z):
   vanishing, positivity, monotonicity, and the two absorption identities
     (k+1) C(n+1,k+1) = (n+1) C(n,k)            [mathcomp: mul_bin_diag]
     (n-k) C(n,k)     = (k+1) C(n,k+1)          [mathcomp: mul_bin_left]
   that make every // of the implementation exact. *)
From Coq Require Import ZArith List Lia Arith.
From Batchie Require Import Model.Unrank Model.Binom.
Import ListNotations.

Lemma binom_0_r : forall n, binom n 0 = 1%nat.
Proof. destruct n; reflexivity. Qed.

Lemma binom_0_l : forall k, binom 0 (S k) = 0%nat.
Proof. reflexivity. Qed.

Lemma binom_SS : forall n k, binom (S n) (S k) = (binom n k + binom n (S k))%nat.
Proof. reflexivity. Qed.

Lemma binom_lt : forall n k, (n < k)%nat -> binom n k = 0%nat.
Proof.
  induction n as [|n IH]; intros k Hk.
  - destruct k; [lia | reflexivity].
  - destruct k as [|k]; [lia|]. rewrite binom_SS, !IH by lia. reflexivity.
Qed.

Lemma binom_pos : forall n k, (k <= n)%nat -> (0 < binom n k)%nat.
Proof.
  induction n as [|n IH]; intros k Hk.
  - assert (k = 0)%nat as -> by lia. cbn. lia.
  - destruct k as [|k]; [rewrite binom_0_r; lia|].
    rewrite binom_SS. specialize (IH k ltac:(lia)). lia.
Qed.

Lemma binom_diag : forall n, binom n n = 1%nat.
Proof.
  induction n as [|n IH]; [reflexivity|].
  rewrite binom_SS, IH, binom_lt by lia. reflexivity.
Qed.

Lemma binom_mono : forall n k, (binom n k <= binom (S n) k)%nat.
Proof.
  intros n [|k]; [rewrite !binom_0_r; lia|]. rewrite binom_SS. lia.
Qed.

Lemma binom_mono_le : forall a b k, (a <= b)%nat -> (binom a k <= binom b k)%nat.
Proof.
  intros a b k H. induction H as [|b H IH]; [lia|].
  pose proof (binom_mono b k). lia.
Qed.

(* (k+1) C(n+1,k+1) = (n+1) C(n,k) *)
Lemma binom_absorb : forall n k, (S k * binom (S n) (S k) = S n * binom n k)%nat.
Proof.
  induction n as [|n IH]; intros k.
  - destruct k as [|k]; cbn; lia.
  - rewrite (binom_SS (S n) k). destruct k as [|k].
    + rewrite !binom_0_r. specialize (IH 0%nat). rewrite binom_0_r in IH. lia.
    + pose proof (IH k) as H1. pose proof (IH (S k)) as H2.
      rewrite (binom_SS n k). rewrite (binom_SS n (S k)) in H2 |- *.
      rewrite (binom_SS n k) in H1.
      nia.
Qed.

(* n C(n,k) = k C(n,k) + (k+1) C(n,k+1) *)
Lemma binom_down : forall n k, (n * binom n k = k * binom n k + S k * binom n (S k))%nat.
Proof.
  intros n k. pose proof (binom_absorb n k) as H. rewrite binom_SS in H.
  generalize dependent (binom n (S k)). generalize dependent (binom n k). intros a b H. nia.
Qed.

(* the Pascal-recursion binomial is the factorial quotient n! / (k! (n-k)!) *)
Lemma binom_fact : forall n k, (k <= n)%nat -> (binom n k * (fact k * fact (n - k)) = fact n)%nat.
Proof.
  intros n. induction k as [|k IH]; intros Hk.
  - rewrite binom_0_r, Nat.sub_0_r. cbn [fact]. lia.
  - specialize (IH ltac:(lia)).
    pose proof (binom_down n k) as D.
    replace (n - k)%nat with (S (n - S k)) in IH by lia.
    change (fact (S (n - S k))) with (S (n - S k) * fact (n - S k))%nat in IH.
    change (fact (S k)) with (S k * fact k)%nat.
    assert (E : (S k * binom n (S k) = S (n - S k) * binom n k)%nat).
    { replace (S (n - S k)) with (n - k)%nat by lia.
      generalize dependent (binom n (S k)). generalize dependent (binom n k). intros a _ b D. nia. }
    rewrite <- IH.
    transitivity ((S k * binom n (S k)) * (fact k * fact (n - S k)))%nat; [ring|].
    rewrite E. ring.
Qed.

Open Scope Z_scope.

Lemma Cz_0_r : forall n, Cz n 0 = 1.
Proof. intros n. unfold Cz. rewrite binom_0_r. reflexivity. Qed.

Lemma Cz_nonneg : forall n k, 0 <= Cz n k.
Proof. intros. unfold Cz. lia. Qed.

Lemma Cz_small : forall n k, 0 <= n -> n < Z.of_nat k -> Cz n k = 0.
Proof. intros n k Hn H. unfold Cz. rewrite binom_lt by lia. reflexivity. Qed.

Lemma Cz_pos : forall n k, Z.of_nat k <= n -> 0 < Cz n k.
Proof. intros n k H. unfold Cz. pose proof (binom_pos (Z.to_nat n) k ltac:(lia)). lia. Qed.

Lemma Cz_pos_inv : forall n k, 0 <= n -> 0 < Cz n k -> Z.of_nat k <= n.
Proof.
  intros n k Hn H. destruct (Z_lt_le_dec n (Z.of_nat k)) as [Hlt|Hle]; [|exact Hle].
  rewrite Cz_small in H by assumption. lia.
Qed.

Lemma Cz_diag : forall k, Cz (Z.of_nat k) k = 1.
Proof. intros k. unfold Cz. rewrite Nat2Z.id, binom_diag. reflexivity. Qed.

Lemma Cz_pascal : forall n k, 1 <= n -> Cz n (S k) = Cz (n - 1) k + Cz (n - 1) (S k).
Proof.
  intros n k Hn. unfold Cz.
  replace (Z.to_nat n) with (S (Z.to_nat (n - 1))) by lia.
  rewrite binom_SS. lia.
Qed.

Lemma Cz_mono : forall a b k, a <= b -> Cz a k <= Cz b k.
Proof.
  intros a b k H. unfold Cz.
  pose proof (binom_mono_le (Z.to_nat a) (Z.to_nat b) k ltac:(lia)). lia.
Qed.

(* (k+1) C(n,k+1) = n C(n-1,k)   for n >= 1 *)
Lemma Cz_absorb : forall n k, 1 <= n -> Z.of_nat (S k) * Cz n (S k) = n * Cz (n - 1) k.
Proof.
  intros n k Hn. unfold Cz.
  replace (Z.to_nat n) with (S (Z.to_nat (n - 1))) by lia.
  pose proof (binom_absorb (Z.to_nat (n - 1)) k) as H.
  apply (f_equal Z.of_nat) in H. rewrite !Nat2Z.inj_mul in H.
  rewrite H. f_equal. lia.
Qed.

(* (n-k) C(n,k) = (k+1) C(n,k+1)   for n >= 0 *)
Lemma Cz_down : forall n k, 0 <= n -> (n - Z.of_nat k) * Cz n k = Z.of_nat (S k) * Cz n (S k).
Proof.
  intros n k Hn. unfold Cz.
  pose proof (binom_down (Z.to_nat n) k) as H.
  apply (f_equal Z.of_nat) in H. rewrite Nat2Z.inj_add, !Nat2Z.inj_mul in H.
  rewrite Z2Nat.id in H by exact Hn. lia.
Qed.

(* Pascal's rule and monotonicity in one step: the ranks below a leading entry x < n stay below C(n,k+1) *)
Lemma Cz_succ_le : forall x n k, 0 <= x < n -> Cz x (S k) + Cz x k <= Cz n (S k).
Proof.
  intros x n k H. pose proof (Cz_pascal (x + 1) k ltac:(lia)) as P.
  replace (x + 1 - 1) with x in P by lia.
  pose proof (Cz_mono (x + 1) n (S k) ltac:(lia)). lia.
Qed.

(* the multiplicative product loop of the implementation computes C(n,k): by Cz_down each // is exact *)
Lemma init_nck_from : forall n m j, 0 <= n ->
  fold_left (fun acc i => (acc * (n - Z.of_nat i + 1)) / Z.of_nat i) (seq (S j) m) (Cz n j)
  = Cz n (j + m).
Proof.
  intros n m. induction m as [|m IH]; intros j Hn; cbn [seq fold_left].
  - f_equal. lia.
  - replace (Cz n j * (n - Z.of_nat (S j) + 1)) with (Cz n (S j) * Z.of_nat (S j))
      by (pose proof (Cz_down n j Hn); lia).
    rewrite Z.div_mul, IH by lia. f_equal. lia.
Qed.

Lemma init_nck_Cz : forall n k, 0 <= n -> init_nck n k = Cz n k.
Proof. intros n k Hn. pose proof (init_nck_from n k 0 Hn) as H. rewrite Cz_0_r in H. exact H. Qed.
