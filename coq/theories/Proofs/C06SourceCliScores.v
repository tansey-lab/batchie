(* calculate_scores.main and select_next_plate.main over the C06 vocabulary (Model/Scores.v): the translated wrappers,
   with the library calls score_chunk / select_next_plate / ChunkedScoresHolder.concat standing for the TRANSLATED
   library functions (Generated/SrcScoring.v), equal the composition of the hand-written library models. *)
From Coq Require Import ZArith List.
From Batchie Require Import Lib.Sexp Model.Scores Model.Cli Generated.SrcScoring Generated.SrcCli Proofs.PyRtLemmas
  Proofs.C06Source Proofs.C06SourceCli.
Import ListNotations.
Open Scope Z_scope.

(* the library record of calculate_scores.main over Scores: a scorer object is what its score method answers, given the
   posterior samples, the distance matrix and the generator it is handed (None = the library's own unseeded one), to
   the dict of plates; score_chunk is the translated library function *)
Definition cs_scores_lib (Th Dm : Type) (load_screen : path -> result screen)
    (mk_scorer : result (Th -> Dm -> option gen -> scorer_fn))
    (load_thetas : path -> result Th) (concat_thetas : list Th -> result Th)
    (load_dist : path -> result Dm) (concat_dist : list Dm -> result Dm)
  : cs_lib screen plate Th Dm (Th -> Dm -> option gen -> scorer_fn) holder :=
  mk_cs_lib load_screen plates is_observed p_id mk_scorer load_thetas concat_thetas load_dist concat_dist
    (fun sc th s dm rng _ n i b => src_score_chunk (sc th dm rng) s (option_map (fun _ => tt) rng) n i b).

Theorem src_cli_calculate_scores_scores : forall (Th Dm : Type) load_screen mk_scorer load_thetas concat_thetas load_dist concat_dist
    (mix : Z -> Z) (a : cs_args),
  src_cli_calculate_scores _ _ _ _ _ _
    (cs_scores_lib Th Dm load_screen mk_scorer load_thetas concat_thetas load_dist concat_dist) mix a
  = dor s <- load_screen (cs_data a);
    dor sc <- mk_scorer;
    dor ths <- res_map_all load_thetas (cs_thetas a);
    dor th <- concat_thetas ths;
    dor dms <- res_map_all load_dist (cs_distance_matrix a);
    dor dm <- concat_dist dms;
    dor rng <- prng_of_seed mix (cs_seed a);
    dor ps <- score_chunk s (cs_batch_plate_ids a) (cs_n_chunks a) (cs_chunk_index a);
    dor h <- chunk_holder_of_answer ps (sc th dm (Some rng) ps);
    Ok [(cs_output a, h)].
Proof.
  intros. rewrite src_cli_calculate_scores_is_model. unfold cli_calculate_scores, cs_scores_lib.
  cbn [cs_load_screen cs_mk_scorer cs_load_thetas cs_concat_thetas cs_load_dist cs_concat_dist cs_score_chunk].
  cbn [option_map].
  repeat (first [rewrite src_score_chunk_is_model | cli_step]). all: reflexivity.
Qed.

(* the library record of select_next_plate.main over Scores: a policy object is its filter given the generator;
   select_next_plate and ChunkedScoresHolder.concat are the translated library functions *)
Definition sn_scores_lib (load_screen : path -> result screen) (mk_policy : result (option gen -> policy_t))
    (load_scores : path -> result holder)
  : sn_lib screen plate (option gen -> policy_t) holder :=
  mk_sn_lib load_screen mk_policy load_scores src_concat
    (fun h s po b rng => src_select_next_plate h s (option_map (fun p => p rng) po) b (option_map (fun _ => tt) rng))
    p_id.

(* select_next_plate returns the Plate object, the model its id *)
Lemma written_id s (r : option Z) :
  match option_map (get_plate s) r with Some p => p_id p | None => -1 end = match r with Some id => id | None => -1 end.
Proof. now destruct r. Qed.

Theorem src_cli_select_next_plate_scores : forall load_screen mk_policy load_scores (mix : Z -> Z) (a : sn_args),
  src_cli_select_next_plate _ _ _ _ (sn_scores_lib load_screen mk_policy load_scores) mix a
  = dor s <- load_screen (sn_data a);
    dor policy <- match sn_policy a with Some _ => dor p <- mk_policy; Ok (Some p) | None => Ok None end;
    dor rng <- prng_of_seed mix (sn_seed a);
    dor hs <- res_map_all load_scores (sn_scores a);
    dor h <- h_concat hs;
    dor r <- select_next (option_map (fun p => p (Some rng)) policy) s (sn_batch_plate_id a) h;
    Ok [(sn_output a, match r with Some id => id | None => -1 end)].
Proof.
  intros. rewrite src_cli_select_next_plate_is_model. unfold cli_select_next_plate, sn_scores_lib.
  cbn [sn_load_screen sn_mk_policy sn_load_scores sn_concat_scores sn_select sn_plate_id].
  repeat (first [rewrite src_concat_is_model | rewrite src_select_next_plate_is_model | cli_step]).
  all: now rewrite ?written_id.
Qed.
