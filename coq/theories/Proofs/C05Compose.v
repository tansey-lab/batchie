(* C05: COMPOSITION.  The premise of the property, "all triples of posterior samples are enumerated", is
   discharged from what the source link provides - a recorded rng.choice answer obeying numpy's contract for
   rng.choice(C(T,3), size=C(T,3), replace=False) (the budget covers C(T,3)) - through property C15's bijection:
     full draw  =>  the unranked triples are every a > b > c below T exactly once (complete) and valid
                =>  translated scorer / wrappers / checked kernel return, without error, the direct estimator of each
                    plate alone on ONE reference enumeration, whatever max_chunk, the other plates, their order, the draws. *)
From Coq Require Import List ZArith Qcanon Lia.
From Batchie Require Import Lib.Sexp Lib.ListX Model.Dbal Generated.SrcDbal Proofs.C05Kernel Proofs.C05Scorer
  Proofs.C05Inv Proofs.C05Relabel Proofs.C05Checked Proofs.C05Source Proofs.C15UseSite.
Import ListNotations.

(* a full draw unranks, without error, to a complete enumeration of valid triples *)
Theorem full_draw_complete (T : nat) (d : list Z) :
  (3 <= T)%nat -> choice_ok (comb3 (Z.of_nat T)) (comb3 (Z.of_nat T)) d = true ->
  exists ts, triples_of_draw T d = Ok ts /\ complete T ts /\ Forall (triple_valid T) ts.
Proof.
  intros HT Hok.
  destruct (triples_of_draw_distinct_complete T _ d Hok) as (ts & E & _ & Hnd & Hin & Hall).
  assert (Hc : complete T ts).
  { split; [exact Hnd|]. intros a b c. split; [apply Hin|apply (Hall eq_refl)]. }
  exists ts. split; [exact E|]. split; [exact Hc|]. now apply (complete_valid T).
Qed.

(* a sub-sampled draw (budget below C(T,3)) still unranks without error to distinct valid triples *)
Theorem sub_draw_valid (T : nat) (k : Z) (d : list Z) :
  choice_ok (comb3 (Z.of_nat T)) k d = true ->
  exists ts, triples_of_draw T d = Ok ts /\ Z.of_nat (length ts) = k /\ NoDup ts /\ Forall (triple_valid T) ts.
Proof.
  intros Hok.
  destruct (triples_of_draw_distinct_complete T k d Hok) as (ts & E & Hl & Hnd & Hin & _).
  exists ts. repeat split; try assumption.
  apply Forall_forall. intros [[a b] c] Ht. apply Hin in Ht. cbn. lia.
Qed.

Lemma full_draws_all T draws : (3 <= T)%nat ->
  Forall (fun d => choice_ok (comb3 (Z.of_nat T)) (comb3 (Z.of_nat T)) d = true) draws ->
  exists dts, Forall2 (fun idxs ts => triples_of_draw T idxs = Ok ts) draws dts /\ Forall (complete T) dts
              /\ length dts = length draws.
Proof.
  intros HT. induction draws as [|d draws IH]; intros H.
  - exists []. repeat split; constructor.
  - inversion H as [|? ? Hd Hr]; subst. destruct (IH Hr) as (dts & F & C & L).
    destruct (full_draw_complete T d HT Hd) as (ts & E & Hc & _).
    exists (ts :: dts). cbn [length]. rewrite L. repeat split; constructor; assumption.
Qed.

Lemma scorer_firstn orc mc (plates : list (Z * plate)) D dts :
  scorer orc mc plates D dts = scorer orc mc plates D (firstn (length (array_split plates (ceil_div (length plates) mc))) dts).
Proof. unfold scorer. now rewrite <- combine_firstn_l. Qed.

Lemma forget_sel_wf T (plates : list (Z * pyplate)) :
  Forall (fun kp => plate_wf T (snd (snd kp))) plates -> Forall (fun kp => plate_wf T (snd kp)) (forget_sel plates).
Proof.
  intros H. unfold forget_sel. apply Forall_forall. intros kp Hk. apply in_map_iff in Hk as (x & <- & Hx).
  rewrite Forall_forall in H. exact (H x Hx).
Qed.

(* GaussianDBALScorer.score AS TRANSLATED, every recorded answer a full draw: each key gets the direct estimator of its own
   plate on any one complete enumeration ts0 - no error, independent of max_chunk, of the other plates and of the draws *)
Theorem src_score_full_enumeration orc (T mc : nat) (plates : list (Z * pyplate)) (D : arr2) (draws : list (list Z)) ts0 :
  (3 <= T)%nat -> rect T T D -> (0 < mc)%nat ->
  NoDup (map fst plates) -> sel_uniform plates ->
  Forall (fun kp => plate_wf T (snd (snd kp))) plates ->
  (ceil_div (length plates) mc <= length draws)%nat ->
  Forall (fun d => choice_ok (comb3 (Z.of_nat T)) (comb3 (Z.of_nat T)) d = true) draws ->
  complete T ts0 ->
  src_score orc (Z.of_nat mc) plates D draws
  = Ok (map (fun kp => (fst kp, direct orc D 1%Qc ts0 (snd (snd kp)))) plates).
Proof.
  intros HT HD Hmc Hnd Hsel Hwf Hlen Hdraws Hc0.
  rewrite (src_score_is_scorer_checked orc mc plates D draws Hmc Hnd Hsel Hlen).
  destruct plates as [|kp0 rest] eqn:Epl; [reflexivity|]. rewrite <- Epl in *.
  assert (Hne : forget_sel plates <> []) by (apply forget_sel_nonempty; rewrite Epl; discriminate).
  destruct (full_draws_all T draws HT Hdraws) as (dts & F & C & L).
  rewrite (scorer_checked_ok orc T D HT HD mc (forget_sel plates) draws dts Hmc Hne (forget_sel_wf T plates Hwf) F).
  f_equal. rewrite scorer_firstn.
  assert (Hfl : length (forget_sel plates) = length plates) by (unfold forget_sel; apply map_length).
  assert (Hn : (0 < length plates)%nat) by (rewrite Epl; cbn [length]; lia).
  assert (Hk : (0 < ceil_div (length plates) mc)%nat) by (now apply ceil_div_pos).
  rewrite (scorer_eq_direct orc T mc (forget_sel plates) D _ ts0).
  - unfold forget_sel. rewrite map_map. reflexivity.
  - lia.
  - exact Hmc.
  - exact (forget_sel_wf T plates Hwf).
  - now apply (complete_valid T).
  - rewrite length_array_split by (left; rewrite Hfl; exact Hk).
    rewrite firstn_length, Hfl, L. lia.
  - apply Forall_forall. intros ts Hts. apply In_firstn in Hts. rewrite Forall_forall in C.
    apply (complete_perm T); [exact Hc0|now apply C].
Qed.

(* the heteroscedastic wrapper AS TRANSLATED on a full draw *)
Theorem src_hetero_full_enumeration orc (T : nat) (plates : list plate) (D : arr2) df idxs ts0 :
  (3 <= T)%nat -> rect T T D -> plates <> [] -> Forall (plate_wf T) plates ->
  choice_ok (comb3 (Z.of_nat T)) (comb3 (Z.of_nat T)) idxs = true -> complete T ts0 ->
  src_hetero orc (map fst plates) (map snd plates) D df idxs = Ok (map (direct orc D df ts0) plates).
Proof.
  intros HT HD Hne Hwf Hok Hc0. rewrite src_hetero_is_model.
  destruct plates as [|p0 rest] eqn:Epl; [congruence|]. rewrite <- Epl in *.
  rewrite (hetero_checked_ok orc T plates D df idxs HT Hne Hwf HD).
  destruct (full_draw_complete T idxs HT Hok) as (ts & E & Hc & Hv). rewrite E. cbn [res_bind]. f_equal.
  rewrite (hetero_eq_direct orc T plates D df ts ltac:(lia) Hwf Hv).
  apply map_ext. intros pl. apply direct_perm_triples. now apply (complete_perm T).
Qed.

(* the vectorised kernel through its TRANSLATED checks and TRANSLATED index run, budget max_combos >= C(T,3), on the padded
   arrays of any plate list: the direct estimator per plate *)
Theorem src_kernel_full_enumeration orc (T : nat) (plates : list plate) (D : arr2) df (mc : Z) (d : list Z) rest ts0 :
  (3 <= T)%nat -> rect T T D -> plates <> [] -> Forall (plate_wf T) plates ->
  (comb3 (Z.of_nat T) <= mc)%Z ->
  choice_ok (comb3 (Z.of_nat T)) (comb3 (Z.of_nat T)) d = true -> complete T ts0 ->
  (dor _ <- src_kernel_checks (pad_means (map fst plates)) (pad_vars (map snd plates)) D;
   dor r <- src_kernel_triples (pad_means (map fst plates)) mc (d :: rest);
   Ok (kernel orc (pad_means (map fst plates)) (pad_vars (map snd plates)) D df (nat_triples (fst r))))
  = Ok (map (direct orc D df ts0) plates).
Proof.
  intros HT HD Hne Hwf Hmc Hok Hc0.
  pose proof (src_hetero_full_enumeration orc T plates D df d ts0 HT HD Hne Hwf Hok Hc0) as H.
  rewrite src_hetero_is_model in H.
  destruct plates as [|p0 rest'] eqn:Epl; [congruence|]. rewrite <- Epl in *.
  unfold hetero_checked in H.
  match type of H with (if ?b then _ else _) = _ => destruct b eqn:Esh end.
  - discriminate.
  - rewrite <- H. symmetry. apply (kernel_checked_is_source orc _ _ D df mc d rest).
    + pose proof (comb3_pos T HT). lia.
    + cbv zeta.
      rewrite (proj1 (shape3_pad_plates T plates ltac:(lia) Hne Hwf)). cbn [fst snd].
      rewrite Z.min_l by lia. exact Hok.
Qed.
