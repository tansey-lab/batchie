(* The argument-handling glue of select_next_plate: the statements of get_args() after parser.parse_args(), and main() as
   a whole command.  The hand-written models Cli.sn_get_args / cli_select_next_plate_cmd equal the translations of the
   functions of /repo, regenerated on every run (Generated/SrcCliArgs.v, configurations ARGS_GET_ARGS_SN / ARGS_CMD_SN of
   harness/src_functions.py), for every introspection record, every record of string primitives, every constructor and
   library record, and all raw namespaces. *)
From Coq Require Import ZArith List.
From Batchie Require Import Lib.Sexp Lib.PyRt Model.Cli Generated.SrcCliArgs Proofs.PyRtLemmas Proofs.C06SourceCli_Select
  Proofs.C18SourceArgs_Cast Proofs.C18SourceIntrospect.
Import ListNotations.
Open Scope Z_scope.

Theorem src_sn_get_args_is_model : forall (Cls F O : Type) (I : introspect Cls) (P : pyprims F O) (raw : sn_ns Cls F O),
  src_sn_get_args Cls F O I P raw = sn_get_args I P raw.
Proof.
  intros. unfold src_sn_get_args, sn_get_args. cbv zeta.
  destruct (sn_policy (sn_plain raw)) as [name|]; cbn [is_some unwrap res_bind]; [|reflexivity].
  rewrite <- (resolve_block I P BPlatePolicy name (sn_policy_param raw)
                (fun c ps => Ok (sn_set_policy_params (sn_set_policy_cls raw c) ps))).
  destruct (i_get_class I _ name BPlatePolicy) as [c|e]; cbn [res_bind]; [|reflexivity].
  cbn [sn_policy_cls sn_policy_param sn_set_policy_cls].
  destruct (i_required I c) as [req|e]; cbn [res_bind]; [|reflexivity].
  rewrite !res_bind_ret. reflexivity.
Qed.

Theorem src_cli_select_next_plate_cmd_is_model :
  forall (Cls F O : Type) (I : introspect Cls) (P : pyprims F O) (Scr Pl Po H : Type)
         (construct : Cls -> list (str * pval F O) -> result Po) (L : sn_lib Scr Pl Po H) (mix : Z -> Z)
         (raw : sn_ns Cls F O),
  src_cli_select_next_plate_cmd Cls F O I P Scr Pl Po H construct L mix raw
  = cli_select_next_plate_cmd I P construct L mix raw.
Proof.
  intros. unfold src_cli_select_next_plate_cmd, cli_select_next_plate_cmd. cbv zeta.
  rewrite src_sn_get_args_is_model.
  destruct (sn_get_args I P raw) as [a|e]; cbn [res_bind]; [|reflexivity].
  rewrite <- C06SourceCli_Select.src_cli_select_next_plate_is_model.
  unfold SrcCli.src_cli_select_next_plate, instantiate. cbv zeta.
  cbn [sn_with_mk sn_load_screen sn_mk_policy sn_load_scores sn_concat_scores sn_select sn_plate_id].
  repeat cli_step. all: reflexivity.
Qed.

Theorem src_cli_select_next_plate_cmd_world :
  forall (Mod Obj F O : Type) (W : pyworld Mod Obj) (P : pyprims F O) (Scr Pl Po H : Type)
         (construct : Obj -> list (str * pval F O) -> result Po) (L : sn_lib Scr Pl Po H) (mix : Z -> Z)
         (raw : sn_ns Obj F O),
  src_cli_select_next_plate_cmd Obj F O (introspect_src W) P Scr Pl Po H construct L mix raw
  = cli_select_next_plate_cmd (introspect_of W) P construct L mix raw.
Proof.
  intros. rewrite src_cli_select_next_plate_cmd_is_model.
  unfold cli_select_next_plate_cmd, sn_get_args. destruct (sn_policy (sn_plain raw)); [|reflexivity].
  now rewrite resolve_src.
Qed.
