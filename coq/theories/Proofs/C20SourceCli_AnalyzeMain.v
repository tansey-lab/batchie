(* The link of cli/analyze_model_evaluation.main alone (the rest of the C20 statements about it: Proofs/C20SourceCli_Analyze.v, which
   exports this file).  The hand-written model CliAnalyze.cli_analyze (= cli_analyze_gen true: both regplot-drawing calls carry
   seed=args.seed) equals the translation of the WHOLE function of the tree under test, regenerated on every run
   (Generated/SrcCliAnalyze.v, configuration CLI_ANALYZE of harness/src_functions.py), for every record of library functions and
   all parsed arguments.  Used by C20 (what is reported) and by C18 (Proofs/C18CliAnalyze.v: where the bootstrap generators come from). *)
From Coq Require Import ZArith.
From Batchie Require Import Model.CliAnalyze Generated.SrcCliAnalyze Proofs.PyRtLemmas.
Open Scope Z_scope.

Theorem src_cli_analyze_is_model :
  forall (Scr Th Ev Co F : Type) (L : an_lib Scr Th Ev Co F) (a : an_args),
  src_cli_analyze Scr Th Ev Co F L a = cli_analyze L a.
Proof.
  intros. unfold src_cli_analyze, cli_analyze, cli_analyze_gen. cbv zeta.
  rewrite !res_map_all_ret.
  repeat cli_step. all: reflexivity.
Qed.
