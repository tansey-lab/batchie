(* C13 / C11: the hand-written models equal, for all inputs, the translations (Generated/SrcRetroGen.v, by harness/py2gal.py
   with the configurations C13_SAMPLE_SEG ... of harness/src_functions.py) of the WHOLE methods they model: the shipped
   generators and smoothers of /repo's retrospective.py (Model/Retro.v), SparseCoverPlateGenerator and the core.py wrapper
   generate_and_unmask_initial_plate around it (Model/RetroInit.v), and data.py's
   filter_dataset_to_treatments_that_appear_in_at_least_one_combo.  PairwisePlateGenerator is in Proofs/C13SourcePairwise.v,
   create_random_holdout (which only C11 states) in Proofs/C13Source_Holdout.v. *)
From Coq Require Import ZArith List Bool Lia ZifyBool Permutation.
From Batchie Require Import Lib.Sexp Lib.ListX Lib.PyRt Model.Encode Model.Screen Model.Retro Model.Pairwise Model.RetroInit Generated.SrcRetro Generated.SrcRetroGen Proofs.PyRtLemmas Proofs.C11Lib Proofs.C11Select Proofs.C13SampleSeg Proofs.C13Optimal Proofs.C13NPlate Proofs.C13Filter Proofs.C11Init Proofs.C13SparseTerm Proofs.C11Source.
Import ListNotations.
Open Scope nat_scope.

Lemma enumerate_z_enum {A} : forall (l : list A),
  enumerate_z l = map (fun kp => (Z.of_nat (fst kp), snd kp)) (enum_from 0 l).
Proof.
  intros l. unfold enumerate_z. generalize 0. induction l as [|a l IH]; intros k; [reflexivity|].
  cbn [length seq map combine enum_from fst snd]. f_equal. apply IH.
Qed.

Lemma enum_from_map_idx {A B} (h : nat -> A -> B) : forall (l : list A) j,
  enum_from j (map (fun ix => h (fst ix) (snd ix)) (enum_from j l))
  = map (fun ix => (fst ix, h (fst ix) (snd ix))) (enum_from j l).
Proof.
  induction l as [|a l IH]; intros j; [reflexivity|].
  cbn [enum_from map fst snd]. f_equal.
  (* the tail is enumerated from S j on both sides *)
  exact (IH (S j)).
Qed.

Lemma enum_from_repeat {A B} (h : nat -> A -> B) (a : A) : forall n k,
  map (fun ix => h (fst ix) (snd ix)) (enum_from k (repeat a n)) = map (fun i => h i a) (seq k n).
Proof. induction n as [|n IH]; intros k; [reflexivity|]. cbn [repeat enum_from map seq fst snd]. f_equal. apply IH. Qed.

(* SampleSegregatingPermutationPlateGenerator._generate_plates *)
(* ceil(a / b) for b > 0, as the model writes it *)
Lemma ceil_neg_div : forall a b, (0 < b)%Z -> (- ((- a) / b))%Z = cdiv a b.
Proof.
  intros a b Hb. unfold cdiv.
  pose proof (Z.div_mod (- a) b ltac:(lia)) as E1. pose proof (Z.mod_pos_bound (- a) b Hb) as B1.
  pose proof (Z.div_mod (a + b - 1) b ltac:(lia)) as E2. pose proof (Z.mod_pos_bound (a + b - 1) b Hb) as B2.
  nia.
Qed.

(* the model with numpy's IndexError of `plate_names[indices] = ...` made explicit: the plates computed from the recorded
   answers must consist of row numbers of the screen (they do whenever the answers are permutations of the offered arrays) *)
Definition sample_seg_checked (mx : Z) (rows : list row) (ds : list draw) : result (list row * list draw) :=
  dor r <- ss_plates true mx rows (sample_names rows) ds;
  let '(pis, ds') := r in
  if forallb (forallb (fun i => i <? length rows)) pis
  then dor c <- construct (map (fun ir => set_plate (label_of pis (fst ir)) (snd ir)) (enum_from 0 rows)); Ok (c, ds')
  else Err 92%Z.

(* the body of the loop over the samples *)
Definition ss_step (mx : Z) (rows : screen_t) (st : list draw * list (list nat)) (s : name)
  : result (list draw * list (list nat)) :=
  let '(ds, pis) := st in
  dor (d, p) <- (if (zlen (idx_where (in_sample s) rows) >? mx)%Z then
                   dor n <- ceil_div_float (zlen (idx_where (in_sample s) rows)) mx;
                   dor (perm, ds1) <- permutation_ints (idx_where (in_sample s) rows) ds;
                   dor chunks <- array_split_z perm n;
                   dor p' <- res_fold (fun (p : list (list nat)) c => Ok (p ++ [c])) chunks pis;
                   Ok (ds1, p')
                 else Ok (ds, pis ++ [idx_where (in_sample s) rows]));
  Ok (d, p).

Lemma ss_for (mx : Z) (rows : screen_t)
      (f : list draw * list (list nat) -> name -> result (list draw * list (list nat))) :
  (0 <= mx)%Z -> (forall ds pis s, f (ds, pis) s = ss_step mx rows (ds, pis) s) ->
  forall samples ds pis,
    res_fold f samples (ds, pis) = dor r <- ss_plates true mx rows samples ds; Ok (snd r, pis ++ fst r).
Proof.
  intros Hmx Hf. induction samples as [|s samples IH]; intros ds pis; cbn [res_fold ss_plates res_bind fst snd].
  - now rewrite app_nil_r.
  - rewrite Hf. unfold ss_step, zlen. set (idx := idx_where (in_sample s) rows).
    destruct (Z.of_nat (length idx) >? mx)%Z eqn:Ebig; cbn [res_bind].
    + unfold ceil_div_float. destruct (mx <=? 0)%Z eqn:E0.
      * assert (mx = 0%Z) as -> by lia. reflexivity.
      * apply Z.leb_gt in E0. destruct (mx =? 0)%Z eqn:E1; [lia|]. cbn [res_bind].
        unfold permutation_ints. destruct (take_ints ds) as [[perm ds1]|t]; cbn [res_bind]; [|reflexivity].
        unfold array_split_z. rewrite ceil_neg_div by exact E0.
        assert (0 < cdiv (Z.of_nat (length idx)) mx)%Z as Hpos.
        { unfold cdiv. apply Z.div_str_pos. apply Z.gtb_lt in Ebig. lia. }
        destruct (cdiv (Z.of_nat (length idx)) mx <=? 0)%Z eqn:E2; [lia|]. cbn [res_bind].
        rewrite (res_fold_pure _ (fun (p : list (list nat)) c => p ++ [c])) by reflexivity. cbn [res_bind].
        rewrite fold_snoc, IH.
        destruct (ss_plates true mx rows samples ds1) as [[ps ds2]|t]; cbn [res_bind fst snd]; [|reflexivity].
        now rewrite app_assoc.
    + rewrite IH. destruct (ss_plates true mx rows samples ds) as [[ps ds2]|t]; cbn [res_bind fst snd]; [|reflexivity].
      now rewrite <- app_assoc.
Qed.

(* the labelling loop `for idx, indices in enumerate(plate_indices): plate_names[indices] = f"generated_plate_{idx}"` *)
Definition lab (k : nat) (pis : list (list nat)) (i : nat) (acc : name) : name :=
  fold_left (fun acc kp => if memb i (snd kp) then gen_name (fst kp) else acc) (enum_from k pis) acc.

Lemma label_loop_gen (f : list name -> Z * list nat -> result (list name)) :
  (forall names k idx, f names (k, idx) = dor n' <- set_at names idx (gen_name (Z.to_nat k)); Ok n') ->
  forall pis k names,
    res_fold f (map (fun kp => (Z.of_nat (fst kp), snd kp)) (enum_from k pis)) names
    = if forallb (forallb (fun i => i <? length names)) pis
      then Ok (map (fun ix => lab k pis (fst ix) (snd ix)) (enum_from 0 names))
      else Err 92%Z.
Proof.
  intros Hf. induction pis as [|c pis IH]; intros k names; cbn [enum_from map res_fold forallb fst snd].
  - unfold lab. cbn [enum_from fold_left]. f_equal.
    rewrite <- (enum_from_snd names 0) at 1. reflexivity.
  - rewrite Hf. unfold set_at. rewrite Nat2Z.id.
    destruct (forallb (fun i => i <? length names) c); cbn [res_bind andb]; [|reflexivity].
    rewrite IH. rewrite map_length, enum_from_length.
    destruct (forallb (forallb (fun i => i <? length names)) pis); [|reflexivity]. f_equal.
    rewrite (enum_from_map_idx (fun i x => if memb i c then gen_name k else x)), map_map. reflexivity.
Qed.

Lemma label_loop (f : list name -> Z * list nat -> result (list name)) :
  (forall names k idx, f names (k, idx) = dor n' <- set_at names idx (gen_name (Z.to_nat k)); Ok n') ->
  forall pis n,
    res_fold f (enumerate_z pis) (blank_names n)
    = if forallb (forallb (fun i => i <? n)) pis then Ok (map (label_of pis) (seq 0 n)) else Err 92%Z.
Proof.
  intros Hf pis n. rewrite enumerate_z_enum, (label_loop_gen f Hf). unfold blank_names. rewrite repeat_length.
  destruct (forallb (forallb (fun i => i <? n)) pis); [|reflexivity]. f_equal.
  apply (enum_from_repeat (fun i x => lab 0 pis i x)).
Qed.

Lemma combine_labels (g : nat -> name) : forall rows k,
  map (fun lr => set_plate (fst lr) (snd lr)) (combine (map g (seq k (length rows))) rows)
  = map (fun ir => set_plate (g (fst ir)) (snd ir)) (enum_from k rows).
Proof.
  induction rows as [|r rows IH]; intros k; [reflexivity|].
  cbn [length seq map combine enum_from fst snd]. f_equal. apply IH.
Qed.

Theorem src_sample_seg_is_checked_model : forall mx rows ds, (0 <= mx)%Z ->
  src_sample_seg_generate_plates mx rows ds = sample_seg_checked mx rows ds.
Proof.
  intros mx rows ds Hmx. unfold src_sample_seg_generate_plates, sample_seg_checked.
  rewrite (ss_for mx rows _ Hmx) by (intros; reflexivity).
  destruct (ss_plates true mx rows (sample_names rows) ds) as [[pis ds']|t]; cbn [res_bind fst snd app]; [|reflexivity].
  rewrite label_loop by (intros; reflexivity).
  destruct (forallb (forallb (fun i => i <? length rows)) pis); cbn [res_bind]; [|reflexivity].
  unfold screen_labelled. rewrite map_length, seq_length, Nat.eqb_refl. cbn [negb].
  rewrite combine_labels.
  destruct (construct _); reflexivity.
Qed.

(* under numpy's permutation contract (the hypothesis of the C13 shape theorems) the check passes *)
Lemma sample_seg_checked_is_model : forall mx rows ds,
  ss_contract mx rows (sample_names rows) ds -> sample_seg_checked mx rows ds = sample_seg true mx rows ds.
Proof.
  intros mx rows ds HC. unfold sample_seg_checked, sample_seg.
  destruct (ss_plates true mx rows (sample_names rows) ds) as [[pis ds']|t] eqn:E; cbn [res_bind]; [|reflexivity].
  destruct (ss_plates_chunks _ _ _ _ _ _ E HC (NoDup_sort_uniq _)) as (_ & Hok & _).
  replace (forallb (forallb (fun i => i <? length rows)) pis) with true; [reflexivity|].
  symmetry. apply forallb_forall. intros c Hc. apply forallb_forall. intros i Hi.
  destruct (Hok c Hc) as (s & _ & Hs & _). apply Hs in Hi. apply In_idx_where in Hi as (r & Hn & _).
  apply Nat.ltb_lt. apply nth_error_Some. congruence.
Qed.

Theorem src_sample_seg_is_model : forall mx rows ds, (0 <= mx)%Z ->
  ss_contract mx rows (sample_names rows) ds ->
  src_sample_seg_generate_plates mx rows ds = sample_seg true mx rows ds.
Proof. intros. rewrite src_sample_seg_is_checked_model by assumption. now apply sample_seg_checked_is_model. Qed.

(* a negative max_plate_size: Python computes n_plates <= 0, draws the permutation and np.array_split raises; the model
   raises (tag 3) without reading the answer - so both raise at the first sample, possibly with different tags when the
   stream of recorded answers is exhausted (tag 90, not a Python behaviour); on the empty screen both return it *)
Lemma ss_for_neg (mx : Z) (rows : screen_t)
      (f : list draw * list (list nat) -> name -> result (list draw * list (list nat))) :
  (mx < 0)%Z -> (forall ds pis s, f (ds, pis) s = ss_step mx rows (ds, pis) s) ->
  forall s samples ds pis, exists t, res_fold f (s :: samples) (ds, pis) = Err t.
Proof.
  intros Hmx Hf s samples ds pis. cbn [res_fold]. rewrite Hf. unfold ss_step, zlen.
  set (a := Z.of_nat (length (idx_where (in_sample s) rows))). assert (0 <= a)%Z by (subst a; lia).
  destruct (a >? mx)%Z eqn:E; [|lia]. unfold ceil_div_float. destruct (mx =? 0)%Z eqn:E0; [lia|]. cbn [res_bind].
  unfold permutation_ints. destruct (take_ints ds) as [[perm ds1]|t]; cbn [res_bind]; [|eauto].
  unfold array_split_z.
  assert (- (- a / mx) <= 0)%Z as Hn.
  { pose proof (Z.div_mod (- a) mx ltac:(lia)). pose proof (Z.mod_neg_bound (- a) mx Hmx). nia. }
  destruct (- (- a / mx) <=? 0)%Z eqn:E1; [|lia]. cbn [res_bind]. eauto.
Qed.

Theorem src_sample_seg_negative_max : forall mx rows ds, (mx < 0)%Z ->
  match sample_seg true mx rows ds with
  | Ok r => src_sample_seg_generate_plates mx rows ds = Ok r
  | Err _ => exists t, src_sample_seg_generate_plates mx rows ds = Err t
  end.
Proof.
  intros mx rows ds Hmx. unfold sample_seg, src_sample_seg_generate_plates.
  destruct (sample_names rows) as [|s samples] eqn:Es.
  - cbn [ss_plates res_fold res_bind enumerate_z length seq map combine].
    now rewrite (sample_names_nil rows Es).
  - cbn [ss_plates]. assert (Z.of_nat (length (idx_where (in_sample s) rows)) >? mx = true)%Z as -> by lia.
    assert (mx <=? 0 = true)%Z as -> by lia. cbn [res_bind].
    match goal with |- context [res_fold ?f (s :: samples) (ds, [])] =>
      destruct (ss_for_neg mx rows f Hmx ltac:(intros; reflexivity) s samples ds []) as [t ->] end.
    cbn [res_bind]. eauto.
Qed.

(* FixedSizeSmoother / OptimalSizeSmoother._smooth_plates *)
(* the loop over the plates (drop / keep / sub-sample), for an arbitrary body equal to the canonical one *)
Lemma size_for (t : Z) (rows : screen_t) (f : list bvec * list draw -> bvec -> result (list bvec * list draw)) :
  (forall res ds v, f (res, ds) v =
     if (plate_size v <? t)%Z then Ok (res, ds)
     else
       dor (r1, d1) <- (if (plate_size v =? t)%Z then Ok (res ++ [v], ds)
                        else
                          dor (d2, r2) <- (if (plate_size v >? t)%Z then
                                             dor (idx, d3) <- choice_ints (vec_positions v) t ds;
                                             Ok (d3, res ++ [vof_idx (length rows) idx])
                                           else Ok (ds, res));
                          Ok (r2, d2));
       Ok (r1, d1)) ->
  forall plates ds res,
    res_fold f (map (fun p => plate_vec p rows) plates) (res, ds)
    = dor r <- size_results t (length rows) rows plates ds; Ok (res ++ fst r, snd r).
Proof.
  intros Hf. induction plates as [|p plates IH]; intros ds res; cbn [map res_fold size_results res_bind fst snd].
  - now rewrite app_nil_r.
  - rewrite Hf. unfold plate_size. set (sz := Z.of_nat (vcount (plate_vec p rows))).
    destruct (sz <? t)%Z eqn:E1; cbn [res_bind]; [apply IH|].
    destruct (sz =? t)%Z eqn:E2; cbn [res_bind].
    + rewrite IH. destruct (size_results t (length rows) rows plates ds) as [[vs ds']|e]; cbn [res_bind fst snd]; [|reflexivity].
      now rewrite <- app_assoc.
    + destruct (sz >? t)%Z eqn:E3; [|lia]. unfold choice_ints.
      destruct (t <? 0)%Z; cbn [res_bind]; [reflexivity|].
      destruct (take_ints ds) as [[idx ds1]|e]; cbn [res_bind]; [|reflexivity].
      rewrite IH. destruct (size_results t (length rows) rows plates ds1) as [[vs ds']|e]; cbn [res_bind fst snd]; [|reflexivity].
      now rewrite <- app_assoc.
Qed.

Theorem src_fixed_size_is_model : forall t rows ds,
  src_fixed_size_smooth_plates t rows ds = size_smooth t rows ds.
Proof.
  intros t rows ds. unfold src_fixed_size_smooth_plates, size_smooth, plates_of.
  rewrite (size_for t rows) by (intros; reflexivity).
  destruct (size_results t (length rows) rows (plate_names_of rows) ds) as [[vs ds']|e]; cbn [res_bind fst snd app]; [|reflexivity].
  rewrite (res_fold_pure _ vor) by reflexivity. reflexivity.
Qed.

(* the three numpy statements that pick the optimal size, on ints, against the model on nat *)
Lemma leb_of_nat : forall x y, (Z.of_nat x <=? Z.of_nat y)%Z = (x <=? y).
Proof. intros. destruct (x <=? y) eqn:E; [apply Nat.leb_le in E|apply Nat.leb_gt in E]; lia. Qed.
Lemma ltb_of_nat : forall x y, (Z.of_nat x <? Z.of_nat y)%Z = (x <? y).
Proof. intros. destruct (x <? y) eqn:E; [apply Nat.ltb_lt in E|apply Nat.ltb_ge in E]; lia. Qed.

Lemma insert_z_of_nat : forall x l, insert_z (Z.of_nat x) (map Z.of_nat l) = map Z.of_nat (insert_nat x l).
Proof.
  intros x. induction l as [|y l IH]; [reflexivity|]. cbn [map insert_z insert_nat].
  rewrite leb_of_nat. destruct (x <=? y); cbn [map]; [reflexivity|]. now rewrite IH.
Qed.
Lemma sort_z_of_nat : forall l, sort_z (map Z.of_nat l) = map Z.of_nat (sort_nat l).
Proof.
  induction l as [|x l IH]; [reflexivity|]. cbn [map sort_z sort_nat fold_right].
  fold (sort_z (map Z.of_nat l)). fold (sort_nat l). now rewrite IH, insert_z_of_nat.
Qed.

Lemma products_of_nat : forall l k N, N = k + length l ->
  vmul_z (map Z.of_nat l) (rsub_z (Z.of_nat N) (map Z.of_nat (seq k (length l))))
  = map Z.of_nat (map (fun kx => snd kx * (N - fst kx)) (enum_from k l)).
Proof.
  induction l as [|x l IH]; intros k N HN; [reflexivity|].
  cbn [length seq map enum_from fst snd]. unfold vmul_z, rsub_z in *. cbn [map combine fst snd]. f_equal.
  - rewrite Nat2Z.inj_mul, Nat2Z.inj_sub by (cbn [length] in HN; lia). reflexivity.
  - apply IH. cbn [length] in HN. lia.
Qed.

Lemma argmax_go_of_nat : forall l i best bi,
  argmax_z_go (map Z.of_nat l) (Z.of_nat i) (Z.of_nat best) (Z.of_nat bi) = Z.of_nat (argmax_go l i best bi).
Proof.
  induction l as [|y l IH]; intros i best bi; [reflexivity|]. cbn [map argmax_z_go argmax_go].
  rewrite ltb_of_nat. replace (Z.of_nat i + 1)%Z with (Z.of_nat (S i)) by lia.
  destruct (best <? y); apply IH.
Qed.
Lemma argmax_of_nat : forall l, l <> [] -> argmax_z (map Z.of_nat l) = Ok (Z.of_nat (argmax l)).
Proof.
  intros [|x l] H; [congruence|]. cbn [map argmax_z argmax]. f_equal. apply (argmax_go_of_nat l 1 x 0).
Qed.

Lemma list_get_of_nat : forall l i, i < length l -> list_get (map Z.of_nat l) (Z.of_nat i) = Ok (Z.of_nat (nth i l 0)).
Proof.
  intros l i Hi. rewrite (list_get_in _ _ (Z.of_nat 0)) by (rewrite map_length; lia).
  now rewrite Nat2Z.id, map_nth.
Qed.

Lemma sort_nat_length : forall l, length (sort_nat l) = length l.
Proof. intros l. apply Permutation_length, sort_nat_perm. Qed.

Theorem src_optimal_size_is_model : forall rows ds,
  src_optimal_size_smooth_plates rows ds = optimal_smooth rows ds.
Proof.
  intros rows ds. destruct rows as [|r0 rows']; [reflexivity|].
  assert (r0 :: rows' <> []) as Hrows by discriminate. remember (r0 :: rows') as rows eqn:Er.
  unfold src_optimal_size_smooth_plates, optimal_smooth.
  replace (Retro.is_nil rows) with false by (subst; reflexivity).
  assert (map (fun v => plate_size v) (plates_of rows) = map Z.of_nat (plate_sizes rows)) as ->.
  { unfold plates_of, plate_sizes, plate_size. now rewrite !map_map. }
  rewrite sort_z_of_nat. set (s := sort_nat (plate_sizes rows)).
  unfold zlen, zrange. rewrite map_length, Nat2Z.id.
  rewrite (products_of_nat s 0 (length s)) by reflexivity. fold (size_products s).
  assert (plate_sizes rows <> []) as Hne.
  { unfold plate_sizes. intros E. apply map_eq_nil, plate_names_of_nil in E. congruence. }
  assert (s <> []) as Hs.
  { intros E. apply (f_equal (@length _)) in E. subst s. rewrite sort_nat_length in E.
    destruct (plate_sizes rows); [congruence|cbn in E; lia]. }
  assert (size_products s <> []) as Hp.
  { unfold size_products. intros E. apply map_eq_nil in E. destruct s; [congruence|discriminate]. }
  rewrite (argmax_of_nat _ Hp). cbn [res_bind].
  destruct (argmax_spec _ Hp) as [Hlt _].
  unfold size_products in Hlt at 2. rewrite map_length, enum_from_length in Hlt.
  rewrite (list_get_of_nat s _ Hlt). cbn [res_bind]. fold (optimal_size (plate_sizes rows)).
  unfold size_smooth, plates_of.
  rewrite (size_for (Z.of_nat (optimal_size (plate_sizes rows))) rows) by (intros; reflexivity).
  destruct (size_results _ (length rows) rows (plate_names_of rows) ds) as [[vs ds']|e]; cbn [res_bind fst snd app]; [|reflexivity].
  rewrite (res_fold_pure _ vor) by reflexivity. reflexivity.
Qed.

(* NPlatePerCellLineSmoother._get_plate_sample_id / ._smooth_plates *)
Theorem src_nplate_get_plate_sample_id_is_model : forall rows p,
  src_nplate_get_plate_sample_id rows (plate_vec p rows) = dor nm <- plate_sample p rows; Ok (sample_id_z rows nm).
Proof.
  intros rows p. unfold src_nplate_get_plate_sample_id, plate_sample, plate_unique_sample_ids, plate_unique_samples, plate_samples, zlen.
  rewrite vselect_plate_vec.
  destruct (sort_uniq name_cmp (map r_sample (filter (in_plate p) rows))) as [|x [|y l]]; cbn [map length first_item res_bind];
    try reflexivity.
  destruct (Z.of_nat (S (S (length (map (sample_id_z rows) l)))) >? 1)%Z eqn:E; [reflexivity|]. lia.
Qed.

(* the integer ids are injective on the sample names of the screen *)
Lemma sample_id_z_inj : forall rows a b, In a (sample_names rows) -> In b (sample_names rows) ->
  sample_id_z rows a = sample_id_z rows b -> a = b.
Proof.
  intros rows a b Ha Hb E. unfold sample_id_z, sample_id in E. apply Nat2Z.inj in E.
  pose proof (nth_error_index_of a _ Ha) as H1. pose proof (nth_error_index_of b _ Hb) as H2. congruence.
Qed.
Lemma sample_id_z_eqb : forall rows a b, In a (sample_names rows) -> In b (sample_names rows) ->
  (sample_id_z rows a =? sample_id_z rows b)%Z = name_eqb a b.
Proof.
  intros rows a b Ha Hb. destruct (name_eqb a b) eqn:E.
  - apply name_eqb_eq in E. subst. apply Z.eqb_refl.
  - apply Z.eqb_neq. intros H. apply sample_id_z_inj in H; [|assumption|assumption]. subst. rewrite name_eqb_refl in E. discriminate.
Qed.

(* the model's name-keyed counts, as the dict of the source (keys = integer ids) *)
Definition enc_counts (rows : list row) (counts : list (name * nat)) : list (Z * Z) :=
  map (fun kc => (sample_id_z rows (fst kc), Z.of_nat (snd kc))) counts.

Lemma dict_incr_count_add : forall rows s counts, In s (sample_names rows) ->
  Forall (fun kc => In (fst kc) (sample_names rows)) counts ->
  dict_incr (enc_counts rows counts) (sample_id_z rows s) 1 = enc_counts rows (count_add s counts).
Proof.
  intros rows s counts Hs. induction counts as [|[k c] counts IH]; intros HF; [reflexivity|].
  inversion HF as [|? ? Hk HF']; subst. cbn [fst] in Hk. cbn [enc_counts map dict_incr count_add fst snd].
  rewrite (sample_id_z_eqb rows k s Hk Hs). destruct (name_eqb k s); cbn [map fst snd].
  - f_equal. f_equal. lia.
  - f_equal. apply IH. exact HF'.
Qed.

Lemma count_add_keys : forall (P : name -> Prop) s counts, P s ->
  Forall (fun kc => P (fst kc)) counts -> Forall (fun kc : name * nat => P (fst kc)) (count_add s counts).
Proof.
  intros P s counts Hs. induction counts as [|[k c] counts IH]; intros HF; cbn [count_add].
  - constructor; [exact Hs|constructor].
  - inversion HF; subst. destruct (name_eqb k s); constructor; auto.
Qed.

Lemma counts_fold : forall rows sps acc, Forall (fun s => In s (sample_names rows)) sps ->
  Forall (fun kc => In (fst kc) (sample_names rows)) acc ->
  fold_left (fun d s => dict_incr d (sample_id_z rows s) 1) sps (enc_counts rows acc)
  = enc_counts rows (fold_left (fun a s => count_add s a) sps acc)
  /\ Forall (fun kc => In (fst kc) (sample_names rows)) (fold_left (fun a s => count_add s a) sps acc).
Proof.
  intros rows sps. induction sps as [|s sps IH]; intros acc HS HA; cbn [fold_left]; [auto|].
  inversion HS; subst. rewrite dict_incr_count_add by assumption. apply IH; [assumption|].
  now apply (count_add_keys (fun k => In k (sample_names rows))).
Qed.

Lemma plate_sample_in_names : forall p rows s, plate_sample p rows = Ok s -> In s (sample_names rows).
Proof.
  intros p rows s H. apply plate_sample_ok in H.
  assert (In s (plate_samples p rows)) as Hin by (rewrite H; now left).
  apply In_plate_samples in Hin as (r & Hr & _ & Hs). apply In_sample_names. eauto.
Qed.

(* the counting loop, for an arbitrary body equal to the canonical one *)
Lemma np_count_loop (rows : screen_t) (f : list (Z * Z) -> bvec -> result (list (Z * Z))) :
  (forall d v, f d v = dor id <- src_nplate_get_plate_sample_id rows v; Ok (dict_incr d id 1)) ->
  forall plates d,
    res_fold f (map (fun p => plate_vec p rows) plates) d
    = dor sps <- res_map_all (fun p => plate_sample p rows) plates;
      Ok (fold_left (fun d s => dict_incr d (sample_id_z rows s) 1) sps d).
Proof.
  intros Hf. induction plates as [|p plates IH]; intros d; cbn [map res_fold res_map_all res_bind fold_left]; [reflexivity|].
  rewrite Hf, src_nplate_get_plate_sample_id_is_model.
  destruct (plate_sample p rows) as [s|t]; cbn [res_bind]; [|reflexivity].
  rewrite IH. destruct (res_map_all (fun p0 => plate_sample p0 rows) plates) as [sps|t]; reflexivity.
Qed.

(* the drop loop over the dict's items, for an arbitrary body equal to the canonical one *)
Lemma np_drop_loop (m : Z) (rows : screen_t) (f : screen_t -> Z * Z -> result screen_t) :
  (forall scr id c, f scr (id, c) =
     dor s' <- (if (c <? m)%Z then
                  dor nm <- list_get (sample_names rows) id;
                  Ok (to_screen (subset_of scr (sample_name_ne scr nm)))
                else Ok scr);
     Ok s') ->
  forall counts scr, Forall (fun kc => In (fst kc) (sample_names rows)) counts ->
    res_fold f (enc_counts rows counts) scr
    = Ok (filter (fun r => negb (name_mem (r_sample r) (map fst (filter (fun kc => (Z.of_nat (snd kc) <? m)%Z) counts)))) scr).
Proof.
  intros Hf. induction counts as [|[k c] counts IH]; intros scr HF; cbn [enc_counts map res_fold filter fst snd].
  - f_equal. symmetry. rewrite (filter_ext _ (fun _ => true)) by reflexivity. apply filter_true.
  - inversion HF as [|? ? Hk HF']; subst. cbn [fst] in Hk. rewrite Hf.
    destruct (Z.of_nat c <? m)%Z eqn:E; cbn [res_bind map fst].
    + unfold sample_id_z, sample_id, list_get.
      destruct (Z.of_nat (index_of k (sample_names rows)) <? 0)%Z eqn:E0; [lia|]. rewrite E0, Nat2Z.id, (nth_error_index_of k _ Hk).
      cbn [res_bind]. fold (enc_counts rows counts). rewrite (IH _ HF'). f_equal.
      unfold to_screen, subset_of, sample_name_ne. rewrite <- filter_vselect, filter_filter.
      apply filter_ext. intros r. cbn [name_mem existsb]. now rewrite negb_orb.
    + fold (enc_counts rows counts). apply (IH _ HF').
Qed.

Theorem src_nplate_is_model : forall m rows, src_nplate_smooth_plates m rows = nplate true m rows.
Proof.
  intros m rows. unfold src_nplate_smooth_plates, nplate, plate_counts, plates_of, dict_items.
  rewrite (np_count_loop rows) by (intros; reflexivity).
  destruct (res_map_all (fun p => plate_sample p rows) (plate_names_of rows)) as [sps|t] eqn:E; cbn [res_bind]; [|reflexivity].
  assert (Forall (fun s => In s (sample_names rows)) sps) as HS.
  { apply res_map_all_Forall2 in E. induction E as [|p s ps ss Hp _ IH]; constructor; [|exact IH].
    eapply plate_sample_in_names; eassumption. }
  destruct (counts_fold rows sps [] HS (Forall_nil _)) as [Hc HK]. change (enc_counts rows []) with (@nil (Z * Z)) in Hc. rewrite Hc.
  rewrite (np_drop_loop m rows) by (first [intros; reflexivity | exact HK]). reflexivity.
Qed.

(* BatchieEnsemblePlateSmoother._smooth_plates *)
Lemma wrap_ext1 : forall (f g : inner) rows ds,
  f (unobserved rows) ds = g (unobserved rows) ds -> wrap f rows ds = wrap g rows ds.
Proof. intros f g rows ds H. unfold wrap. now rewrite H. Qed.

(* the translated wrappers of core.py around an inner method that equals a model on the unobserved experiments *)
Lemma src_generate_plates_of : forall (f : inner) g rows ds,
  f (unobserved rows) ds = generate_inner g (unobserved rows) ds -> src_generate_plates f rows ds = generate_plates g rows ds.
Proof. intros f g rows ds H. rewrite src_generate_plates_is_wrap. now apply wrap_ext1. Qed.
Lemma src_smooth_plates_of : forall (f : inner) sm rows ds,
  f (unobserved rows) ds = smooth_inner sm (unobserved rows) ds -> src_smooth_plates f rows ds = smooth_plates sm rows ds.
Proof. intros f sm rows ds H. rewrite src_smooth_plates_is_wrap. now apply wrap_ext1. Qed.

Lemma unobserved_length : forall rows, length (unobserved rows) <= length rows.
Proof. intros. unfold unobserved. apply filter_len_le. Qed.

Theorem src_ensemble_is_model : forall ms n m rows ds fuel, length rows < fuel ->
  src_ensemble_smooth_plates ms n m rows ds fuel = ensemble true ms n m rows ds.
Proof.
  intros ms n m rows ds fuel Hfuel. unfold src_ensemble_smooth_plates, ensemble.
  rewrite src_smooth_plates_is_wrap.
  rewrite (wrap_ext1 _ (merge_min ms)) by (apply src_merge_min_is_model; pose proof (unobserved_length rows); lia).
  destruct (wrap (merge_min ms) rows ds) as [[s1 d1]|t]; cbn [res_bind]; [|reflexivity].
  rewrite src_smooth_plates_is_wrap.
  rewrite (wrap_ext1 _ (pure_sm (merge_tb n))) by (unfold pure_sm; now rewrite src_merge_tb_is_model).
  destruct (wrap (pure_sm (merge_tb n)) s1 d1) as [[s2 d2]|t]; cbn [res_bind]; [|reflexivity].
  rewrite src_smooth_plates_is_wrap.
  rewrite (wrap_ext1 _ optimal_smooth) by apply src_optimal_size_is_model.
  destruct (wrap optimal_smooth s2 d2) as [[s3 d3]|t]; cbn [res_bind]; [|reflexivity].
  rewrite src_smooth_plates_is_wrap.
  rewrite (wrap_ext1 _ (pure_sm (nplate true m))) by (unfold pure_sm; now rewrite src_nplate_is_model).
  destruct (wrap (pure_sm (nplate true m)) s3 d3) as [[s4 d4]|t]; reflexivity.
Qed.

(* PlatePermutationPlateGenerator._generate_plates *)
Lemma construct_unmasked : forall l, (forall r, In r l -> r_mask r = false) -> construct l = Ok l.
Proof.
  intros l H. unfold construct. rewrite plate_uniform_of_agree; [reflexivity|].
  intros r1 r2 H1 H2 _. now rewrite (H r1 H1), (H r2 H2).
Qed.

Lemma filter_negb_none {A} (f : A -> bool) : forall l, existsb negb (map f l) = false -> filter (fun x => negb (f x)) l = [].
Proof.
  induction l as [|a l IH]; intros H; [reflexivity|]. cbn [map existsb] in H. apply orb_false_iff in H as [H1 H2].
  cbn [filter]. rewrite H1. now apply IH.
Qed.

(* what both branches go on with: the rows to permute and (None when there are none) the rows left alone *)
Lemma plate_perm_tail : forall (tp np : list row) ds,
  (dor (names, d) <- permutation_names (map r_plate tp) ds;
   dor permuted <- screen_renamed tp names;
   if is_some (if Retro.is_nil np then None else Some np) then
     dor u <- unwrap (if Retro.is_nil np then None else Some np);
     dor c <- combine_screens permuted u; Ok (c, d)
   else Ok (permuted, d))
  = dor x <- take_names ds;
    let '(names, ds') := x in
    if negb (length names =? length tp) then Err 91%Z
    else dor c <- construct (map (fun x => set_mask false (set_plate (fst x) (snd x))) (combine names tp) ++ np); Ok (c, ds').
Proof.
  intros tp np ds. unfold permutation_names. destruct (take_names ds) as [[names d]|t]; cbn [res_bind]; [|reflexivity].
  unfold screen_renamed. destruct (negb (length names =? length tp)); cbn [res_bind]; [reflexivity|].
  rewrite construct_unmasked by (intros r Hr; apply in_map_iff in Hr as (x & <- & _); reflexivity). cbn [res_bind].
  destruct np as [|r np]; cbn [Retro.is_nil is_some unwrap res_bind].
  - rewrite app_nil_r.
    rewrite construct_unmasked by (intros r Hr; apply in_map_iff in Hr as (x & <- & _); reflexivity). reflexivity.
  - unfold combine_screens. destruct (construct _); reflexivity.
Qed.

Theorem src_plate_permutation_is_model : forall force rows ds,
  src_plate_permutation_generate_plates force rows ds
  = plate_perm (match force with Some l => l | None => [] end) rows ds.
Proof.
  intros force rows ds. unfold src_plate_permutation_generate_plates, plate_perm.
  assert (forall keepf : row -> bool,
            (dor (tp, np) <- (if existsb negb (map keepf rows)
                              then Ok (to_screen (subset_of rows (map keepf rows)),
                                       Some (to_screen (subset_of rows (map negb (map keepf rows)))))
                              else Ok (to_screen (subset_of rows (map keepf rows)), None));
             dor (names, d) <- permutation_names (map r_plate tp) ds;
             dor permuted <- screen_renamed tp names;
             if is_some np then dor u <- unwrap np; dor c <- combine_screens permuted u; Ok (c, d) else Ok (permuted, d))
            = dor x <- take_names ds;
              let '(names, ds') := x in
              if negb (length names =? length (filter keepf rows)) then Err 91%Z
              else dor c <- construct (map (fun x => set_mask false (set_plate (fst x) (snd x))) (combine names (filter keepf rows))
                                       ++ filter (fun r => negb (keepf r)) rows); Ok (c, ds')) as Hcore.
  { intros keepf. unfold to_screen, subset_of. rewrite map_map, <- !filter_vselect.
    rewrite <- (plate_perm_tail (filter keepf rows) (filter (fun r => negb (keepf r)) rows) ds).
    destruct (existsb negb (map keepf rows)) eqn:E; cbn [res_bind].
    - destruct (filter (fun r => negb (keepf r)) rows) as [|r0 np] eqn:En; [|reflexivity].
      exfalso. apply existsb_exists in E as (b & Hb & Hn). apply in_map_iff in Hb as (r & <- & Hr).
      assert (In r (filter (fun r => negb (keepf r)) rows)) as Hin by (apply filter_In; split; assumption).
      rewrite En in Hin. contradiction.
    - rewrite (filter_negb_none keepf rows E). reflexivity. }
  destruct force as [[|x l]|].
  - rewrite <- (map_const_repeat true rows). exact (Hcore (fun _ => true)).
  - exact (Hcore (fun r => negb (name_mem (r_plate r) (x :: l)))).
  - rewrite <- (map_const_repeat true rows). exact (Hcore (fun _ => true)).
Qed.

(* SparseCoverPlateGenerator._generate_and_unmask_initial_plate *)
Lemma vand_map {A} (f g : A -> bool) : forall l, vand (map f l) (map g l) = map (fun x => f x && g x) l.
Proof. induction l as [|a l IH]; [reflexivity|]. cbn [map vand]. now rewrite IH. Qed.
Lemma vec_positions_map (F : row -> bool) : forall rows, vec_positions (map F rows) = idx_where F rows.
Proof.
  intros rows. unfold vec_positions, idx_where. generalize 0.
  induction rows as [|r rows IH]; intros k; [reflexivity|]. cbn [map enum_from filter fst snd].
  destruct (F r); cbn [map fst]; now rewrite IH.
Qed.
Lemma positions_of_map (F : row -> bool) : forall rows n, n = length rows ->
  positions_of n (map F rows) = Ok (idx_where F rows).
Proof. intros rows n ->. unfold positions_of. now rewrite map_length, Nat.eqb_refl, vec_positions_map. Qed.

(* the invariants of the two loops: the source's set of covered ids has the elements of the model's list, and the chosen
   row numbers are row numbers of the screen *)
Definition same_ids (a b : list tid) : Prop := forall t, tid_mem t a = tid_mem t b.
Definition in_range (rows : list row) (chosen : list nat) : Prop := Forall (fun i => i < length rows) chosen.

Lemma tid_mem_app : forall t a b, tid_mem t (a ++ b) = tid_mem t a || tid_mem t b.
Proof. intros. unfold tid_mem. apply existsb_app. Qed.

Lemma rows_at_ok : forall ctrl rows idx, in_range rows idx ->
  rows_at (treatment_ids ctrl rows) idx
  = Ok (map (fun i => match nth_error rows i with Some r => row_tids ctrl r | None => [] end) idx).
Proof.
  intros ctrl rows idx H. apply res_map_all_ok. intros i Hi. unfold treatment_ids. rewrite nth_error_map.
  apply (proj1 (Forall_forall _ _) H), nth_error_Some in Hi. now destruct (nth_error rows i).
Qed.

Lemma covered_step : forall ctrl rows chosen covered i, same_ids covered (tids_at ctrl rows chosen) ->
  same_ids (covered ++ tids_at ctrl rows (chosen ++ [i])) (tids_at ctrl rows (chosen ++ [i])).
Proof.
  intros ctrl rows chosen covered i H t. rewrite tid_mem_app, H, tids_at_app, tid_mem_app.
  destruct (tid_mem t (tids_at ctrl rows chosen)), (tid_mem t (tids_at ctrl rows [i])); reflexivity.
Qed.

(* a row number answered from an offered array extends the chosen row numbers within the screen *)
Lemma in_range_offered : forall (F : row -> bool) rows chosen i, in_range rows chosen ->
  memb i (idx_where F rows) = true -> in_range rows (chosen ++ [i]).
Proof.
  intros F rows chosen i HR H. apply Forall_app. split; [exact HR|]. constructor; [|constructor].
  apply memb_In, In_idx_where in H as (r & Hn & _). apply nth_error_Some. congruence.
Qed.

(* what one rng.choice(offered, size=1) followed by the two updates does, in both loops *)
Lemma choose_and_cover {B} : forall ctrl rows (F : row -> bool) chosen ds (k : nat -> list draw -> list (list tid) -> result B),
  in_range rows chosen ->
  (dor (ci, d) <- choose_one (idx_where F rows) ds;
   dor r <- rows_at (treatment_ids ctrl rows) (chosen ++ [ci]);
   k ci d r)
  = match ds with
    | DInts [i] :: ds1 =>
        if memb i (idx_where F rows)
        then k i ds1 (map (fun j => match nth_error rows j with Some r => row_tids ctrl r | None => [] end) (chosen ++ [i]))
        else Err 94%Z
    | DInts _ :: _ => Err 91%Z
    | _ => Err 90%Z
    end.
Proof.
  intros ctrl rows F chosen ds k HR. unfold choose_one.
  destruct ds as [|[[|i [|j l]]|nm] ds1]; cbn [res_bind]; try reflexivity.
  destruct (memb i (idx_where F rows)) eqn:E; cbn [res_bind]; [|reflexivity].
  rewrite rows_at_ok; [reflexivity|].
  eapply in_range_offered; eassumption.
Qed.

(* the body of the per-sample loop *)
Definition sc_for_body (ctrl : name) (rows : screen_t) (st : bvec * list draw * list nat * list tid) (s : name)
  : result (bvec * list draw * list nat * list tid) :=
  let '(sv, ds, chosen, covered) := st in
  let sv1 := vand (map (in_sample s) rows) (any_rows (not2 (isin2 (treatment_ids ctrl rows) covered))) in
  dor (si, d1, ci1, ch1, cov1, sv2) <-
    (if (Z.of_nat (vcount sv1) >? 0)%Z then
       dor r2 <- positions_of (length sv1) sv1;
       dor (ci, d) <- choose_one r2 ds;
       dor r3 <- rows_at (treatment_ids ctrl rows) (chosen ++ [ci]);
       Ok (r2, d, ci, chosen ++ [ci], covered ++ concat r3, sv1)
     else
       dor r4 <- positions_of (length (map (in_sample s) rows)) (map (in_sample s) rows);
       dor (ci, d) <- choose_one r4 ds;
       dor r5 <- rows_at (treatment_ids ctrl rows) (chosen ++ [ci]);
       Ok (r4, d, ci, chosen ++ [ci], covered ++ concat r5, map (in_sample s) rows));
  Ok (sv2, d1, ch1, cov1).

Lemma sc_for_body_step : forall ctrl rows sv ds chosen covered s,
  same_ids covered (tids_at ctrl rows chosen) -> in_range rows chosen ->
  exists sv', length sv' = length rows /\
    sc_for_body ctrl rows (sv, ds, chosen, covered) s
    = match ds with
      | DInts [i] :: ds1 =>
          if memb i (sc_offer_sample ctrl rows s chosen)
          then Ok (sv', ds1, chosen ++ [i], covered ++ tids_at ctrl rows (chosen ++ [i]))
          else Err 94%Z
      | DInts _ :: _ => Err 91%Z
      | _ => Err 90%Z
      end.
Proof.
  intros ctrl rows sv ds chosen covered s HC HR. unfold sc_for_body.
  set (F := fun r => in_sample s r && existsb (fun t => negb (tid_mem t (tids_at ctrl rows chosen))) (row_tids ctrl r)).
  assert (vand (map (in_sample s) rows) (any_rows (not2 (isin2 (treatment_ids ctrl rows) covered))) = map F rows) as ->.
  { unfold any_rows, not2, isin2, treatment_ids. rewrite !map_map, vand_map. apply map_ext. intros r. subst F. cbv beta. f_equal.
    rewrite !existsb_map. apply existsb_ext_in. intros t _. now rewrite HC. }
  rewrite vcount_map, <- idx_where_length.
  unfold sc_offer_sample. fold F.
  destruct (idx_where F rows) as [|j0 js] eqn:EF.
  - cbn [length Retro.is_nil]. destruct (Z.of_nat 0 >? 0)%Z eqn:E0; [lia|].
    exists (map (in_sample s) rows). split; [apply map_length|].
    rewrite positions_of_map by (now rewrite map_length). cbn [res_bind].
    rewrite (choose_and_cover ctrl rows (in_sample s) chosen ds) by exact HR.
    destruct ds as [|[[|i [|j l]]|nm] ds1]; try reflexivity.
    destruct (memb i (idx_where (in_sample s) rows)); reflexivity.
  - cbn [length Retro.is_nil]. destruct (Z.of_nat (S (length js)) >? 0)%Z eqn:E0; [|lia].
    exists (map F rows). split; [apply map_length|].
    rewrite positions_of_map by (now rewrite map_length). cbn [res_bind]. rewrite <- EF.
    rewrite (choose_and_cover ctrl rows F chosen ds) by exact HR.
    destruct ds as [|[[|i [|j l]]|nm] ds1]; try reflexivity.
    destruct (memb i (idx_where F rows)); reflexivity.
Qed.

Lemma in_range_snoc : forall ctrl rows s chosen i, in_range rows chosen ->
  memb i (sc_offer_sample ctrl rows s chosen) = true -> in_range rows (chosen ++ [i]).
Proof.
  intros ctrl rows s chosen i HR H. unfold sc_offer_sample in H.
  destruct (Retro.is_nil _); eapply in_range_offered; eassumption.
Qed.

Lemma sc_for (ctrl : name) (rows : screen_t)
      (f : bvec * list draw * list nat * list tid -> name -> result (bvec * list draw * list nat * list tid)) :
  (forall sv ds chosen covered s, f (sv, ds, chosen, covered) s = sc_for_body ctrl rows (sv, ds, chosen, covered) s) ->
  forall samples sv ds chosen covered,
    same_ids covered (tids_at ctrl rows chosen) -> in_range rows chosen ->
    match sc_samples ctrl rows samples chosen ds with
    | Ok (chosen', ds') =>
        exists sv' covered', res_fold f samples (sv, ds, chosen, covered) = Ok (sv', ds', chosen', covered')
                             /\ same_ids covered' (tids_at ctrl rows chosen') /\ in_range rows chosen'
                             /\ (length sv' = length rows \/ (samples = [] /\ sv' = sv))
    | Err t => res_fold f samples (sv, ds, chosen, covered) = Err t
    end.
Proof.
  intros Hf. induction samples as [|s samples IH]; intros sv ds chosen covered HC HR; cbn [sc_samples res_fold].
  - exists sv, covered. repeat split; auto.
  - rewrite Hf. destruct (sc_for_body_step ctrl rows sv ds chosen covered s HC HR) as (sv1 & HL1 & ->).
    destruct ds as [|[[|i [|j l]]|nm] ds1]; try reflexivity.
    destruct (memb i (sc_offer_sample ctrl rows s chosen)) eqn:E; [|reflexivity]. cbn [res_bind].
    specialize (IH sv1 ds1 (chosen ++ [i]) (covered ++ tids_at ctrl rows (chosen ++ [i]))
                   (covered_step ctrl rows chosen covered i HC) (in_range_snoc ctrl rows s chosen i HR E)).
    destruct (sc_samples ctrl rows samples (chosen ++ [i]) ds1) as [[chosen' ds']|t]; [|exact IH].
    destruct IH as (sv' & covered' & H1 & H2 & H3 & H4). exists sv', covered'. repeat split; try assumption.
    left. destruct H4 as [H4|[_ ->]]; assumption.
Qed.

(* the body of the while loop; n = selection_vector.size *)
Definition sc_while_body (ctrl : name) (rows : screen_t) (n : nat) (st : list draw * list nat * list tid * list tid)
  : result (bool * (list draw * list nat * list tid * list tid)) :=
  let '(ds, chosen, covered, rem) := st in
  if negb (zlen rem >? 0)%Z then Ok (false, (ds, chosen, covered, rem))
  else
    dor r6 <- positions_of n (any_rows (isin2 (treatment_ids ctrl rows) rem));
    dor (ci, d) <- choose_one r6 ds;
    dor r7 <- rows_at (treatment_ids ctrl rows) (chosen ++ [ci]);
    Ok (true, (d, chosen ++ [ci], covered ++ concat r7,
               setdiff_ids (treatment_ids ctrl rows) (covered ++ concat r7))).

Lemma remaining_eq : forall ctrl rows chosen covered, same_ids covered (tids_at ctrl rows chosen) ->
  setdiff_ids (treatment_ids ctrl rows) covered = sc_remaining ctrl rows chosen.
Proof.
  intros ctrl rows chosen covered H. unfold setdiff_ids, sc_remaining, treatment_ids, all_tids.
  apply filter_ext. intros t. now rewrite H.
Qed.

(* one evaluation of the while body *)
Lemma sc_while_step : forall ctrl rows n ds chosen covered, n = length rows ->
  same_ids covered (tids_at ctrl rows chosen) -> in_range rows chosen ->
  sc_while_body ctrl rows n (ds, chosen, covered, setdiff_ids (treatment_ids ctrl rows) covered)
  = if Retro.is_nil (sc_remaining ctrl rows chosen)
    then Ok (false, (ds, chosen, covered, setdiff_ids (treatment_ids ctrl rows) covered))
    else match ds with
         | DInts [i] :: ds1 =>
             if memb i (sc_offer_loop ctrl rows chosen)
             then Ok (true, (ds1, chosen ++ [i], covered ++ tids_at ctrl rows (chosen ++ [i]),
                             setdiff_ids (treatment_ids ctrl rows) (covered ++ tids_at ctrl rows (chosen ++ [i]))))
             else Err 94%Z
         | DInts _ :: _ => Err 91%Z
         | _ => Err 90%Z
         end.
Proof.
  intros ctrl rows n ds chosen covered Hn HC HR. unfold sc_while_body.
  rewrite (remaining_eq ctrl rows chosen covered HC). unfold zlen, sc_offer_loop.
  destruct (sc_remaining ctrl rows chosen) as [|t0 ts] eqn:ER; cbn [Retro.is_nil length]; [reflexivity|].
  destruct (negb (Z.of_nat (S (length ts)) >? 0)%Z) eqn:E0; [lia|].
  set (F := fun r => existsb (fun t => tid_mem t (t0 :: ts)) (row_tids ctrl r)).
  assert (any_rows (isin2 (treatment_ids ctrl rows) (t0 :: ts)) = map F rows) as ->.
  { unfold any_rows, isin2, treatment_ids. rewrite !map_map. apply map_ext. intros r. subst F. cbv beta. apply existsb_map. }
  rewrite positions_of_map by exact Hn. cbn [res_bind].
  rewrite (choose_and_cover ctrl rows F chosen ds) by exact HR.
  destruct ds as [|[[|i [|j l]]|nm] ds1]; reflexivity.
Qed.

(* the while loop against the model's recursion on the recorded answers.  Sufficient fuel, either way: more than the number
   of recorded answers (every iteration reads one), or more than the number of distinct treatment ids still to cover
   (every iteration covers at least one more: C13_sparse_cover_loop_progress) *)
Lemma sc_while (ctrl : name) (rows : screen_t) (n : nat)
      (bd : list draw * list nat * list tid * list tid -> result (bool * (list draw * list nat * list tid * list tid))) :
  n = length rows ->
  (forall ds chosen covered rem, bd (ds, chosen, covered, rem) = sc_while_body ctrl rows n (ds, chosen, covered, rem)) ->
  forall fuel ds chosen covered,
    length ds < fuel \/ ndistinct (sc_remaining ctrl rows chosen) < fuel ->
    same_ids covered (tids_at ctrl rows chosen) -> in_range rows chosen ->
    match sc_loop ctrl rows chosen ds with
    | Ok (chosen', ds') =>
        exists covered' rem', res_while fuel bd (ds, chosen, covered, setdiff_ids (treatment_ids ctrl rows) covered)
                              = Ok (ds', chosen', covered', rem')
    | Err t => res_while fuel bd (ds, chosen, covered, setdiff_ids (treatment_ids ctrl rows) covered) = Err t
    end.
Proof.
  intros Hn Hbd. induction fuel as [|fuel IH]; intros ds chosen covered Hfuel HC HR; [lia|].
  cbn [res_while]. rewrite Hbd, (sc_while_step ctrl rows n ds chosen covered Hn HC HR).
  assert (sc_loop ctrl rows chosen ds =
          if Retro.is_nil (sc_remaining ctrl rows chosen) then Ok (chosen, ds)
          else match ds with
               | DInts [i] :: ds1 => if memb i (sc_offer_loop ctrl rows chosen) then sc_loop ctrl rows (chosen ++ [i]) ds1 else Err 94%Z
               | DInts _ :: _ => Err 91%Z
               | _ => Err 90%Z
               end) as -> by (destruct ds; reflexivity).
  destruct (Retro.is_nil (sc_remaining ctrl rows chosen)); [cbn; eauto|].
  destruct ds as [|[[|i [|j l]]|nm] ds1]; try reflexivity.
  destruct (memb i (sc_offer_loop ctrl rows chosen)) eqn:E; [|reflexivity]. cbn [res_bind fst snd].
  apply IH; [| now apply covered_step | eapply in_range_offered; eassumption].
  destruct Hfuel as [Hfuel|Hfuel]; [left; cbn [length] in Hfuel; lia|right].
  pose proof (loop_step_decreases ctrl rows chosen i (proj1 (memb_In _ _) E)). lia.
Qed.

Lemma final_rows : forall rows (final : bvec), length final = length rows ->
  map (fun x : row * Z * name * bool =>
         {| r_sample := r_sample (fst (fst (fst x))); r_plate := snd (fst x); r_treats := r_treats (fst (fst (fst x)));
            r_obs := snd (fst (fst x)); r_mask := snd x |})
      (combine (combine (combine rows (map r_obs rows))
                        (map (fun nb : name * bool => if snd nb then fst nb else unobserved_plate)
                             (combine (repeat initial_plate (length rows)) final))) final)
  = map (fun br => set_mask (fst br) (set_plate (if fst br then initial_plate else unobserved_plate) (snd br))) (combine final rows).
Proof.
  induction rows as [|r rows IH]; intros [|b final] H; cbn [length] in H; try lia; [reflexivity|].
  cbn [length repeat map combine fst snd]. rewrite IH by lia. destruct b; reflexivity.
Qed.

(* equal to the model's inner part (everything after the fully-observed check of the public wrapper) whenever the explicit
   while-fuel exceeds the number of recorded answers: every iteration of the while loop reads one *)
Definition sparse_cover_inner (ctrl : name) (reveal : bool) (rows : list row) (ds : list draw) : result (list row * list draw) :=
  dor a <- sc_samples ctrl rows (sample_names rows) [] ds;
  let '(chosen1, ds1) := a in
  dor b <- sc_loop ctrl rows chosen1 ds1;
  let '(chosen, ds2) := b in
  let final0 := vof_idx (length rows) chosen in
  let final := if reveal then vor final0 (map (fun r => tid_mem None (row_tids ctrl r)) rows) else final0 in
  dor c <- construct (map (fun br => set_mask (fst br) (set_plate (if fst br then initial_plate else unobserved_plate) (snd br)))
                          (combine final rows));
  Ok (c, ds2).

Lemma sparse_cover_unfold : forall ctrl reveal rows ds,
  sparse_cover ctrl reveal rows ds = if negb (forallb r_mask rows) then Err 8%Z else sparse_cover_inner ctrl reveal rows ds.
Proof. reflexivity. Qed.

Lemma sc_samples_consumes : forall ctrl rows samples chosen ds chosen' ds',
  sc_samples ctrl rows samples chosen ds = Ok (chosen', ds') -> length ds' <= length ds.
Proof.
  intros ctrl rows samples. induction samples as [|s samples IH]; intros chosen ds chosen' ds' H; cbn [sc_samples] in H.
  - inversion H. lia.
  - destruct ds as [|[[|i [|j l]]|nm] ds1]; try discriminate.
    destruct (memb i (sc_offer_sample ctrl rows s chosen)); [|discriminate]. apply IH in H. cbn [length]. lia.
Qed.

Lemma single_drug_vec : forall ctrl rows,
  any_rows (isin2 (treatment_ids ctrl rows) [None]) = map (fun r => tid_mem None (row_tids ctrl r)) rows.
Proof.
  intros ctrl rows. unfold any_rows, isin2, treatment_ids. rewrite !map_map. apply map_ext. intros r.
  rewrite existsb_map. unfold tid_mem. apply existsb_ext_in. intros t _. cbn [existsb]. rewrite orb_false_r. apply tid_eqb_sym.
Qed.

Theorem src_sparse_cover_is_inner : forall ctrl reveal rows ds fuel,
  length ds < fuel \/ ndistinct (all_tids ctrl rows) < fuel ->
  src_sparse_cover ctrl reveal rows ds fuel = sparse_cover_inner ctrl reveal rows ds.
Proof.
  intros ctrl reveal rows ds fuel Hfuel. unfold src_sparse_cover, sparse_cover_inner.
  match goal with |- context [res_fold ?f (sample_names rows) ?st] =>
    pose proof (sc_for ctrl rows f ltac:(intros; reflexivity) (sample_names rows) [] ds [] []
                       (fun t => eq_refl) (Forall_nil _)) as Hfor end.
  destruct (sc_samples ctrl rows (sample_names rows) [] ds) as [[chosen1 ds1]|t] eqn:E1; cbn [res_bind]; [|now rewrite Hfor].
  destruct Hfor as (sv' & covered' & -> & HC & HR & HL). cbn [res_bind].
  assert (length sv' = length rows) as HL'.
  { destruct HL as [HL|[Hs ->]]; [exact HL|]. apply sample_names_nil in Hs. now subst. }
  apply sc_samples_consumes in E1.
  assert (length ds1 < fuel \/ ndistinct (sc_remaining ctrl rows chosen1) < fuel) as Hfuel1.
  { destruct Hfuel as [Hfuel|Hfuel]; [left; lia|right].
    pose proof (ndistinct_incl _ _ (remaining_incl_all ctrl rows chosen1)). lia. }
  match goal with |- context [res_while fuel ?bd ?st] =>
    pose proof (sc_while ctrl rows (length sv') bd HL' ltac:(intros; reflexivity) fuel ds1 chosen1 covered'
                         Hfuel1 HC HR) as Hwh end.
  destruct (sc_loop ctrl rows chosen1 ds1) as [[chosen ds2]|t]; cbn [res_bind]; [|now rewrite Hwh].
  destruct Hwh as (covered'' & rem' & ->). cbn [res_bind].
  set (final := if reveal then vor (vof_idx (length rows) chosen) (map (fun r => tid_mem None (row_tids ctrl r)) rows)
                else vof_idx (length rows) chosen).
  assert ((if reveal then Ok (vor (vof_idx (length rows) chosen) (any_rows (isin2 (treatment_ids ctrl rows) [None])))
           else Ok (vof_idx (length rows) chosen)) = Ok final) as ->.
  { subst final. rewrite single_drug_vec. destruct reveal; reflexivity. }
  cbn [res_bind].
  assert (length final = length rows) as HLf.
  { subst final. destruct reveal; [rewrite vor_length, map_length|]; rewrite vof_idx_length; lia. }
  unfold label_unobserved. rewrite repeat_length, HLf, Nat.eqb_refl. cbn [res_bind].
  unfold screen_with. rewrite !map_length, combine_length, repeat_length, HLf, Nat.min_id, Nat.eqb_refl. cbn [andb].
  rewrite (final_rows rows final HLf).
  destruct (construct _); reflexivity.
Qed.

(* InitialRetrospectivePlateGenerator.generate_and_unmask_initial_plate (core.py) *)
Theorem src_initial_wrapper_is_check : forall (f : initial_inner) rows ds,
  src_generate_and_unmask_initial_plate f rows ds = if negb (forallb r_mask rows) then Err 8%Z else f rows ds.
Proof.
  intros f rows ds. unfold src_generate_and_unmask_initial_plate. destruct (negb (forallb r_mask rows)); [reflexivity|].
  destruct (f rows ds) as [[r d]|t]; reflexivity.
Qed.

(* the public method on a SparseCoverPlateGenerator = the translated wrapper around the translated inner method: the model *)
Theorem src_sparse_cover_is_model : forall ctrl reveal rows ds fuel,
  length ds < fuel \/ ndistinct (all_tids ctrl rows) < fuel ->
  src_generate_and_unmask_initial_plate (fun s d => src_sparse_cover ctrl reveal s d fuel) rows ds
  = sparse_cover ctrl reveal rows ds.
Proof.
  intros ctrl reveal rows ds fuel Hfuel. rewrite src_initial_wrapper_is_check, sparse_cover_unfold.
  destruct (negb (forallb r_mask rows)); [reflexivity|]. now apply src_sparse_cover_is_inner.
Qed.

(* with C13_sparse_cover_terminates: on a fully observed screen, with #distinct-treatment-ids + 1 units of fuel, the
   translated source returns for every answer stream that obeys numpy's choice contract and is long enough - the fuel
   hypothesis of the link is discharged by the termination argument (every iteration covers a new treatment id) *)
Theorem src_sparse_cover_terminates : forall ctrl reveal rows ds,
  forallb r_mask rows = true ->
  sc_contract ctrl rows (sample_names rows) [] ds ->
  length (sample_names rows) + ndistinct (all_tids ctrl rows) <= length ds ->
  exists out ds',
    src_generate_and_unmask_initial_plate
      (fun s d => src_sparse_cover ctrl reveal s d (S (ndistinct (all_tids ctrl rows)))) rows ds = Ok (out, ds').
Proof.
  intros ctrl reveal rows ds Hobs HC Hlen. rewrite src_sparse_cover_is_model by (right; lia).
  now apply sparse_cover_terminates.
Qed.

(* filter_dataset_to_treatments_that_appear_in_at_least_one_combo (data.py) *)
Lemma vselect_map_map {A B} (f : A -> bool) (g : A -> B) : forall l, vselect (map f l) (map g l) = map g (filter f l).
Proof. induction l as [|a l IH]; [reflexivity|]. cbn [map vselect filter]. destruct (f a); cbn [map]; now rewrite IH. Qed.

Theorem src_combo_filter_is_model : forall ctrl arity rows,
  src_combo_filter ctrl arity rows = combo_filter ctrl arity rows.
Proof.
  intros ctrl arity rows. unfold src_combo_filter, combo_filter, screen_arity.
  destruct (arity <? 2) eqn:E; [apply Nat.ltb_lt in E|apply Nat.ltb_ge in E].
  - destruct (Z.of_nat arity <? 2)%Z eqn:E2; [reflexivity|lia].
  - destruct (Z.of_nat arity <? 2)%Z eqn:E2; [lia|].
    assert (all_rows (not2 (is_sentinel2 (treatment_ids ctrl rows))) = map (full_combo ctrl) rows) as ->.
    { unfold all_rows, not2, is_sentinel2, treatment_ids, full_combo. rewrite !map_map. apply map_ext. intros r.
      now rewrite !forallb_map. }
    unfold rows_where, treatment_ids at 2. rewrite vselect_map_map. fold (all_tids ctrl (filter (full_combo ctrl) rows)).
    fold (combo_tids ctrl rows).
    assert (subset_of rows (all_rows (isin2 (treatment_ids ctrl rows) (combo_tids ctrl rows ++ [None])))
            = filter (fun r => forallb (fun t => tid_eqb t None || tid_mem t (combo_tids ctrl rows)) (row_tids ctrl r)) rows) as ->.
    { unfold subset_of, all_rows, isin2, treatment_ids. rewrite !map_map, <- filter_vselect. apply filter_ext. intros r.
      rewrite forallb_map. apply forallb_ext. intros t. rewrite tid_mem_app. unfold tid_mem at 2. cbn [existsb].
      rewrite orb_false_r. apply orb_comm. }
    destruct (construct _); reflexivity.
Qed.

Theorem link_sample_segregating_generate_plates : forall mx rows ds, (0 <= mx)%Z ->
  src_sample_seg_generate_plates mx rows ds = sample_seg_checked mx rows ds /\
  (ss_contract mx rows (sample_names rows) ds -> src_sample_seg_generate_plates mx rows ds = sample_seg true mx rows ds) /\
  (ss_contract mx (unobserved rows) (sample_names (unobserved rows)) ds ->
   src_generate_plates (src_sample_seg_generate_plates mx) rows ds = generate_plates (GSampleSeg true mx) rows ds).
Proof.
  intros mx rows ds H. split; [exact (src_sample_seg_is_checked_model mx rows ds H)|]. split.
  - exact (src_sample_seg_is_model mx rows ds H).
  - intros HC. apply src_generate_plates_of. now apply src_sample_seg_is_model.
Qed.

Theorem link_plate_permutation_generate_plates : forall force rows ds,
  src_plate_permutation_generate_plates force rows ds = plate_perm (match force with Some l => l | None => [] end) rows ds /\
  src_generate_plates (src_plate_permutation_generate_plates force) rows ds
  = generate_plates (GPerm (match force with Some l => l | None => [] end)) rows ds.
Proof. intros. split; [|apply src_generate_plates_of]; apply src_plate_permutation_is_model. Qed.

Theorem link_fixed_size_smooth_plates : forall t rows ds,
  src_fixed_size_smooth_plates t rows ds = size_smooth t rows ds /\
  src_smooth_plates (src_fixed_size_smooth_plates t) rows ds = smooth_plates (SFixed t) rows ds.
Proof. intros. split; [|apply src_smooth_plates_of]; apply src_fixed_size_is_model. Qed.

Theorem link_optimal_size_smooth_plates : forall rows ds,
  src_optimal_size_smooth_plates rows ds = optimal_smooth rows ds /\
  src_smooth_plates src_optimal_size_smooth_plates rows ds = smooth_plates SOptimal rows ds.
Proof. intros. split; [|apply src_smooth_plates_of]; apply src_optimal_size_is_model. Qed.

Theorem link_nplate_smooth_plates : forall m rows ds,
  (forall p, src_nplate_get_plate_sample_id rows (plate_vec p rows) = dor nm <- plate_sample p rows; Ok (sample_id_z rows nm)) /\
  src_nplate_smooth_plates m rows = nplate true m rows /\
  src_smooth_plates (fun s d => dor r <- src_nplate_smooth_plates m s; Ok (r, d)) rows ds = smooth_plates (SNPlate true m) rows ds.
Proof.
  intros. split; [intro p; apply src_nplate_get_plate_sample_id_is_model|].
  split; [apply src_nplate_is_model|]. apply src_smooth_plates_of. now rewrite src_nplate_is_model.
Qed.

Theorem link_ensemble_smooth_plates : forall ms n m rows ds fuel, length rows < fuel ->
  src_ensemble_smooth_plates ms n m rows ds fuel = ensemble true ms n m rows ds /\
  src_smooth_plates (fun s d => src_ensemble_smooth_plates ms n m s d fuel) rows ds = smooth_plates (SEnsemble true ms n m) rows ds.
Proof.
  intros ms n m rows ds fuel H. split; [now apply src_ensemble_is_model|].
  apply src_smooth_plates_of, src_ensemble_is_model. pose proof (unobserved_length rows). lia.
Qed.

Theorem link_sparse_cover_generate_and_unmask_initial_plate : forall ctrl reveal rows ds fuel,
  length ds < fuel \/ ndistinct (all_tids ctrl rows) < fuel ->
  (forall f : initial_inner,
     src_generate_and_unmask_initial_plate f rows ds = if negb (forallb r_mask rows) then Err 8%Z else f rows ds) /\
  src_sparse_cover ctrl reveal rows ds fuel = sparse_cover_inner ctrl reveal rows ds /\
  src_generate_and_unmask_initial_plate (fun s d => src_sparse_cover ctrl reveal s d fuel) rows ds = sparse_cover ctrl reveal rows ds.
Proof.
  intros ctrl reveal rows ds fuel H. split; [intro f; apply src_initial_wrapper_is_check|].
  split; [now apply src_sparse_cover_is_inner | now apply src_sparse_cover_is_model].
Qed.
