(* The argument-handling glue of train_model: the statements of get_args() after parser.parse_args(), and main() as a
   whole command.  The hand-written models Cli.tm_get_args / cli_train_model_cmd equal the translations of the functions
   of /repo, regenerated on every run (Generated/SrcCliArgs.v, configurations ARGS_GET_ARGS_TM / ARGS_CMD_TM of
   harness/src_functions.py), for every introspection record, every record of string primitives, every constructor and
   library record, and all raw namespaces. *)
From Coq Require Import ZArith List.
From Batchie Require Import Lib.Sexp Lib.PyRt Model.Cli Generated.SrcCli Generated.SrcCliArgs
  Proofs.PyRtLemmas Proofs.C04SourceCli Proofs.C18SourceArgs_Cast Proofs.C18SourceIntrospect.
Open Scope Z_scope.

Theorem src_tm_get_args_is_model : forall (Cls F O : Type) (I : introspect Cls) (P : pyprims F O) (raw : tm_ns Cls F O),
  src_tm_get_args Cls F O I P raw = tm_get_args I P raw.
Proof.
  intros. unfold src_tm_get_args, tm_get_args. cbv zeta.
  rewrite <- (resolve_block I P BBayesianModel (tm_model raw) (tm_model_param raw)
                (fun c ps => Ok (tm_set_model_cls (tm_set_model_params raw ps) c))).
  (* the translation holds the package name as a literal *)
  unfold s_batchie.
  destruct (i_get_class I _ (tm_model raw) BBayesianModel) as [c|e]; cbn [res_bind]; [|reflexivity].
  destruct (i_required I c) as [req|e]; cbn [res_bind]; [|reflexivity].
  destruct (negb (opt_list_truthy (tm_model_param raw))); cbn [res_bind]; [reflexivity|].
  destruct (unwrap (tm_model_param raw)) as [u|e]; cbn [res_bind]; [|reflexivity].
  destruct (src_cast_dict_to_type F O P u req); reflexivity.
Qed.

Theorem src_cli_train_model_cmd_is_model :
  forall (Cls F O : Type) (I : introspect Cls) (P : pyprims F O) (Scr Sub Sp Mo Th : Type)
         (construct : Cls -> list (str * pval F O) -> result Mo) (L : tm_lib Scr Sub Sp (list (str * pval F O)) Mo Th)
         (raw : tm_ns Cls F O),
  src_cli_train_model_cmd Cls F O I P Scr Sub Sp Mo Th construct L raw = cli_train_model_cmd I P construct L raw.
Proof.
  intros. unfold src_cli_train_model_cmd, cli_train_model_cmd. cbv zeta.
  rewrite src_tm_get_args_is_model.
  destruct (tm_get_args I P raw) as [a|e]; cbn [res_bind]; [|reflexivity].
  rewrite <- C04SourceCli.src_cli_train_model_is_model.
  unfold SrcCli.src_cli_train_model, instantiate. cbv zeta.
  cbn [tm_with_construct tm_load_screen tm_from_screen tm_set_space tm_construct tm_new_holder tm_subset_observed
       tm_add_observations tm_sample tm_model_cls tm_model_params tm_set_model_params tm_plain].
  repeat cli_step. all: reflexivity.
Qed.

Theorem src_cli_train_model_cmd_world :
  forall (Mod Obj F O : Type) (W : pyworld Mod Obj) (P : pyprims F O) (Scr Sub Sp Mo Th : Type)
         (construct : Obj -> list (str * pval F O) -> result Mo) (L : tm_lib Scr Sub Sp (list (str * pval F O)) Mo Th)
         (raw : tm_ns Obj F O),
  src_cli_train_model_cmd Obj F O (introspect_src W) P Scr Sub Sp Mo Th construct L raw
  = cli_train_model_cmd (introspect_of W) P construct L raw.
Proof.
  intros. rewrite src_cli_train_model_cmd_is_model.
  unfold cli_train_model_cmd, tm_get_args. now rewrite resolve_src.
Qed.
