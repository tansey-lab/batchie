(* C14, one piece of Proofs/C14Source.v (conventions and objects: see there): ScreenSubset.single_treatment_effects *)
From Coq Require Import List.
From Batchie Require Import Lib.Sexp Model.Views Generated.SrcViews.
Import ListNotations.
Open Scope Z_scope.

(* single_treatment_effects: None when the parent's property is None, else its selected rows *)
Theorem src_view_single_effects_is_model : forall (E : Type) (v : view) (parent_value : option (list E)),
  src_view_single_treatment_effects E v parent_value = Ok (view_single_effects v parent_value).
Proof. intros E v [l|]; reflexivity. Qed.
