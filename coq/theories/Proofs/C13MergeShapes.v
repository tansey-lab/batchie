(* C13: merge-smoother clauses on the unobserved plates of what smooth_plates returns, and the
   end-to-end count of MergeTopBottom. *)
From Coq Require Import ZArith List Lia.
From Batchie Require Import Lib.Sexp Proofs.PyRtLemmas Model.Retro Proofs.C11Lib Proofs.C11Smooth Proofs.C13Wrap Proofs.C13NPlate Proofs.C13MergeLib Proofs.C13TopBottom Proofs.C13MergeMin.
Import ListNotations.
Open Scope nat_scope.

Definition halve (k : nat) : nat := (k + 1) / 2.

Lemma halve_small : forall k, k <= 1 -> halve k = k.
Proof. intros [|[|k]] H; try lia; reflexivity. Qed.
(* n iterations of k -> ceil(k/2) *)
Fixpoint halve_n (n k : nat) : nat := match n with O => k | S n' => halve_n n' (halve k) end.
Lemma halve_n_small : forall n k, k <= 1 -> halve_n n k = k.
Proof. induction n as [|n IH]; intros k H; cbn [halve_n]; [reflexivity|]. rewrite halve_small by exact H. now apply IH. Qed.

Lemma tb_iters_counts : forall n s rows out, tb_iters n s rows = Ok out ->
  length (sample_plates s out) = halve_n n (length (sample_plates s rows)) /\
  forall s', s' <> s -> sample_plates s' out = sample_plates s' rows.
Proof.
  induction n as [|n IH]; intros s rows out H; cbn [tb_iters] in H.
  - inversion H; subst. split; reflexivity.
  - pose proof (tb_iter_halves s rows) as Hh.
    destruct (tb_iter s rows) as [[rows1|]|t]; cbn [res_bind] in H; try discriminate.
    + destruct Hh as (_ & H1 & H2). destruct (IH _ _ _ H) as [I1 I2]. split.
      * rewrite I1, H1. reflexivity.
      * intros s' Hs'. rewrite (I2 s' Hs'). now apply H2.
    + inversion H; subst. destruct Hh as [_ Hle]. split; [|reflexivity]. now rewrite halve_n_small.
Qed.

Lemma tb_samples_counts : forall n samples rows out, tb_samples n samples rows = Ok out -> NoDup samples ->
  (forall s, In s samples -> length (sample_plates s out) = halve_n n (length (sample_plates s rows))) /\
  (forall s, ~ In s samples -> sample_plates s out = sample_plates s rows).
Proof.
  induction samples as [|s samples IH]; intros rows out H Hnd; cbn [tb_samples] in H.
  - inversion H; subst. split; [intros s []|reflexivity].
  - inversion Hnd as [|? ? Hn Hd]; subst.
    apply res_bind_inv in H as (rows1 & E & H); cbn beta iota in H.
    destruct (tb_iters_counts _ _ _ _ E) as [T1 T2]. destruct (IH _ _ H Hd) as [I1 I2]. split.
    + intros s0 [<-|Hs0].
      * now rewrite (I2 s Hn).
      * rewrite (I1 s0 Hs0), T2; [reflexivity|]. intros ->. contradiction.
    + intros s0 Hs0. rewrite I2 by (intros Hin; apply Hs0; now right). apply T2. intros ->. apply Hs0. now left.
Qed.

Theorem merge_tb_counts : forall n rows out, merge_tb n rows = Ok out ->
  forall s, length (sample_plates s out) = halve_n (Z.to_nat n) (length (sample_plates s rows)).
Proof.
  intros n rows out H s. unfold merge_tb in H.
  destruct (tb_samples_counts _ _ _ _ H (NoDup_sort_uniq _)) as [T1 T2].
  destruct (in_dec (list_eq_dec Z.eq_dec) s (sample_names rows)) as [Hin|Hnot]; [now apply T1|].
  rewrite (T2 s Hnot).
  assert (E : sample_plates s rows = []).
  { destruct (sample_plates s rows) as [|p l] eqn:Ep; [reflexivity|]. exfalso. apply Hnot.
    assert (Hp : In p (sample_plates s rows)) by (rewrite Ep; now left).
    apply In_sample_plates in Hp as (r & Hr & Hs & _). apply In_sample_names. eauto. }
  rewrite E. cbn [length]. now rewrite halve_n_small by lia.
Qed.

Lemma one_sample_nil : one_sample [].
Proof. intros r1 r2 []. Qed.

Theorem merge_same_sample_w : forall rows ds out ds',
  (forall ms, smooth_plates (SMergeMin ms) rows ds = Ok (out, ds') -> one_sample (unobserved out)) /\
  (forall n, smooth_plates (SMergeTB n) rows ds = Ok (out, ds') ->
     one_sample (unobserved out) \/ ((n <= 0)%Z /\ unobserved out = unobserved rows)).
Proof.
  intros rows ds out ds'. split.
  - intros ms H. apply smooth_wrap_unobs in H as [[_ E]|H]; [rewrite E; apply one_sample_nil|].
    cbn [smooth_inner] in H. now apply merge_min_stop in H.
  - intros n H. apply smooth_wrap_unobs in H as [[_ E]|H]; [left; rewrite E; apply one_sample_nil|].
    cbn [smooth_inner] in H. apply pure_sm_ok in H. now apply merge_tb_same_sample in H.
Qed.

Lemma stop_rule_nil : forall s ms, stop_rule s ms [].
Proof. intros s ms p q Hp. apply In_sample_plates in Hp as (r & [] & _). Qed.

Theorem mergemin_stop_w : forall ms rows ds out ds',
  smooth_plates (SMergeMin ms) rows ds = Ok (out, ds') ->
  (forall s, stop_rule s ms (unobserved out)) /\
  ((forall s, stop_rule s ms (unobserved rows)) -> unobserved out = unobserved rows).
Proof.
  intros ms rows ds out ds' H. apply smooth_wrap_unobs in H as [[E1 E2]|H].
  - rewrite E1, E2. split; [intros s; apply stop_rule_nil|reflexivity].
  - cbn [smooth_inner] in H. apply merge_min_stop in H. tauto.
Qed.

Theorem topbottom_counts_w : forall n rows ds out ds',
  smooth_plates (SMergeTB n) rows ds = Ok (out, ds') ->
  forall s, length (sample_plates s (unobserved out))
            = halve_n (Z.to_nat n) (length (sample_plates s (unobserved rows))).
Proof.
  intros n rows ds out ds' H s. apply smooth_wrap_unobs in H as [[E1 E2]|H].
  - rewrite E1, E2. cbn. now rewrite halve_n_small by lia.
  - cbn [smooth_inner] in H. apply pure_sm_ok in H. now apply merge_tb_counts.
Qed.
