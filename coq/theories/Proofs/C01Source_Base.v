(* C01, one piece of Proofs/C01Source.v (which see): auxiliary facts about sorting, frames and the left merge that mention no translated function *)
From Coq Require Import ZArith List Lia.
From Batchie Require Import Lib.ListX Lib.Sexp Model.Encode Proofs.C01Sort Proofs.C01Encode.
Import ListNotations.
Open Scope Z_scope.

Section SortBy.
Context {K : Type} (cmp : K -> K -> comparison) (HC : CmpSpec cmp).

Lemma insert_sorted_In k l x : In x (insert_sorted cmp k l) <-> x = k \/ In x l.
Proof.
  induction l as [|y l IH]; cbn [insert_sorted In]; [intuition|].
  destruct (cmp k y); cbn [In]; rewrite ?IH; intuition.
Qed.

Lemma sort_by_In l x : In x (sort_by cmp l) <-> In x l.
Proof.
  induction l as [|y l IH]; cbn [sort_by fold_right In]; [tauto|].
  fold (sort_by cmp l). rewrite insert_sorted_In, IH. intuition.
Qed.

(* a key that is not in the list is inserted by the stable sort where the model's duplicate-free sort inserts it *)
Lemma insert_sorted_fresh k l : ~ In k l -> insert_sorted cmp k l = insert_uniq cmp k l.
Proof.
  induction l as [|y l IH]; intros Hn; cbn [insert_sorted insert_uniq]; [reflexivity|].
  destruct (cmp k y) eqn:E; [|reflexivity|].
  - apply (cmp_eq _ HC) in E. subst. destruct Hn. now left.
  - rewrite IH; [reflexivity|]. intros X. apply Hn. now right.
Qed.

(* so sorting a duplicate-free list = the model's sort_uniq *)
Lemma sort_by_NoDup l : NoDup l -> sort_by cmp l = sort_uniq cmp l.
Proof.
  induction 1 as [|a l Hn Hd IH]; [reflexivity|].
  unfold sort_by, sort_uniq in *. cbn [fold_right]. rewrite IH. apply insert_sorted_fresh.
  fold (sort_uniq cmp l). now rewrite (sort_uniq_In cmp HC).
Qed.

(* in particular a strictly sorted list is a fixed point of the sort *)
Lemma sort_by_of_sorted l : SSorted cmp l -> sort_by cmp l = l.
Proof. intros H. rewrite sort_by_NoDup by now apply (SSorted_NoDup cmp HC). now apply sort_uniq_of_sorted. Qed.
End SortBy.

Definition lab {R} (s : Z) (l : list R) : frame R := combine (zseq s (length l)) l.

Lemma df_fresh_lab {R} (l : list R) : df_fresh l = lab 0 l.
Proof. unfold df_fresh, lab. now rewrite zseq_0. Qed.

Lemma lab_cons {R} s (a : R) l : lab s (a :: l) = (s, a) :: lab (s + 1) l.
Proof. unfold lab. cbn [length]. rewrite zseq_S. reflexivity. Qed.

Lemma lab_rows {R} (l : list R) : forall s, map snd (lab s l) = l.
Proof. induction l as [|a l IH]; intros s; [reflexivity|]. rewrite lab_cons. cbn [map snd]. now rewrite IH. Qed.

Lemma lab_index {R} (l : list R) : forall s, map fst (lab s l) = zseq s (length l).
Proof.
  induction l as [|a l IH]; intros s; [reflexivity|]. rewrite lab_cons. cbn [map fst length]. now rewrite IH, zseq_S.
Qed.

Lemma lab_map {R T} (g : R -> T) (l : list R) : forall s, lab s (map g l) = map (fun p => (fst p, g (snd p))) (lab s l).
Proof.
  induction l as [|a l IH]; intros s; [reflexivity|]. cbn [map]. rewrite !lab_cons. cbn [map fst snd]. now rewrite IH.
Qed.

(* drop_duplicates: the values that remain are duplicate-free and are the values there were *)
Section DropDups.
Context {R : Type} (eqb : R -> R -> bool) (Heq : forall a b, eqb a b = true <-> a = b).

Lemma drop_dups_from_spec (d : frame R) : forall seen,
  NoDup (map snd (drop_dups_from eqb seen d)) /\
  forall x, In x (map snd (drop_dups_from eqb seen d)) <-> In x (map snd d) /\ ~ In x seen.
Proof.
  induction d as [|[l r] d IH]; intros seen; cbn [drop_dups_from map snd].
  - split; [constructor | cbn [In]; tauto].
  - destruct (existsb (eqb r) seen) eqn:E.
    + destruct (IH seen) as [Hn Hi]. split; [exact Hn|]. intros x. rewrite Hi. cbn [In].
      apply (existsb_eqb_In eqb Heq) in E. split; [tauto|]. intros [[<-|Hx] Hs]; [contradiction | tauto].
    + destruct (IH (r :: seen)) as [Hn Hi]. cbn [map snd].
      assert (Hr : ~ In r seen) by (rewrite <- (existsb_eqb_In eqb Heq); congruence).
      split.
      * constructor; [|exact Hn]. rewrite Hi. cbn [In]. tauto.
      * intros x. cbn [In]. rewrite Hi. cbn [In].
        destruct (eqb x r) eqn:Ex; [apply Heq in Ex; subst x; tauto|].
        assert (r <> x) by (intros ->; rewrite (proj2 (Heq x x) eq_refl) in Ex; discriminate). tauto.
Qed.
End DropDups.

Lemma insert_sorted_rows {R} (cmp : R -> R -> comparison) (p : Z * R) (d : frame R) :
  map snd (insert_sorted (fun a b => cmp (snd a) (snd b)) p d) = insert_sorted cmp (snd p) (map snd d).
Proof.
  induction d as [|q d IH]; cbn [insert_sorted map snd]; [reflexivity|].
  destruct (cmp (snd p) (snd q)); cbn [map snd]; now rewrite ?IH.
Qed.

Lemma df_sort_values_rows {R} (cmp : R -> R -> comparison) (d : frame R) :
  map snd (df_sort_values cmp d) = sort_by cmp (map snd d).
Proof.
  unfold df_sort_values, sort_by. induction d as [|p d IH]; cbn [fold_right map]; [reflexivity|].
  now rewrite insert_sorted_rows, IH.
Qed.

(* df.drop_duplicates().sort_values(by=<all columns>).reset_index(drop=True) = the model's sort_uniq, freshly labelled *)
Lemma dedup_sort_reset {R} (eqb : R -> R -> bool) (cmp : R -> R -> comparison) (l : list R) :
  (forall a b, eqb a b = true <-> a = b) -> CmpSpec cmp ->
  df_reset_drop (df_sort_values cmp (df_drop_duplicates eqb (df_fresh l))) = df_fresh (sort_uniq cmp l).
Proof.
  intros Heq HC. unfold df_reset_drop. f_equal. rewrite df_sort_values_rows.
  destruct (drop_dups_from_spec eqb Heq (df_fresh l) []) as [Hn Hi]. fold (df_drop_duplicates eqb (df_fresh l)) in Hn, Hi.
  rewrite (sort_by_NoDup cmp HC) by exact Hn. apply (sort_uniq_ext cmp HC). intros x. rewrite Hi.
  rewrite df_fresh_lab, lab_rows. cbn [In]. tauto.
Qed.

Section Merge.
Context {K : Type} (eqb : K -> K -> bool) (Heq : forall a b, eqb a b = true <-> a = b).

(* the first row of the mapping with that key (the model's tlookup / nlookup) *)
Definition lookup_first (m : list (K * Z)) (k : K) : option Z :=
  match filter (fun q => eqb k (fst q)) m with [] => None | q :: _ => Some (snd q) end.

(* key-unique right-hand side: at most one row matches *)
Lemma filter_key_unique (m : list (K * Z)) k : NoDup (map fst m) ->
  (length (filter (fun q => eqb k (fst q)) m) <= 1)%nat.
Proof.
  induction m as [|[k' v] m IH]; intros Hn; cbn [filter fst length]; [lia|].
  inversion Hn as [|? ? Hnot Hn']; subst. destruct (eqb k k') eqn:E.
  - apply Heq in E. subst k'. cbn [length].
    replace (filter (fun q => eqb k (fst q)) m) with (@nil (K * Z)); [cbn [length]; lia|].
    symmetry. destruct (filter (fun q => eqb k (fst q)) m) as [|q r] eqn:F; [reflexivity|].
    exfalso. assert (Hq : In q (filter (fun q => eqb k (fst q)) m)) by (rewrite F; now left).
    apply filter_In in Hq as [Hq Eq]. apply Heq in Eq. apply Hnot. rewrite Eq. now apply in_map.
  - now apply IH.
Qed.

(* so the merged frame has one row per row of the left frame, carrying the first (= only) match or NaN *)
Lemma merge_left_ids (m : list (K * Z)) : NoDup (map fst m) ->
  forall (l : frame K) (r : frame (K * Z)), map snd r = m ->
  jcol_new_index (df_merge_left eqb l r) = map (lookup_first m) (map snd l).
Proof.
  intros Hn l r <-. unfold df_merge_left, jcol_new_index. rewrite <- (map_map snd snd), df_fresh_lab, lab_rows.
  set (f := fun p : Z * K => match filter (fun q => eqb (snd p) (fst q)) (map snd r) with
                             | [] => [(snd p, @None Z)]
                             | ms => map (fun q => (snd p, Some (snd q))) ms
                             end).
  induction l as [|p l IH]; [reflexivity|].
  change (flat_map f (p :: l)) with (f p ++ flat_map f l). rewrite map_app, IH. cbn [map]. f_equal.
  unfold f, lookup_first.
  pose proof (filter_key_unique (map snd r) (snd p) Hn) as Hlen.
  destruct (filter (fun q => eqb (snd p) (fst q)) (map snd r)) as [|q [|q' rest]]; cbn [length] in Hlen; try lia; reflexivity.
Qed.
End Merge.

Lemma lookup_first_tlookup m k : lookup_first tkey_eqb m k = tlookup m k.
Proof.
  unfold lookup_first. induction m as [|[k' id] m IH]; cbn [filter tlookup fst]; [reflexivity|].
  destruct (tkey_eqb k k'); [reflexivity | exact IH].
Qed.

Lemma lookup_first_nlookup m k : lookup_first name_eqb m k = nlookup m k.
Proof.
  unfold lookup_first. induction m as [|[k' id] m IH]; cbn [filter nlookup fst]; [reflexivity|].
  destruct (name_eqb k k'); [reflexivity | exact IH].
Qed.

(* np.all(column.notna()) and the column's values, against the model's all-or-nothing lookup *)
Lemma notna_opt_map_all {A} (f : A -> option Z) (l : list A) :
  match opt_map_all f l with
  | Some ids => all_true (series_notna (map f l)) = true /\ map f l = map Some ids
  | None => all_true (series_notna (map f l)) = false
  end.
Proof.
  unfold all_true, series_notna. induction l as [|a l IH]; cbn [opt_map_all map forallb]; [split; reflexivity|].
  destruct (f a) as [b|]; cbn [opt_bind]; [|reflexivity].
  destruct (opt_map_all f l) as [bs|]; cbn [opt_bind andb]; [|exact IH].
  destruct IH as [H1 H2]. split; [exact H1 | cbn [map]; now rewrite H2].
Qed.
