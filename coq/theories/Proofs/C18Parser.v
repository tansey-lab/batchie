(* Decision procedures for the table properties of Model/Cli.v (declares, dests_derived, dests_distinct, seed_declared,
   coordinates_int, params_kv, fraction_declared) and their soundness: a property of a CONCRETE option table - the one read from the source on
   this run, Generated/SrcParser_<command>.v - is proved by evaluating the checker (Proofs/C18SourceParser_<command>.v).
   Nothing here mentions a generated file. *)
From Coq Require Import ZArith List Bool Lia.
From Batchie Require Import Lib.Sexp Lib.PyRt Model.Cli Proofs.C18Args.
Import ListNotations.
Open Scope Z_scope.

Lemma nskind_eqb_eq (a b : nskind) : nskind_eqb a b = true -> a = b.
Proof.
  revert b. induction a as [| | | |x IH|]; intros [| | | |y|] H; cbn [nskind_eqb] in H; try discriminate; try reflexivity.
  now rewrite (IH y H).
Qed.

Definition opt_kind_is (o : argopt) (k : nskind) : bool :=
  match opt_kind o with Some k' => nskind_eqb k' k | None => false end.
Lemma opt_kind_is_sound (o : argopt) (k : nskind) : opt_kind_is o k = true -> opt_kind o = Some k.
Proof.
  unfold opt_kind_is. destruct (opt_kind o) as [k'|]; [|discriminate]. intros H. now rewrite (nskind_eqb_eq _ _ H).
Qed.

Fixpoint str_list_eqb (a b : list str) : bool :=
  match a, b with
  | [], [] => true
  | x :: a', y :: b' => str_eqb x y && str_list_eqb a' b'
  | _, _ => false
  end.

Fixpoint str_nodupb (l : list str) : bool :=
  match l with
  | [] => true
  | x :: r => negb (str_in x r) && str_nodupb r
  end.
Lemma str_nodupb_sound (l : list str) : str_nodupb l = true -> NoDup l.
Proof.
  induction l as [|x r IH]; cbn [str_nodupb]; [constructor|].
  rewrite andb_true_iff, negb_true_iff, <- not_true_iff_false, str_in_In. intros [H1 H2].
  constructor; [exact H1 | exact (IH H2)].
Qed.

Definition declaresb (tbl : list argopt) (f : nsfield) : bool :=
  match opts_with_dest tbl (f_name f) with
  | [o] => opt_kind_is o (f_kind f) && Bool.eqb (opt_may_be_none o) (f_optional f)
  | _ => false
  end.
Lemma declaresb_sound (tbl : list argopt) (f : nsfield) : declaresb tbl f = true -> declares tbl f.
Proof.
  unfold declaresb, declares. destruct (opts_with_dest tbl (f_name f)) as [|o [|o' r]]; try discriminate.
  rewrite andb_true_iff. intros [H1 H2].
  exists o. split; [reflexivity|]. split; [now apply opt_kind_is_sound|now apply Bool.eqb_prop].
Qed.
Lemma declares_all (tbl : list argopt) (fs : list nsfield) :
  forallb (declaresb tbl) fs = true -> forall f, In f fs -> declares tbl f.
Proof. intros H f Hf. apply declaresb_sound. rewrite forallb_forall in H. now apply H. Qed.

Lemma dests_derived_sound (tbl : list argopt) :
  forallb (fun o => str_eqb (o_dest o) (opt_dest o)) tbl = true -> dests_derived tbl.
Proof. intros H o Ho. rewrite forallb_forall in H. now apply str_eqb_eq, H. Qed.

Lemma dests_distinct_sound (tbl : list argopt) :
  str_nodupb (map o_dest tbl) && str_nodupb (concat (map o_flags tbl)) = true -> dests_distinct tbl.
Proof. rewrite andb_true_iff. intros [H1 H2]. split; now apply str_nodupb_sound. Qed.

Definition seed_declaredb (tbl : list argopt) : bool :=
  match opts_with_dest tbl s_seed with
  | [o] => str_in s_seed_flag (o_flags o) && opt_kind_is o KInt
           && match opt_default o with LInt z => 0 <=? z | _ => false end
  | _ => false
  end.
Lemma seed_declaredb_sound (tbl : list argopt) : seed_declaredb tbl = true -> seed_declared tbl.
Proof.
  unfold seed_declaredb, seed_declared. destruct (opts_with_dest tbl s_seed) as [|o [|o' r]]; try discriminate.
  rewrite !andb_true_iff. intros [[H1 H2] H3].
  destruct (opt_default o) as [| | z | | |] eqn:D; try discriminate.
  exists o, z. split; [reflexivity|]. split; [now apply str_in_In|]. split; [now apply opt_kind_is_sound|].
  split; [exact D|lia].
Qed.

(* what it is for: the generator construction of the wrappers (Cli.prng_of_seed = the linked get_prng_from_seed_argument)
   succeeds on the default seed *)
Lemma seed_declared_default_draws (tbl : list argopt) :
  seed_declared tbl -> forall mix : Z -> Z, exists o z, opts_with_dest tbl s_seed = [o] /\ opt_default o = LInt z
                                                      /\ prng_of_seed mix z = Ok (Gen (mix z)).
Proof.
  intros [o [z [H1 [_ [_ [H4 H5]]]]]] mix. exists o, z. split; [exact H1|]. split; [exact H4|].
  unfold prng_of_seed, seedseq_word. destruct (z <? 0) eqn:E; [lia|reflexivity].
Qed.

Definition coordinate_okb (fd : str * str) (o : argopt) : bool :=
  negb (str_in (fst fd) (o_flags o))
  || (str_eqb (o_dest o) (snd fd) && opt_kind_is o KInt && negb (opt_may_be_none o)).
Definition coordinates_intb (tbl : list argopt) : bool :=
  forallb (fun fd => forallb (coordinate_okb fd) tbl) coordinate_flags.
Lemma coordinates_intb_sound (tbl : list argopt) : coordinates_intb tbl = true -> coordinates_int tbl.
Proof.
  unfold coordinates_intb, coordinates_int. intros H fd o Hfd Ho Hfl.
  rewrite forallb_forall in H. specialize (H fd Hfd). rewrite forallb_forall in H. specialize (H o Ho).
  unfold coordinate_okb in H. apply str_in_In in Hfl. rewrite Hfl in H. cbn [negb orb] in H.
  rewrite !andb_true_iff in H. destruct H as [[H1 H2] H3].
  split; [now apply str_eqb_eq|]. split; [now apply opt_kind_is_sound|now apply negb_true_iff].
Qed.

Definition param_okb (o : argopt) : bool :=
  negb (is_param_option o)
  || (match o_action o with ActKVAppend => true | _ => false end
      && match o_nargs o with Some (NInt 1) => true | _ => false end
      && opt_kind_is o KKV && opt_may_be_none o).
Lemma params_kvb_sound (tbl : list argopt) : forallb param_okb tbl = true -> params_kv tbl.
Proof.
  unfold params_kv. intros H o Ho Hp. rewrite forallb_forall in H. specialize (H o Ho).
  unfold param_okb in H. rewrite Hp in H. cbn [negb orb] in H.
  rewrite !andb_true_iff in H. destruct H as [[[H1 H2] H3] H4].
  split; [destruct (o_action o); try discriminate; reflexivity|].
  split; [destruct (o_nargs o) as [[n| | |]|]; try discriminate; destruct n as [|[p|p|]|]; try discriminate; reflexivity|].
  split; [now apply opt_kind_is_sound|exact H4].
Qed.

Definition fraction_declaredb (tbl : list argopt) : bool :=
  match opts_with_dest tbl s_holdout_fraction with
  | [o] => opt_kind_is o KFloat && negb (opt_may_be_none o)
           && match opt_default o with LFloat n d => (0 <=? n) && (n <=? Zpos d) | _ => false end
  | _ => false
  end.
Lemma fraction_declaredb_sound (tbl : list argopt) : fraction_declaredb tbl = true -> fraction_declared tbl.
Proof.
  unfold fraction_declaredb, fraction_declared. destruct (opts_with_dest tbl s_holdout_fraction) as [|o [|o' r]]; try discriminate.
  rewrite !andb_true_iff. intros [[H1 H2] H3].
  destruct (opt_default o) as [| | | n d | |] eqn:D; try discriminate.
  exists o, n, d. split; [reflexivity|]. split; [now apply opt_kind_is_sound|]. split; [now apply negb_true_iff|].
  split; [exact D|lia].
Qed.
