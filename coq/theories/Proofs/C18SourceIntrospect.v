(* The argument-handling glue of the command-line wrappers: introspection.py.  The hand-written models
   Cli.get_class / create_instance / required_args equal the translations of the WHOLE functions get_class, create_instance
   and get_required_init_args_with_annotations of /repo, regenerated on every run (Generated/SrcCliArgs.v, configurations
   ARGS_GET_CLASS / ARGS_CREATE_INSTANCE / ARGS_REQUIRED of harness/src_functions.py), for every record of importlib /
   pkgutil / inspect primitives and all inputs; and facts about the models. *)
From Coq Require Import ZArith List.
From Batchie Require Import Lib.Sexp Lib.PyRt Model.Cli Generated.SrcCliArgs Proofs.PyRtLemmas Proofs.C18Args Proofs.C18SourceArgs_Cmd.
Import ListNotations.
Open Scope Z_scope.

Section Introspect.
  Context {Mod Obj : Type} (W : pyworld Mod Obj).

  (* the module loop of get_class (`return` inside the loop = a flag variable and `break`), for an arbitrary body equal to
     the canonical one *)
  Lemma get_class_loop (name : str) (base : base_class)
    (f : option (option Obj) -> unit * str * unit -> result (bool * option (option Obj))) :
    (forall s m, f s (tt, m, tt) =
       dor md <- w_import W m;
       if (match w_getattr W md name with Some o => w_truthy W o | None => false end)
       then dor u <- unwrap (w_getattr W md name);
            dor b <- w_issubclass W u base;
            if negb b then Err 31 else Ok (false, Some (w_getattr W md name))
       else Ok (true, s)) ->
    forall mods, res_fold_brk f (map (fun n => (tt, n, tt)) mods) None =
                 dor r <- find_class W name base mods;
                 Ok (match r with Some o => Some (Some o) | None => None end).
  Proof.
    intros Hf mods. induction mods as [|m r IH]; cbn [map res_fold_brk find_class res_bind]; [reflexivity|].
    rewrite Hf.
    destruct (w_import W m) as [md|e]; cbn [res_bind]; [|reflexivity].
    destruct (w_getattr W md name) as [o|]; cbn [unwrap res_bind fst snd]; [|exact IH].
    destruct (w_truthy W o); cbn [unwrap res_bind fst snd]; [|exact IH].
    destruct (w_issubclass W o base) as [b|e]; cbn [res_bind]; [|reflexivity].
    destruct b; cbn [negb res_bind fst snd]; reflexivity.
  Qed.

  Theorem src_get_class_is_model : forall (package_name class_name : str) (base : base_class),
    src_get_class Mod Obj W package_name class_name base = get_class W package_name class_name base.
  Proof.
    intros. unfold src_get_class, get_class. cbv zeta.
    destruct (w_import W package_name) as [p|e]; cbn [res_bind]; [|reflexivity].
    rewrite (get_class_loop class_name base) by (intros s m; reflexivity).
    destruct (find_class W class_name base (w_walk W p package_name)) as [[o|]|e]; reflexivity.
  Qed.

  Theorem src_create_instance_is_model : forall (V Inst : Type) (construct : Obj -> V -> result Inst)
    (package_name class_name : str) (base : base_class) (kwargs : V),
    src_create_instance Mod Obj W V Inst construct package_name class_name base kwargs
    = create_instance W construct package_name class_name base kwargs.
  Proof.
    intros. unfold src_create_instance, create_instance. cbv zeta.
    rewrite src_get_class_is_model.
    destruct (get_class W package_name class_name base) as [[o|]|e]; cbn [res_bind negb]; try reflexivity.
    destruct (w_truthy W o); cbn [negb unwrap res_bind]; [|reflexivity].
    destruct (construct o kwargs); reflexivity.
  Qed.

  Theorem src_get_required_init_args_is_model : forall (c : option Obj),
    src_get_required_init_args Mod Obj W c = required_args W c.
  Proof.
    intros c. unfold src_get_required_init_args, required_args. cbv zeta.
    destruct c as [o|]; cbn [opt_isclass negb]; [|reflexivity].
    destruct (w_isclass W o); cbn [negb unwrap res_bind]; [|reflexivity].
    destruct (w_signature W o) as [ps|e]; cbn [res_bind]; [|reflexivity].
    rewrite (res_fold_pure _ required_step).
    - reflexivity.
    - intros d [n p]. unfold required_step. cbn [fst snd]. fold s_self.
      destruct (str_eqb n s_self); [reflexivity|].
      destruct (sp_no_default p); reflexivity.
  Qed.

  (* what get_class returns is a truthy attribute, of the requested name, of a module of the package, and a subclass of the
     base class *)
  Lemma find_class_some (name : str) (base : base_class) : forall mods o,
    find_class W name base mods = Ok (Some o) ->
    w_truthy W o = true /\ w_issubclass W o base = Ok true /\
    exists m md, In m mods /\ w_import W m = Ok md /\ w_getattr W md name = Some o.
  Proof.
    induction mods as [|m r IH]; intros o H; cbn [find_class] in H; [discriminate|].
    destruct (w_import W m) as [md|e] eqn:Em; cbn [res_bind] in H; [|discriminate].
    assert (Hrec : find_class W name base r = Ok (Some o) ->
                   w_truthy W o = true /\ w_issubclass W o base = Ok true /\
                   exists m' md', In m' (m :: r) /\ w_import W m' = Ok md' /\ w_getattr W md' name = Some o).
    { intros Hr. destruct (IH o Hr) as (T & S & m' & md' & Hin & Hi & Hg).
      split; [exact T|]. split; [exact S|]. exists m', md'. auto using in_cons. }
    destruct (w_getattr W md name) as [o'|] eqn:Eg; [|now apply Hrec].
    destruct (w_truthy W o') eqn:Et; [|now apply Hrec].
    destruct (w_issubclass W o' base) as [[|]|e] eqn:Es; cbn [res_bind] in H; try discriminate.
    injection H as <-. split; [exact Et|]. split; [exact Es|]. exists m, md. auto using in_eq.
  Qed.

  Theorem get_class_some (package_name class_name : str) (base : base_class) (o : Obj) :
    get_class W package_name class_name base = Ok (Some o) ->
    w_truthy W o = true /\ w_issubclass W o base = Ok true.
  Proof.
    unfold get_class. destruct (w_import W package_name) as [p|e]; cbn [res_bind]; [|discriminate].
    intros H. destruct (find_class_some _ _ _ _ H) as [T [S _]]. now split.
  Qed.

  (* a class name no module of the package defines: the annotations cannot be read - TypeError "The given object is not a
     class." (29), whatever the KEY=VALUE parameters are *)
  Theorem unknown_class_is_type_error {F O : Type} (P : pyprims F O) (base : base_class) (name : str)
    (param : option (list (str * str))) :
    get_class W s_batchie name base = Ok None -> resolve (introspect_of W) P base name param = Err 29.
  Proof. intros H. unfold resolve, introspect_of. cbn [i_get_class i_required]. rewrite H. reflexivity. Qed.

  (* the required-argument table: never the empty marker, never "self" *)
  Lemma required_fold_inv : forall ps d,
    (forall k t, In (k, t) d -> t <> AEmpty /\ k <> s_self) ->
    forall k t, In (k, t) (fold_left required_step ps d) -> t <> AEmpty /\ k <> s_self.
  Proof.
    induction ps as [|[n p] ps IH]; intros d Hd; cbn [fold_left]; [exact Hd|].
    apply IH. unfold required_step. cbn [fst snd].
    destruct (str_eqb n s_self) eqn:En; [exact Hd|].
    destruct (sp_no_default p); [|exact Hd].
    intros k t [E | Hin]%in_kdict_set; [|now apply Hd]. injection E as <- <-. split.
    - destruct (sp_annotation p); discriminate.
    - intros ->. discriminate En.
  Qed.

  Theorem required_args_no_empty (c : option Obj) (req : list (str * ann)) :
    required_args W c = Ok req -> forall k t, In (k, t) req -> t <> AEmpty /\ k <> s_self.
  Proof.
    unfold required_args. destruct c as [o|]; [|discriminate].
    destruct (w_isclass W o); [|discriminate].
    destruct (w_signature W o) as [ps|e]; cbn [res_bind]; [|discriminate].
    intros H. injection H as <-. apply required_fold_inv. intros k t [].
  Qed.
End Introspect.

(* everything from the source: the introspection record made of the TRANSLATED functions *)
Definition introspect_src {Mod Obj : Type} (W : pyworld Mod Obj) : introspect Obj :=
  mk_introspect (src_get_class Mod Obj W) (src_get_required_init_args Mod Obj W).

(* the get_args() models use their introspection record only by applying its two functions, each of which is linked *)
Lemma resolve_src {Mod Obj F O : Type} (W : pyworld Mod Obj) (P : pyprims F O) :
  forall base name param, resolve (introspect_src W) P base name param = resolve (introspect_of W) P base name param.
Proof.
  intros base name param. unfold resolve. cbn [introspect_src introspect_of i_get_class i_required].
  rewrite src_get_class_is_model.
  destruct (get_class W s_batchie name base) as [c|e]; cbn [res_bind]; [|reflexivity].
  now rewrite src_get_required_init_args_is_model.
Qed.

Theorem src_cli_calculate_scores_cmd_world :
  forall (Mod Obj F O : Type) (W : pyworld Mod Obj) (P : pyprims F O) (Scr Pl Th Dm Sc H : Type)
         (construct : Obj -> list (str * pval F O) -> result Sc) (L : cs_lib Scr Pl Th Dm Sc H) (mix : Z -> Z)
         (raw : cs_ns Obj F O),
  src_cli_calculate_scores_cmd Obj F O (introspect_src W) P Scr Pl Th Dm Sc H construct L mix raw
  = cli_calculate_scores_cmd (introspect_of W) P construct L mix raw.
Proof.
  intros. rewrite src_cli_calculate_scores_cmd_is_model.
  unfold cli_calculate_scores_cmd, cs_get_args. now rewrite resolve_src.
Qed.
