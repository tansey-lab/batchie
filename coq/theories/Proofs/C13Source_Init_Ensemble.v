(* C13: BatchieEnsemblePlateSmoother.__init__ (Generated/SrcInits.v) stores what it is constructed with - (min_size, n_iterations, min_n_cell_line_plates) *)
From Coq Require Import ZArith.
From Batchie Require Import Lib.Sexp Generated.SrcInits.
Open Scope Z_scope.

Theorem src_ensemble_init_stores : forall min_size n_iterations m : Z, src_ensemble_init min_size n_iterations m = Ok (min_size, n_iterations, m).
Proof. reflexivity. Qed.
