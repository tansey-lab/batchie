(* C10: concrete witnesses for the two statements that are false of the faithful
   model without their side condition. *)
From Coq Require Import ZArith List Lia.
From Batchie Require Import Lib.Sexp Model.Thetas.
Import ListNotations.
Open Scope Z_scope.

(* two samples with different shared parameters: the reloaded second sample carries the shared
   parameters of the first *)
Lemma mixed_shared_refuted : exists h : holder Z Z,
  h_thetas h <> [] /\ Z.of_nat (length (h_thetas h)) <= h_declared h /\ save_load Z Z h <> Ok h.
Proof.
  exists {| h_declared := 2; h_thetas := [(10, 1); (20, 2)] |}.
  split; [discriminate|]. split; [cbn; lia|]. vm_compute. intros H. discriminate H.
Qed.

(* a partially filled first chain: chain_ids (built from declared sizes) labels the first sample
   of chain 1 with chain 0 *)
Lemma chain_ids_partial_misaligned : exists hs : list (holder Z unit),
  (forall h, In h hs -> Z.of_nat (length (h_thetas h)) <= h_declared h) /\
  combine (chain_ids Z unit hs) (concat (map h_thetas hs))
  <> concat (map (fun ih => map (pair (Z.of_nat (fst ih))) (h_thetas (snd ih))) (enumerate hs)).
Proof.
  exists [ {| h_declared := 3; h_thetas := [(1, tt); (2, tt)] |}; {| h_declared := 1; h_thetas := [(3, tt)] |} ].
  split.
  - intros h [<-|[<-|[]]]; cbn; lia.
  - vm_compute. intros H. discriminate H.
Qed.
