(* One piece of Proofs/C18SourceArgs.v (which see): argument_parsing.cast_dict_to_type, and the blocks of every get_args() that call it *)
From Coq Require Import ZArith List.
From Batchie Require Import Lib.Sexp Lib.PyRt Model.Cli Generated.SrcCliArgs Proofs.PyRtLemmas Proofs.C18SourceArgs_StrBool.
Import ListNotations.
Open Scope Z_scope.

Lemma call_callable_ext {F O : Type} (P : pyprims F O) (f g : str -> result bool) :
  (forall s, f s = g s) -> forall c s, call_callable P f c s = call_callable P g c s.
Proof. intros H c s. destruct c as [|t]; cbn [call_callable]; [now rewrite H|reflexivity]. Qed.

(* the comprehension of cast_dict_to_type, for an arbitrary body equal to the canonical one *)
Lemma cast_loop {F O : Type} (P : pyprims F O) (types : list (str * ann))
  (f : list (str * pval F O) -> str * str -> result (list (str * pval F O))) :
  (forall acc kv, f acc kv = dor t <- kdict_get str_eqb 25 types (fst kv);
                             dor x <- convert P t (snd kv); Ok (kdict_set str_eqb acc (fst kv) x)) ->
  forall items acc, res_fold f items acc = cast_items P types items acc.
Proof.
  intros Hf items. induction items as [|[k v] r IH]; intros acc; cbn [res_fold cast_items]; [reflexivity|].
  rewrite Hf. cbn [fst snd].
  destruct (kdict_get str_eqb 25 types k) as [t|e]; cbn [res_bind]; [|reflexivity].
  destruct (convert P t v) as [x|e]; cbn [res_bind]; [|reflexivity].
  apply IH.
Qed.

Theorem src_cast_dict_is_model : forall (F O : Type) (P : pyprims F O) (k_v_string : list (str * str))
  (k_v_types : list (str * ann)),
  src_cast_dict_to_type F O P k_v_string k_v_types = cast_dict P k_v_string k_v_types.
Proof.
  intros. unfold src_cast_dict_to_type, cast_dict. cbv zeta.
  rewrite (cast_loop P k_v_types).
  - apply res_bind_ret.
  - intros acc [k v]. cbn [fst snd].
    destruct (kdict_get str_eqb 25 k_v_types k) as [t|e]; cbn [res_bind]; [|reflexivity].
    unfold convert.
    rewrite (call_callable_ext P (src_str_to_bool F O P) (str_to_bool P) (src_str_to_bool_is_model P)).
    reflexivity.
Qed.

(* the `if not args.<x>_param: ... = {} else: ... = cast_dict_to_type(...)` block, for any continuation *)
Lemma cast_block {F O X : Type} (P : pyprims F O) (param : option (list (str * str))) (req : list (str * ann))
  (k : list (str * pval F O) -> result X) :
  (if negb (opt_list_truthy param) then k []
   else dor u <- unwrap param; dor r <- src_cast_dict_to_type F O P u req; k r)
  = dor ps <- cast_params P param req; k ps.
Proof.
  destruct param as [[|x l]|]; cbn [opt_list_truthy negb unwrap res_bind cast_params]; try reflexivity.
  now rewrite src_cast_dict_is_model.
Qed.

(* class lookup, required-argument annotations, cast: the three steps every get_args() makes per class-valued option *)
Lemma resolve_block {Cls F O X : Type} (I : introspect Cls) (P : pyprims F O) (base : base_class) (name : str)
  (param : option (list (str * str))) (k : option Cls -> list (str * pval F O) -> result X) :
  (dor c <- i_get_class I s_batchie name base;
   dor req <- i_required I c;
   if negb (opt_list_truthy param) then k c []
   else dor u <- unwrap param; dor r <- src_cast_dict_to_type F O P u req; k c r)
  = dor cp <- resolve I P base name param; k (fst cp) (snd cp).
Proof.
  unfold resolve.
  destruct (i_get_class I s_batchie name base) as [c|e]; cbn [res_bind]; [|reflexivity].
  destruct (i_required I c) as [req|e]; cbn [res_bind]; [|reflexivity].
  rewrite (cast_block P param req (k c)).
  destruct (cast_params P param req); reflexivity.
Qed.
