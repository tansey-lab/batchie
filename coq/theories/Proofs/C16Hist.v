(* C16: the invariant of selection histories and the property clauses. *)
From Coq Require Import ZArith List Lia Permutation.
From Batchie Require Import Lib.Sexp Model.Policy Proofs.C16Policy.
Import ListNotations.
Open Scope Z_scope.

(* m complete samples and the plates of one further sample c0, the one opened last (none of them before the first
   selection): complete as well, or in progress with at least as many plates still available as it lacks *)
Definition inv (k : Z) (s : state) : Prop :=
  let '(b, r) := s in
  exists m c0, Z.of_nat (length b) = m * k + cnt c0 b /\ cnt c0 b <= k /\
    (0 < cnt c0 b < k -> k <= cnt c0 b + cnt c0 r) /\
    forall c, c <> c0 -> cnt c b = 0 \/ cnt c b = k.

Lemma inv_init k r : 1 <= k -> inv k ([], r).
Proof.
  intros Hk. exists 0, 0. rewrite cnt_nil. cbn [length]. split; [lia|]. split; [lia|]. split; [lia|]. now left.
Qed.

Lemma others_complete k b c0 c :
  (forall c, c <> c0 -> cnt c b = 0 \/ cnt c b = k) -> cnt c b <> 0 -> cnt c b <> k -> c = c0.
Proof. intros Hoth H0 Hk. destruct (Z.eq_dec c c0) as [E|E]; [exact E|]. destruct (Hoth c E); contradiction. Qed.

Lemma In_filter_sample c p (r : list plate) : In p (filter (fun p => sample_of p =? c) r) -> In p r /\ sample_of p = c.
Proof. intros H. apply filter_In in H as [H1 H2]. apply Z.eqb_eq in H2. now split. Qed.

Lemma inv_step k s s' : 1 <= k -> inv k s -> step k s s' -> inv k s'.
Proof.
  intros Hk Hinv Hst. destruct Hst as [b r el p b' r' Hfe Hp Hb' Hr'].
  destruct Hinv as (m & c0 & Hlen & Hle & Hrem & Hoth).
  (* before the step the sample of p is as c0 is after it, but not complete *)
  assert (Hpre : exists m', Z.of_nat (length b) = m' * k + cnt (sample_of p) b /\ cnt (sample_of p) b < k /\
                            k <= cnt (sample_of p) b + cnt (sample_of p) r /\
                            forall c, c <> sample_of p -> cnt c b = 0 \/ cnt c b = k).
  { destruct (fe_cases _ _ _ _ Hfe) as (_ & [(c & Hc & ->)|(Hall & ->)]).
    - (* a sample is in progress: it is c0, and p belongs to it *)
      assert (c = c0) as -> by (apply (others_complete k b); [exact Hoth|lia|lia]).
      apply In_filter_sample in Hp as [_ ->].
      exists m. split; [exact Hlen|]. split; [lia|]. split; [exact (Hrem Hc)|exact Hoth].
    - (* no sample in progress: c0 is complete or absent, and p opens a sample with at least k remaining plates *)
      apply filter_In in Hp as [_ Hop]. apply andb_prop in Hop as [Hk' H0]. apply Z.leb_le in Hk'. apply Z.eqb_eq in H0.
      assert (Hc0 : cnt c0 b = 0 \/ cnt c0 b = k) by (destruct (Hall c0); [now left|right; lia]).
      assert (exists m', Z.of_nat (length b) = m' * k) as [m' Hm'] by (destruct Hc0; [exists m|exists (m + 1)]; lia).
      exists m'. split; [lia|]. split; [lia|]. split; [lia|].
      intros c _. destruct (Z.eq_dec c c0) as [->|E]; [exact Hc0|exact (Hoth c E)]. }
  destruct Hpre as (m' & Hlen' & Hlt & Hrem' & Hoth').
  assert (Hs : cnt (sample_of p) b' = cnt (sample_of p) b + 1 /\ cnt (sample_of p) r = cnt (sample_of p) r' + 1).
  { rewrite (cnt_perm _ _ _ Hb'), (cnt_perm _ _ _ Hr'), !cnt_cons, Z.eqb_refl. lia. }
  exists m', (sample_of p). split; [rewrite (Permutation_length Hb'); cbn [length]; lia|]. split; [lia|]. split; [lia|].
  intros c Hc. rewrite (cnt_perm _ _ _ Hb'), cnt_cons. destruct (Z.eqb_spec (sample_of p) c) as [E|_]; [congruence|].
  now apply Hoth'.
Qed.

Lemma inv_reachable k u s : 1 <= k -> reachable k u s -> inv k s.
Proof.
  intros Hk H. induction H as [|s s' _ IH Hst]; [now apply inv_init|]. eapply inv_step; eassumption.
Qed.

(* eligible = remaining restricted by a predicate: subset, same order *)
Lemma c16_eligible_subset k b r el :
  filter_eligible k b r = Ok el -> (exists f, el = filter f r) /\ (forall p, In p el -> In p r).
Proof.
  intros H. assert (Hf : exists f, el = filter f r).
  { destruct (fe_cases _ _ _ _ H) as (_ & [(c & _ & ->)|(_ & ->)]); eexists; reflexivity. }
  split; [exact Hf|]. destruct Hf as (f & ->). intros p Hp. now apply filter_In in Hp.
Qed.

Lemma c16_in_progress_only k u b r c el :
  1 <= k -> reachable k u (b, r) -> 0 < cnt c b < k -> filter_eligible k b r = Ok el ->
  el = filter (fun p => sample_of p =? c) r /\ el <> [] /\
  (forall p, In p el <-> In p r /\ sample_of p = c).
Proof.
  intros Hk Hreach Hc Hfe. destruct (inv_reachable _ _ _ Hk Hreach) as (m & c0 & _ & _ & Hrem & Hoth).
  assert (c = c0) as -> by (apply (others_complete k b); [exact Hoth|lia|lia]).
  assert (Hel : el = filter (fun p => sample_of p =? c0) r).
  { destruct (fe_cases _ _ _ _ Hfe) as (_ & [(c & Hc' & ->)|(Hall & _)]); [|destruct (Hall c0); lia].
    now rewrite (others_complete k b c0 c Hoth) by lia. }
  split; [exact Hel|]. subst el. split; [apply cnt_filter_nonempty; specialize (Hrem Hc); lia|].
  intros p. rewrite filter_In, Z.eqb_eq. reflexivity.
Qed.

Lemma c16_open_needs_k k b r el p :
  filter_eligible k b r = Ok el -> In p el -> cnt (sample_of p) b = 0 -> k <= cnt (sample_of p) r.
Proof.
  intros Hfe Hp H0. destruct (fe_cases _ _ _ _ Hfe) as (_ & [(c & Hc & ->)|(_ & ->)]).
  - apply In_filter_sample in Hp as [_ Hs]. subst c. lia.
  - apply filter_In in Hp as [_ Hop]. unfold open_pred in Hop. apply andb_prop in Hop as [Hk' _]. now apply Z.leb_le.
Qed.

Lemma c16_one_incomplete k u b r :
  1 <= k -> reachable k u (b, r) ->
  (forall c, 0 <= cnt c b <= k) /\
  (forall c1 c2, cnt c1 b mod k <> 0 -> cnt c2 b mod k <> 0 -> c1 = c2).
Proof.
  intros Hk Hreach. destruct (inv_reachable _ _ _ Hk Hreach) as (m & c0 & _ & Hle & _ & Hoth). split.
  - intros c. pose proof (cnt_nonneg c b). destruct (Z.eq_dec c c0) as [->|E]; [lia|destruct (Hoth c E); lia].
  - assert (Hmod : forall c, cnt c b mod k <> 0 -> c = c0).
    { intros c Hc. apply (others_complete k b); [exact Hoth| |]; intros E; rewrite E in Hc.
      - now rewrite Z.mod_0_l in Hc by lia.
      - now rewrite Z_mod_same_full in Hc. }
    intros c1 c2 H1 H2. now rewrite (Hmod c1 H1), (Hmod c2 H2).
Qed.

Lemma c16_batch_shape k u b r m :
  1 <= k -> reachable k u (b, r) -> Z.of_nat (length b) = m * k -> forall c, cnt c b = 0 \/ cnt c b = k.
Proof.
  intros Hk Hreach Hlen. destruct (inv_reachable _ _ _ Hk Hreach) as (m' & c0 & Hlen' & Hle & _ & Hoth).
  intros c. destruct (Z.eq_dec c c0) as [->|E]; [|exact (Hoth c E)].
  (* the plates of c0 are a multiple of k between 0 and k *)
  pose proof (cnt_nonneg c0 b). assert (Hd : cnt c0 b = (m - m') * k) by lia.
  destruct (Z_lt_le_dec (m - m') 1); [left|right]; nia.
Qed.

Lemma c16_batch_ends_at_boundary k u b r :
  1 <= k -> reachable k u (b, r) -> filter_eligible k b r = Ok [] -> forall c, cnt c b = 0 \/ cnt c b = k.
Proof.
  intros Hk Hreach Hfe c.
  destruct (c16_one_incomplete k u b r Hk Hreach) as [Hrange _]. specialize (Hrange c).
  destruct (Z.eq_dec (cnt c b) 0) as [E0|E0]; [now left|]. destruct (Z.eq_dec (cnt c b) k) as [Ek|Ek]; [now right|].
  exfalso. destruct (c16_in_progress_only k u b r c [] Hk Hreach ltac:(lia) Hfe) as (_ & Hne & _). now apply Hne.
Qed.

Lemma c16_multi_sample_refused k b r p :
  In p (b ++ r) -> n_unique (rows p) <> 1 -> filter_eligible k b r = Err 1.
Proof.
  intros Hin Hn. apply fe_err. destruct (forallb single (b ++ r)) eqn:E; [|reflexivity].
  rewrite forallb_forall in E. specialize (E p Hin). unfold single in E. apply Z.eqb_eq in E. contradiction.
Qed.

Lemma c16_single_sample_accepted k b r :
  (forall p, In p (b ++ r) -> n_unique (rows p) = 1) -> exists el, filter_eligible k b r = Ok el.
Proof.
  intros H. apply fe_ok. apply forallb_forall. intros p Hp. unfold single. apply Z.eqb_eq. now apply H.
Qed.
