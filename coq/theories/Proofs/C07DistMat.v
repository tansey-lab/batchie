(* C07: chunks computed independently, saved, loaded and combined in any
   order (with repeats) densify to the matrix of the metric. *)
From Coq Require Import ZArith List Lia Bool.
From Batchie Require Import Lib.Sexp Lib.ListX Model.Chunks Model.DistMat Proofs.C07Chunks.
Import ListNotations.

Lemma slice_incl {A} (l : list A) s e x : In x (slice l s e) -> In x l.
Proof.
  unfold slice. intros H. now apply In_firstn, In_skipn in H.
Qed.

Lemma slice_NoDup {A} (l : list A) s e : NoDup l -> NoDup (slice l s e).
Proof.
  intros H. unfold slice.
  rewrite <- (firstn_skipn (Z.to_nat s) l) in H. apply NoDup_app_inv in H as (_ & H & _).
  rewrite <- (firstn_skipn (Z.to_nat (e - s)) (skipn _ l)) in H. now apply NoDup_app_inv in H as (H & _).
Qed.

Section Assemble.
Variable V : Type.
Variable vzero : V.
Variable d : nat -> nat -> V.
Variable n : nat.

Notation entry := (entry V).
Notation dmat := (dmat V).

Definition ent (p : nat * nat) : entry := (Z.of_nat (fst p), Z.of_nat (snd p), d (fst p) (snd p)).
Definition valid (p : nat * nat) : Prop := (snd p < fst p < n)%nat.

Definition mk (ps : list (nat * nat)) : dmat := {| dm_size := Z.of_nat n; dm_entries := map ent ps |}.

(* every matrix the pipeline builds is mk ps for such a list of keys *)
Definition keys_ok (ps : list (nat * nat)) : Prop := NoDup ps /\ Forall valid ps.

Lemma mk_size ps : dm_size (mk ps) = Z.of_nat n.
Proof. reflexivity. Qed.

Lemma add_value_valid ps i j :
  valid (i, j) -> add_value V (mk ps) (Z.of_nat i) (Z.of_nat j) (d i j) = Ok (mk (ps ++ [(i, j)])).
Proof.
  intros [H1 H2]. cbn [fst snd] in H1, H2. unfold add_value, mk. cbn [dm_size dm_entries].
  assert (E1 : ((Z.of_nat i >=? Z.of_nat n) || (Z.of_nat j >=? Z.of_nat n))%Z = false) by lia.
  assert (E2 : (Z.of_nat i <? Z.of_nat j)%Z = false) by lia.
  now rewrite E1, E2, map_app.
Qed.

Lemma add_all_valid ps : forall ps0, Forall valid ps -> add_all V d (mk ps0) ps = Ok (mk (ps0 ++ ps)).
Proof.
  induction ps as [|[i j] ps IH]; intros ps0 Hv; cbn [add_all].
  - now rewrite app_nil_r.
  - inversion Hv as [|? ? Hp Hv']; subst.
    rewrite add_value_valid by exact Hp. cbn [res_bind]. rewrite IH by exact Hv'.
    now rewrite <- app_assoc.
Qed.

Lemma chunk_ok k c : keys_ok (chunk n k c).
Proof.
  unfold chunk. destruct (chunk_bounds _ _ _) as [s e]. split.
  - apply slice_NoDup, lower_tri_NoDup.
  - apply Forall_forall. intros [i j] H. apply slice_incl in H. now apply lower_tri_In in H.
Qed.

Lemma compute_chunk_ok k c : compute_chunk V d n k c = Ok (mk (chunk n k c)).
Proof. exact (add_all_valid (chunk n k c) [] (proj2 (chunk_ok k c))). Qed.

Lemma has_key_ent ps i j :
  has_key V (map ent ps) (Z.of_nat i) (Z.of_nat j) = true <-> In (i, j) ps.
Proof.
  unfold has_key. rewrite existsb_exists. split.
  - intros (e & Hin & Hk). apply in_map_iff in Hin as ([i' j'] & <- & Hin).
    cbn [ent fst snd] in Hk. rewrite !of_nat_eqb in Hk.
    apply andb_true_iff in Hk as [Ha Hb]. apply Nat.eqb_eq in Ha, Hb. now subst.
  - intros Hin. exists (ent (i, j)). split; [now apply in_map|].
    unfold ent; cbn [fst snd]. now rewrite !Z.eqb_refl.
Qed.

(* a result that is a well-formed matrix holding exactly the keys that satisfy P *)
Definition builds (r : result dmat) (P : nat * nat -> Prop) : Prop :=
  exists ps, r = Ok (mk ps) /\ keys_ok ps /\ forall p, In p ps <-> P p.

Lemma builds_mk ps : keys_ok ps -> builds (Ok (mk ps)) (fun p => In p ps).
Proof. intros W. exists ps. split; [reflexivity|split; [exact W|reflexivity]]. Qed.

Lemma builds_ext {r} {P P' : nat * nat -> Prop} : builds r P -> (forall p, P p <-> P' p) -> builds r P'.
Proof.
  intros (ps & E & W & Hin) H. exists ps. split; [exact E|split; [exact W|]].
  intros p. now rewrite Hin.
Qed.

(* combine keeps the keys it has and appends those of the other matrix that are new *)
Lemma combine_loop_mk psb : forall psa,
  keys_ok psa -> Forall valid psb ->
  builds (combine_loop V (mk psa) (map ent psb)) (fun p => In p psa \/ In p psb).
Proof.
  induction psb as [|[i j] psb IH]; intros psa Wa Hvb; cbn [map combine_loop].
  - apply (builds_ext (builds_mk psa Wa)). intros p; cbn [In]; tauto.
  - inversion Hvb as [|? ? Hp Hvb']; subst. unfold ent at 1. cbn [fst snd].
    change (dm_entries (mk psa)) with (map ent psa).
    destruct (has_key V (map ent psa) (Z.of_nat i) (Z.of_nat j)) eqn:Ek.
    + apply has_key_ent in Ek. apply (builds_ext (IH psa Wa Hvb')).
      intros p; cbn [In]. split; [tauto|]. intros [H|[<-|H]]; auto.
    + assert (Hnot : ~ In (i, j) psa) by (rewrite <- has_key_ent, Ek; discriminate).
      rewrite add_value_valid by exact Hp. cbn [res_bind].
      assert (W : keys_ok (psa ++ [(i, j)])).
      { destruct Wa as [Hnd Hv]. split.
        - apply NoDup_app_intro; [exact Hnd|repeat constructor; intros []|].
          intros x Hx [<-|[]]. contradiction.
        - apply Forall_app; split; [exact Hv|now constructor]. }
      apply (builds_ext (IH _ W Hvb')). intros p; rewrite in_app_iff; cbn [In]. tauto.
Qed.

Lemma combine_mk psa psb :
  keys_ok psa -> Forall valid psb ->
  builds (combine V (mk psa) (mk psb)) (fun p => In p psa \/ In p psb).
Proof.
  intros Wa Hvb. unfold combine. rewrite !mk_size, Z.eqb_refl. exact (combine_loop_mk psb psa Wa Hvb).
Qed.

Lemma concat_loop_mk pss : forall psa,
  keys_ok psa -> Forall keys_ok pss ->
  builds (concat_loop V (mk psa) (map mk pss)) (fun p => In p psa \/ In p (concat pss)).
Proof.
  induction pss as [|ps pss IH]; intros psa Wa Hall; cbn [map concat_loop concat].
  - apply (builds_ext (builds_mk psa Wa)). intros p; cbn [In]; tauto.
  - inversion Hall as [|? ? [_ Hv] Hall']; subst. rewrite !mk_size, Z.eqb_refl. cbn [negb].
    destruct (combine_mk psa ps Wa Hv) as (ps1 & E1 & W1 & Hin1). rewrite E1. cbn [res_bind].
    apply (builds_ext (IH ps1 W1 Hall')). intros p. rewrite Hin1, in_app_iff. tauto.
Qed.

Lemma dm_concat_cons (m : dmat) ms : dm_concat V (m :: ms) = concat_loop V m ms.
Proof. now destruct ms. Qed.

Lemma dm_concat_mk pss :
  pss <> [] -> Forall keys_ok pss -> builds (dm_concat V (map mk pss)) (fun p => In p (concat pss)).
Proof.
  intros Hne Hall. destruct pss as [|ps pss]; [congruence|].
  inversion Hall as [|? ? W Hall']; subst. cbn [map concat]. rewrite dm_concat_cons.
  apply (builds_ext (concat_loop_mk pss ps W Hall')). intros p. now rewrite in_app_iff.
Qed.

Lemma dense_get_sym es a b : forall cur, dense_get V es a b cur = dense_get V es b a cur.
Proof.
  induction es as [|[[i j] v] es IH]; intros cur; cbn [dense_get]; [reflexivity|].
  now rewrite orb_comm, (IH v), (IH cur).
Qed.

Lemma dense_get_cons (i j : nat) v r (a b : nat) cur :
  dense_get V ((Z.of_nat i, Z.of_nat j, v) :: r) (Z.of_nat a) (Z.of_nat b) cur
  = dense_get V r (Z.of_nat a) (Z.of_nat b)
      (if (i =? a)%nat && (j =? b)%nat || (i =? b)%nat && (j =? a)%nat then v else cur).
Proof. cbn [dense_get]. rewrite !of_nat_eqb. now destruct (_ || _). Qed.

Lemma dense_get_miss ps (a b : nat) : forall cur,
  ~ In (a, b) ps -> ~ In (b, a) ps ->
  dense_get V (map ent ps) (Z.of_nat a) (Z.of_nat b) cur = cur.
Proof.
  induction ps as [|[i j] ps IH]; intros cur H1 H2; cbn [map]; [reflexivity|].
  rewrite (dense_get_cons i j (d i j)). cbn [In] in H1, H2. rewrite IH by tauto.
  destruct (_ || _) eqn:E; [exfalso|reflexivity].
  apply orb_true_iff in E as [E|E]; apply andb_true_iff in E as [Ea Eb];
    apply Nat.eqb_eq in Ea, Eb; subst; tauto.
Qed.

(* every entry under the key (a, b) carries d a b, so the last one to be written does *)
Lemma dense_get_hit ps (a b : nat) :
  Forall valid ps -> (b < a)%nat -> forall cur, In (a, b) ps \/ cur = d a b ->
  dense_get V (map ent ps) (Z.of_nat a) (Z.of_nat b) cur = d a b.
Proof.
  intros Hv Hab. induction Hv as [|[i j] ps [Hji _] _ IH]; intros cur Hin; cbn [map].
  - now destruct Hin as [[]| ->].
  - rewrite (dense_get_cons i j (d i j)). apply IH. cbn [fst snd] in Hji.
    assert (E : ((i =? b) && (j =? a))%nat = false)
      by (destruct (Nat.eqb_spec i b), (Nat.eqb_spec j a); (reflexivity || lia)).
    rewrite E, orb_false_r.
    destruct (Nat.eqb_spec i a) as [->|Hi], (Nat.eqb_spec j b) as [->|Hj]; cbn [andb]; [now right|..];
      (destruct Hin as [[Heq|Hin]|Hc]; [congruence|now left|now right]).
Qed.

Lemma dense_get_diag ps (a : nat) cur :
  Forall valid ps -> dense_get V (map ent ps) (Z.of_nat a) (Z.of_nat a) cur = cur.
Proof.
  intros Hv. assert (H : ~ In (a, a) ps).
  { intros Hc. rewrite Forall_forall in Hv. destruct (Hv _ Hc) as [H _]. cbn [fst snd] in H. lia. }
  now apply dense_get_miss.
Qed.

(* the expected dense matrix: metric below the diagonal, mirrored above, zero on it *)
Definition dense_of : list (list V) :=
  map (fun a => map (fun b => if (b <? a)%nat then d a b else if (a <? b)%nat then d b a else vzero)
                    (seq 0 n)) (seq 0 n).

Lemma complete_iff ps :
  keys_ok ps -> (is_complete V (mk ps) = true <-> forall i j, (j < i < n)%nat -> In (i, j) ps).
Proof.
  intros [Hnd Hv]. unfold is_complete. cbn [mk dm_size dm_entries].
  rewrite map_length, <- lower_tri_length, Z.eqb_eq, Nat2Z.inj_iff.
  assert (Hincl : incl ps (lower_tri n)).
  { intros [i j] H. apply lower_tri_In. rewrite Forall_forall in Hv. exact (Hv _ H). }
  split.
  - intros Hlen i j Hij.
    apply (@NoDup_length_incl _ ps (lower_tri n) Hnd); [lia|exact Hincl|now apply lower_tri_In].
  - intros Hall. apply Nat.le_antisymm; apply NoDup_incl_length; [exact Hnd|exact Hincl|apply lower_tri_NoDup|].
    intros [i j] H. apply Hall. now apply lower_tri_In.
Qed.

Lemma to_dense_complete ps :
  keys_ok ps -> (forall i j, (j < i < n)%nat -> In (i, j) ps) ->
  to_dense V vzero (mk ps) = Ok dense_of.
Proof.
  intros W Hall. unfold to_dense. rewrite (proj2 (complete_iff ps W) Hall).
  cbn [negb mk dm_size dm_entries]. rewrite Nat2Z.id. f_equal. unfold dense_of.
  destruct W as [_ Hv].
  apply map_ext_in. intros a Ha. apply map_ext_in. intros b Hb.
  apply in_seq in Ha, Hb.
  destruct (Nat.ltb_spec b a) as [E1|E1].
  - apply dense_get_hit; [exact Hv|exact E1|left; apply Hall; lia].
  - destruct (Nat.ltb_spec a b) as [E2|E2].
    + rewrite dense_get_sym. apply dense_get_hit; [exact Hv|exact E2|left; apply Hall; lia].
    + replace b with a by lia. now apply dense_get_diag.
Qed.

Lemma to_dense_incomplete ps i j :
  keys_ok ps -> (j < i < n)%nat -> ~ In (i, j) ps -> to_dense V vzero (mk ps) = Err 5%Z.
Proof.
  intros W Hij Hnin. unfold to_dense.
  destruct (is_complete V (mk ps)) eqn:E; [|reflexivity].
  exfalso. apply Hnin. now apply (proj1 (complete_iff ps W) E).
Qed.

Lemma pipeline_eq (c : Z) (order : list Z) :
  pipeline V vzero d n c order
  = dor m <- dm_concat V (map (fun k => mk (chunk n k c)) order); to_dense V vzero m.
Proof.
  unfold pipeline.
  now rewrite (res_map_all_ok _ (fun k => mk (chunk n k c))) by (intros k _; now rewrite compute_chunk_ok).
Qed.

Lemma concat_chunks (c : Z) (order : list Z) :
  order <> [] ->
  builds (dm_concat V (map (fun k => mk (chunk n k c)) order)) (fun p => exists k, In k order /\ In p (chunk n k c)).
Proof.
  intros Hne. rewrite <- (map_map (fun k => chunk n k c) mk).
  apply (@builds_ext _ (fun p => In p (concat (map (fun k => chunk n k c) order)))).
  - apply dm_concat_mk; [destruct order; [congruence|discriminate]|].
    apply Forall_forall. intros ps Hps. apply in_map_iff in Hps as (k & <- & _). apply chunk_ok.
  - intros p. rewrite in_concat. split.
    + intros (l & Hl & Hp). apply in_map_iff in Hl as (k & <- & Hk). now exists k.
    + intros (k & Hk & Hp). exists (chunk n k c).
      split; [exact (in_map (fun k => chunk n k c) order k Hk)|exact Hp].
Qed.

Theorem pipeline_of_cover (c : nat) (order : list Z) :
  (0 < c)%nat -> (forall k, (k < c)%nat -> In (Z.of_nat k) order) ->
  pipeline V vzero d n (Z.of_nat c) order = Ok dense_of.
Proof.
  intros Hc Hcover. assert (Hne : order <> []) by (intros ->; exact (Hcover 0%nat Hc)).
  rewrite pipeline_eq.
  destruct (concat_chunks (Z.of_nat c) order Hne) as (ps & -> & W & Hin). cbn [res_bind].
  apply to_dense_complete; [exact W|]. intros i j Hij. apply Hin.
  assert (Hl : In (i, j) (concat (all_chunks n c))) by (rewrite chunks_concat by exact Hc; now apply lower_tri_In).
  apply in_concat in Hl as (l & Hl & Hp). unfold all_chunks in Hl.
  apply in_map_iff in Hl as (k & <- & Hk). apply in_seq in Hk.
  exists (Z.of_nat k). split; [apply Hcover; lia|exact Hp].
Qed.

(* the hypothesis order <> [] is implied: a family that lists every chunk index is not empty *)
Theorem pipeline_assembles (c : nat) (order : list Z) :
  (0 < c)%nat -> order <> [] ->
  (forall k, (k < c)%nat -> In (Z.of_nat k) order) ->
  pipeline V vzero d n (Z.of_nat c) order = Ok dense_of.
Proof. intros Hc _. now apply pipeline_of_cover. Qed.

(* a family of chunks that misses a pair is refused *)
Theorem pipeline_refuses_incomplete (c : Z) (order : list Z) i j :
  order <> [] -> (j < i < n)%nat ->
  (forall k, In k order -> ~ In (i, j) (chunk n k c)) ->
  pipeline V vzero d n c order = Err 5%Z.
Proof.
  intros Hne Hij Hmiss. rewrite pipeline_eq.
  destruct (concat_chunks c order Hne) as (ps & -> & W & Hin). cbn [res_bind].
  apply (to_dense_incomplete ps i j W Hij).
  intros Hc. apply Hin in Hc as (k & Hk & Hp). exact (Hmiss k Hk Hp).
Qed.

End Assemble.

Lemma dense_of_entry {V} (vzero : V) d n a b :
  (a < n)%nat -> (b < n)%nat ->
  nth b (nth a (dense_of V vzero d n) []) vzero
  = if (b <? a)%nat then d a b else if (a <? b)%nat then d b a else vzero.
Proof.
  intros Ha Hb. unfold dense_of.
  rewrite (nth_map_seq0 _ [] n a Ha), (nth_map_seq0 _ vzero n b Hb). reflexivity.
Qed.

Theorem dense_of_symmetric {V} (vzero : V) d n a b :
  (a < n)%nat -> (b < n)%nat ->
  nth b (nth a (dense_of V vzero d n) []) vzero = nth a (nth b (dense_of V vzero d n) []) vzero.
Proof.
  intros Ha Hb. rewrite !dense_of_entry by assumption.
  destruct (Nat.ltb_spec b a), (Nat.ltb_spec a b); (reflexivity || lia).
Qed.

Theorem dense_of_zero_diag {V} (vzero : V) d n a :
  (a < n)%nat -> nth a (nth a (dense_of V vzero d n) []) vzero = vzero.
Proof.
  intros Ha. rewrite dense_of_entry by assumption. now rewrite Nat.ltb_irrefl.
Qed.
