(* C13 / C11, one of the pieces Proofs/C13SourceHelpers.v collects (its header describes the representation and the side conditions): Plate.merge = Retro.merge *)
From Coq Require Import ZArith List.
From Batchie Require Import Lib.Sexp Model.Screen Model.Views Model.Retro Generated.SrcPlates Proofs.C14Defs Proofs.C14Views Proofs.C14SourceHelpers_Base Proofs.C14SourceHelpers_PlateMerge Proofs.C13SourceHelpers_Base.
Import ListNotations.
Open Scope nat_scope.

(* self.merge(other) on two plates of one screen object, of the parent's length, whose union is not empty (true of any two
   plates Screen.plates returned): it succeeds; the merged plate's selection vector and the parent's rows afterwards are
   the two components of Retro.merge; the parent keeps its identity, everything but the rows and the plate ids is untouched;
   the plate ids are fresh again; the result is a view of the new parent of the right length *)
Theorem src_plate_merge_is_retro_merge : forall self other : view,
  v_tag other = v_tag self -> view_ok self -> length (v_sel other) = length (v_sel self) ->
  screen_wf (v_parent self) -> vselect (vor (v_sel self) (v_sel other)) (s_rows (v_parent self)) <> [] ->
  exists v', src_plate_merge self other = Ok v' /\
    v_sel v' = fst (merge (v_sel self) (v_sel other) (s_rows (v_parent self))) /\
    s_rows (v_parent v') = snd (merge (v_sel self) (v_sel other) (s_rows (v_parent self))) /\
    v_tag v' = v_tag self /\ plate_ids_fresh (v_parent v') /\ screen_wf (v_parent v') /\ view_ok v' /\
    s_sids (v_parent v') = s_sids (v_parent self) /\ s_tids (v_parent v') = s_tids (v_parent self) /\
    s_arity (v_parent v') = s_arity (v_parent self) /\ s_ctrl (v_parent v') = s_ctrl (v_parent self).
Proof.
  intros self other Ht Hok Hl Hwf Hne. rewrite src_plate_merge_is_model. unfold view_merge, merge.
  rewrite Ht, Z.eqb_refl. cbn [negb]. rewrite bor_vec_vor, select_vselect.
  set (sel := vor (v_sel self) (v_sel other)) in *. set (p := v_parent self) in *.
  destruct Hwf as (H1 & H2 & H3 & H4).
  assert (Hsel : length sel = length (s_rows p)).
  { unfold sel. rewrite vor_length_same by (symmetry; exact Hl). unfold view_ok in Hok. fold p in Hok. congruence. }
  destruct (vselect sel (s_rows p)) as [|r0 rest] eqn:E; [now elim Hne|].
  rewrite Hsel, Nat.eqb_refl. cbn [negb].
  destruct (encode_names_fresh_total (map r_plate (relabel sel (r_plate r0) (s_rows p)))) as (ids & m & Hm).
  rewrite Hm. cbn [res_bind fst]. eexists. split; [reflexivity|]. cbn [v_sel v_parent v_tag fst snd with_rows_pids s_rows s_sids s_tids s_arity s_ctrl].
  rewrite relabel_vrelabel by exact Hsel.
  split; [reflexivity|]. split; [reflexivity|]. split; [reflexivity|].
  split. { exists m. unfold with_rows_pids. cbn [s_rows s_pids]. rewrite <- relabel_vrelabel by exact Hsel. exact Hm. }
  split.
  { unfold screen_wf, screen_size, with_rows_pids. cbn [s_sids s_tids s_pids s_rows s_arity]. split; [exact H1|]. split.
    - rewrite (encode_names_length _ _ _ _ _ Hm), map_length, relabel_length by exact Hsel. exact H3.
    - split; [|exact H4]. rewrite <- relabel_vrelabel, relabel_length by exact Hsel. exact H3. }
  split. { unfold view_ok, screen_size, with_rows_pids. cbn [v_sel v_parent s_tids]. rewrite Hsel. exact H3. }
  repeat split.
Qed.
