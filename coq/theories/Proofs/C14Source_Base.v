(* C14, one piece of Proofs/C14Source.v (conventions and objects: see there): auxiliary facts that mention no translated function *)
From Coq Require Import List.
From Batchie Require Import Lib.ListX Model.Screen Model.Views.
Open Scope Z_scope.

(* the per-row arrays of a row list give the row list back *)
Lemma rows_of_arrays_rows (rows : list row) :
  rows_of_arrays (map (fun r => map fst (r_treats r)) rows) (map (fun r => map snd (r_treats r)) rows)
                 (map r_obs rows) (map r_mask rows) (map r_sample rows) (map r_plate rows) = rows.
Proof.
  induction rows as [|x rows IH]; cbn [map rows_of_arrays]; [reflexivity|].
  rewrite IH, combine_fst_snd. destruct x; reflexivity.
Qed.
