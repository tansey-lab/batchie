(* C01: the property clauses at the level of constructed screens. *)
From Coq Require Import ZArith List Lia Bool.
From Batchie Require Import Lib.Sexp Lib.ListX Generated.Consts Model.Encode Model.Screen Proofs.C03Screen Proofs.C01Sort
  Proofs.C01Encode Proofs.C01Screen.
Import ListNotations.
Open Scope Z_scope.

(* the outcome of a constructor call ([C03Screen.built]: what each check and each encoder answered) in the terms the
   clauses are stated in: which mapping is stored, every stored id the lookup of its key, every lookup defined *)
Set Implicit Arguments.
Record mk_spec (rows : list row) (a : nat) (ctrl : name)
       (tm : option (tmapping * bool)) (sm : option (nmapping * bool)) (og mg : bool) (s : screen) : Prop := {
  ms_rows : s_rows s = norm_rows og mg rows;
  ms_lens : Forall (fun r => length (r_treats r) = s_arity s) (s_rows s);
  ms_tmap : s_tmap s = match tm with Some (m, _) => m | None => build_tmapping ctrl (all_keys s) end;
  ms_smap : s_smap s = match sm with Some (m, _) => m | None => build_nmapping (map r_sample rows) end;
  ms_pmap : s_pmap s = build_nmapping (map r_plate rows);
  ms_tvalid : match tm with Some (m, isint) => zero_indexed isint (map snd m) = true | None => True end;
  ms_svalid : match sm with Some (m, isint) => zero_indexed isint (map snd m) = true | None => True end;
  ms_tids : s_tids s = map (fun r => map (tid_of (s_tmap s)) (r_treats r)) (s_rows s);
  ms_tdef : Forall (fun k => tlookup (s_tmap s) k <> None) (all_keys s);
  ms_sids : s_sids s = map (fun r => nid_of (s_smap s) (r_sample r)) (s_rows s);
  ms_sdef : Forall (fun r => nlookup (s_smap s) (r_sample r) <> None) (s_rows s);
  ms_pids : s_pids s = map (fun r => nid_of (s_pmap s) (r_plate r)) (s_rows s);
  ms_pdef : Forall (fun r => nlookup (s_pmap s) (r_plate r) <> None) (s_rows s)
}.
Unset Implicit Arguments.

Lemma mk_screen_spec {rows a ctrl tm sm og mg s} :
  mk_screen rows a ctrl tm sm og mg = Ok s -> mk_spec rows a ctrl tm sm og mg s.
Proof.
  intros H. destruct (C03Screen.mk_screen_inv H) as [tflat [E1 _ _ E4 E5 E6 E7 E8 Hr Ha Hc Ht]].
  rewrite norm_rows_same in *. set (nr := norm_rows og mg rows) in *.
  destruct s as [rows' a' c' tmm smm pmm tids sids pids]; cbn [s_rows s_arity s_ctrl s_tmap s_smap s_pmap s_tids s_sids s_pids] in *.
  subst rows' a' c' tids.
  assert (Hlen : Forall (fun t => length t = a) (map r_treats nr))
    by (unfold nr; rewrite norm_rows_treats; apply Forall_map, forallb_lens, E1).
  apply encode_treatments_spec in E6 as (Et & -> & Dt).
  apply encode_names_spec in E7 as (Es & -> & Ds). apply encode_names_spec in E8 as (Ep & -> & Dp).
  unfold nr in Es, Ep. rewrite norm_rows_samples in Es. rewrite norm_rows_plates in Ep.
  split; cbn [s_rows s_arity s_ctrl s_tmap s_smap s_pmap s_tids s_sids s_pids]; unfold all_keys;
    cbn [s_rows s_arity]; fold nr; try assumption; try reflexivity.
  (* the fields left, in the order of the record *)
  - (* ms_lens *) exact (proj1 (Forall_map r_treats _ nr) Hlen).
  - (* ms_tmap *) destruct tm as [[m b]|]; exact Et.
  - (* ms_smap *) destruct sm as [[m b]|]; exact Es.
  - (* ms_tvalid *) destruct tm as [[m b]|]; [|exact I]. now apply negb_false_iff in E4.
  - (* ms_svalid *) destruct sm as [[m b]|]; [|exact I]. now apply negb_false_iff in E5.
  - (* ms_tids *) rewrite <- (map_length r_treats nr), <- (map_map r_treats (map (tid_of tmm))). now apply unflatten_flatten.
  - (* ms_sids *) apply map_map.
  - (* ms_sdef *) exact (proj1 (Forall_map r_sample _ nr) Ds).
  - (* ms_pids *) apply map_map.
  - (* ms_pdef *) exact (proj1 (Forall_map r_plate _ nr) Dp).
Qed.

Definition row_keys (s : screen) (k : tkey) : Prop := exists r, In r (s_rows s) /\ In k (r_treats r).

Lemma flat_keys_In a rows k : Forall (fun r => length (r_treats r) = a) rows ->
  (In k (flatten_cols ([], 0) a (map r_treats rows)) <-> exists r, In r rows /\ In k (r_treats r)).
Proof.
  intros Hlen. rewrite flatten_In by now apply Forall_map. split.
  - intros (l & Hl & Hk). apply in_map_iff in Hl as (r & <- & Hr). now exists r.
  - intros (r & Hr & Hk). exists (r_treats r). split; [now apply in_map|exact Hk].
Qed.

Lemma all_keys_In {rows a ctrl tm sm og mg s} :
  mk_screen rows a ctrl tm sm og mg = Ok s -> forall k, In k (all_keys s) <-> row_keys s k.
Proof.
  intros H k. apply flat_keys_In, (ms_lens (mk_screen_spec H)).
Qed.

(* a defined lookup returns an entry of the mapping *)
Lemma tid_of_In m k : tlookup m k <> None -> In (k, tid_of m k) m.
Proof. unfold tid_of. destruct (tlookup m k) as [id|] eqn:E; [intros _; now apply tlookup_Some|congruence]. Qed.

Lemma nid_of_In m k : nlookup m k <> None -> In (k, nid_of m k) m.
Proof. unfold nid_of. destruct (nlookup m k) as [id|] eqn:E; [intros _; now apply nlookup_Some|congruence]. Qed.

(* every key / sample / plate of a stored row has its entry in the stored mapping *)
Lemma treat_entry {rows a ctrl tm sm og mg s} : mk_screen rows a ctrl tm sm og mg = Ok s ->
  forall k, row_keys s k -> In (k, tid_of (s_tmap s) k) (s_tmap s).
Proof.
  intros H k Hk. apply tid_of_In. apply (all_keys_In H) in Hk. revert k Hk. apply Forall_forall, (ms_tdef (mk_screen_spec H)).
Qed.

Lemma sample_entry {rows a ctrl tm sm og mg s} : mk_screen rows a ctrl tm sm og mg = Ok s ->
  forall r, In r (s_rows s) -> In (r_sample r, nid_of (s_smap s) (r_sample r)) (s_smap s).
Proof. intros H r Hr. apply nid_of_In. revert r Hr. apply Forall_forall, (ms_sdef (mk_screen_spec H)). Qed.

Lemma plate_entry {rows a ctrl tm sm og mg s} : mk_screen rows a ctrl tm sm og mg = Ok s ->
  forall r, In r (s_rows s) -> In (r_plate r, nid_of (s_pmap s) (r_plate r)) (s_pmap s).
Proof. intros H r Hr. apply nid_of_In. revert r Hr. apply Forall_forall, (ms_pdef (mk_screen_spec H)). Qed.

Theorem decode_treatments rows a ctrl tm sm og mg s :
  mk_screen rows a ctrl tm sm og mg = Ok s ->
  s_tids s = map (fun r => map (tid_of (s_tmap s)) (r_treats r)) (s_rows s) /\
  forall k, row_keys s k -> In (k, tid_of (s_tmap s) k) (s_tmap s).
Proof. intros H. split; [exact (ms_tids (mk_screen_spec H))|exact (treat_entry H)]. Qed.

Theorem decode_samples rows a ctrl tm sm og mg s :
  mk_screen rows a ctrl tm sm og mg = Ok s ->
  s_sids s = map (fun r => nid_of (s_smap s) (r_sample r)) (s_rows s) /\
  forall r, In r (s_rows s) -> In (r_sample r, nid_of (s_smap s) (r_sample r)) (s_smap s).
Proof. intros H. split; [exact (ms_sids (mk_screen_spec H))|exact (sample_entry H)]. Qed.

Theorem decode_plates rows a ctrl tm sm og mg s :
  mk_screen rows a ctrl tm sm og mg = Ok s ->
  s_pids s = map (fun r => nid_of (s_pmap s) (r_plate r)) (s_rows s) /\
  forall r, In r (s_rows s) -> In (r_plate r, nid_of (s_pmap s) (r_plate r)) (s_pmap s).
Proof. intros H. split; [exact (ms_pids (mk_screen_spec H))|exact (plate_entry H)]. Qed.

Section NoTmap.
Variables (rows : list row) (a : nat) (ctrl : name) (sm : option (nmapping * bool)) (og mg : bool) (s : screen).
Hypothesis H : mk_screen rows a ctrl None sm og mg = Ok s.

Let Sp := mk_screen_spec H.
Let Htm : s_tmap s = build_tmapping ctrl (all_keys s) := ms_tmap Sp.

Lemma entry_of k : row_keys s k -> In (k, tid_of (s_tmap s) k) (build_tmapping ctrl (all_keys s)).
Proof. intros Hk. rewrite <- Htm. now apply (treat_entry H). Qed.

Theorem control_iff k : row_keys s k ->
  (tid_of (s_tmap s) k = CONTROL_SENTINEL_VALUE <-> (snd k <= 0 \/ fst k = ctrl)).
Proof.
  intros Hk. rewrite <- is_control_iff. apply (built_control_iff ctrl (all_keys s)). now apply entry_of.
Qed.

Theorem treatment_ids_injective k1 k2 : row_keys s k1 -> row_keys s k2 ->
  tid_of (s_tmap s) k1 <> CONTROL_SENTINEL_VALUE ->
  (tid_of (s_tmap s) k1 = tid_of (s_tmap s) k2 <-> k1 = k2).
Proof.
  intros H1 H2 Hne. split; [|now intros ->]. intros Heq.
  apply (built_inj ctrl (all_keys s) k1 k2 (tid_of (s_tmap s) k1)); [now apply entry_of|rewrite Heq; now apply entry_of|exact Hne].
Qed.

Lemma space_treatments_built : space_n_treatments s = Z.of_nat (n_nonctrl ctrl (all_keys s)).
Proof.
  unfold space_n_treatments. rewrite Htm, filter_map_comm.
  rewrite (filter_ext_in (fun e => negb (snd e =? CONTROL_SENTINEL_VALUE)) (fun e => nonctrl ctrl (fst e))).
  - rewrite built_nonctrl_ids, <- zseq_0, (sort_uniq_of_sorted _ Zcmp_spec) by apply zseq_sorted.
    now rewrite zseq_length.
  - intros [k id] Hin. cbn [fst snd]. unfold nonctrl. f_equal. apply eq_true_iff_eq.
    rewrite Z.eqb_eq. exact (built_control_iff ctrl (all_keys s) k id Hin).
Qed.

Theorem treatment_ids_dense z :
  (exists k, row_keys s k /\ tid_of (s_tmap s) k = z /\ z <> CONTROL_SENTINEL_VALUE)
  <-> 0 <= z < space_n_treatments s.
Proof.
  rewrite space_treatments_built, <- (built_dense ctrl (all_keys s) z). split.
  - intros (k & Hk & <- & Hne). exists k. split; [now apply entry_of|exact Hne].
  - intros (k & Hin & Hne). exists k.
    assert (Hk : row_keys s k) by (apply (all_keys_In H), (built_keys_In ctrl); exact (in_map fst _ _ Hin)).
    split; [exact Hk|]. split; [|exact Hne].
    exact (built_functional ctrl (all_keys s) k _ _ (entry_of k Hk) Hin).
Qed.
End NoTmap.

(* a name column (samples, plates) encoded by the mapping built from that column *)
Section BuiltColumn.
Context {R : Type} (f : R -> name) (l : list R).
Let m := build_nmapping (map f l).

Lemma column_entry r : In r l -> In (f r, nid_of m (f r)) m.
Proof. intros Hr. apply nid_of_In. rewrite nlookup_None. intros Hn. now apply Hn, nbuilt_keys_In, in_map. Qed.

Lemma column_ids_dense z :
  (exists r, In r l /\ nid_of m (f r) = z) <-> 0 <= z < Z.of_nat (length (sort_uniq name_cmp (map f l))).
Proof.
  rewrite <- (nbuilt_dense (map f l) z). split.
  - intros (r & Hr & <-). exists (f r). now apply column_entry.
  - intros (k & Hin).
    assert (Hk : In k (map f l)) by (apply nbuilt_keys_In; exact (in_map fst _ _ Hin)).
    apply in_map_iff in Hk as (r & <- & Hr). exists r. split; [exact Hr|].
    exact (nbuilt_functional _ _ _ _ (column_entry r Hr) Hin).
Qed.

Lemma column_ids_inj r1 r2 : In r1 l -> In r2 l -> (nid_of m (f r1) = nid_of m (f r2) <-> f r1 = f r2).
Proof.
  intros H1 H2. split; [|now intros ->]. intros Heq.
  pose proof (column_entry r1 H1) as I1. rewrite Heq in I1. exact (nbuilt_inj _ _ _ _ I1 (column_entry r2 H2)).
Qed.
End BuiltColumn.

Section NoSmap.
Variables (rows : list row) (a : nat) (ctrl : name) (tm : option (tmapping * bool)) (og mg : bool) (s : screen).
Hypothesis H : mk_screen rows a ctrl tm None og mg = Ok s.
Let Sp := mk_screen_spec H.

Lemma smap_built : s_smap s = build_nmapping (map r_sample (s_rows s)).
Proof. now rewrite (ms_smap Sp), (ms_rows Sp), norm_rows_samples. Qed.

Lemma space_samples_built : space_n_samples s = Z.of_nat (length (sort_uniq name_cmp (map r_sample (s_rows s)))).
Proof.
  unfold space_n_samples. rewrite smap_built, nbuilt_keys.
  now rewrite (sort_uniq_of_sorted _ name_cmp_spec) by apply sort_uniq_sorted, name_cmp_spec.
Qed.

Theorem sample_ids_dense z :
  (exists r, In r (s_rows s) /\ nid_of (s_smap s) (r_sample r) = z) <-> 0 <= z < space_n_samples s.
Proof. rewrite space_samples_built, smap_built. apply column_ids_dense. Qed.

Theorem sample_ids_injective r1 r2 : In r1 (s_rows s) -> In r2 (s_rows s) ->
  (nid_of (s_smap s) (r_sample r1) = nid_of (s_smap s) (r_sample r2) <-> r_sample r1 = r_sample r2).
Proof. rewrite smap_built. apply column_ids_inj. Qed.
End NoSmap.

Section Plates.
Variables (rows : list row) (a : nat) (ctrl : name) (tm : option (tmapping * bool)) (sm : option (nmapping * bool))
          (og mg : bool) (s : screen).
Hypothesis H : mk_screen rows a ctrl tm sm og mg = Ok s.
Let Sp := mk_screen_spec H.

Lemma plates_of_rows : map r_plate rows = map r_plate (s_rows s).
Proof. now rewrite (ms_rows Sp), norm_rows_plates. Qed.

Lemma pmap_built : s_pmap s = build_nmapping (map r_plate (s_rows s)).
Proof. now rewrite (ms_pmap Sp), plates_of_rows. Qed.

Theorem plate_ids_dense z :
  (exists r, In r (s_rows s) /\ nid_of (s_pmap s) (r_plate r) = z)
  <-> 0 <= z < Z.of_nat (length (sort_uniq name_cmp (map r_plate rows))).
Proof. rewrite plates_of_rows, pmap_built. apply column_ids_dense. Qed.

Theorem plate_ids_injective r1 r2 : In r1 (s_rows s) -> In r2 (s_rows s) ->
  (nid_of (s_pmap s) (r_plate r1) = nid_of (s_pmap s) (r_plate r2) <-> r_plate r1 = r_plate r2).
Proof. rewrite pmap_built. apply column_ids_inj. Qed.
End Plates.

Theorem supplied_verbatim rows a ctrl m b sm og mg s :
  mk_screen rows a ctrl (Some (m, b)) sm og mg = Ok s ->
  s_tmap s = m /\ zero_indexed b (map snd m) = true.
Proof.
  intros H. pose proof (mk_screen_spec H) as Sp. split; [exact (ms_tmap Sp)|exact (ms_tvalid Sp)].
Qed.

Theorem supplied_samples_verbatim rows a ctrl tm m b og mg s :
  mk_screen rows a ctrl tm (Some (m, b)) og mg = Ok s ->
  s_smap s = m /\ zero_indexed b (map snd m) = true.
Proof.
  intros H. pose proof (mk_screen_spec H) as Sp. split; [exact (ms_smap Sp)|exact (ms_svalid Sp)].
Qed.

(* rejection: a supplied treatment mapping whose ids are not dense is refused with tag 3,
   whenever the earlier argument checks pass *)
Theorem supplied_not_dense_rejected rows a ctrl m b sm og mg :
  forallb (fun r => Nat.eqb (length (r_treats r)) a) rows = true ->
  negb og && mg = false -> plate_uniform (norm_rows og mg rows) = true ->
  zero_indexed b (map snd m) = false ->
  mk_screen rows a ctrl (Some (m, b)) sm og mg = Err 3.
Proof.
  intros E1 E2 E3 E4. unfold mk_screen. fold (norm_rows og mg rows).
  rewrite E1, E2, E3, E4. reflexivity.
Qed.

(* rejection: a supplied (valid) treatment mapping that misses a key of the data is refused *)
Theorem supplied_uncovered_rejected rows a ctrl m b sm og mg k r :
  forallb (fun r => Nat.eqb (length (r_treats r)) a) rows = true ->
  In r rows -> In k (r_treats r) -> ~ In k (map fst m) ->
  forall s, mk_screen rows a ctrl (Some (m, b)) sm og mg <> Ok s.
Proof.
  intros E1 Hr Hk Hno s H. pose proof (mk_screen_spec H) as Sp.
  assert (Hin : row_keys s k).
  { unfold row_keys. rewrite (ms_rows Sp).
    assert (Ht : In (r_treats r) (map r_treats (norm_rows og mg rows))) by (rewrite norm_rows_treats; now apply in_map).
    apply in_map_iff in Ht as (r' & Heq & Hr'). exists r'. split; [exact Hr'|now rewrite Heq]. }
  apply (treat_entry H) in Hin. rewrite (ms_tmap Sp) in Hin. exact (Hno (in_map fst _ _ Hin)).
Qed.

(* the mappings a screen builds pass the validity test applied to supplied mappings *)
Lemma built_tmapping_valid ctrl keys : zero_indexed true (map snd (build_tmapping ctrl keys)) = true.
Proof.
  apply zero_indexed_spec. exists (n_nonctrl ctrl keys). intros z. split.
  - intros Hin. apply in_map_iff in Hin as ([k id] & Heq & Hin). cbn [snd] in Heq. subst id.
    destruct (Z.eq_dec z (-1)) as [->|Hne].
    + left. split; [reflexivity|exact (in_map snd _ _ Hin)].
    + right. apply (built_dense ctrl keys z). exists k. split; [exact Hin|now rewrite sentinel_is_minus_one].
  - intros [[-> Hin]|Hr]; [exact Hin|].
    apply (built_dense ctrl keys z) in Hr as (k & Hin & _). exact (in_map snd _ _ Hin).
Qed.

Lemma built_nmapping_valid names : zero_indexed true (map snd (build_nmapping names)) = true.
Proof.
  apply zero_indexed_spec. exists (length (sort_uniq name_cmp names)). intros z.
  rewrite <- (nbuilt_ids_In names z). split; [now right|]. now intros [[-> Hin]|Hr].
Qed.

(* so every screen whose supplied mappings (if any) have an integer id array stores acceptable mappings *)
Lemma screen_tmap_valid {rows a ctrl tm sm og mg s} :
  mk_screen rows a ctrl tm sm og mg = Ok s -> match tm with Some (_, b) => b = true | None => True end ->
  zero_indexed true (map snd (s_tmap s)) = true.
Proof.
  intros H Hb. pose proof (mk_screen_spec H) as Sp. rewrite (ms_tmap Sp). destruct tm as [[m b]|].
  - subst b. exact (ms_tvalid Sp).
  - apply built_tmapping_valid.
Qed.

Lemma screen_smap_valid {rows a ctrl tm sm og mg s} :
  mk_screen rows a ctrl tm sm og mg = Ok s -> match sm with Some (_, b) => b = true | None => True end ->
  zero_indexed true (map snd (s_smap s)) = true.
Proof.
  intros H Hb. pose proof (mk_screen_spec H) as Sp. rewrite (ms_smap Sp). destruct sm as [[m b]|].
  - subst b. exact (ms_svalid Sp).
  - apply built_nmapping_valid.
Qed.

Theorem superset_stable rows a ctrl og mg s sub :
  mk_screen rows a ctrl None None og mg = Ok s ->
  forallb (fun r => Nat.eqb (length (r_treats r)) a) sub = true ->
  plate_uniform sub = true ->
  (forall r k, In r sub -> In k (r_treats r) -> row_keys s k) ->
  (forall r, In r sub -> In (r_sample r) (map r_sample (s_rows s))) ->
  exists s', mk_screen sub a ctrl (Some (s_tmap s, true)) (Some (s_smap s, true)) true true = Ok s'
             /\ s_tmap s' = s_tmap s /\ s_smap s' = s_smap s /\ s_rows s' = sub.
Proof.
  intros H E1 E3 Hkeys Hsamp.
  (* each of the three encoders finds every key of [sub] in its mapping *)
  destruct (encode_treatments_ok (flatten_cols ([], 0) a (map r_treats sub)) ctrl (Some (s_tmap s))) as (tflat & Et).
  { intros k Hk. apply flat_keys_In in Hk as (r & Hr & Hk); [|now apply forallb_lens].
    exact (in_map fst _ _ (treat_entry H k (Hkeys r k Hr Hk))). }
  destruct (encode_names_ok (map r_sample sub) (Some (s_smap s)) 6) as (sids & Es).
  { intros n Hn. apply in_map_iff in Hn as (r & <- & Hr).
    destruct (proj1 (in_map_iff _ _ _) (Hsamp r Hr)) as (r0 & <- & Hr0).
    exact (in_map fst _ _ (sample_entry H r0 Hr0)). }
  destruct (nbuilt_encode_ok (map r_plate sub) 6) as (pids & Ep).
  eexists. split.
  - exact (mk_screen_ok sub a ctrl (Some (s_tmap s, true)) (Some (s_smap s, true)) true true _ _ _ _ _ _ E1 eq_refl E3
             (f_equal negb (screen_tmap_valid H I)) (f_equal negb (screen_smap_valid H I)) Et Es Ep).
  - now repeat split.
Qed.

Lemma valid_ids_bound {A} (m : list (A * Z)) id :
  zero_indexed true (map snd m) = true -> In id (map snd m) ->
  id < Z.of_nat (length (sort_uniq Z.compare (filter (fun i => negb (i =? CONTROL_SENTINEL_VALUE)) (map snd m)))).
Proof.
  intros V Hin. apply zero_indexed_spec in V as (u & Hu).
  assert (Hs : sort_uniq Z.compare (filter (fun i => negb (i =? CONTROL_SENTINEL_VALUE)) (map snd m)) = zseq 0 u).
  { apply (SSorted_unique _ Zcmp_spec); [apply sort_uniq_sorted, Zcmp_spec|apply zseq_sorted|].
    intros z. rewrite (sort_uniq_In _ Zcmp_spec), filter_In, Hu, zseq_In, sentinel_is_minus_one.
    rewrite negb_true_iff, Z.eqb_neq. lia. }
  rewrite Hs, zseq_length. apply Hu in Hin. lia.
Qed.

Theorem treatment_ids_bounded rows a ctrl tm sm og mg s k :
  mk_screen rows a ctrl tm sm og mg = Ok s -> row_keys s k ->
  match tm with Some (_, b) => b = true | None => True end ->
  tid_of (s_tmap s) k < space_n_treatments s.
Proof.
  intros H Hk Hb. apply valid_ids_bound; [exact (screen_tmap_valid H Hb)|].
  exact (in_map snd _ _ (treat_entry H k Hk)).
Qed.

Theorem sample_ids_bounded rows a ctrl tm og mg s r :
  mk_screen rows a ctrl tm None og mg = Ok s -> In r (s_rows s) ->
  nid_of (s_smap s) (r_sample r) < space_n_samples s.
Proof.
  intros H Hr. apply (sample_ids_dense _ _ _ _ _ _ _ H). now exists r.
Qed.

(* a key-unique sample mapping with acceptable ids has at least as many names as ids 0 .. u-1 *)
Lemma nmap_ids_bound (m : nmapping) id :
  NoDup (map fst m) -> zero_indexed true (map snd m) = true -> In id (map snd m) ->
  id < Z.of_nat (length (sort_uniq name_cmp (map fst m))).
Proof.
  intros Hnd V Hid. rewrite (sort_uniq_length_NoDup _ name_cmp_spec), map_length by exact Hnd.
  apply zero_indexed_spec in V as (u & Hu).
  assert (Hu' : (u <= length m)%nat).
  { rewrite <- (zseq_length 0 u), <- (map_length snd m). apply NoDup_incl_length; [apply zseq_NoDup|].
    intros z Hz. apply zseq_In in Hz. apply Hu. right. lia. }
  apply Hu in Hid. lia.
Qed.

(* with a supplied key-unique sample mapping the bound holds too *)
Theorem sample_ids_bounded_supplied rows a ctrl tm m og mg s r :
  mk_screen rows a ctrl tm (Some (m, true)) og mg = Ok s -> NoDup (map fst m) -> In r (s_rows s) ->
  nid_of (s_smap s) (r_sample r) < space_n_samples s.
Proof.
  intros H Hnd Hr. pose proof (sample_entry H r Hr) as Hin.
  destruct (supplied_samples_verbatim _ _ _ _ _ _ _ _ _ H) as [E V]. unfold space_n_samples. rewrite E in *.
  apply nmap_ids_bound; [exact Hnd|exact V|exact (in_map snd _ _ Hin)].
Qed.
