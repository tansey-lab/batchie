(* C13 / C11, one of the pieces Proofs/C13SourceHelpers.v collects (its header describes the representation and the side conditions): Screen.combine = combine_screens *)
From Coq Require Import List Arith.
From Batchie Require Import Proofs.C01Sort Lib.Sexp Model.Screen Model.Views Model.Retro Generated.SrcPlates Proofs.C14Unique Proofs.C14Views Proofs.C14ToScreen Proofs.C14SourceHelpers_ScreenCombine Proofs.C13SourceHelpers_Base.
Import ListNotations.
Open Scope nat_scope.

(* two screens of one arity and control name (true of every pair the wrappers and generators combine: both descend from
   one screen): Screen.combine answers the constructor's refusal of a mixed plate (tag 2) exactly when [construct] does, and
   otherwise a fresh screen whose rows are the two row lists one after the other *)
Theorem src_screen_combine_is_combine_screens : forall a b : pyscreen,
  screen_valid (snd a) -> screen_valid (snd b) -> s_arity (snd b) = s_arity (snd a) -> s_ctrl (snd b) = s_ctrl (snd a) ->
  res_rows (src_screen_combine a b) = combine_screens (s_rows (snd a)) (s_rows (snd b)) /\
  (forall s, src_screen_combine a b = Ok s ->
     fresh_screen s /\ s_arity s = s_arity (snd a) /\ s_ctrl s = s_ctrl (snd a)).
Proof.
  intros [ta a] [tb b]. cbn [snd]. intros [Va _] [Vb _] Har Hc. rewrite src_screen_combine_is_model. cbn [snd].
  unfold screen_combine, combine_screens, construct. rewrite Hc, name_eqb_refl, Har, Nat.eqb_refl. cbn [negb].
  assert (HA : forallb (fun r => Nat.eqb (length (r_treats r)) (s_arity a)) (s_rows a ++ s_rows b) = true).
  { rewrite forallb_app, Va. rewrite <- Har. now rewrite Vb. }
  split.
  - destruct (plate_uniform (s_rows a ++ s_rows b)) eqn:E.
    + destruct (mk_screen_total (s_rows a ++ s_rows b) (s_arity a) (s_ctrl a) (conj HA E)) as (s & Hs). rewrite Hs.
      unfold res_rows. cbn [res_bind]. now rewrite (proj1 (mk_screen_rows _ _ _ _ Hs)).
    + now rewrite (mk_screen_not_uniform _ _ _ HA E).
  - intros s Hs. split; [eapply mk_screen_fresh; exact Hs|]. apply mk_screen_rows in Hs. tauto.
Qed.
