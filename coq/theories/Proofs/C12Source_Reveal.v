(* C12 / C03, one piece of the links of Proofs/C12Source.v (which see): reveal_plates / mask_screen / unmask_screen *)
From Coq Require Import ZArith List.
From Batchie Require Import Lib.ListX Lib.Sexp Model.Screen Model.Reveal Generated.SrcReveal Proofs.PyRtLemmas Proofs.C12Source_Base.
Import ListNotations.
Open Scope Z_scope.

(* the body of the per-plate loop [fix fx5]: np.all(screen.observations[screen.plate_ids == plate_id] == 0) *)
Lemma plate_zero_src s pid :
  np_all (np_eq_zero (select (np_eq_Z (s_pids s) pid) (col_obs s))) = forallb obs_is_zero (plate_values s pid).
Proof. unfold np_all, np_eq_zero, np_eq_Z, col_obs, plate_values. now rewrite forallb_map, select_map. Qed.

Lemma forallb_negb_existsb {A} (q : A -> bool) l : forallb (fun x => negb (q x)) l = negb (existsb q l).
Proof. induction l as [|a l IH]; cbn [forallb existsb]; [reflexivity|]. rewrite IH. now destruct (q a). Qed.

Theorem src_reveal_plates_is_model : forall (s : screen) (ids : list Z),
  src_reveal_plates s ids = reveal_plates (carry_mappings true) s ids.
Proof.
  intros s ids. unfold src_reveal_plates, reveal_plates, reveal_zero_guard, revealed_plate_ids, revealed_values, reveal_rows, reveal_sel.
  cbn [carry_mappings carry_reveal]. fold (np_isin (s_pids s) ids). cbv zeta.
  rewrite (res_fold_check (fun pid => negb (forallb obs_is_zero (plate_values s pid))) 8)
    by (intros u a; rewrite plate_zero_src; now destruct (forallb obs_is_zero (plate_values s a))).
  rewrite forallb_negb_existsb.
  unfold np_all, np_any, np_eq_zero, np_isnan, col_obs at 1 2. rewrite select_map, forallb_map, existsb_map.
  destruct (forallb obs_is_zero _); [reflexivity|]. cbn [orb].
  destruct (existsb (fun pid => forallb obs_is_zero (plate_values s pid)) _); cbn [negb res_bind]; [reflexivity|].
  destruct (existsb obs_is_nan _); [reflexivity|].
  rewrite res_bind_ret, py_screen_of_screen. unfold col_mask. now rewrite remask_or.
Qed.

Lemma np_full_size (b : bool) s : np_full b (screen_size s) = repeat b (length (s_rows s)).
Proof. unfold np_full, screen_size. now rewrite Nat2Z.id. Qed.

Theorem src_mask_screen_is_model : forall s : screen, src_mask_screen s = mask_screen (carry_mappings true) s.
Proof.
  intros s. unfold src_mask_screen, mask_screen. cbn [carry_mappings carry_mask].
  now rewrite res_bind_ret, py_screen_of_screen, np_full_size, remask_const.
Qed.

Theorem src_unmask_screen_is_model : forall s : screen, src_unmask_screen s = unmask_screen (carry_mappings true) s.
Proof.
  intros s. unfold src_unmask_screen, unmask_screen. cbn [carry_mappings carry_unmask].
  now rewrite res_bind_ret, py_screen_of_screen, np_full_size, remask_const.
Qed.
