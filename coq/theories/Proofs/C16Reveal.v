(* C16: within a batch the screen evolves - the plates already in the batch may be
   revealed between two calls of select_next_plate.  What the policy is handed does not depend on that. *)
From Coq Require Import ZArith List Bool.
From Batchie Require Import Lib.Sexp Model.Policy Proofs.C16Policy Proofs.C16Select.
Import ListNotations.
Open Scope Z_scope.

Lemma reveal_ids i screen : map id_of (reveal i screen) = map id_of screen.
Proof.
  unfold reveal. rewrite map_map. apply map_ext. intros [p o]. unfold id_of. cbn [fst].
  destruct (plate_id p =? i); reflexivity.
Qed.

Lemma reveal_all_ids js screen : map id_of (reveal_all js screen) = map id_of screen.
Proof. induction js as [|j js IH]; cbn [reveal_all fold_right]; [reflexivity|]. fold (reveal_all js screen). now rewrite reveal_ids. Qed.

(* flipping the observation flag of a plate whose id is in the batch ids changes neither list handed to the policy *)
Lemma c16_select_args_reveal i screen ids :
  In i ids -> select_args (reveal i screen) ids = select_args screen ids.
Proof.
  intros Hi. apply mem_In in Hi. unfold select_args, reveal. f_equal; [|f_equal].
  - induction screen as [|[p o] s IH]; cbn [map filter fst]; [reflexivity|].
    destruct (plate_id p =? i); cbn [fst]; destruct (mem (plate_id p) ids); cbn [map fst]; now rewrite IH.
  - induction screen as [|[p o] s IH]; cbn [map filter fst snd]; [reflexivity|].
    destruct (plate_id p =? i) eqn:E; cbn [fst snd].
    + apply Z.eqb_eq in E. subst i. rewrite Hi. cbn [negb andb]. rewrite !andb_false_r. exact IH.
    + destruct (negb o && negb (mem (plate_id p) ids)); cbn [map fst]; now rewrite IH.
Qed.

Lemma c16_select_args_reveal_all js screen ids :
  incl js ids -> select_args (reveal_all js screen) ids = select_args screen ids.
Proof.
  induction js as [|j js IH]; intros H; cbn [reveal_all fold_right]; [reflexivity|]. fold (reveal_all js screen).
  rewrite c16_select_args_reveal by (apply H; now left). apply IH. intros x Hx. apply H. now right.
Qed.

(* select_next_plate reads the screen only through those two lists *)
Lemma c16_select_next_reveal_all k js screen scores ids :
  incl js ids -> select_next k (reveal_all js screen) scores ids = select_next k screen scores ids.
Proof. intros H. unfold select_next. now rewrite c16_select_args_reveal_all. Qed.

Lemma reveal_all_app js1 js2 screen : reveal_all js1 (reveal_all js2 screen) = reveal_all (js1 ++ js2) screen.
Proof. unfold reveal_all. now rewrite fold_right_app. Qed.

(* the evolving screen is the first screen with some batch plates revealed *)
Lemma selr_screen k screen0 screen ids :
  sel_hist_reveal k screen0 screen ids -> exists js, incl js ids /\ screen = reveal_all js screen0.
Proof.
  intros H. induction H as [|screen ids scores el i js _ (js0 & Hinc & ->) _ Hjs].
  - exists []. split; [intros x []|reflexivity].
  - exists (js ++ js0). split; [|apply reveal_all_app].
    intros x Hx. apply in_app_or in Hx as [Hx|Hx]; [now apply Hjs|]. apply in_or_app. left. now apply Hinc.
Qed.

(* ... so a history over an evolving screen is a history over the first screen, and at every point the policy is handed
   what it would be handed on the first screen *)
Lemma c16_sel_hist_reveal_is_sel_hist k screen0 screen ids :
  sel_hist_reveal k screen0 screen ids ->
  sel_hist k screen0 ids /\ forall ids', incl ids ids' -> select_args screen ids' = select_args screen0 ids'.
Proof.
  intros H. split.
  - induction H as [|screen ids scores el i js H IH Hsel Hjs]; [constructor|].
    destruct (selr_screen _ _ _ _ H) as (js0 & Hinc & ->).
    rewrite c16_select_next_reveal_all in Hsel by exact Hinc. econstructor; eassumption.
  - destruct (selr_screen _ _ _ _ H) as (js0 & Hinc & ->). intros ids' Hi.
    apply c16_select_args_reveal_all. intros x Hx. apply Hi. now apply Hinc.
Qed.

Lemma c16_select_reachable_evolving k screen0 screen ids :
  NoDup (map id_of screen0) -> sel_hist_reveal k screen0 screen ids ->
  reachable k (snd (select_args screen0 [])) (select_args screen ids).
Proof.
  intros Hnd H. destruct (c16_sel_hist_reveal_is_sel_hist _ _ _ _ H) as [Hs He].
  rewrite (He ids) by apply incl_refl. now apply c16_select_reachable.
Qed.

(* the executable history with reveals between the calls is the history on the first screen *)
Lemma c16_history_reveal_gen k tables : forall flags js screen ids,
  incl js ids -> history_select_reveal k (reveal_all js screen) ids tables flags = history_select k screen ids tables.
Proof.
  induction tables as [|sc rest IH]; intros flags js screen ids Hinc; cbn [history_select_reveal history_select]; [reflexivity|].
  rewrite c16_select_next_reveal_all by exact Hinc.
  destruct (select_next k screen sc ids) as [eo|e]; cbn [res_bind]; [|reflexivity].
  destruct (snd eo) as [i|]; [|reflexivity].
  assert (Hinc' : incl js (ids ++ [i])) by (intros x Hx; apply in_or_app; left; now apply Hinc).
  destruct (hd false flags).
  - change (reveal i (reveal_all js screen)) with (reveal_all (i :: js) screen).
    rewrite IH; [reflexivity|]. intros x [<-|Hx]; [apply in_or_app; right; now left | now apply Hinc'].
  - rewrite IH by exact Hinc'. reflexivity.
Qed.

Lemma c16_history_reveal k screen ids tables flags :
  history_select_reveal k screen ids tables flags = history_select k screen ids tables.
Proof. apply (c16_history_reveal_gen k tables flags [] screen ids). intros x []. Qed.
