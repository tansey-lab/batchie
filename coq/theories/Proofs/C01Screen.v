(* C01: the Screen constructor - the column-major flatten / unflatten round trip, the rows it stores, and what a
   successful encoder run returns. *)
From Coq Require Import ZArith List Lia Bool.
From Batchie Require Import Lib.Sexp Lib.ListX Model.Encode Model.Screen Proofs.C03Base Proofs.C01Encode.
Import ListNotations.
Open Scope Z_scope.

Lemma nth_concat_uniform {A} (d : A) (n : nat) (ls : list (list A)) :
  Forall (fun l => length l = n) ls ->
  forall i j, (i < length ls)%nat -> (j < n)%nat ->
  nth (i * n + j) (concat ls) d = nth j (nth i ls []) d.
Proof.
  induction 1 as [|l ls Hl Hall IH]; intros i j Hi Hj; [cbn in Hi; lia|].
  cbn [concat]. destruct i as [|i].
  - cbn [Nat.mul Nat.add nth]. rewrite app_nth1 by lia. reflexivity.
  - cbn [nth]. rewrite app_nth2 by (cbn [Nat.mul]; lia).
    replace (S i * n + j - length l)%nat with (i * n + j)%nat by (cbn [Nat.mul]; lia).
    apply IH; [cbn in Hi; lia|exact Hj].
Qed.

Section Flat.
Context {A : Type} (d : A) (a : nat) (rows : list (list A)).

Lemma columns_uniform :
  Forall (fun l => length l = length rows) (map (fun i => column d i rows) (seq 0 a)).
Proof. apply Forall_forall. intros l Hl. apply in_map_iff in Hl as (i & <- & _). unfold column. now rewrite map_length. Qed.

Lemma flatten_length : length (flatten_cols d a rows) = (a * length rows)%nat.
Proof. unfold flatten_cols. rewrite (concat_length_uniform _ _ columns_uniform), map_length, seq_length. reflexivity. Qed.

Lemma flatten_nth i j : (i < a)%nat -> (j < length rows)%nat ->
  nth (i * length rows + j) (flatten_cols d a rows) d = nth i (nth j rows []) d.
Proof.
  intros Hi Hj. unfold flatten_cols.
  rewrite (nth_concat_uniform d (length rows) _ columns_uniform) by (rewrite ?map_length, ?seq_length; assumption).
  rewrite nth_map_seq0 by exact Hi.
  unfold column. now rewrite (nth_map_lt _ rows d []) by exact Hj.
Qed.

(* only membership needs rows of one length: a short row would contribute its default *)
Hypothesis Hlen : Forall (fun r => length r = a) rows.

Lemma flatten_In x : In x (flatten_cols d a rows) <-> exists r, In r rows /\ In x r.
Proof.
  unfold flatten_cols. rewrite in_concat. split.
  - intros (l & Hl & Hx). apply in_map_iff in Hl as (i & <- & Hi). unfold column in Hx.
    apply in_map_iff in Hx as (r & <- & Hr). exists r. split; [exact Hr|].
    apply in_seq in Hi. rewrite Forall_forall in Hlen. apply nth_In. rewrite (Hlen r Hr). lia.
  - intros (r & Hr & Hx). destruct (In_nth r x d Hx) as (i & Hi & Hnth).
    rewrite Forall_forall in Hlen. rewrite (Hlen r Hr) in Hi.
    exists (column d i rows). split.
    + apply in_map_iff. exists i. split; [reflexivity|apply in_seq; lia].
    + unfold column. apply in_map_iff. exists r. tauto.
Qed.
End Flat.

(* encoding the flattened keys and unflattening the ids = encoding each row's keys in place *)
Lemma unflatten_flatten (f : tkey -> Z) (a : nat) (rows : list (list tkey)) (tflat : list Z) :
  Forall (fun r => length r = a) rows ->
  tflat = map f (flatten_cols ([], 0) a rows) ->
  unflatten_cols a (length rows) tflat = map (map f) rows.
Proof.
  intros Hlen ->. unfold unflatten_cols.
  apply nth_ext with (d := []) (d' := []); [now rewrite !map_length, seq_length|].
  intros j Hj. rewrite map_length, seq_length in Hj.
  rewrite nth_map_seq0 by exact Hj.
  rewrite (nth_map_lt _ rows [] []) by exact Hj.
  assert (Hr : length (nth j rows []) = a) by (rewrite Forall_forall in Hlen; apply Hlen, nth_In, Hj).
  apply nth_ext with (d := 0) (d' := f ([], 0)); [now rewrite !map_length, seq_length, Hr|].
  intros i Hi. rewrite map_length, seq_length in Hi.
  rewrite nth_map_seq0 by exact Hi.
  rewrite (nth_map_lt f _ 0 ([], 0)) by (rewrite flatten_length; nia).
  rewrite (nth_map_lt f _ (f ([], 0)) ([], 0)) by (now rewrite Hr).
  f_equal. now apply flatten_nth.
Qed.

Definition norm_rows (og mg : bool) (rows : list row) : list row :=
  if og then (if mg then rows
              else map (fun r => {| r_sample := r_sample r; r_plate := r_plate r; r_treats := r_treats r;
                                    r_obs := r_obs r; r_mask := true |}) rows)
  else map (fun r => {| r_sample := r_sample r; r_plate := r_plate r; r_treats := r_treats r;
                        r_obs := 0; r_mask := false |}) rows.

(* the stored rows differ from the argument rows in observation and mask only *)
Lemma norm_rows_map {A} (f : row -> A) og mg rows :
  (forall r o m, f {| r_sample := r_sample r; r_plate := r_plate r; r_treats := r_treats r; r_obs := o; r_mask := m |} = f r) ->
  map f (norm_rows og mg rows) = map f rows.
Proof.
  intros Hf. unfold norm_rows. destruct og, mg; rewrite ?map_map; [reflexivity| | |]; apply map_ext; intros r; apply Hf.
Qed.

Lemma norm_rows_treats og mg rows : map r_treats (norm_rows og mg rows) = map r_treats rows.
Proof. now apply norm_rows_map. Qed.
Lemma norm_rows_samples og mg rows : map r_sample (norm_rows og mg rows) = map r_sample rows.
Proof. now apply norm_rows_map. Qed.
Lemma norm_rows_plates og mg rows : map r_plate (norm_rows og mg rows) = map r_plate rows.
Proof. now apply norm_rows_map. Qed.
Lemma norm_rows_length og mg rows : length (norm_rows og mg rows) = length rows.
Proof. unfold norm_rows. destruct og, mg; rewrite ?map_length; reflexivity. Qed.

Definition tid_of (m : tmapping) (k : tkey) : Z := match tlookup m k with Some id => id | None => 0 end.
Definition nid_of (m : nmapping) (k : name) : Z := match nlookup m k with Some id => id | None => 0 end.

(* the keys the treatment encoder is run on: all rows' keys, column by column *)
Definition the_tkeys (a : nat) (rows : list row) : list tkey := flatten_cols ([], 0) a (map r_treats rows).
Definition all_keys (s : screen) : list tkey := the_tkeys (s_arity s) (s_rows s).

(* what a successful encoder run returns: the mapping, the ids read off it, and that every lookup was defined *)
Lemma opt_map_all_values {A B} (f : A -> option B) (g : A -> B) l r :
  (forall a b, f a = Some b -> g a = b) -> opt_map_all f l = Some r ->
  r = map g l /\ Forall (fun a => f a <> None) l.
Proof.
  intros Hg H. apply opt_map_all_Some in H.
  induction H as [|a b l r Hab _ [-> IH]]; cbn [map]; [now split|].
  rewrite (Hg a b Hab). split; [reflexivity|]. constructor; [congruence|exact IH].
Qed.

Lemma encode_treatments_spec keys ctrl existing ids m :
  encode_treatments keys ctrl existing = Ok (ids, m) ->
  m = match existing with Some m0 => m0 | None => build_tmapping ctrl keys end /\
  ids = map (tid_of m) keys /\ Forall (fun k => tlookup m k <> None) keys.
Proof.
  intros H. apply encode_treatments_inv in H as [Hm E]. split; [exact Hm|].
  apply (opt_map_all_values (tlookup m) (tid_of m)); [|exact E]. unfold tid_of. now intros k id ->.
Qed.

Lemma encode_names_spec names existing tag ids m :
  encode_names names existing tag = Ok (ids, m) ->
  m = match existing with Some m0 => m0 | None => build_nmapping names end /\
  ids = map (nid_of m) names /\ Forall (fun k => nlookup m k <> None) names.
Proof.
  intros H. apply encode_names_inv in H as [Hm E]. split; [exact Hm|].
  apply (opt_map_all_values (nlookup m) (nid_of m)); [|exact E]. unfold nid_of. now intros k id ->.
Qed.

Lemma forallb_lens a rows :
  forallb (fun r => Nat.eqb (length (r_treats r)) a) rows = true ->
  Forall (fun r => length (r_treats r) = a) rows.
Proof. rewrite forallb_forall, Forall_forall. intros H r Hr. now apply Nat.eqb_eq, H. Qed.
