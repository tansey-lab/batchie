(* The model of calculate_scores.main equals its translation (Generated/SrcCli.v). *)
From Coq Require Import ZArith List.
From Batchie Require Import Model.Cli Generated.SrcCli Proofs.PyRtLemmas Proofs.C06SourceCli_Prng.
Open Scope Z_scope.

Theorem src_cli_calculate_scores_is_model :
  forall (Scr Pl Th Dm Sc H : Type) (L : cs_lib Scr Pl Th Dm Sc H) (mix : Z -> Z) (a : cs_args),
  src_cli_calculate_scores Scr Pl Th Dm Sc H L mix a = cli_calculate_scores L mix a.
Proof.
  intros. unfold src_cli_calculate_scores, cli_calculate_scores. cbv zeta.
  rewrite !res_map_all_ret, src_get_prng_is_model.
  repeat cli_step.
Qed.
