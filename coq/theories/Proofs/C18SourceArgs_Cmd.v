(* One piece of Proofs/C18SourceArgs.v (which see): calculate_scores: the statements of get_args() after parser.parse_args(), and main() as a whole command *)
From Coq Require Import ZArith List.
From Batchie Require Import Lib.Sexp Lib.PyRt Model.Cli Generated.SrcCliArgs Proofs.PyRtLemmas Proofs.C06SourceCli_Scores Proofs.C18SourceArgs_Cast.
Import ListNotations.
Open Scope Z_scope.

Theorem src_cs_get_args_is_model : forall (Cls F O : Type) (I : introspect Cls) (P : pyprims F O) (raw : cs_ns Cls F O),
  src_cs_get_args Cls F O I P raw = cs_get_args I P raw.
Proof.
  intros. unfold src_cs_get_args, cs_get_args. cbv zeta.
  rewrite <- (resolve_block I P BScorer (cs_scorer raw) (cs_scorer_param raw)
                (fun c ps => Ok (cs_set_scorer_params (cs_set_scorer_cls raw c) ps))).
  fold s_batchie.
  destruct (i_get_class I s_batchie (cs_scorer raw) BScorer) as [c|e]; cbn [res_bind]; [|reflexivity].
  cbn [cs_scorer_cls cs_scorer_param cs_set_scorer_cls].
  destruct (i_required I c) as [req|e]; cbn [res_bind]; [|reflexivity].
  apply res_bind_ret.
Qed.

(* main() as a whole command: get_args() is the translated get_args on the raw namespace, the scorer is `construct` on the
   class and the parameters the namespace holds *)
Theorem src_cli_calculate_scores_cmd_is_model :
  forall (Cls F O : Type) (I : introspect Cls) (P : pyprims F O) (Scr Pl Th Dm Sc H : Type)
         (construct : Cls -> list (str * pval F O) -> result Sc) (L : cs_lib Scr Pl Th Dm Sc H) (mix : Z -> Z)
         (raw : cs_ns Cls F O),
  src_cli_calculate_scores_cmd Cls F O I P Scr Pl Th Dm Sc H construct L mix raw
  = cli_calculate_scores_cmd I P construct L mix raw.
Proof.
  intros. unfold src_cli_calculate_scores_cmd, cli_calculate_scores_cmd. cbv zeta.
  rewrite src_cs_get_args_is_model.
  destruct (cs_get_args I P raw) as [a|e]; cbn [res_bind]; [|reflexivity].
  rewrite <- C06SourceCli_Scores.src_cli_calculate_scores_is_model.
  unfold SrcCli.src_cli_calculate_scores, instantiate. cbv zeta.
  cbn [cs_with_mk cs_load_screen cs_plates cs_is_observed cs_plate_id cs_mk_scorer cs_load_thetas cs_concat_thetas cs_load_dist
       cs_concat_dist cs_score_chunk].
  destruct (cs_load_screen L (cs_data (cs_plain a))); cbn [res_bind]; [|reflexivity].
  destruct (unwrap (cs_scorer_cls a)); cbn [res_bind]; reflexivity.
Qed.

(* the same, with the model spelled out: the scorer component of the main() model IS the resolved class instantiated with
   the cast parameters *)
Theorem src_cli_calculate_scores_cmd_spelled :
  forall (Cls F O : Type) (I : introspect Cls) (P : pyprims F O) (Scr Pl Th Dm Sc H : Type)
         (construct : Cls -> list (str * pval F O) -> result Sc) (L : cs_lib Scr Pl Th Dm Sc H) (mix : Z -> Z)
         (raw : cs_ns Cls F O),
  src_cli_calculate_scores_cmd Cls F O I P Scr Pl Th Dm Sc H construct L mix raw
  = (dor cp <- resolve I P BScorer (cs_scorer raw) (cs_scorer_param raw);
     cli_calculate_scores (cs_with_mk L (instantiate construct (fst cp) (snd cp))) mix (cs_plain raw)).
Proof.
  intros. rewrite src_cli_calculate_scores_cmd_is_model.
  unfold cli_calculate_scores_cmd, cs_get_args.
  destruct (resolve I P BScorer (cs_scorer raw) (cs_scorer_param raw)); reflexivity.
Qed.
