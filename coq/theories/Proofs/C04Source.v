(* C04: the hand-written models of Model/Train.v equal the translations of
     batchie.core.BayesianModel.add_observations
     batchie.models.sparse_combo.SparseDrugCombo._add_observations
     batchie.models.sparse_combo.LegacySparseDrugComboImpl.n_obs / _update
     batchie.models.sparse_combo_interaction.LegacySparseDrugComboInteractionImpl.n_obs / _update
     batchie.models.sparse_combo_interaction.SparseDrugComboInteraction._add_observations
     batchie.data.create_single_treatment_effect_map
   regenerated from /repo on every run (Generated/SrcTrain.v, by harness/py2gal.py with the configurations C04_* of
   harness/src_functions.py), for all inputs.
   The legacy sampler object is Train.legacy (four lists, three defaultdict(list)); the model's training data is a list
   of trips.  The representation map is [legacy_of]: the object whose four lists are the columns of the trips and whose
   index dictionaries are [index_dict] of the id columns (every id in order of first occurrence -> the ascending
   positions that hold it).  The translated _update maps legacy_of st to legacy_of (st ++ [trip]) for EVERY st, so the
   objects reachable from the empty one by any number of calls are exactly the legacy_of st. *)
From Coq Require Import ZArith List Bool Lia QArith Qcanon Sorted.
From Batchie Require Import Lib.Sexp Lib.Num Lib.ListX Lib.PyRt Generated.Consts Generated.ConstsClip Model.Encode Model.Train Generated.SrcTrain
  Proofs.PyRtLemmas Proofs.C01Sort Proofs.C04Train.
Import ListNotations.
Open Scope Z_scope.

Lemma all_true_map {A} (f : A -> bool) l : all_true (map f l) = forallb f l.
Proof. exact (forallb_map f (fun b => b) l). Qed.

Lemma any_true_map {A} (f : A -> bool) l : any_true (map f l) = existsb f l.
Proof. exact (existsb_map f (fun b => b) l). Qed.

Lemma zip4_map {R A B C D} (f : R -> A) (g : R -> B) (h : R -> C) (k : R -> D) rows :
  zip4 (map f rows) (map g rows) (map h rows) (map k rows) = map (fun r => (f r, g r, h r, k r)) rows.
Proof. induction rows as [|r rows IH]; cbn [map zip4]; [reflexivity | now rewrite IH]. Qed.

Lemma zip5_map {R A B C D E} (f : R -> A) (g : R -> B) (h : R -> C) (k : R -> D) (e : R -> E) rows :
  zip5 (map f rows) (map g rows) (map h rows) (map k rows) (map e rows)
  = map (fun r => (f r, g r, h r, k r, e r)) rows.
Proof. induction rows as [|r rows IH]; cbn [map zip5]; [reflexivity | now rewrite IH]. Qed.

Lemma select_map {A B} (f : A -> B) m : forall l, select m (map f l) = map f (select m l).
Proof.
  induction m as [|b m IH]; intros [|a l]; cbn [select map]; try reflexivity.
  destruct b; cbn [map]; now rewrite IH.
Qed.

Lemma select_map_filter {A} (p : A -> bool) l : select (map p l) l = filter p l.
Proof. induction l as [|a l IH]; cbn [map select filter]; [reflexivity|]. destruct (p a); now rewrite IH. Qed.

Theorem src_add_observations_is_model : forall (S : Type) (inner : S -> list trow -> result S) (self : S) (rows : list trow),
  src_add_observations S inner self rows = add_observations (inner self) rows.
Proof.
  intros S inner self rows. unfold src_add_observations, add_observations. rewrite all_true_map.
  destruct (forallb t_mask rows); cbn [negb]; [apply res_bind_ret | reflexivity].
Qed.

(* a link of a class's _add_observations, through any representation [rep] of its objects, extends to the guarded entry point *)
Lemma src_add_observations_lift {S M : Type} (rep : M -> S) (src_inner : S -> list trow -> result S)
    (inner : M -> list trow -> result M) :
  (forall st rows, src_inner (rep st) rows = dor t <- inner st rows; Ok (rep t)) ->
  forall st rows, src_add_observations S src_inner (rep st) rows = dor t <- add_observations (inner st) rows; Ok (rep t).
Proof.
  intros H st rows. rewrite src_add_observations_is_model. unfold add_observations.
  destruct (forallb t_mask rows); [apply H | reflexivity].
Qed.

Lemma positions_from_app k a : forall i b,
  positions_from i k (a ++ b) = positions_from i k a ++ positions_from (i + Z.of_nat (length a)) k b.
Proof.
  induction a as [|c a IH]; intros i b; cbn [app positions_from length].
  - now rewrite Z.add_0_r.
  - rewrite IH. replace (i + 1 + Z.of_nat (length a)) with (i + Z.of_nat (S (length a))) by lia.
    destruct (c =? k); reflexivity.
Qed.

Lemma positions_snoc k col c :
  positions k (col ++ [c]) = positions k col ++ (if c =? k then [Z.of_nat (length col)] else []).
Proof. unfold positions. rewrite positions_from_app. cbn [positions_from Z.add]. destruct (c =? k); reflexivity. Qed.

Lemma positions_from_absent k col : forall i, existsb (Z.eqb k) col = false -> positions_from i k col = [].
Proof.
  induction col as [|c col IH]; intros i H; cbn [positions_from]; [reflexivity|].
  cbn [existsb] in H. apply orb_false_iff in H. destruct H as [H1 H2].
  rewrite Z.eqb_sym, H1. now apply IH.
Qed.

Lemma positions_from_spec k col : forall i j,
  In j (positions_from i k col) <-> exists n, j = i + Z.of_nat n /\ nth_error col n = Some k.
Proof.
  induction col as [|c col IH]; intros i j; cbn [positions_from].
  - split; [intros [] | intros ([|n] & _ & H); discriminate].
  - assert (Hrec : In j (positions_from (i + 1) k col)
                   <-> exists n, j = i + Z.of_nat (S n) /\ nth_error (c :: col) (S n) = Some k).
    { rewrite IH. split; intros (n & -> & H); exists n; (split; [lia | exact H]). }
    destruct (Z.eqb_spec c k) as [->|Hne]; cbn [In]; rewrite Hrec.
    + split.
      * intros [<-|(n & H)]; [exists 0%nat; split; [lia | reflexivity] | now exists (S n)].
      * intros ([|n] & -> & H); [left; lia | right; now exists n].
    + split.
      * intros (n & H). now exists (S n).
      * intros ([|n] & -> & H); [cbn in H; congruence | now exists n].
Qed.

(* the positions of k: exactly the row numbers (from 0) at which the column holds k *)
Lemma positions_spec k col j : In j (positions k col) <-> 0 <= j /\ nth_error col (Z.to_nat j) = Some k.
Proof.
  unfold positions. rewrite positions_from_spec. split.
  - intros (n & -> & H). split; [lia|]. now rewrite Z.add_0_l, Nat2Z.id.
  - intros [H0 H]. exists (Z.to_nat j). split; [lia | exact H].
Qed.

Lemma positions_from_sorted k col : forall i, StronglySorted Z.lt (positions_from i k col).
Proof.
  induction col as [|c col IH]; intros i; cbn [positions_from]; [constructor|].
  destruct (c =? k); [|apply IH]. constructor; [apply IH|].
  apply Forall_forall. intros j Hj. apply positions_from_spec in Hj as (n & -> & _). lia.
Qed.

Lemma first_occurrences_snoc col c :
  first_occurrences (col ++ [c])
  = if existsb (Z.eqb c) (first_occurrences col) then first_occurrences col else first_occurrences col ++ [c].
Proof. unfold first_occurrences. rewrite fold_left_app. reflexivity. Qed.

Lemma first_occurrences_mem k col : existsb (Z.eqb k) (first_occurrences col) = existsb (Z.eqb k) col.
Proof.
  induction col as [|c col IH] using rev_ind; [reflexivity|].
  rewrite first_occurrences_snoc, existsb_app. cbn [existsb]. rewrite orb_false_r.
  destruct (existsb (Z.eqb c) (first_occurrences col)) eqn:E.
  - rewrite IH. destruct (Z.eqb_spec k c) as [->|_]; [|now rewrite orb_false_r].
    rewrite <- IH, E. reflexivity.
  - rewrite existsb_app, IH. cbn [existsb]. now rewrite orb_false_r.
Qed.

Lemma first_occurrences_NoDup col : NoDup (first_occurrences col).
Proof.
  induction col as [|c col IH] using rev_ind; [constructor|].
  rewrite first_occurrences_snoc. destruct (existsb (Z.eqb c) (first_occurrences col)) eqn:E; [exact IH|].
  rewrite (NoDup_Add (Add_app c (first_occurrences col) [])), app_nil_r.
  split; [exact IH|]. intros H. apply (existsb_eqb_In Z.eqb Z.eqb_eq) in H. congruence.
Qed.

Lemma first_occurrences_In k col : In k (first_occurrences col) <-> In k col.
Proof. rewrite <- !(existsb_eqb_In Z.eqb Z.eqb_eq), first_occurrences_mem. reflexivity. Qed.

(* one bucket append on a dict that lists distinct keys *)
Lemma dict_append_map (P : Z -> list Z) c n : forall F, NoDup F ->
  dict_append (map (fun k => (k, P k)) F) c n
  = if existsb (Z.eqb c) F then map (fun k => (k, if k =? c then P k ++ [n] else P k)) F
    else map (fun k => (k, P k)) F ++ [(c, [n])].
Proof.
  induction F as [|k F IH]; intros Hnd; cbn [map dict_append existsb]; [reflexivity|].
  inversion Hnd as [|? ? Hk HF]; subst.
  destruct (Z.eqb_spec k c) as [->|Hne].
  - rewrite Z.eqb_refl. cbn [orb]. f_equal. apply map_ext_in. intros x Hx.
    destruct (Z.eqb_spec x c) as [->|_]; [contradiction | reflexivity].
  - rewrite IH by exact HF. destruct (Z.eqb_spec c k) as [->|_]; [congruence|]. cbn [orb].
    destruct (existsb (Z.eqb c) F); reflexivity.
Qed.

(* the invariant step: appending row number len(col) to the bucket of c gives the index of col ++ [c] *)
Lemma index_dict_snoc col c n : n = Z.of_nat (length col) ->
  dict_append (index_dict col) c n = index_dict (col ++ [c]).
Proof.
  intros ->. unfold index_dict. rewrite dict_append_map by apply first_occurrences_NoDup.
  rewrite first_occurrences_snoc. destruct (existsb (Z.eqb c) (first_occurrences col)) eqn:E.
  - apply map_ext. intros k. rewrite positions_snoc, (Z.eqb_sym k c). destruct (c =? k); [reflexivity | now rewrite app_nil_r].
  - rewrite map_app. cbn [map]. f_equal.
    + apply map_ext_in. intros k Hk. rewrite positions_snoc.
      destruct (Z.eqb_spec c k) as [->|_]; [|now rewrite app_nil_r].
      apply (existsb_eqb_In Z.eqb Z.eqb_eq) in Hk. congruence.
    + rewrite positions_snoc, Z.eqb_refl. unfold positions.
      rewrite positions_from_absent by (now rewrite <- first_occurrences_mem). reflexivity.
Qed.

(* every id of the column has exactly one entry: its positions *)
Lemma index_dict_entry col k l : In (k, l) (index_dict col) <-> In k col /\ l = positions k col.
Proof.
  unfold index_dict. rewrite in_map_iff. split.
  - intros (x & E & Hx). inversion E; subst. split; [now apply first_occurrences_In | reflexivity].
  - intros [H ->]. exists k. split; [reflexivity | now apply first_occurrences_In].
Qed.

Lemma index_dict_keys col : map fst (index_dict col) = first_occurrences col.
Proof. unfold index_dict. rewrite map_map. cbn [fst]. apply map_id. Qed.

Definition mk_trip (y : oval) (cl d1 d2 : Z) : trip := {| tr_y := y; tr_cl := cl; tr_d1 := d1; tr_d2 := d2 |}.

(* What one _update call does to ANY object: stated on an arbitrary record so that the seven nested setters of the
   translation reduce on a constructor (on `legacy_of st` unfolded they are re-checked on an exponentially large term). *)
Definition legacy_snoc (w : legacy) (y : oval) (cl d1 d2 : Z) : legacy :=
  let n := Z.of_nat (length (lg_y w)) in
  {| lg_y := lg_y w ++ [y]; lg_cline := lg_cline w ++ [cl]; lg_dd1 := lg_dd1 w ++ [d1]; lg_dd2 := lg_dd2 w ++ [d2];
     lg_cline_idxs := dict_append (lg_cline_idxs w) cl n;
     lg_dd1_idxs := dict_append (lg_dd1_idxs w) d1 n;
     lg_dd2_idxs := dict_append (lg_dd2_idxs w) d2 n |}.

Lemma src_legacy_update_snoc w y cl d1 d2 : src_legacy_update w y cl d1 d2 = Ok (legacy_snoc w y cl d1 d2).
Proof. destruct w; reflexivity. Qed.

Lemma src_legacy_int_update_snoc w y cl d1 d2 : src_legacy_int_update w y cl d1 d2 = Ok (legacy_snoc w y cl d1 d2).
Proof. destruct w; reflexivity. Qed.

Lemma legacy_of_snoc st y cl d1 d2 : legacy_snoc (legacy_of st) y cl d1 d2 = legacy_of (st ++ [mk_trip y cl d1 d2]).
Proof.
  unfold legacy_of, legacy_snoc. cbn [lg_y lg_cline lg_dd1 lg_dd2 lg_cline_idxs lg_dd1_idxs lg_dd2_idxs].
  rewrite !map_app. cbn [map mk_trip tr_y tr_cl tr_d1 tr_d2].
  rewrite !index_dict_snoc by (now rewrite !map_length). reflexivity.
Qed.

Theorem src_legacy_update_is_model : forall st y cl d1 d2,
  src_legacy_update (legacy_of st) y cl d1 d2 = Ok (legacy_of (st ++ [mk_trip y cl d1 d2])).
Proof. intros. now rewrite src_legacy_update_snoc, legacy_of_snoc. Qed.

Theorem src_legacy_int_update_is_model : forall st y cl d1 d2,
  src_legacy_int_update (legacy_of st) y cl d1 d2 = Ok (legacy_of (st ++ [mk_trip y cl d1 d2])).
Proof. intros. now rewrite src_legacy_int_update_snoc, legacy_of_snoc. Qed.

Theorem src_legacy_n_obs_is_model : forall st,
  src_legacy_n_obs (legacy_of st) = Ok (Z.of_nat (length st)) /\ src_legacy_int_n_obs (legacy_of st) = Ok (Z.of_nat (length st)).
Proof. intros st. unfold src_legacy_n_obs, src_legacy_int_n_obs, legacy_of. cbn [lg_y]. now rewrite map_length. Qed.

Lemma mk_trip_eta t : mk_trip (tr_y t) (tr_cl t) (tr_d1 t) (tr_d2 t) = t.
Proof. destruct t; reflexivity. Qed.

(* any number of calls, from any reachable object (in particular from the empty one, legacy_of []) *)
Lemma legacy_updates_gen (update : legacy -> oval -> Z -> Z -> Z -> result legacy) :
  (forall st y cl d1 d2, update (legacy_of st) y cl d1 d2 = Ok (legacy_of (st ++ [mk_trip y cl d1 d2]))) ->
  forall calls st,
  res_fold (fun w t => update w (tr_y t) (tr_cl t) (tr_d1 t) (tr_d2 t)) calls (legacy_of st) = Ok (legacy_of (st ++ calls)).
Proof.
  intros H calls. induction calls as [|t calls IH]; intros st; cbn [res_fold]; [now rewrite app_nil_r|].
  rewrite H, mk_trip_eta. cbn [res_bind]. rewrite IH, <- app_assoc. reflexivity.
Qed.

(* after ANY sequence of _update calls on a fresh object the four lists are
   the columns of the calls and every index dictionary maps each id of its column, in order of first occurrence, to
   exactly the ascending row numbers at which the column holds it *)
Theorem legacy_index_invariant : forall calls : list trip,
  (res_fold (fun w t => src_legacy_update w (tr_y t) (tr_cl t) (tr_d1 t) (tr_d2 t)) calls (legacy_of []) = Ok (legacy_of calls)) /\
  (res_fold (fun w t => src_legacy_int_update w (tr_y t) (tr_cl t) (tr_d1 t) (tr_d2 t)) calls (legacy_of []) = Ok (legacy_of calls)) /\
  let w := legacy_of calls in
  lg_y w = map tr_y calls /\ lg_cline w = map tr_cl calls /\ lg_dd1 w = map tr_d1 calls /\ lg_dd2 w = map tr_d2 calls /\
  lg_cline_idxs w = index_dict (lg_cline w) /\ lg_dd1_idxs w = index_dict (lg_dd1 w) /\ lg_dd2_idxs w = index_dict (lg_dd2 w) /\
  (forall col k l, In (k, l) (index_dict col) <-> In k col /\ l = positions k col) /\
  (forall col, NoDup (map fst (index_dict col))) /\
  (forall col k j, In j (positions k col) <-> 0 <= j /\ nth_error col (Z.to_nat j) = Some k) /\
  (forall col k, StronglySorted Z.lt (positions k col)).
Proof.
  intros calls. split; [|split].
  - exact (legacy_updates_gen _ src_legacy_update_is_model calls []).
  - exact (legacy_updates_gen _ src_legacy_int_update_is_model calls []).
  - cbv zeta. do 7 (split; [reflexivity|]).
    split; [exact index_dict_entry|]. split; [|split].
    + intros col. rewrite index_dict_keys. apply first_occurrences_NoDup.
    + intros col k j. apply positions_spec.
    + intros col k. apply positions_from_sorted.
Qed.

Lemma oclip_at_consts v : oclip_at (q_of_pair OBS_CLIP_LO) (q_of_pair OBS_CLIP_HI) v = oclip v.
Proof. destruct v as [q| |[|]]; reflexivity. Qed.

Lemma id_at_0 l : id_at l 0 = match nth_error l 0 with Some a => Ok a | None => Err 4 end.
Proof. reflexivity. Qed.
Lemma id_at_1 l : id_at l 1 = match nth_error l 1 with Some a => Ok a | None => Err 4 end.
Proof. reflexivity. Qed.

(* the per-row loop of both classes: a row with mask becomes a trip (or raises) that _update appends, the others are skipped;
   [F] is the translated loop body, [g] what the zipped arrays hold of a row *)
Lemma legacy_rows_loop {X} (g : trow -> X) (tr : trow -> result trip) (F : legacy -> X -> result legacy) :
  (forall st r, F (legacy_of st) (g r)
     = if t_mask r then dor t <- tr r; Ok (legacy_of (st ++ [t])) else Ok (legacy_of st)) ->
  forall rows st,
  res_fold F (map g rows) (legacy_of st) = dor new <- res_map_all tr (filter t_mask rows); Ok (legacy_of (st ++ new)).
Proof.
  intros HF rows. induction rows as [|r rows IH]; intros st; cbn [map res_fold filter].
  - cbn [res_map_all res_bind]. now rewrite app_nil_r.
  - rewrite HF. destruct (t_mask r); [|apply IH]. cbn [res_map_all].
    destruct (tr r) as [t|e]; cbn [res_bind]; [|reflexivity]. rewrite IH.
    destruct (res_map_all tr (filter t_mask rows)) as [new|e]; cbn [res_bind]; [|reflexivity].
    now rewrite <- app_assoc.
Qed.

Theorem src_sdc_add_observations_is_model : forall orc r32 (st : list trip) (rows : list trow),
  src_sdc_add_observations orc r32 (legacy_of st) rows = dor t <- sdc_inner orc r32 st rows; Ok (legacy_of t).
Proof.
  intros orc r32 st rows. unfold src_sdc_add_observations, sdc_inner.
  rewrite !map_map, all_true_map. destruct (forallb (fun r => o_nonneg (t_obs r)) rows); cbn [negb]; [|reflexivity].
  cbv zeta. rewrite any_true_map.
  (* the clip bounds of the call (float literals of the translation) are the model's, Generated/Consts.v: by conversion *)
  change (fun x : trow => ologit orc (oclip_at _ _ (cast32 r32 (t_obs x)))) with (fun r : trow => sdc_transform orc r32 (t_obs r)).
  change (fun x : trow => o_isnan (ologit orc (oclip_at _ _ (cast32 r32 (t_obs x)))))
    with (fun r : trow => o_isnan (sdc_transform orc r32 (t_obs r))).
  destruct (existsb (fun r => o_isnan (sdc_transform orc r32 (t_obs r))) rows); [reflexivity|].
  rewrite zip4_map, (legacy_rows_loop _ (sdc_trip orc r32)).
  - destruct (res_map_all (sdc_trip orc r32) (filter t_mask rows)); reflexivity.
  - intros st' r. destruct (t_mask r); [|reflexivity]. cbv beta iota zeta.
    unfold sdc_trip. rewrite id_at_0, id_at_1.
    destruct (nth_error (t_treats r) 0) as [d1|]; [|reflexivity].
    destruct (nth_error (t_treats r) 1) as [d2|]; [|reflexivity].
    cbn [res_bind]. now rewrite src_legacy_update_is_model.
Qed.

(* the public entry point on a SparseDrugCombo: the translated guard around the translated _add_observations *)
Theorem src_sdc_add_is_model : forall orc r32 st rows,
  src_add_observations legacy (src_sdc_add_observations orc r32) (legacy_of st) rows
  = dor t <- sdc_add orc r32 st rows; Ok (legacy_of t).
Proof. intros orc r32. exact (src_add_observations_lift legacy_of _ _ (src_sdc_add_observations_is_model orc r32)). Qed.

Lemma select_map_map {R A} (p : R -> bool) (f : R -> A) rows : select (map p rows) (map f rows) = map f (filter p rows).
Proof. now rewrite select_map, select_map_filter. Qed.

Lemma and_vec_map {R} (p q : R -> bool) rows : and_vec (map p rows) (map q rows) = map (fun r => p r && q r) rows.
Proof. induction rows as [|r rows IH]; cbn [map and_vec]; [reflexivity | now rewrite IH]. Qed.

Lemma existsb_filter {A} (p : A -> bool) l : existsb p l = match filter p l with [] => false | _ :: _ => true end.
Proof. induction l as [|a l IH]; cbn [existsb filter]; [reflexivity|]. destruct (p a); [reflexivity | exact IH]. Qed.

Lemma dict2_set_fresh {V} (d : list ((Z * Z) * V)) k v :
  Forall (fun kv => fst kv <> k) d -> dict2_set d k v = d ++ [(k, v)].
Proof.
  induction d as [|[k' v'] d IH]; intros H; cbn [dict2_set app]; [reflexivity|].
  inversion H as [|? ? Hk Hd]; subst. cbn [fst] in Hk.
  destruct ((fst k' =? fst k) && (snd k' =? snd k)) eqn:E.
  - exfalso. apply andb_true_iff in E. destruct E as [E1 E2]. apply Z.eqb_eq in E1, E2. apply Hk.
    destruct k', k; cbn [fst snd] in *; congruence.
  - now rewrite IH.
Qed.

(* the dict the two nested loops build, as a comprehension over the columns: for every sample id and every treatment id
   (both ascending), 1 for the control id, otherwise the mean over the single-agent rows of that sample whose largest id is the
   treatment, when there is one *)
Definition sem_cols (O : Type) (one : O) (mean : list O -> O) (arity : nat) (sids : list Z) (tids : list (list Z)) (obs : list O)
  : list ((Z * Z) * O) :=
  let m := eq_vec (ctrl_counts tids) (Z.of_nat arity - 1) in
  flat_map (fun s =>
    flat_map (fun t =>
      if t =? CONTROL_SENTINEL_VALUE then [((s, t), one)]
      else let hit := and_vec (eq_vec (row_maxima (select m tids)) t) (eq_vec (select m sids) s) in
           if any_true hit then [((s, t), mean (select hit (select m obs)))] else [])
      (sort_uniq Z.compare (concat tids)))
    (sort_uniq Z.compare sids).

(* every key a loop body stores is new, since the ids of both loops are distinct *)
Lemma src_single_effect_map_cols (O : Type) (one : O) (mean : list O -> O) arity sids tids obs :
  src_create_single_treatment_effect_map O one mean arity sids tids obs
  = if Z.of_nat arity <? 2 then Err 4 else Ok (sem_cols O one mean arity sids tids obs).
Proof.
  unfold src_create_single_treatment_effect_map, sem_cols. destruct (Z.of_nat arity <? 2); [reflexivity|].
  cbv zeta. rewrite res_bind_ret.
  apply (res_fold_blocks (fun s e => fst (fst e) = s)) with (res := []).
  - intros a b e Ha Hb. congruence.
  - intros s. apply Forall_forall. intros e He. apply in_flat_map in He as (t & _ & He).
    destruct (t =? CONTROL_SENTINEL_VALUE); [|destruct (any_true _); [|destruct He]]; destruct He as [<-|[]]; reflexivity.
  - intros res s Hres. rewrite res_bind_ret.
    apply (res_fold_blocks (fun t e => fst e = (s, t))).
    + intros a b e Ha Hb. congruence.
    + intros t. destruct (t =? CONTROL_SENTINEL_VALUE); [|destruct (any_true _)]; repeat constructor.
    + intros res' t Hres'.
      destruct (t =? CONTROL_SENTINEL_VALUE); [now rewrite dict2_set_fresh|].
      destruct (any_true _); cbn [negb]; [now rewrite dict2_set_fresh | now rewrite app_nil_r].
    + apply (sort_uniq_NoDup Z.compare Zcmp_spec).
    + eapply Forall_impl; [|exact Hres]. intros e He t _ X. apply He. now rewrite X.
  - apply (sort_uniq_NoDup Z.compare Zcmp_spec).
  - constructor.
Qed.

(* np.sum(ids == CONTROL_SENTINEL_VALUE, axis=1) == n, row by row *)
Lemma ctrl_mask_eq (n : nat) rows :
  eq_vec (ctrl_counts (map t_treats rows)) (Z.of_nat n) = map (fun r => Nat.eqb (count_ctrl (t_treats r)) n) rows.
Proof. unfold eq_vec, ctrl_counts. rewrite !map_map. apply map_ext. intros r. apply of_nat_eqb. Qed.

Theorem src_single_effect_map_is_model : forall (arity : nat) (rows : list trow),
  src_create_single_treatment_effect_map oval oone omean arity (map t_sample rows) (map t_treats rows) (map t_obs rows)
  = if Z.of_nat arity <? 2 then Err 4 else Ok (single_effect_map arity rows).
Proof.
  intros arity rows. rewrite src_single_effect_map_cols.
  destruct (Z.of_nat arity <? 2) eqn:Ea; [reflexivity|]. apply Z.ltb_ge in Ea.
  f_equal. unfold sem_cols, single_effect_map. cbv zeta. replace (Z.of_nat arity - 1) with (Z.of_nat (arity - 1)) by lia.
  rewrite (ctrl_mask_eq (arity - 1) rows : _ = map (is_single arity) rows), !select_map_map.
  apply flat_map_ext. intros s. apply flat_map_ext. intros t.
  destruct (t =? CONTROL_SENTINEL_VALUE); [reflexivity|].
  unfold row_maxima, eq_vec. rewrite !map_map, and_vec_map, any_true_map, select_map_map.
  change (fun r : trow => (zmax_list (t_treats r) =? t) && (t_sample r =? s)) with (single_matches s t).
  rewrite existsb_filter. destruct (filter (single_matches s t) (filter (is_single arity) rows)); reflexivity.
Qed.

Theorem src_int_add_observations_is_model : forall orc r32 (arity : nat) (st : istate) (rows : list trow),
  src_int_add_observations orc r32 arity (i_lookup st) (legacy_of (i_train st)) rows
  = dor s <- int_inner orc r32 true true true st arity rows; Ok (i_lookup s, legacy_of (i_train s)).
Proof.
  intros orc r32 arity st rows. unfold src_int_add_observations, int_inner.
  destruct (Nat.eqb_spec arity 2) as [->|Hne]; cbn [negb].
  2:{ destruct (Z.eqb_spec (Z.of_nat arity) 2) as [E|_]; [lia | reflexivity]. }
  change (Z.of_nat 2 =? 2) with true. cbn [negb andb].
  rewrite map_map, all_true_map. destruct (forallb (fun r => o_nonneg (t_obs r)) rows); cbn [negb]; [|reflexivity].
  rewrite src_single_effect_map_is_model. change (Z.of_nat 2 <? 2) with false. cbn [res_bind]. cbv zeta.
  rewrite (ctrl_mask_eq 0 rows : eq_vec _ 0 = map (combo_sel true 2) rows), !select_map_map. unfold column. rewrite !map_map, any_true_map.
  set (sel := filter (combo_sel true 2) rows).
  change (fun x : trow => o_isnan (ologit orc (cast32 r32 (t_obs x)))) with (fun r : trow => o_isnan (int_transform orc r32 (t_obs r))).
  destruct (existsb (fun r => o_isnan (int_transform orc r32 (t_obs r))) sel); [reflexivity|].
  change (fun x : trow => ologit orc (cast32 r32 (t_obs x))) with (fun r : trow => int_transform orc r32 (t_obs r)).
  rewrite zip5_map, (legacy_rows_loop _ (fun r => Ok (int_trip orc r32 r))).
  - now rewrite (res_map_all_ok _ (int_trip orc r32)).
  - intros st' r. destruct (t_mask r); [|reflexivity]. cbv beta iota zeta.
    cbn [res_bind]. now rewrite src_legacy_int_update_is_model.
Qed.

(* the public entry point on a SparseDrugComboInteraction *)
Theorem src_int_add_is_model : forall orc r32 arity st rows,
  src_add_observations (lookup * legacy)
    (fun self d => src_int_add_observations orc r32 arity (fst self) (snd self) d)
    (i_lookup st, legacy_of (i_train st)) rows
  = dor s <- int_add orc r32 true true true st arity rows; Ok (i_lookup s, legacy_of (i_train s)).
Proof.
  intros orc r32 arity.
  exact (src_add_observations_lift (fun st => (i_lookup st, legacy_of (i_train st))) _ (fun st => int_inner orc r32 true true true st arity)
           (src_int_add_observations_is_model orc r32 arity)).
Qed.

(* the translation DETERMINES the three switches of Model/Train.v's interaction model: the fully repaired variant is the
   only one whose model equals the translated source on all inputs *)
Definition src_id_oracle : oracle := fun _ x => x.
Definition view_int (r : result (lookup * legacy)) : option (list Z * list Z * list Z) :=
  match r with Ok p => Some (lg_cline (snd p), lg_dd1 (snd p), lg_dd2 (snd p)) | Err _ => None end.
Definition src_w_row (t1 t2 : Z) (o : Q) : trow :=
  {| t_sample := 0; t_plate := 0; t_treats := [t1; t2]; t_obs := OFin (Q2Qc o); t_mask := true |}.

Theorem int_source_variant_unique : forall fixed_mask guard_neg guard_nan : bool,
  (forall orc r32 arity st rows,
     src_int_add_observations orc r32 arity (i_lookup st) (legacy_of (i_train st)) rows
     = dor s <- int_inner orc r32 fixed_mask guard_neg guard_nan st arity rows; Ok (i_lookup s, legacy_of (i_train s)))
  <-> (fixed_mask = true /\ guard_neg = true /\ guard_nan = true).
Proof.
  intros fm gn gnan. split.
  - intros H.
    assert (Hfm : fm = true).
    { destruct fm; [reflexivity|]. exfalso.
      pose proof (H src_id_oracle OFin 2%nat istate0 [src_w_row 0 1 (1 # 4); src_w_row (-1) (-1) (1 # 2)]) as E.
      apply (f_equal view_int) in E. destruct gn, gnan; vm_compute in E; discriminate. }
    subst fm.
    assert (Hgn : gn = true).
    { destruct gn; [reflexivity|]. exfalso.
      pose proof (H src_id_oracle OFin 2%nat istate0 [src_w_row (-1) (-1) (-3 # 1)]) as E.
      apply (f_equal view_int) in E. destruct gnan; vm_compute in E; discriminate. }
    subst gn.
    assert (Hgnan : gnan = true).
    { destruct gnan; [reflexivity|]. exfalso.
      pose proof (H src_id_oracle OFin 2%nat istate0 [src_w_row 0 1 (2 # 1)]) as E.
      apply (f_equal view_int) in E. vm_compute in E. discriminate. }
    now subst.
  - intros (-> & -> & ->). intros orc r32 arity st rows. apply src_int_add_observations_is_model.
Qed.
