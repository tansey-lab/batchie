(* C14, one piece of Proofs/C14Source.v (conventions and objects: see there): ScreenSubset.__init__ *)
From Coq Require Import List.
From Batchie Require Import Lib.Sexp Lib.ListX Model.Views Generated.SrcViews Proofs.C14Source_ScreenSize.
Open Scope Z_scope.

(* ScreenSubset.__init__ (also what Plate(...) runs): whatever the fresh instance held, the two checks and then
   the object (screen, selection_vector) *)
Theorem src_view_init_is_model : forall (self : view) (s : pyscreen) (sv : anyarray),
  src_view_init self s sv = mk_view (fst s) (snd s) (fst sv) (snd sv).
Proof.
  intros self s sv. unfold src_view_init, mk_view. destruct (negb (fst sv)); [reflexivity|].
  rewrite src_screen_size_is_model. cbn [res_bind]. rewrite of_nat_eqb.
  destruct (negb (Nat.eqb (length (snd sv)) (screen_size (snd s)))); reflexivity.
Qed.
