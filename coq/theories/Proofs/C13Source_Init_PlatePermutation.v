(* C13: PlatePermutationPlateGenerator.__init__ (Generated/SrcInits.v) stores what it is constructed with - force_include_plate_names (None when the argument is not passed) *)
From Batchie Require Import Lib.Sexp Model.Encode Generated.SrcInits.
Open Scope Z_scope.

Theorem src_plate_permutation_init_stores : forall force : option (list name), src_plate_permutation_init force = Ok force.
Proof. reflexivity. Qed.
