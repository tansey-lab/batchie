(* C14: Screen.concat and Screen.single_treatment_effects (data.py), as translated from /repo
   (Generated/SrcPlates.v, configurations L10B_SCREEN_CONCAT / L10B_SCREEN_STE), equal their models at the end of Model/Views.v
   for all inputs.  A Screen object is [pyscreen] = (identity tag, contents). *)
From Coq Require Import ZArith List Lia.
From Batchie Require Import Lib.Sexp Lib.PyRt Model.Screen Model.Views Generated.SrcViews Generated.SrcPlates
  Proofs.C14Source Proofs.C14SourceHelpers.
Import ListNotations.
Open Scope Z_scope.

(* the loop `for screen in screens[1:]: result = result.combine(screen)`: every step makes a new object *)
Lemma screen_concat_loop (new_tag : Z) (f : pyscreen -> pyscreen -> result pyscreen) :
  (forall acc x, f acc x = dor c <- src_screen_combine acc x; Ok (new_tag, c)) ->
  forall (r : list pyscreen) (acc : pyscreen),
  res_fold f r acc
  = dor c <- screen_concat_from (snd acc) (map snd r); Ok (match r with [] => fst acc | _ => new_tag end, c).
Proof.
  intros Hf. induction r as [|x r IH]; intros [t a]; cbn [res_fold map screen_concat_from res_bind fst snd]; [reflexivity|].
  rewrite Hf, src_screen_combine_is_model. cbn [snd].
  destruct (screen_combine a (snd x)) as [c|e]; cbn [res_bind]; [|reflexivity].
  rewrite IH. cbn [fst snd]. destruct (screen_concat_from c (map snd r)); cbn [res_bind]; [|reflexivity].
  now destruct r.
Qed.

Theorem src_screen_concat_is_model : forall (new_tag : Z) (ss : list pyscreen),
  src_screen_concat new_tag ss
  = match ss with
    | [] => Err 24
    | [s] => Ok s
    | s :: r => dor c <- screen_concat_from (snd s) (map snd r); Ok (new_tag, c)
    end.
Proof.
  intros new_tag ss. unfold src_screen_concat. destruct ss as [|s [|x r]]; [reflexivity | reflexivity |].
  replace (Z.of_nat (length (s :: x :: r)) =? 1) with false by (cbn [length]; lia).
  replace (Z.of_nat (length (s :: x :: r)) =? 0) with false by (cbn [length]; lia).
  unfold list_get. cbn [Z.ltb Z.compare Z.to_nat nth_error res_bind tl].
  rewrite (screen_concat_loop new_tag) by (intros acc y; destruct (src_screen_combine acc y); reflexivity).
  destruct (screen_concat_from (snd s) (map snd (x :: r))); reflexivity.
Qed.

(* on the contents: Screen.concat is the model's screen_concat, whatever the identities of the objects *)
Corollary src_screen_concat_contents : forall (new_tag : Z) (ss : list pyscreen),
  (dor o <- src_screen_concat new_tag ss; Ok (snd o)) = screen_concat (map snd ss).
Proof.
  intros new_tag ss. rewrite src_screen_concat_is_model. destruct ss as [|s [|x r]]; [reflexivity | reflexivity |].
  cbn [map screen_concat]. destruct (screen_concat_from (snd s) (snd x :: map snd r)); reflexivity.
Qed.

(* Screen.single_treatment_effects: the KeyError of the effect array's construction becomes None, nothing else is caught *)
Theorem src_screen_single_effects_is_model :
  forall (E : Type) (key_error : Z) (effect_array : list Z -> list (list Z) -> list Z -> result (list E)) (self : pyscreen),
  src_screen_single_treatment_effects E key_error effect_array self = screen_single_effects key_error effect_array (snd self).
Proof.
  intros E ke f [t s]. unfold src_screen_single_treatment_effects, screen_single_effects, res_catch. cbn [snd].
  destruct (f (s_sids s) (s_tids s) (map r_obs (s_rows s))) as [a|e]; cbn [res_bind]; [reflexivity|].
  destruct (e =? ke); reflexivity.
Qed.

(* consistency with the C14 link of ScreenSubset.single_treatment_effects, which takes the parent's property as a primitive value:
   with the translated Screen property in its place, a view's property is the model's row selection of the parent's array *)
Theorem src_view_single_effects_of_parent :
  forall (E : Type) (key_error : Z) (effect_array : list Z -> list (list Z) -> list Z -> result (list E)) (v : view),
  (dor ste <- src_screen_single_treatment_effects E key_error effect_array (view_screen v);
   src_view_single_treatment_effects E v ste)
  = (dor ste <- screen_single_effects key_error effect_array (v_parent v); Ok (view_single_effects v ste)).
Proof.
  intros E ke f v. rewrite src_screen_single_effects_is_model. cbn [view_screen snd].
  destruct (screen_single_effects ke f (v_parent v)) as [ste|e]; cbn [res_bind]; [|reflexivity].
  apply src_view_single_effects_is_model.
Qed.
