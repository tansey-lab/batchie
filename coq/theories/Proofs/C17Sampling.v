(* C17 proofs: the schedule emitted by Model/Sampling.v. *)
From Coq Require Import ZArith List Bool Lia.
From Batchie Require Import Lib.Sexp Model.Sampling.
Import ListNotations.
Open Scope Z_scope.

(* The events p happen before those of the run r.  One iteration of a loop of the model,
   `dor r <- x; Ok (e :: fst r, snd r)`, is [prefix [e] x] by computation. *)
Definition prefix (p : list event) (r : result (list event * Z)) : result (list event * Z) :=
  match r with Ok x => Ok (p ++ fst x, snd x) | Err e => Err e end.

Lemma prefix_nil r : prefix [] r = r.
Proof. destruct r as [[tr l]|e]; reflexivity. Qed.

Lemma prefix_prefix p q r : prefix p (prefix q r) = prefix (p ++ q) r.
Proof. destruct r as [[tr l]|e]; cbn [prefix fst snd]; [now rewrite app_assoc|reflexivity]. Qed.

(* d iterations that stay strictly inside a thinning period: only steps *)
Lemma thin_loop_steps t N : 0 < t -> forall d todo i len,
  i mod t + Z.of_nat d < t ->
  thin_loop t N (d + todo) i len = prefix (repeat Step d) (thin_loop t N todo (i + Z.of_nat d) len).
Proof.
  intros Ht d; induction d as [|d IH]; intros todo i len Hd.
  - cbn [Nat.add repeat]. rewrite prefix_nil. now replace (i + Z.of_nat 0) with i by lia.
  - cbn [Nat.add thin_loop].
    pose proof (Z.mod_pos_bound i t Ht) as Hbd.
    assert (Hm : (i + 1) mod t = i mod t + 1).
    { rewrite Z.add_mod by lia. rewrite (Z.mod_small 1 t) by lia. apply Z.mod_small. lia. }
    destruct ((i + 1) mod t =? 0) eqn:E; [lia|].
    rewrite IH by lia.
    replace (i + 1 + Z.of_nat d) with (i + Z.of_nat (S d)) by lia.
    apply (prefix_prefix [Step]).
Qed.

Definition block (t : Z) : list event := repeat Step (Z.to_nat t) ++ [Record].

Lemma next_boundary i t : i mod t = 0 -> (i + t) mod t = 0.
Proof. intros Hm. rewrite <- (Z_mod_plus_full i 1 t) in Hm. now rewrite Z.mul_1_l in Hm. Qed.

(* one full thinning period starting on a period boundary *)
Lemma thin_loop_block t N : 0 < t -> forall todo i len,
  i mod t = 0 -> len < N ->
  thin_loop t N (Z.to_nat t + todo) i len = prefix (block t) (thin_loop t N todo (i + t) (len + 1)).
Proof.
  intros Ht todo i len Hm Hlen.
  replace (Z.to_nat t + todo)%nat with (Z.to_nat (t - 1) + S todo)%nat by lia.
  rewrite thin_loop_steps by lia.
  cbn [thin_loop].
  replace (i + Z.of_nat (Z.to_nat (t - 1)) + 1) with (i + t) by lia.
  rewrite (next_boundary i t Hm), Z.eqb_refl. destruct (N <=? len) eqn:E2; [lia|].
  etransitivity; [apply (prefix_prefix _ [Step; Record])|]. unfold block.
  replace (Z.to_nat t) with (S (Z.to_nat (t - 1))) by lia.
  cbn [repeat]. now rewrite repeat_cons, <- app_assoc.
Qed.

Lemma thin_loop_all t N : 0 < t -> forall (m : nat) i len,
  i mod t = 0 -> len + Z.of_nat m <= N ->
  thin_loop t N (m * Z.to_nat t) i len = Ok (concat (repeat (block t) m), len + Z.of_nat m).
Proof.
  intros Ht m; induction m as [|m IH]; intros i len Hm Hlen.
  - cbn [Nat.mul thin_loop repeat concat]. f_equal. f_equal. lia.
  - cbn [Nat.mul]. rewrite thin_loop_block by lia.
    rewrite (IH (i + t) (len + 1) (next_boundary i t Hm)) by lia.
    cbn [prefix fst snd repeat concat]. f_equal. f_equal. lia.
Qed.

Definition schedule (b t n : Z) : list event :=
  repeat Step (Z.to_nat b) ++ concat (repeat (block t) (Z.to_nat n)).

Lemma rng_key_valid_index seed nc ci :
  0 <= ci < nc -> rng_key seed nc ci = if seed <? 0 then Err 2 else Ok (seed, [ci]).
Proof.
  intros Hc. unfold rng_key. destruct (seed <? 0); [reflexivity|]. destruct (nc <? 0) eqn:E2; [lia|].
  destruct ((0 <=? ci) && (ci <? nc)) eqn:E3; [reflexivity|].
  apply andb_false_iff in E3 as [E3|E3]; lia.
Qed.

Lemma c17_key_fun seed nc ci : 0 <= seed -> 0 <= ci < nc -> rng_key seed nc ci = Ok (seed, [ci]).
Proof. intros Hs Hc. rewrite rng_key_valid_index by exact Hc. destruct (seed <? 0) eqn:E; [lia|reflexivity]. Qed.

Lemma sample_mcmc_trace seed nc ci b t n :
  0 <= seed -> 0 <= ci < nc -> 1 <= t -> 0 <= n ->
  sample_mcmc seed nc ci b t n 0 = Ok (Reset :: SetRng seed [ci] :: schedule b t n, n).
Proof.
  intros Hs Hc Ht Hn. unfold sample_mcmc. rewrite c17_key_fun by assumption.
  cbn [res_bind fst snd].
  replace (Z.to_nat (n * t)) with (Z.to_nat n * Z.to_nat t)%nat by (rewrite Z2Nat.inj_mul; lia).
  rewrite thin_loop_all; [|lia|reflexivity|lia].
  cbn [res_bind fst snd]. unfold schedule, burnin. f_equal. f_equal. lia.
Qed.

(* observations on the closed form: [n_steps] and [n_records] count the events that satisfy a test *)
Definition count (f : event -> bool) (tr : list event) : Z := Z.of_nat (length (filter f tr)).

Lemma count_app f a b : count f (a ++ b) = count f a + count f b.
Proof. unfold count. rewrite filter_app, app_length. lia. Qed.

Lemma count_repeat f e d : count f (repeat e d) = if f e then Z.of_nat d else 0.
Proof.
  unfold count. induction d as [|d IH]; cbn [repeat filter]; [now destruct (f e)|].
  destruct (f e); [cbn [length]; lia|exact IH].
Qed.

Lemma count_blocks f l m : count f (concat (repeat l m)) = Z.of_nat m * count f l.
Proof. induction m as [|m IH]; cbn [repeat concat]; [reflexivity|]. rewrite count_app, IH. lia. Qed.

Lemma n_steps_schedule b t n : 0 <= b -> 0 <= t -> 0 <= n -> n_steps (schedule b t n) = b + n * t.
Proof.
  intros Hb Ht Hn. change (count is_step (schedule b t n) = b + n * t). unfold schedule, block.
  rewrite count_app, count_blocks, count_app, !count_repeat. cbn [is_step]. change (count is_step [Record]) with 0. lia.
Qed.

Lemma n_records_schedule b t n : 0 <= n -> n_records (schedule b t n) = n.
Proof.
  intros Hn. change (count is_record (schedule b t n) = n). unfold schedule, block.
  rewrite count_app, count_blocks, count_app, !count_repeat. cbn [is_record]. change (count is_record [Record]) with 1. lia.
Qed.

Lemma marks_steps d : forall c tr, record_marks c (repeat Step d ++ tr) = record_marks (c + Z.of_nat d) tr.
Proof.
  induction d as [|d IH]; intros c tr; cbn [repeat app record_marks].
  - f_equal. lia.
  - rewrite IH. f_equal. lia.
Qed.

Lemma marks_blocks t : 0 <= t -> forall m c,
  record_marks c (concat (repeat (block t) m)) = map (fun i => c + (Z.of_nat i + 1) * t) (seq 0 m).
Proof.
  intros Ht m; induction m as [|m IH]; intros c; cbn [repeat concat seq map]; [reflexivity|].
  unfold block at 1. rewrite <- app_assoc, marks_steps. cbn [app record_marks].
  rewrite IH. f_equal; [lia|].
  rewrite <- seq_shift, map_map. apply map_ext. intros i. lia.
Qed.

Lemma c17_trace seed nc ci b t n :
  0 <= seed -> 0 <= ci < nc -> 0 <= b -> 1 <= t -> 0 <= n ->
  sample (0) seed (Some nc) (Some ci) (Some b) (Some t) n 0 0%nat
  = Ok (Reset :: SetRng seed [ci] ::
        repeat Step (Z.to_nat b) ++ concat (repeat (repeat Step (Z.to_nat t) ++ [Record]) (Z.to_nat n)), n).
Proof. intros. unfold sample. cbn [Z.eqb]. now apply sample_mcmc_trace. Qed.

Lemma c17_step_count seed nc ci b t n tr len :
  0 <= seed -> 0 <= ci < nc -> 0 <= b -> 1 <= t -> 0 <= n ->
  sample_mcmc seed nc ci b t n 0 = Ok (tr, len) -> n_steps tr = b + n * t.
Proof.
  intros Hs Hc Hb Ht Hn H. rewrite sample_mcmc_trace in H by assumption. injection H as <- <-.
  change (n_steps (Reset :: SetRng seed [ci] :: schedule b t n)) with (n_steps (schedule b t n)).
  apply n_steps_schedule; lia.
Qed.

Lemma c17_record_marks seed nc ci b t n tr len :
  0 <= seed -> 0 <= ci < nc -> 0 <= b -> 1 <= t -> 0 <= n ->
  sample_mcmc seed nc ci b t n 0 = Ok (tr, len) ->
  record_marks 0 tr = map (fun i => b + (Z.of_nat i + 1) * t) (seq 0 (Z.to_nat n)).
Proof.
  intros Hs Hc Hb Ht Hn H. rewrite sample_mcmc_trace in H by assumption. injection H as <- <-.
  cbn [record_marks]. unfold schedule. rewrite marks_steps, marks_blocks by lia.
  apply map_ext. intros i. lia.
Qed.

Lemma c17_complete seed nc ci b t n :
  0 <= seed -> 0 <= ci < nc -> 0 <= b -> 1 <= t -> 0 <= n ->
  exists tr len, sample_mcmc seed nc ci b t n 0 = Ok (tr, len) /\
                 n_records tr = n /\ len = n /\ is_complete n len = true.
Proof.
  intros Hs Hc Hb Ht Hn. eexists _, _. split; [now apply sample_mcmc_trace|].
  split; [|split; [reflexivity|apply Z.eqb_refl]].
  change (n_records (Reset :: SetRng seed [ci] :: schedule b t n)) with (n_records (schedule b t n)).
  now apply n_records_schedule.
Qed.

Lemma thin_loop_events t N todo : forall i len tr l,
  thin_loop t N todo i len = Ok (tr, l) -> forall e, In e tr -> e = Step \/ e = Record.
Proof.
  induction todo as [|todo IH]; intros i len tr l E e He; cbn [thin_loop] in E.
  - injection E as <- <-. destruct He.
  - destruct ((i + 1) mod t =? 0).
    + destruct (N <=? len); [discriminate|].
      destruct (thin_loop t N todo (i + 1) (len + 1)) as [[tr2 l2]|e2] eqn:E2; cbn [res_bind fst snd] in E; [|discriminate].
      injection E as <- <-. destruct He as [<-|[<-|He]]; [now left|now right|]. eapply IH; eassumption.
    + destruct (thin_loop t N todo (i + 1) len) as [[tr2 l2]|e2] eqn:E2; cbn [res_bind fst snd] in E; [|discriminate].
      injection E as <- <-. destruct He as [<-|He]; [now left|]. eapply IH; eassumption.
Qed.

(* the SetRng event of any successful MCMC run carries rng_key seed nc ci, whatever b, t, n, len0 are *)
Lemma c17_key_in_trace seed nc ci b t n len0 tr len :
  sample_mcmc seed nc ci b t n len0 = Ok (tr, len) ->
  exists k rest, rng_key seed nc ci = Ok k /\ tr = Reset :: SetRng (fst k) (snd k) :: rest /\
                 forall e, In e rest -> e = Step \/ e = Record.
Proof.
  unfold sample_mcmc. destruct (rng_key seed nc ci) as [k|e]; cbn [res_bind]; [|discriminate].
  destruct (thin_loop t n (Z.to_nat (n * t)) 0 len0) as [[tr' l']|e] eqn:E; cbn [res_bind fst snd]; [|discriminate].
  intros H. injection H as <- <-. exists k, (burnin b ++ tr'). split; [reflexivity|]. split; [reflexivity|].
  intros e He. apply in_app_or in He as [He|He].
  - left. unfold burnin in He. now apply repeat_spec in He.
  - eapply thin_loop_events; eassumption.
Qed.

Lemma c17_key_injective seed1 nc1 ci1 seed2 nc2 ci2 k :
  0 <= ci1 < nc1 -> 0 <= ci2 < nc2 ->
  rng_key seed1 nc1 ci1 = Ok k -> rng_key seed2 nc2 ci2 = Ok k -> seed1 = seed2 /\ ci1 = ci2.
Proof.
  intros H1 H2. rewrite !rng_key_valid_index by assumption.
  destruct (seed1 <? 0); [discriminate|]. destruct (seed2 <? 0); [discriminate|].
  intros A B. rewrite <- B in A. injection A as -> ->. now split.
Qed.

Lemma c17_streams_distinct seed nc ci1 ci2 :
  0 <= seed -> 0 <= ci1 < nc -> 0 <= ci2 < nc -> ci1 <> ci2 -> rng_key seed nc ci1 <> rng_key seed nc ci2.
Proof.
  intros Hs H1 H2 Hne. rewrite !c17_key_fun by assumption. intros E. injection E as E. contradiction.
Qed.

Lemma add_all_ok N : forall (m : nat) len, len + Z.of_nat m <= N ->
  add_all N m len = Ok (repeat Record m, len + Z.of_nat m).
Proof.
  induction m as [|m IH]; intros len H; cbn [add_all repeat].
  - f_equal. f_equal. lia.
  - destruct (N <=? len) eqn:E; [lia|]. rewrite IH by lia. cbn [res_bind fst snd]. f_equal. f_equal. lia.
Qed.

Lemma c17_vi_once seed nc ci b t n :
  0 <= seed -> 0 <= ci < nc -> 0 <= n ->
  sample 1 seed (Some nc) (Some ci) b t n 0 (Z.to_nat n)
  = Ok (Reset :: SetRng seed [ci] :: SampleVI n :: repeat Record (Z.to_nat n), n) /\ is_complete n n = true.
Proof.
  intros Hs Hc Hn. split; [|apply Z.eqb_refl]. unfold sample. cbn [Z.eqb]. unfold sample_vi.
  rewrite c17_key_fun by assumption. cbn [res_bind fst snd].
  rewrite add_all_ok by lia. cbn [res_bind fst snd]. rewrite Z.add_0_l, Z2Nat.id by lia. reflexivity.
Qed.

(* VI models need n_chains and chain_index too: the generator is derived from them *)
Lemma c17_vi_none_refused seed nc ci b t n len0 ret :
  nc = None \/ ci = None -> sample 1 seed nc ci b t n len0 ret = Err 5.
Proof.
  intros H. unfold sample. cbn [Z.eqb].
  destruct nc, ci; try reflexivity. destruct H as [H|H]; discriminate.
Qed.

Lemma c17_negative_index_aliases seed nc : 0 <= seed -> 1 <= nc -> rng_key seed nc (-1) = rng_key seed nc (nc - 1).
Proof.
  intros Hs Hn. rewrite (c17_key_fun seed nc (nc - 1)) by lia. unfold rng_key.
  destruct (seed <? 0) eqn:E1; [lia|]. destruct (nc <? 0) eqn:E2; [lia|].
  cbn [Z.leb Z.compare andb]. destruct ((- nc <=? -1) && (-1 <? 0)) eqn:E3.
  - reflexivity.
  - apply andb_false_iff in E3 as [E3|E3]; lia.
Qed.

Lemma c17_not_a_model_refused kind seed nc ci b t n len0 ret :
  kind <> 0 -> kind <> 1 -> sample kind seed nc ci b t n len0 ret = Err 6.
Proof.
  intros H0 H1. unfold sample. destruct (kind =? 0) eqn:E0; [lia|]. destruct (kind =? 1) eqn:E1; [lia|reflexivity].
Qed.

Lemma c17_none_refused seed nc ci b t n len0 ret :
  nc = None \/ ci = None \/ b = None \/ t = None -> sample 0 seed nc ci b t n len0 ret = Err 5.
Proof.
  intros H. unfold sample. cbn [Z.eqb].
  destruct nc, ci, b, t; try reflexivity. destruct H as [H|[H|[H|H]]]; discriminate.
Qed.
