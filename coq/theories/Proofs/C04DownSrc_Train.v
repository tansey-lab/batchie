(* C04 downstream, source level: the training stage (train_model.main's add_observations call, both MCMC models) and the sampler
   (translated mcmc_step) on the data the translated training stored.  See Proofs/C04DownSrc.v. *)
From Coq Require Import ZArith List Qcanon.
From Batchie Require Import Lib.Sexp Lib.Num Model.Train Model.Downstream Proofs.C04Train.
From Batchie Require Model.Gibbs Generated.SrcGibbs Generated.SrcTrain Proofs.C04Source.
Import ListNotations.
Open Scope Z_scope.

(* train_model.main's call: the translated add_observations around the translated SparseDrugCombo._add_observations, on a
   fresh wrapped object, handed the observed subset *)
Definition src_stage_train (orc : oracle) (r32 : Qc -> oval) (rows : list trow) : result legacy :=
  match train_input rows with
  | Some o => SrcTrain.src_add_observations legacy (SrcTrain.src_sdc_add_observations orc r32) (legacy_of []) o
  | None => Ok (legacy_of [])
  end.

Lemma src_stage_train_is_model orc r32 rows :
  src_stage_train orc r32 rows = dor t <- train_sdc orc r32 rows; Ok (legacy_of t).
Proof.
  unfold src_stage_train, train_sdc. destruct (train_input rows) as [o|]; [|reflexivity].
  apply C04Source.src_sdc_add_is_model.
Qed.

Lemma src_stage_train_noninterference orc r32 s1 s2 : same_except_masked s1 s2 ->
  src_stage_train orc r32 s1 = src_stage_train orc r32 s2.
Proof. intros H. rewrite !src_stage_train_is_model. now rewrite (train_sdc_noninterference orc r32 s1 s2 H). Qed.

(* the same for SparseDrugComboInteraction: (single-effect lookup, wrapped object) after train_model.main's training call *)
Definition src_stage_train_int (orc : oracle) (r32 : Qc -> oval) (arity : nat) (rows : list trow) : result (lookup * legacy) :=
  match train_input rows with
  | Some o => SrcTrain.src_add_observations (lookup * legacy)
                (fun self d => SrcTrain.src_int_add_observations orc r32 arity (fst self) (snd self) d) ([], legacy_of []) o
  | None => Ok ([], legacy_of [])
  end.

Lemma src_stage_train_int_is_model orc r32 arity rows :
  src_stage_train_int orc r32 arity rows
  = dor s <- train_int orc r32 true true true arity rows; Ok (i_lookup s, legacy_of (i_train s)).
Proof.
  unfold src_stage_train_int, train_int. destruct (train_input rows) as [o|]; [|reflexivity].
  exact (C04Source.src_int_add_is_model orc r32 arity istate0 o).
Qed.

(* ... so whatever the interaction sampler and its predictions compute from the trained object (its Gibbs blocks read the wrapped
   lists, predict_viability the lookup frozen here) is computed from equal inputs *)
Lemma src_stage_train_int_noninterference orc r32 arity s1 s2 : same_except_masked s1 s2 ->
  src_stage_train_int orc r32 arity s1 = src_stage_train_int orc r32 arity s2.
Proof.
  intros H. rewrite !src_stage_train_int_is_model.
  now rewrite (train_int_noninterference orc r32 true true true arity s1 s2 H).
Qed.

(* the sampler: the translated mcmc_step (its order of the thirteen block calls) with ANY block runner that is given the
   stored data - in particular C08's translated blocks `C08SourceObj.src_run flags g d orc` *)
Definition legacy_data (w : legacy) : option Gibbs.data :=
  match all_some (map fin_of (lg_y w)) with
  | Some ys => Some {| Gibbs.d_y := ys; Gibbs.d_cl := lg_cline w; Gibbs.d_dd1 := lg_dd1 w; Gibbs.d_dd2 := lg_dd2 w |}
  | None => None
  end.

Lemma legacy_data_of st : legacy_data (legacy_of st) = gibbs_data st.
Proof. unfold legacy_data, gibbs_data, legacy_of. cbn [lg_y lg_cline lg_dd1 lg_dd2]. rewrite map_map. reflexivity. Qed.

Fixpoint src_sweeps (run : Gibbs.data -> Gibbs.blk -> Gibbs.st -> Gibbs.gprog Gibbs.st) (d : Gibbs.data) (nsteps : Z)
    (s : Gibbs.st) (vals : list (list Gibbs.val)) : option (list Gibbs.st) :=
  match vals with
  | [] => Some []
  | vs :: rest =>
      match snd (Gibbs.run_prog (Gibbs.to_prog (SrcGibbs.src_mcmc_step (run d) nsteps s)) vs) with
      | Some s' => match src_sweeps run d (nsteps + 1) s' rest with Some r => Some (s' :: r) | None => None end
      | None => None
      end
  end.

Definition src_stage_thetas run orc r32 (s0 : Gibbs.st) (vals : list (list Gibbs.val)) (rows : list trow)
  : result (list Gibbs.st) :=
  dor w <- src_stage_train orc r32 rows;
  match legacy_data w with
  | None => Err 3
  | Some d => match src_sweeps run d 0 s0 vals with Some th => Ok th | None => Err 9 end
  end.

Lemma src_stage_thetas_noninterference run orc r32 s0 vals s1 s2 : same_except_masked s1 s2 ->
  src_stage_thetas run orc r32 s0 vals s1 = src_stage_thetas run orc r32 s0 vals s2.
Proof. intros H. unfold src_stage_thetas. now rewrite (src_stage_train_noninterference orc r32 s1 s2 H). Qed.

(* the data the sampler is run on are the model's training trips of the observed rows *)
Lemma src_stage_thetas_data run orc r32 s0 vals rows :
  src_stage_thetas run orc r32 s0 vals rows =
  dor t <- train_sdc orc r32 rows;
  match gibbs_data t with
  | None => Err 3
  | Some d => match src_sweeps run d 0 s0 vals with Some th => Ok th | None => Err 9 end
  end.
Proof.
  unfold src_stage_thetas. rewrite src_stage_train_is_model.
  destruct (train_sdc orc r32 rows) as [t|e]; cbn [res_bind]; [|reflexivity]. now rewrite legacy_data_of.
Qed.

