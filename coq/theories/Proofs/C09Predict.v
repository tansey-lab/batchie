(* C09: the vectorised prediction code is a map of a one-experiment formula;
   symmetry, control neutrality, ranges, subsets, holders. *)
From Coq Require Import List QArith Qcanon Lia.
From Batchie Require Import Lib.ListX Lib.Sexp Lib.Num Lib.NumP Model.Predict Proofs.C09Lists.
Import ListNotations.
Open Scope Qc_scope.

Lemma gather_map {A X} (d : A) arr (f : X -> Z) l :
  gather d arr (map f l) = map (fun x => py_get d arr (f x)) l.
Proof. unfold gather. apply map_map. Qed.

Lemma gather_zero2_map {X} V (f : X -> Z) l :
  gather_zero2 V (map f l) = map (fun x => emb2 V (f x)) l.
Proof.
  unfold gather_zero2, zero_where. rewrite gather_map, map2_map. reflexivity.
Qed.

Lemma gather_zero1_map {X} V (f : X -> Z) l :
  gather_zero1 V (map f l) = map (fun x => emb1 V (f x)) l.
Proof.
  unfold gather_zero1, zero_where. rewrite gather_map, map2_map. reflexivity.
Qed.

Lemma mmul_map {X} (f g : X -> list Qc) l : mmul (map f l) (map g l) = map (fun x => vmul (f x) (g x)) l.
Proof. apply map2_map. Qed.
Lemma madd_map {X} (f g : X -> list Qc) l : madd (map f l) (map g l) = map (fun x => vadd (f x) (g x)) l.
Proof. apply map2_map. Qed.
Lemma vadd_map {X} (f g : X -> Qc) l : vadd (map f l) (map g l) = map (fun x => f x + g x) l.
Proof. apply map2_map. Qed.
Lemma sum_last_map {X} (f : X -> list Qc) l : sum_last (map f l) = map (fun x => qsum (f x)) l.
Proof. unfold sum_last. apply map_map. Qed.

Theorem sp_mean2_rowwise t rows : sp_mean2 t rows = map (sp_mean_row2 t) rows.
Proof.
  unfold sp_mean2, col_s, col_t0, col_t1.
  rewrite !gather_map, !gather_zero2_map, !gather_zero1_map.
  rewrite !mmul_map, !madd_map, !mmul_map, !sum_last_map, map_map, !vadd_map.
  apply map_ext. intros [[s a] b]. reflexivity.
Qed.

Theorem sp_mean1_rowwise t rows : sp_mean1 t rows = map (sp_mean_row1 t) rows.
Proof.
  unfold sp_mean1.
  rewrite !gather_map, !gather_zero2_map, !gather_zero1_map.
  rewrite !mmul_map, !sum_last_map, map_map, !vadd_map.
  apply map_ext. intros [s a]. reflexivity.
Qed.

Theorem in_mean2_rowwise t rows : in_mean2 t rows = map (in_mean_row2 t) rows.
Proof.
  unfold in_mean2, col_s, col_t0, col_t1.
  rewrite !gather_map, !gather_zero2_map, !mmul_map, !sum_last_map.
  apply map_ext. intros [[s a] b]. reflexivity.
Qed.

Theorem in_viab2_rowwise orc t rows : in_viab2 orc t rows = map (in_viab_row2 orc t) rows.
Proof.
  unfold in_viab2. rewrite in_mean2_rowwise, map2_map. reflexivity.
Qed.

(* every prediction of one sample, as a map over the rows *)
Definition sp_row1 orc (viab : bool) t (r : Z * Z) : Qc :=
  if viab then viab_of_mean orc (sp_mean_row1 t r) else sp_mean_row1 t r.
Definition sp_row2 orc (viab : bool) t (r : Z * Z * Z) : Qc :=
  if viab then viab_of_mean orc (sp_mean_row2 t r) else sp_mean_row2 t r.
Definition in_row2 orc (viab : bool) t (r : Z * Z * Z) : Qc :=
  if viab then in_viab_row2 orc t r else in_mean_row2 t r.

(* every prediction from rows has one shape: per-row tests, each with its error, then a per-row value *)
Fixpoint checked {R} (tests : list ((R -> bool) * Z)) (f : R -> Qc) (rows : list R) : result (list Qc) :=
  match tests with
  | [] => Ok (map f rows)
  | (p, e) :: tests' => if forallb p rows then checked tests' f rows else Err e
  end.

Lemma checked_ok {R} tests (f : R -> Qc) rows v :
  checked tests f rows = Ok v <-> Forall (fun pe => forallb (fst pe) rows = true) tests /\ v = map f rows.
Proof.
  induction tests as [|[p e] tests IH]; cbn [checked].
  - split; [intros [= <-]; now split | intros [_ ->]; reflexivity].
  - destruct (forallb p rows) eqn:E.
    + rewrite IH. split; intros [H ->]; (split; [|reflexivity]); [now constructor | now inversion H].
    + split; [discriminate | intros [H _]; inversion H; cbn [fst] in *; congruence].
Qed.

(* rows that pass every test the old rows passed are predicted too *)
Lemma checked_sub {R} tests (f : R -> Qc) rows rows' v :
  (forall p, forallb p rows = true -> forallb p rows' = true) ->
  checked tests f rows = Ok v -> checked tests f rows' = Ok (map f rows').
Proof.
  intros Hsub H. apply checked_ok in H as [Ht _]. apply checked_ok. split; [|reflexivity].
  eapply Forall_impl; [|exact Ht]. intros pe. apply Hsub.
Qed.

Lemma checked_select {R} tests (f : R -> Qc) mask rows v :
  checked tests f rows = Ok v -> checked tests f (select mask rows) = Ok (select mask v).
Proof.
  intros H. rewrite (checked_sub _ _ _ _ _ (fun p => forallb_select p mask rows) H).
  apply checked_ok in H as [_ ->]. now rewrite select_map.
Qed.

Lemma checked_take {R} tests (f : R -> Qc) d idx rows v :
  Forall (fun i => (i < length rows)%nat) idx ->
  checked tests f rows = Ok v -> checked tests f (take_idx d idx rows) = Ok (take_idx 0 idx v).
Proof.
  intros Hi H. rewrite (checked_sub _ _ _ _ _ (fun p => forallb_take p d idx rows Hi) H).
  apply checked_ok in H as [_ ->]. rewrite <- (take_idx_map f d). f_equal. apply take_idx_indep. now rewrite map_length.
Qed.

Lemma forallb_map_ext {A} (p : A -> bool) (f : A -> A) l :
  (forall x, p (f x) = p x) -> forallb p (map f l) = forallb p l.
Proof. intros H. induction l as [|x l IH]; [reflexivity|]. cbn [map forallb]. now rewrite H, IH. Qed.

(* a rewriting of each row that no test and no value sees *)
Lemma checked_map_ext {R} (g : R -> R) tests (f : R -> Qc) rows :
  Forall (fun pe => forall r, fst pe (g r) = fst pe r) tests -> (forall r, f (g r) = f r) ->
  checked tests f (map g rows) = checked tests f rows.
Proof.
  intros Ht Hf. induction Ht as [|[p e] tests Hp _ IH]; cbn [checked].
  - rewrite map_map. f_equal. apply map_ext, Hf.
  - now rewrite (forallb_map_ext _ _ _ Hp), IH.
Qed.

Lemma sp_predict_eq orc viab t scr :
  sp_predict orc viab t scr =
  match scr with
  | Scr1 rows => checked [(sp_valid_row1 t, ERR_INDEX)] (sp_row1 orc viab t) rows
  | Scr2 rows => checked [(sp_valid_row2 t, ERR_INDEX)] (sp_row2 orc viab t) rows
  | ScrN _ _ => Err ERR_ARITY
  end.
Proof.
  destruct scr; cbn [sp_predict checked]; rewrite ?sp_mean1_rowwise, ?sp_mean2_rowwise; [| |reflexivity].
  all: destruct viab; cbn [post]; now rewrite ?map_map.
Qed.

Lemma in_predict_eq orc viab t scr :
  in_predict orc viab t scr =
  match scr with
  | Scr2 rows =>
      checked ((in_valid_row2 t, ERR_INDEX) :: if viab then [(in_haskey_row2 t, ERR_KEY)] else []) (in_row2 orc viab t) rows
  | _ => Err ERR_ARITY
  end.
Proof.
  destruct scr; cbn [in_predict checked]; try reflexivity.
  destruct (forallb (in_valid_row2 t) rows); cbn [negb]; [|reflexivity].
  destruct viab; cbn [checked]; [now rewrite in_viab2_rowwise | now rewrite in_mean2_rowwise].
Qed.

(* the mean (viab = false) or viability (viab = true) of either sample type; the third kind, the variance, reads the
   screen's size alone *)
Definition rows_predict orc (viab : bool) (t : theta) (scr : screen) : result (list Qc) :=
  match t with TS p => sp_predict orc viab p scr | TI p => in_predict orc viab p scr end.

Lemma theta_predict_length orc k t scr v : theta_predict orc k t scr = Ok v -> length v = scr_size scr.
Proof.
  assert (Hrows : forall viab, rows_predict orc viab t scr = Ok v -> length v = scr_size scr).
  { intros viab. destruct t; cbn [rows_predict]; rewrite ?sp_predict_eq, ?in_predict_eq; destruct scr; try discriminate.
    all: intros H; apply checked_ok in H as [_ ->]; apply map_length. }
  destruct k; cbn [theta_predict]; [apply Hrows | apply Hrows |].
  unfold variance. destruct (qeqb _ _); [discriminate|]. intros [= <-]. apply repeat_length.
Qed.

Lemma scr_select_size mask scr :
  scr_size (scr_select mask scr) = length (select mask (repeat tt (scr_size scr))).
Proof. destruct scr; cbn [scr_select scr_size]; try apply select_length. reflexivity. Qed.

Theorem predict_subset orc k t scr mask v :
  theta_predict orc k t scr = Ok v ->
  theta_predict orc k t (scr_select mask scr) = Ok (select mask v).
Proof.
  assert (Hrows : forall viab, rows_predict orc viab t scr = Ok v ->
                               rows_predict orc viab t (scr_select mask scr) = Ok (select mask v)).
  { intros viab. destruct t; cbn [rows_predict]; rewrite ?sp_predict_eq, ?in_predict_eq; destruct scr; try discriminate;
      apply checked_select. }
  destruct k; cbn [theta_predict]; [apply Hrows | apply Hrows |].
  unfold variance. destruct (qeqb _ _); [discriminate|]. intros [= <-].
  now rewrite scr_select_size, (select_repeat (1 / theta_prec t)).
Qed.

Lemma scr_take_size idx scr : scr_size (scr_take idx scr) = length idx.
Proof. destruct scr; cbn [scr_take scr_size]; unfold take_idx; try apply map_length. reflexivity. Qed.

Theorem predict_take orc k t scr idx v :
  Forall (fun i => (i < scr_size scr)%nat) idx ->
  theta_predict orc k t scr = Ok v ->
  theta_predict orc k t (scr_take idx scr) = Ok (take_idx 0 idx v).
Proof.
  intros Hidx.
  assert (Hrows : forall viab, rows_predict orc viab t scr = Ok v ->
                               rows_predict orc viab t (scr_take idx scr) = Ok (take_idx 0 idx v)).
  { intros viab. destruct t; cbn [rows_predict]; rewrite ?sp_predict_eq, ?in_predict_eq; destruct scr; try discriminate;
      now apply checked_take. }
  destruct k; cbn [theta_predict]; [apply Hrows | apply Hrows |].
  unfold variance. destruct (qeqb _ _); [discriminate|]. intros [= <-].
  now rewrite scr_take_size, take_idx_repeat.
Qed.

Theorem sp_mean_row2_swap t s a b : sp_mean_row2 t (s, a, b) = sp_mean_row2 t (s, b, a).
Proof.
  cbn [sp_mean_row2].
  rewrite (vadd_comm (emb2 (sV1 t) a)), (vmul3_swap _ (emb2 (sV2 t) a)). ring.
Qed.

Theorem in_mean_row2_swap t s a b : in_mean_row2 t (s, a, b) = in_mean_row2 t (s, b, a).
Proof. cbn [in_mean_row2]. now rewrite vmul3_swap. Qed.

Lemma in_single_swap t s a b : in_single t (s, a, b) = in_single t (s, b, a).
Proof. cbn [in_single]. f_equal. ring. Qed.

Lemma sp_row2_swap orc viab t r : sp_row2 orc viab t (swap_row r) = sp_row2 orc viab t r.
Proof. destruct r as [[s a] b]. unfold sp_row2. cbn [swap_row]. now rewrite (sp_mean_row2_swap t s b a). Qed.

Lemma in_row2_swap orc viab t r : in_row2 orc viab t (swap_row r) = in_row2 orc viab t r.
Proof.
  destruct r as [[s a] b]. unfold in_row2, in_viab_row2. cbn [swap_row].
  now rewrite (in_mean_row2_swap t s b a), (in_single_swap t s b a).
Qed.

Lemma sp_valid_row2_swap t r : sp_valid_row2 t (swap_row r) = sp_valid_row2 t r.
Proof.
  destruct r as [[s a] b]. cbn [swap_row sp_valid_row2].
  destruct (sp_valid_s t s), (sp_valid_t2 t a), (sp_valid_t2 t b); reflexivity.
Qed.
Lemma in_valid_row2_swap t r : in_valid_row2 t (swap_row r) = in_valid_row2 t r.
Proof.
  destruct r as [[s a] b]. cbn [swap_row in_valid_row2].
  destruct (py_valid _ s), (py_valid _ a), (py_valid _ b); reflexivity.
Qed.
Lemma in_haskey_row2_swap t r : in_haskey_row2 t (swap_row r) = in_haskey_row2 t r.
Proof.
  destruct r as [[s a] b]. cbn [swap_row in_haskey_row2].
  destruct (lookup _ s a), (lookup _ s b); reflexivity.
Qed.

Theorem predict_swap orc k t scr : theta_predict orc k t (scr_swap scr) = theta_predict orc k t scr.
Proof.
  destruct scr as [rows|rows|a n]; cbn [scr_swap]; try reflexivity.
  assert (Hrows : forall viab, rows_predict orc viab t (Scr2 (map swap_row rows)) = rows_predict orc viab t (Scr2 rows)).
  { intros viab. destruct t; cbn [rows_predict]; rewrite ?sp_predict_eq, ?in_predict_eq; apply checked_map_ext.
    - repeat constructor. apply sp_valid_row2_swap.
    - apply sp_row2_swap.
    - destruct viab; repeat constructor; [apply in_valid_row2_swap | apply in_haskey_row2_swap | apply in_valid_row2_swap].
    - apply in_row2_swap. }
  destruct k; cbn [theta_predict]; [apply Hrows | apply Hrows |].
  unfold variance. cbn [scr_size]. now rewrite map_length.
Qed.

Lemma emb1_control V : emb1 V CONTROL = 0.
Proof. reflexivity. Qed.
Lemma emb2_control V : emb2 V CONTROL = zrow (py_get [] V CONTROL).
Proof. reflexivity. Qed.

Lemma emb2_len_le D V a : rectb D V = true -> (length (emb2 V a) <= length (py_get [] V CONTROL))%nat.
Proof.
  intros H. unfold emb2. destruct (a =? CONTROL)%Z; rewrite ?zrow_length; eapply py_get_len_le_last; eassumption.
Qed.

Theorem sp_control_right D t s a :
  rectb D (sV1 t) = true -> sp_mean_row2 t (s, a, CONTROL) = sp_mean_row1 t (s, a).
Proof.
  intros HR. cbn [sp_mean_row2 sp_mean_row1].
  rewrite emb1_control, !emb2_control, qsum_vmul_zrow.
  rewrite vadd_zrow_r by (eapply emb2_len_le; eassumption). ring.
Qed.

Theorem sp_control_left D t s a :
  rectb D (sV1 t) = true -> sp_mean_row2 t (s, CONTROL, a) = sp_mean_row1 t (s, a).
Proof. intros HR. rewrite sp_mean_row2_swap. eapply sp_control_right; eassumption. Qed.

Theorem sp_control_both t s :
  sp_mean_row2 t (s, CONTROL, CONTROL) = salpha t + py_get 0 (sW0 t) s.
Proof.
  cbn [sp_mean_row2]. rewrite emb1_control, !emb2_control, vadd_zrow_zrow, !qsum_vmul_zrow. ring.
Qed.

Theorem sp_control_single t s : sp_mean_row1 t (s, CONTROL) = salpha t + py_get 0 (sW0 t) s.
Proof. cbn [sp_mean_row1]. rewrite emb1_control, emb2_control, qsum_vmul_zrow. ring. Qed.

Definition pad_control (r : Z * Z) : Z * Z * Z := (fst r, snd r, CONTROL).

(* screen level: when the (agent, control) screen can be predicted, so can the single-agent screen, with the same values *)
Theorem sp_control_screen orc D viab t rows v :
  rectb D (sV1 t) = true ->
  sp_predict orc viab t (Scr2 (map pad_control rows)) = Ok v ->
  sp_predict orc viab t (Scr1 rows) = Ok v.
Proof.
  intros HR. rewrite !sp_predict_eq. cbn [checked].
  destruct (forallb (sp_valid_row2 t) (map pad_control rows)) eqn:E; [|discriminate].
  intros H; inversion H; subst; clear H.
  assert (E1 : forallb (sp_valid_row1 t) rows = true).
  { rewrite forallb_forall in *. intros [s a] Hin.
    specialize (E (pad_control (s, a)) (in_map _ _ _ Hin)).
    unfold pad_control in E. cbn [fst snd sp_valid_row2] in E. cbn [sp_valid_row1]. unfold sp_valid_t2 in E.
    destruct (sp_valid_s t s); [|discriminate]. destruct (py_valid (length (sV2 t)) a); [|discriminate].
    destruct (py_valid (length (sV1 t)) a); [|discriminate]. destruct (py_valid (length (sV0 t)) a); [|discriminate].
    reflexivity. }
  rewrite E1, map_map. f_equal. apply map_ext. intros [s a].
  unfold sp_row2, sp_row1, pad_control. cbn [fst snd]. now rewrite (sp_control_right D).
Qed.

Theorem in_control_right t s a : in_mean_row2 t (s, a, CONTROL) = 0.
Proof. cbn [in_mean_row2]. rewrite emb2_control. apply qsum_vmul_zrow. Qed.

Theorem in_control_left t s a : in_mean_row2 t (s, CONTROL, a) = 0.
Proof. rewrite in_mean_row2_swap. apply in_control_right. Qed.

Section ExpLn.
Variable orc : oracle.
Hypothesis exp_ln : forall x, 0 < x -> orc ORC_EXP (orc ORC_LN x) = x.

Lemma in_viab_of_zero single : in_viab_of orc 0 (clip_viab single) = clip_viab single.
Proof.
  unfold in_viab_of. rewrite Qcplus_0_l, exp_ln by apply clip_viab_pos. apply clip_viab_idem.
Qed.

Theorem in_control_viab_right t s a :
  in_viab_row2 orc t (s, a, CONTROL)
  = clip_viab (lookup0 (ilookup t) s a * lookup0 (ilookup t) s CONTROL).
Proof. unfold in_viab_row2. rewrite in_control_right. cbn [in_single]. apply in_viab_of_zero. Qed.

Theorem in_control_viab_left t s a :
  in_viab_row2 orc t (s, CONTROL, a)
  = clip_viab (lookup0 (ilookup t) s CONTROL * lookup0 (ilookup t) s a).
Proof. unfold in_viab_row2. rewrite in_control_left. cbn [in_single]. apply in_viab_of_zero. Qed.

(* the clause "viability is the logistic of the mean" is false of the interaction type *)
Hypothesis expit_0 : orc ORC_EXPIT 0 = Q2Qc (1 # 2).

Definition witness_inter : inter_theta :=
  {| iW := [[1]]; iV2 := [[1]]; iprec := 1;
     ilookup := [(0%Z, 0%Z, Q2Qc (1 # 4)); (0%Z, (-1)%Z, 1)] |}.

Theorem inter_viability_not_logistic :
  exists t scr v m,
    theta_predict orc KViab (TI t) scr = Ok v /\ theta_predict orc KMean (TI t) scr = Ok m /\
    v <> map (viab_of_mean orc) m.
Proof.
  exists witness_inter, (Scr2 [(0, 0, CONTROL)%Z]),
    [clip_viab (Q2Qc (1 # 4) * 1)], [0].
  cbn [theta_predict]. rewrite !in_predict_eq. cbn [checked map]. split; [|split].
  - unfold in_row2. rewrite in_control_viab_right. reflexivity.
  - unfold in_row2. rewrite in_control_right. reflexivity.
  - unfold viab_of_mean. rewrite expit_0. intros E. inversion E as [E'].
Qed.
End ExpLn.

Theorem sp_viability_is_clipped_logistic orc t scr v :
  sp_predict orc true t scr = Ok v ->
  exists m, sp_predict orc false t scr = Ok m /\ v = map (fun x => clip_viab (orc ORC_EXPIT x)) m.
Proof.
  destruct scr; cbn [sp_predict]; try discriminate.
  - destruct (forallb _ rows); [|discriminate]. intros H; inversion H. eexists; split; reflexivity.
  - destruct (forallb _ rows); [|discriminate]. intros H; inversion H. eexists; split; reflexivity.
Qed.

Definition in_range (x : Qc) : Prop := VIAB_LO <= x /\ x <= VIAB_HI.

Theorem viability_range orc t scr v : theta_predict orc KViab t scr = Ok v -> Forall in_range v.
Proof.
  cbn [theta_predict]. destruct t as [p|p]; rewrite ?sp_predict_eq, ?in_predict_eq; destruct scr; try discriminate.
  (* in each of the three shapes the per-row value of the viability is a clip_viab *)
  all: intros H; apply checked_ok in H as [_ ->].
  all: apply Forall_map, Forall_forall; intros r _; apply clip_viab_range.
Qed.

Theorem variance_spec orc t scr v :
  theta_predict orc KVar t scr = Ok v ->
  v = repeat (1 / theta_prec t) (scr_size scr) /\
  (0 < theta_prec t -> Forall (fun x => 0 < x) v).
Proof.
  cbn [theta_predict]. unfold variance. destruct (qeqb _ _); [discriminate|]. intros H; inversion H.
  split; [reflexivity|]. intros Hp. apply Forall_forall. intros x Hx. apply repeat_spec in Hx. subst x.
  now apply Qc_inv_pos.
Qed.

Theorem predict_all_rows orc k h scr rows :
  predict_all orc k h scr = Ok rows ->
  length rows = h_n h /\
  forall i, (i < h_n h)%nat ->
    exists t, nth_error (h_thetas h) i = Some t /\ theta_predict orc k t scr = Ok (nth i rows []).
Proof.
  unfold predict_all, res_bind.
  destruct (res_map_all (predict_one orc k h scr) (seq 0 (h_n h))) as [rs|] eqn:E; [|discriminate].
  intros H. assert (rs = rows) as ->.
  { destruct k; try (now inversion H). destruct (h_n h); [discriminate|now inversion H]. }
  destruct (res_map_all_spec _ 0%nat [] _ _ E) as [Hlen Hnth]. rewrite seq_length in *.
  split; [assumption|]. intros i Hi. specialize (Hnth i Hi). rewrite seq_nth in Hnth by assumption.
  cbn [plus] in Hnth. unfold predict_one, res_bind, get_theta in Hnth.
  destruct (nth_error (h_thetas h) i) as [t|]; [|discriminate]. exists t. split; [reflexivity|assumption].
Qed.

Lemma avg_loop_spec f idx : forall acc r,
  avg_loop f idx acc = Ok r ->
  exists subs, res_map_all f idx = Ok subs /\ r = fold_left vadd subs acc.
Proof.
  induction idx as [|i idx IH]; intros acc r H; cbn [avg_loop res_map_all] in *.
  - inversion H. exists []. split; reflexivity.
  - unfold res_bind in *. destruct (f i) as [sub|]; [|discriminate].
    destruct (IH _ _ H) as (subs & -> & ->). exists (sub :: subs). split; reflexivity.
Qed.

Lemma fold_vadd_spec m subs : forall acc,
  length acc = m -> Forall (fun s => length s = m) subs ->
  length (fold_left vadd subs acc) = m /\
  forall j, (j < m)%nat ->
    nth j (fold_left vadd subs acc) 0 = nth j acc 0 + qsum (map (fun r => nth j r 0) subs).
Proof.
  induction subs as [|s subs IH]; intros acc Hacc Hs; cbn [fold_left map].
  - split; [assumption|]. intros j _. cbn [qsum fold_right]. ring.
  - apply Forall_cons_iff in Hs as [Hs1 Hs2].
    assert (Hl : length (vadd acc s) = m).
    { unfold vadd. rewrite map2_length, Hacc, Hs1. apply Nat.min_id. }
    destruct (IH (vadd acc s) Hl Hs2) as [H1 H2]. split; [assumption|].
    intros j Hj. rewrite H2 by assumption. rewrite qsum_cons.
    unfold vadd at 1. rewrite (map2_nth Qcplus 0 0 0) by lia. ring.
Qed.

Theorem predict_avg_exact orc k h scr v :
  k <> KVar ->
  predict_avg orc k h scr = Ok v ->
  exists rows,
    predict_all orc k h scr = Ok rows /\ length v = scr_size scr /\
    forall j, (j < scr_size scr)%nat ->
      nth j v 0 = qsum (map (fun r => nth j r 0) rows) / qofnat (h_n h).
Proof.
  intros Hk. unfold predict_avg, res_bind.
  destruct (avg_loop _ _ _) as [acc|] eqn:E; [|discriminate]. intros H.
  destruct (avg_loop_spec _ _ _ _ E) as (rows & Hrows & ->).
  assert (Hv : v = map (fun x => x / qofnat (h_n h)) (fold_left vadd rows (repeat 0 (scr_size scr)))).
  { destruct (h_n h); [destruct (scr_size scr); [now inversion H|discriminate]|now inversion H]. }
  clear H. exists rows. split.
  { unfold predict_all, res_bind. rewrite Hrows. destruct k; try reflexivity. congruence. }
  assert (Hlens : Forall (fun s => length s = scr_size scr) rows).
  { eapply res_map_all_Forall; [exact Hrows|]. intros i b _ Hb. unfold predict_one, res_bind in Hb.
    destruct (get_theta h i); [|discriminate]. eapply theta_predict_length; eassumption. }
  destruct (fold_vadd_spec (scr_size scr) rows (repeat 0 (scr_size scr)) (repeat_length _ _) Hlens) as [H1 H2].
  subst v. split; [now rewrite map_length|]. intros j Hj.
  rewrite (nth_indep _ 0 (0 / qofnat (h_n h))) by now rewrite map_length, H1.
  rewrite (map_nth (fun x => x / qofnat (h_n h))), H2 by assumption.
  rewrite nth_repeat. f_equal. ring.
Qed.
