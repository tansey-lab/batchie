(* C14, one piece of Proofs/C14SourceHelpers.v (which see): common.select_unique_zipped_numpy_arrays *)
From Coq Require Import ZArith List Lia ZifyBool.
From Batchie Require Import Lib.Sexp Lib.ListX Lib.PyRt Model.Encode Model.Screen Model.Views Generated.SrcPlates Proofs.C01Sort
  Proofs.C14Unique.
Import ListNotations.
Open Scope Z_scope.

(* `len(set(lengths)) > 1` says that some length differs from the first *)
Lemma distinct_count_gt1 (l : list Z) :
  (Z.of_nat (length (sort_uniq Z.compare l)) >? 1) = negb (forallb (fun x => x =? hd 0 l) l).
Proof.
  destruct l as [|h l]; [reflexivity|]. cbn [hd].
  pose proof (sort_uniq_In Z.compare Zcmp_spec (h :: l)) as Hin.
  destruct (forallb (fun x => x =? h) (h :: l)) eqn:E; cbn [negb].
  - rewrite forallb_forall in E.
    rewrite (sort_uniq_ext Z.compare Zcmp_spec (h :: l) [h]); [reflexivity|].
    intros x. cbn [In]. split; [intros H; left; specialize (E x H); lia | intros [->|[]]; now left].
  - (* were there a single distinct value, it would be h and every element would equal it *)
    destruct (sort_uniq Z.compare (h :: l)) as [|u [|w r]]; [|exfalso|cbn [length]; lia].
    + destruct (proj2 (Hin h) (or_introl eq_refl)).
    + apply Bool.not_true_iff_false in E. apply E, forallb_forall. intros x Hx. apply Z.eqb_eq.
      destruct (proj2 (Hin x) Hx) as [<-|[]]. destruct (proj2 (Hin h) (or_introl eq_refl)) as [<-|[]]. reflexivity.
Qed.

Lemma zip_cols_length cols : length (zip_cols cols) = length (hd [] cols).
Proof. unfold zip_cols. now rewrite map_length, seq_length. Qed.

Lemma first_indices_in_range keys :
  forallb (fun i => Nat.ltb i (length keys)) (map (fun k => first_index k keys) (sort_uniq name_cmp keys)) = true.
Proof.
  rewrite forallb_map. apply forallb_forall. intros k Hk. apply Nat.ltb_lt. apply first_index_lt.
  now apply (sort_uniq_In name_cmp name_cmp_spec).
Qed.

(* the translation is the model on one or more arrays; on NO array numpy's vstack raises (tag 17), where the model - never
   called that way: the caller always passes the sample ids - answers the empty mask *)
Theorem src_select_unique_is_model : forall cols : list (list Z),
  src_select_unique cols = match cols with [] => Err 17 | _ => select_unique cols end.
Proof.
  intros [|r rest]; [reflexivity|]. unfold src_select_unique, select_unique.
  rewrite distinct_count_gt1.
  replace (forallb (fun x : Z => x =? hd 0 (map (fun x' : list Z => Z.of_nat (length x')) (r :: rest)))
                   (map (fun x' : list Z => Z.of_nat (length x')) (r :: rest)))
    with (forallb (fun c => Nat.eqb (length c) (length (hd [] (r :: rest)))) (r :: rest)).
  2:{ rewrite forallb_map. apply forallb_ext. intros c. cbn [hd map]. apply eq_sym, of_nat_eqb. }
  destruct (forallb (fun c => Nat.eqb (length c) (length (hd [] (r :: rest)))) (r :: rest)) eqn:E; cbn [negb]; [|reflexivity].
  cbn [hd forallb] in E. apply andb_prop in E. destruct E as [_ E].
  unfold np_vstack. rewrite E. cbn [res_bind].
  unfold first_indices, unique_rows2, arr2_T. cbn [fst snd].
  change (map (fun j => column 0 j (r :: rest)) (seq 0 (length r))) with (zip_cols (r :: rest)).
  change (list_get (r :: rest) 0) with (Ok r). cbn [res_bind]. rewrite Nat2Z.id.
  unfold set_true_at, unique_mask. rewrite repeat_length.
  pose proof (zip_cols_length (r :: rest)) as HL. cbn [hd] in HL. rewrite <- HL.
  rewrite first_indices_in_range. reflexivity.
Qed.
