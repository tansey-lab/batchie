(* C14, one piece of Proofs/C14SourceHelpers.v (which see): auxiliary facts that mention no translated function *)
From Coq Require Import ZArith List Bool Lia.
From Batchie Require Import Lib.Sexp Lib.PyRt Generated.Consts Model.Encode Model.Screen Model.Views Proofs.C01Sort
  Proofs.C14Source_Base.
Import ListNotations.
Open Scope Z_scope.

Lemma list_get_0 {A} (l : list A) : list_get l 0 = match l with x :: _ => Ok x | [] => Err 98 end.
Proof. destruct l; reflexivity. Qed.

(* np.setdiff1d(np.unique(a), [SENTINEL]) is the sorted distinct entries without the sentinel *)
Lemma setdiff_sentinel (l : list Z) :
  np_setdiff1d (sort_uniq Z.compare l) [CONTROL_SENTINEL_VALUE]
  = filter (fun x => negb (x =? CONTROL_SENTINEL_VALUE)) (sort_uniq Z.compare l).
Proof.
  unfold np_setdiff1d.
  rewrite (sort_uniq_of_sorted Z.compare Zcmp_spec)
    by (apply (SSorted_filter Z.compare); apply (sort_uniq_sorted Z.compare Zcmp_spec)).
  apply filter_ext. intros x. cbn [existsb]. now rewrite orb_false_r.
Qed.

Lemma with_plate_same r : with_plate (r_plate r) r = r.
Proof. destruct r; reflexivity. Qed.

(* the rows after `plate_names[sel] = nm`, computed through the column, are the relabelled rows *)
Lemma relabel_column (nm : name) : forall (sel : list bool) (rows : list row),
  map (fun p : name * row => with_plate (fst p) (snd p))
      (combine (map (fun p : bool * name => if fst p then nm else snd p) (combine sel (map r_plate rows))) rows)
  = relabel sel nm rows.
Proof.
  unfold relabel. induction sel as [|b sel IH]; intros [|r rows]; cbn [map combine]; try reflexivity.
  rewrite IH. cbn [fst snd]. destruct b; [reflexivity | now rewrite with_plate_same].
Qed.

Lemma relabel_length sel nm rows : length sel = length rows -> length (relabel sel nm rows) = length rows.
Proof. intros H. unfold relabel. rewrite map_length, combine_length. lia. Qed.

Lemma ids_of_column_some l : ids_of_column (map Some l) = Ok l.
Proof. unfold ids_of_column. induction l as [|x l IH]; cbn [map res_map_all]; [reflexivity | now rewrite IH]. Qed.

Lemma rows_of_arrays_app (r1 r2 : list row) :
  rows_of_arrays (map (fun r => map fst (r_treats r)) r1 ++ map (fun r => map fst (r_treats r)) r2)
                 (map (fun r => map snd (r_treats r)) r1 ++ map (fun r => map snd (r_treats r)) r2)
                 (map r_obs r1 ++ map r_obs r2) (map r_mask r1 ++ map r_mask r2)
                 (map r_sample r1 ++ map r_sample r2) (map r_plate r1 ++ map r_plate r2) = r1 ++ r2.
Proof. rewrite <- !map_app. apply rows_of_arrays_rows. Qed.

(* the loop that appends one treatment-id column per treatment position *)
Lemma append_columns_loop (a : nat) (tids : list (list Z)) (f : list (list Z) -> Z -> result (list (list Z))) :
  (forall arrs i, f arrs i = dor c <- arr2_col 0 (a, tids) i; Ok (arrs ++ [c])) ->
  forall n s arrs, (s + n <= a)%nat ->
  res_fold f (map Z.of_nat (seq s n)) arrs = Ok (arrs ++ map (fun i => column 0 i tids) (seq s n)).
Proof.
  intros Hf. induction n as [|n IH]; intros s arrs Hs; cbn [seq map res_fold]; [now rewrite app_nil_r|].
  rewrite Hf. unfold arr2_col. cbn [fst snd].
  replace (Z.of_nat s <? 0) with false by lia.
  replace ((0 <=? Z.of_nat s) && (Z.of_nat s <? Z.of_nat a)) with true by lia.
  cbn [res_bind]. rewrite Nat2Z.id, IH by lia. now rewrite <- app_assoc.
Qed.
