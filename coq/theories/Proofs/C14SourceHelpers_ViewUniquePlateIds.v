(* C14, one piece of Proofs/C14SourceHelpers.v (which see): ScreenBase.unique_plate_ids on a ScreenSubset / Plate object *)
From Batchie Require Import Lib.Sexp Model.Views Generated.SrcPlates.
Open Scope Z_scope.

Theorem src_view_unique_plate_ids_is_model : forall v : view, src_view_unique_plate_ids v = Ok (view_unique_pids v).
Proof. reflexivity. Qed.
