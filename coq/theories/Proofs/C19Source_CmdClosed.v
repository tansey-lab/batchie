(* C19: the four run_* command builders re-translated CLOSED over the translated path helpers (Generated/SrcOrchCmdClosed.v,
   configurations C19_RUN_*_CLOSED of harness/src_functions.py): for a script that lies in a checkout at [root]
   (root/nextflow/scripts/batchie.py, a path as realpath returns it) the third word of every command line is root/main.nf - the
   pipeline the model describes - and the builders denote the model's launches exactly as the open translations do. *)
From Coq Require Import ZArith List.
From Batchie Require Import Model.Orchestrate Generated.SrcOrchPaths Generated.SrcOrchCmd Generated.SrcOrchCmdClosed Proofs.C19Base Proofs.C19Source_Paths Proofs.C19SourceCmd.
Import ListNotations.
Open Scope Z_scope.

Lemma fspath_eqb_refl p : fspath_eqb p p = true.
Proof. induction p as [|c p IH]; cbn [fspath_eqb]; [reflexivity|]. now rewrite zlist_eqb_refl, IH. Qed.

Lemma fspath_eqb_true a b : fspath_eqb a b = true -> a = b.
Proof.
  revert b; induction a as [|x a IH]; intros [|y b]; cbn [fspath_eqb]; try discriminate; [reflexivity|].
  intros H. apply andb_prop in H as [H1 H2]. apply zlist_eqb_eq in H1. apply IH in H2. congruence.
Qed.

(* a path is the word WMainNf exactly when it is root/main.nf *)
Lemma word_of_file_main_nf root p : word_of_file root p = WMainNf <-> p = root ++ [S_main_nf].
Proof.
  unfold word_of_file. destruct (fspath_eqb p (root ++ [S_main_nf])) eqn:E.
  - apply fspath_eqb_true in E. split; auto.
  - split; [discriminate|]. intros ->. now rewrite fspath_eqb_refl in E.
Qed.

Lemma sbind_ext {A B} (r : sres A) (k k' : A -> sres B) : (forall a, k a = k' a) -> sbind r k = sbind r k'.
Proof. intros H. destruct r; cbn [sbind]; auto. Qed.

Section Closed.
Variable root : fspath.
Hypothesis Hroot : clean_path root.

(* get_main_nf_file() of a script in the checkout answers root/main.nf, and the word for that path is WMainNf *)
Lemma main_nf_bind {B} (k : fspath -> sres B) :
  (dos r <- src_get_main_nf_file (script_in root); k r) = k (root ++ [S_main_nf]).
Proof. now rewrite src_get_main_nf_file_is_model, (main_nf_file_in root Hroot). Qed.

Lemma main_nf_word : word_of_file root (root ++ [S_main_nf]) = WMainNf.
Proof. now apply word_of_file_main_nf. Qed.

(* the call of get_repository_root() between the two uses of the command line (cwd=) changes nothing *)
Lemma closed_tail (cmd : list (option word)) acts :
  (dos acts' <- join_words acts cmd; dos r <- src_get_repository_root (script_in root); dos a <- check_call acts' cmd; SOk a)
  = (dos acts' <- join_words acts cmd; dos a <- check_call acts' cmd; SOk a).
Proof. destruct (join_words acts cmd); reflexivity. Qed.

(* closed = open: the only difference is where the word for main.nf comes from *)
Lemma run_initial_closed_open acts o scr nm extra :
  src_run_initial_plate_closed root (script_in root) acts o scr nm extra = src_run_initial_plate acts o scr nm extra.
Proof.
  unfold src_run_initial_plate_closed, src_run_initial_plate. rewrite main_nf_bind. cbv beta.
  rewrite main_nf_word. apply closed_tail.
Qed.

Lemma run_first_closed_open acts o tr te nm extra :
  src_run_first_batch_plate_closed root (script_in root) acts o tr te nm extra = src_run_first_batch_plate acts o tr te nm extra.
Proof.
  unfold src_run_first_batch_plate_closed, src_run_first_batch_plate. rewrite main_nf_bind. cbv beta.
  rewrite main_nf_word. apply closed_tail.
Qed.

Lemma run_first_prosp_closed_open acts o scr nm extra :
  src_run_first_prospective_batch_plate_closed root (script_in root) acts o scr nm extra
  = src_run_first_prospective_batch_plate acts o scr nm extra.
Proof.
  unfold src_run_first_prospective_batch_plate_closed, src_run_first_prospective_batch_plate. rewrite main_nf_bind. cbv beta.
  rewrite main_nf_word. apply closed_tail.
Qed.

Lemma run_subsequent_closed_open acts o scr th di nm extra excl :
  src_run_subsequent_batch_plate_closed root (script_in root) acts o scr th di nm extra excl
  = src_run_subsequent_batch_plate acts o scr th di nm extra excl.
Proof.
  unfold src_run_subsequent_batch_plate_closed, src_run_subsequent_batch_plate. rewrite main_nf_bind. cbv beta.
  rewrite main_nf_word. apply sbind_ext. intros args. apply closed_tail.
Qed.

Theorem src_run_initial_plate_closed_is_model : forall acts o scr nm extra,
  src_run_initial_plate_closed root (script_in root) acts o scr nm extra = launch_cmd acts o (option_map LInit scr).
Proof. intros. rewrite run_initial_closed_open. apply src_run_initial_plate_is_model. Qed.

Theorem src_run_first_batch_plate_closed_is_model : forall acts o tr te nm extra,
  src_run_first_batch_plate_closed root (script_in root) acts o tr te nm extra = launch_cmd acts o (first_cmd tr te).
Proof. intros. rewrite run_first_closed_open. apply src_run_first_batch_plate_is_model. Qed.

Theorem src_run_first_prospective_batch_plate_closed_is_model : forall acts o scr nm extra,
  src_run_first_prospective_batch_plate_closed root (script_in root) acts o scr nm extra = launch_cmd acts o (option_map LProsp scr).
Proof. intros. rewrite run_first_prosp_closed_open. apply src_run_first_prospective_batch_plate_is_model. Qed.

Theorem src_run_subsequent_batch_plate_closed_is_model : forall acts o scr t nm extra excl,
  src_run_subsequent_batch_plate_closed root (script_in root) acts o scr (TGlob t) (DGlob t) nm extra excl
  = launch_cmd acts o (next_cmd scr t excl).
Proof. intros. rewrite run_subsequent_closed_open. apply src_run_subsequent_batch_plate_is_model. Qed.

End Closed.

(* the hypothesis on the script's place matters: from a script that lies one directory deeper the command names another file,
   which is no launch of the model (CalledProcessError, why = 8) *)
Lemma closed_elsewhere_is_no_launch :
  src_run_initial_plate_closed [] ([S_scripts] ++ script_in []) [] (0, 0) (Some SInput) tt [] = SRaised [] 8.
Proof. vm_compute. reflexivity. Qed.
