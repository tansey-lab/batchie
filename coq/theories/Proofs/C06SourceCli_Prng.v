(* The model of argument_parsing.get_prng_from_seed_argument equals its translation (Generated/SrcCli.v); in a file of its own
   because every wrapper link imports it.  Proofs/C06SourceCli.v says why. *)
From Coq Require Import ZArith List.
From Batchie Require Import Model.Cli Generated.SrcCli.
Open Scope Z_scope.

Theorem src_get_prng_is_model : forall (mix : Z -> Z) (seed : Z),
  src_get_prng_from_seed_argument mix seed = prng_of_seed mix seed.
Proof. intros. reflexivity. Qed.
