(* C19 — one call of run_next_* (or one operator action) from a canonical tree. *)
From Coq Require Import ZArith List Bool Lia.
From Batchie Require Import Model.Orchestrate Proofs.C19Base Proofs.C19Canon.
Import ListNotations.
Open Scope Z_scope.

(* plan_of, read off examine's answer: the three directory actions are always the same; only the fourth action - the launch,
   or the exception raised in its place - depends on mode and tree *)
Definition last_action (md : mode) (f : fs) (i j : Z) (scr : option spath) : action :=
  match md with
  | Retro =>
      if (i =? 0) && (j =? 0) then ALaunch (i, j) (LInit SInput)
      else if j =? 0 then
        if has_training f (0, 0) then
          match scr with
          | Some sp => ALaunch (i, j) (LFirst sp (SFile (0, 0) KTraining))
          | None => AFail 9
          end
        else AFail 1
      else next_action f i j scr
  | Prosp => if j =? 0 then ALaunch (i, j) (LProsp SInput) else next_action f i j (Some SInput)
  end.

Definition no_plates_remain (md : mode) (meta : option Z) : bool :=
  match md, meta with Retro, Some m => m <=? 0 | _, _ => false end.

Lemma plan_of_eq md fixed bs f :
  plan_of md fixed bs f
  = match examine fixed bs f with
    | XNamed w s => PNamed w s
    | XOk (i, j, meta, scr) =>
        if no_plates_remain md meta then PDone
        else PActs [ARmTree (i, j); AMkIter i; AMkPlate (i, j); last_action md f i j scr]
    end.
Proof.
  unfold plan_of, last_action, no_plates_remain.
  destruct (examine fixed bs f) as [[[[i j] meta] scr]|w s]; [|reflexivity].
  destruct md; [|destruct (j =? 0); reflexivity].
  destruct (match meta with Some m => m <=? 0 | None => false end); [now destruct meta|].
  destruct ((i =? 0) && (j =? 0)), (j =? 0), (has_training f (0, 0)), scr, meta; reflexivity.
Qed.

Lemma plan_named_examine md fixed bs f w s : plan_of md fixed bs f = PNamed w s -> examine fixed bs f = XNamed w s.
Proof.
  rewrite plan_of_eq. destruct (examine fixed bs f) as [[[[i j] meta] scr]|w' s']; [|congruence].
  destruct (no_plates_remain md meta); discriminate.
Qed.

Lemma plan_acts_shape md fixed bs f acts :
  plan_of md fixed bs f = PActs acts -> exists a b c x, acts = [a; b; c; x].
Proof.
  rewrite plan_of_eq. destruct (examine fixed bs f) as [[[[i j] meta] scr]|w s]; [|discriminate].
  destruct (no_plates_remain md meta); [discriminate|]. intros H; injection H as <-. repeat eexists.
Qed.

Section Step.
Variables (md : mode) (bs n : nat).
Hypothesis Hbs : (1 <= bs)%nat.
Hypothesis Hn : (1 <= n)%nat.

Local Notation ip := (ip md bs n).
Local Notation canon := (canon md bs n).
Local Notation plates_of := (plates_of md bs n).
Local Notation full_iter := (full_iter md bs n).
Local Notation last_iter := (last_iter md bs n).

Let lookup_canon_none := lookup_canon_none md bs n Hbs Hn.
Let lookup_canon_last := lookup_canon_last md bs n Hbs Hn.
Let get_plate_canon := get_plate_canon md bs n Hbs Hn.
Let examine_canon := examine_canon md bs n Hbs Hn.
Let canon_complete := canon_complete md bs n Hbs Hn.
Let sort_canon := sort_canon md bs n Hbs Hn.
Let sort_plates := sort_plates md bs n Hbs Hn.
Let dm_spec := dm_spec bs Hbs.
Let dm_unique := dm_unique bs Hbs.
Let dm_succ := dm_succ bs Hbs.

(* md is a section variable that the facts above depend on: case analysis on it goes through an equation *)
Lemma md_cases : md = Retro \/ md = Prosp.
Proof. destruct md; auto. Qed.

Lemma update_canon c x (g : idir -> idir) :
  update (Z.of_nat (c / bs)) g (canon c x)
  = tab full_iter 0 (c / bs) ++
    match last_iter (c / bs) (c mod bs) x with
    | [] => []
    | _ => [(Z.of_nat (c / bs), g (plates_of (c / bs) 0 (c mod bs) ++ tail_of x (c mod bs)))]
    end.
Proof.
  unfold C19Canon.canon. rewrite update_app_r by (apply lookup_tab_out; lia). f_equal.
  unfold C19Canon.last_iter. destruct (c mod bs)%nat, x; try reflexivity; apply update_hd.
Qed.

Lemma canon_unfold c x :
  (0 < c mod bs)%nat \/ x <> XNone ->
  canon c x = tab full_iter 0 (c / bs) ++ [(Z.of_nat (c / bs), plates_of (c / bs) 0 (c mod bs) ++ tail_of x (c mod bs))].
Proof.
  intros H. unfold C19Canon.canon, C19Canon.last_iter. destruct (c mod bs)%nat, x; try reflexivity.
  destruct H; [lia|congruence].
Qed.

(* an update of the last iteration directory of a tree that has one *)
Lemma update_canon_last c x (g : idir -> idir) :
  x <> XNone ->
  update (Z.of_nat (c / bs)) g (canon c x)
  = tab full_iter 0 (c / bs) ++ [(Z.of_nat (c / bs), g (plates_of (c / bs) 0 (c mod bs) ++ tail_of x (c mod bs)))].
Proof.
  intros Hx. rewrite update_canon. unfold C19Canon.last_iter. destruct (c mod bs)%nat, x; congruence.
Qed.

Lemma canon_empty_iter_eq c : (0 < c mod bs)%nat -> canon c XEmptyIter = canon c XNone.
Proof. intros H. unfold C19Canon.canon, C19Canon.last_iter. now destruct (c mod bs)%nat; [lia|]. Qed.

Lemma remove_plates I J x :
  remove_key (Z.of_nat J) (plates_of I 0 J ++ tail_of x J) = plates_of I 0 J ++ [].
Proof.
  rewrite remove_key_app, remove_key_none.
  - f_equal. destruct x; try reflexivity. apply remove_key_one.
  - intros q Hq. apply tab_keys_lt in Hq. lia.
Qed.

Lemma rmtree_canon_inc c d : rmtree (step_of bs c) (canon c (XIncomplete d)) = canon c XEmptyIter.
Proof.
  unfold rmtree, step_of. cbn [fst snd]. rewrite update_canon_last, remove_plates by discriminate.
  symmetry. apply canon_unfold. right. discriminate.
Qed.

Lemma rmtree_canon c x : is_inc x = false -> rmtree (step_of bs c) (canon c x) = canon c x.
Proof.
  intros H. unfold rmtree, step_of. cbn [fst snd]. rewrite update_canon, remove_plates.
  unfold C19Canon.canon. f_equal. unfold C19Canon.last_iter.
  destruct (c mod bs)%nat, x; try reflexivity; discriminate.
Qed.

Lemma mk_iter_canon c x : is_inc x = false -> mk_iter (Z.of_nat (c / bs)) (canon c x) = canon c XEmptyIter.
Proof.
  intros Hx. unfold mk_iter, ensure.
  destruct (Nat.eq_dec (c mod bs) 0) as [EJ|EJ]; [destruct x as [| |d]; try discriminate|].
  - rewrite lookup_canon_none by assumption.
    rewrite (canon_unfold c XEmptyIter) by (right; congruence).
    unfold C19Canon.canon. rewrite EJ. cbn [C19Canon.last_iter tail_of]. now rewrite app_nil_r.
  - rewrite lookup_canon_last by (right; congruence). reflexivity.
  - rewrite lookup_canon_last by (left; lia). rewrite canon_empty_iter_eq by lia.
    destruct x; try discriminate; [reflexivity|apply canon_empty_iter_eq; lia].
Qed.

Lemma mk_plate_canon c :
  mk_plate (step_of bs c) (canon c XEmptyIter) = canon c (XIncomplete empty_pdir).
Proof.
  unfold mk_plate, step_of. cbn [fst snd]. rewrite update_canon_last by discriminate.
  rewrite (canon_unfold c (XIncomplete empty_pdir)) by (right; congruence).
  cbn [tail_of]. rewrite app_nil_r. unfold ensure, C19Canon.plates_of.
  rewrite lookup_tab_out by lia. reflexivity.
Qed.

Lemma upd_plate_canon c d g :
  upd_plate (step_of bs c) g (canon c (XIncomplete d)) = canon c (XIncomplete (g d)).
Proof.
  unfold upd_plate, step_of. cbn [fst snd]. rewrite update_canon_last by discriminate.
  rewrite (canon_unfold c (XIncomplete (g d))) by (right; congruence).
  cbn [tail_of]. unfold C19Canon.plates_of. rewrite update_app_r by (apply lookup_tab_out; lia).
  now rewrite update_hd.
Qed.

Lemma publish_all_canon c o ks : forall d,
  publish_all (step_of bs c) o ks (canon c (XIncomplete d)) = canon c (XIncomplete (pub_fold o ks d)).
Proof.
  induction ks as [|k ks IH]; intros d; cbn [publish_all pub_fold]; [reflexivity|].
  now rewrite upd_plate_canon, IH.
Qed.

Definition sel_val (k : nat) : Z := match md with Retro => Z.of_nat k | Prosp => Z.of_nat (k mod bs) end.

Lemma ip_selected k : f_selected (ip k) = Some (sel_val k).
Proof. unfold C19Canon.ip, ideal_pdir, sel_val. destruct md; [reflexivity|]. now destruct (k mod bs)%nat. Qed.

Lemma ip_advanced_retro k : md = Retro -> f_advanced (ip k) = Some (seqZ (Z.of_nat k + 1) (n - k - 1)).
Proof. intros E. unfold C19Canon.ip, ideal_pdir. now rewrite E. Qed.

Lemma ip_training0 : md = Retro -> f_training (ip 0) = Some (seqZ 0 n).
Proof. intros E. unfold C19Canon.ip, ideal_pdir. now rewrite E. Qed.

Lemma ip_thetas_dist k : (k mod bs = 0)%nat -> f_thetas (ip k) && f_dist (ip k) = true.
Proof. intros E. unfold C19Canon.ip, ideal_pdir. rewrite E. now destruct md. Qed.

Lemma ip_by c : f_by (ip c) = Some (ideal_launch md bs c).
Proof. unfold C19Canon.ip, ideal_pdir. destruct md; [reflexivity|]. now destruct (c mod bs)%nat. Qed.

Lemma complete_ip c : complete_run md (ideal_launch md bs c) (ip c) = true.
Proof.
  unfold complete_run, C19Canon.ip, ideal_pdir, ideal_launch. destruct md.
  - destruct c as [|c'].
    + rewrite Nat.mod_0_l by lia. reflexivity.
    + destruct (S c' mod bs)%nat; reflexivity.
  - destruct (c mod bs)%nat; reflexivity.
Qed.

Definition excl_of (c : nat) : list Z :=
  match md with
  | Retro => seqZ (Z.of_nat (c - c mod bs)) (c mod bs)
  | Prosp => seqZ 0 (c mod bs)
  end.

Lemma selected_of_plates I : forall cnt a, (a + cnt <= bs)%nat ->
  selected_of (plates_of I a cnt) = seqZ (sel_val (I * bs + a)) cnt.
Proof.
  induction cnt as [|cnt IH]; intros a H; [reflexivity|].
  unfold C19Canon.plates_of. rewrite tab_cons. fold (plates_of I (S a) cnt).
  cbn [selected_of seqZ]. rewrite ip_selected, IH by lia. f_equal.
  destruct cnt as [|cnt']; [reflexivity|]. f_equal.
  unfold sel_val. destruct md; [lia|].
  destruct (dm_unique I a) as [_ H1]; [lia|]. destruct (dm_unique I (S a)) as [_ H2]; [lia|].
  rewrite H1, H2. lia.
Qed.

Lemma selected_plates_canon c x :
  is_inc x = false -> selected_plates (canon c x) (Z.of_nat (c / bs)) = excl_of c.
Proof.
  intros Hx. unfold selected_plates. destruct (dm_spec c) as [Hc Hr].
  assert (Hsel : selected_of (plates_of (c / bs) 0 (c mod bs)) = excl_of c).
  { rewrite selected_of_plates by lia. unfold excl_of, sel_val. destruct md.
    - do 2 f_equal. lia.
    - destruct (dm_unique (c / bs) 0) as [_ H1]; [lia|]. rewrite H1. reflexivity. }
  assert (Et : tail_of x (c mod bs) = []) by (destruct x; try reflexivity; discriminate).
  destruct (Nat.eq_dec (c mod bs) 0) as [EJ|EJ]; [destruct x as [| |d]; try discriminate|].
  - rewrite lookup_canon_none by assumption. unfold excl_of. rewrite EJ. now destruct md.
  - rewrite lookup_canon_last by (right; congruence).
    now rewrite Et, app_nil_r, (sort_plates_of md bs n).
  - rewrite lookup_canon_last by (left; lia).
    now rewrite Et, app_nil_r, (sort_plates_of md bs n).
Qed.

Lemma step_of_0 : step_of bs 0 = (0, 0).
Proof. unfold step_of. rewrite Nat.div_0_l, Nat.mod_0_l by lia. reflexivity. Qed.

Lemma step_of_iter_start c : (Z.of_nat (c / bs), 0) = step_of bs (c - c mod bs).
Proof.
  destruct (dm_spec c) as [Hc Hr]. destruct (dm_unique (c / bs) 0) as [H1 H2]; [lia|].
  unfold step_of. replace (c - c mod bs)%nat with (c / bs * bs + 0)%nat by lia. now rewrite H1, H2.
Qed.

Definition acts_of (c : nat) : list action :=
  [ARmTree (step_of bs c); AMkIter (Z.of_nat (c / bs)); AMkPlate (step_of bs c);
   ALaunch (step_of bs c) (ideal_launch md bs c)].

(* retrospective mode: every plate has been revealed *)
Definition all_done (c : nat) : bool := match md with Retro => (n <=? c)%nat | Prosp => false end.

Lemma ideal_launch_S c' : ideal_launch md bs (S c') =
  match md with
  | Retro => match (S c' mod bs)%nat with
             | O => LFirst (SFile (step_of bs c') KAdvanced) (SFile (0, 0) KTraining)
             | S _ => LNext (SFile (step_of bs c') KAdvanced) (Z.of_nat (S c' / bs), 0)
                        (seqZ (Z.of_nat (S c' - S c' mod bs)) (S c' mod bs))
             end
  | Prosp => match (S c' mod bs)%nat with
             | O => LProsp SInput
             | S _ => LNext SInput (Z.of_nat (S c' / bs), 0) (seqZ 0 (S c' mod bs))
             end
  end.
Proof. reflexivity. Qed.

Lemma no_plates_remain_canon c :
  (md = Retro -> (c <= n)%nat) -> no_plates_remain md (prev_meta md bs n c) = all_done c.
Proof.
  intros Hcn. unfold no_plates_remain, all_done. destruct md_cases as [E|E]; rewrite E; [|reflexivity].
  destruct c as [|c']; cbn [prev_meta].
  - symmetry. apply Nat.leb_gt. lia.
  - rewrite (meta_of_retro Retro bs n c' eq_refl). destruct (Nat.leb_spec n (S c')); [apply Z.leb_le|apply Z.leb_gt]; lia.
Qed.

Lemma next_action_canon c x scr :
  is_inc x = false -> (0 < c mod bs)%nat ->
  next_action (canon c x) (Z.of_nat (c / bs)) (Z.of_nat (c mod bs)) scr
  = match scr with
    | Some sp => ALaunch (step_of bs c) (LNext sp (Z.of_nat (c / bs), 0) (excl_of c))
    | None => AFail 9
    end.
Proof.
  intros Hx HJ. unfold next_action, has_thetas_dist. destruct (dm_spec c) as [Hc Hr].
  rewrite step_of_iter_start, get_plate_canon by lia. rewrite ip_thetas_dist.
  - rewrite <- step_of_iter_start. now rewrite selected_plates_canon.
  - pose proof (step_of_iter_start c) as E. unfold step_of in E. injection E as E1 E2. lia.
Qed.

(* the launch the script decides on is the one of the never-interrupted run *)
Lemma last_action_canon c x :
  is_inc x = false ->
  last_action md (canon c x) (Z.of_nat (c / bs)) (Z.of_nat (c mod bs)) (prev_screen md bs n c)
  = ALaunch (step_of bs c) (ideal_launch md bs c).
Proof.
  intros Hx. destruct (dm_spec c) as [Hc Hr]. unfold last_action.
  destruct c as [|c'].
  - rewrite step_of_0. unfold ideal_launch. rewrite Nat.div_0_l, Nat.mod_0_l by lia. now destruct md.
  - rewrite ideal_launch_S. change (step_of bs (S c')) with (Z.of_nat (S c' / bs), Z.of_nat (S c' mod bs)).
    destruct (S c' mod bs)%nat as [|j'] eqn:EJ.
    + (* first plate of a later iteration *)
      replace (Z.of_nat (S c' / bs) =? 0) with false by (symmetry; apply Z.eqb_neq; nia).
      unfold has_training. rewrite <- step_of_0, get_plate_canon by lia.
      unfold prev_screen, screen_of, C19Canon.ip, ideal_pdir. now destruct md.
    + replace (Z.of_nat (S j') =? 0) with false by (symmetry; apply Z.eqb_neq; lia).
      rewrite andb_false_r, <- EJ, !next_action_canon by (assumption || lia).
      unfold prev_screen, screen_of, C19Canon.ip, ideal_pdir, excl_of. now destruct md.
Qed.

Lemma plan_canon fixed c x :
  okx c x -> fixed = true \/ bs = 1%nat -> (md = Retro -> (c <= n)%nat) ->
  plan_of md fixed (Z.of_nat bs) (canon c x)
  = if is_inc x then PNamed 1 (step_of bs c) else if all_done c then PDone else PActs (acts_of c).
Proof.
  intros Hx Hfix Hcn. rewrite plan_of_eq, (examine_canon fixed c x Hx Hfix).
  destruct (is_inc x) eqn:Ex; [reflexivity|].
  rewrite (no_plates_remain_canon c Hcn), (last_action_canon c x Ex). reflexivity.
Qed.

Definition can_complete (c : nat) : Prop :=
  match md with Retro => (c < n)%nat | Prosp => (c mod bs < n)%nat end.

Lemma outputs_retro c d : md = Retro -> (c < n)%nat ->
  outputs n (canon c (XIncomplete d)) (ideal_launch md bs c) = ip c.
Proof.
  intros Emd Hc.
  assert (Hres : forall c', c = S c' -> resolve n (canon c (XIncomplete d)) (SFile (step_of bs c') KAdvanced)
                                        = Some (seqZ (Z.of_nat c) (S (n - c - 1)))).
  { intros c' ->. unfold resolve. rewrite get_plate_canon by lia. rewrite ip_advanced_retro by exact Emd.
    do 2 f_equal; lia. }
  unfold C19Canon.ip, ideal_pdir. destruct c as [|c'].
  - unfold ideal_launch. rewrite Emd, Nat.mod_0_l by lia.
    destruct n as [|n']; [lia|]. unfold outputs, sel_rev. rewrite select_head by (intros q []).
    rewrite reveal_head. cbn [f_training f_test f_thetas f_dist f_by Z.of_nat].
    replace (S n' - 0 - 1)%nat with n' by lia. reflexivity.
  - specialize (Hres c' eq_refl). rewrite ideal_launch_S. rewrite Emd in Hres |- *.
    destruct (S c' mod bs)%nat as [|j'] eqn:EJ; unfold outputs; rewrite Hres; unfold sel_rev; rewrite select_head.
    + rewrite reveal_head. reflexivity.
    + intros q [].
    + rewrite reveal_head. reflexivity.
    + intros q Hq. apply seqZ_in in Hq. pose proof (Nat.mod_le (S c') bs). lia.
Qed.

Lemma outputs_prosp c d : md = Prosp -> (c mod bs < n)%nat ->
  outputs n (canon c (XIncomplete d)) (ideal_launch md bs c) = ip c.
Proof.
  intros Emd Hc. unfold C19Canon.ip, ideal_pdir, ideal_launch. rewrite Emd.
  destruct (c mod bs)%nat as [|j'] eqn:EJ.
  - destruct n as [|n']; [lia|]. unfold outputs, resolve. rewrite select_head by (intros q []).
    unfold zlen. rewrite seqZ_length. reflexivity.
  - unfold outputs, resolve, sel_rev.
    replace n with (S j' + S (n - S j' - 1))%nat at 1 by lia.
    rewrite select_skip, Z.add_0_l. reflexivity.
Qed.

Lemma outputs_canon c d : can_complete c ->
  outputs n (canon c (XIncomplete d)) (ideal_launch md bs c) = ip c.
Proof.
  unfold can_complete. destruct md_cases as [E|E]; rewrite E at 1; [now apply outputs_retro|now apply outputs_prosp].
Qed.

(* prospective mode with fewer plates than a batch: nothing is left to select, no marker is written *)
Lemma outputs_stuck c d : md = Prosp -> (n <= c mod bs)%nat ->
  f_meta (outputs n (canon c (XIncomplete d)) (ideal_launch md bs c)) = None.
Proof.
  intros Emd Hc. unfold ideal_launch. rewrite Emd.
  destruct (c mod bs)%nat as [|j'] eqn:EJ; [lia|].
  unfold outputs, resolve, sel_rev. rewrite select_none by lia. reflexivity.
Qed.

Lemma pub_fold_meta_none o ps d :
  f_meta d = None -> f_meta o = None \/ inb KMeta ps = false -> f_meta (pub_fold o ps d) = None.
Proof.
  intros Hd H. pose proof (pub_fold_fields o ps d) as F. cbn zeta in F.
  destruct F as (_ & _ & _ & _ & _ & _ & F & _). rewrite F.
  destruct H as [H|H]; rewrite H; [now destruct (inb KMeta ps)|exact Hd].
Qed.

Lemma complete_run_meta l o : complete_run md l o = true -> f_meta o <> None.
Proof.
  unfold complete_run. intros H E. rewrite forallb_forall in H.
  specialize (H KMeta ltac:(destruct l; cbn; tauto)). cbn [produced] in H. now rewrite E in H.
Qed.

(* the pipeline run of step c, started in the freshly created directory and interrupted as the entry says *)
Definition launched (c : nat) (e : entry) : fs * logitem :=
  let l := ideal_launch md bs c in
  let o := outputs n (canon c (XIncomplete empty_pdir)) l in
  let allp := pubs_of o (e_order e) in
  let ps := firstn (e_k e - 4) allp in
  (canon c (XIncomplete (pub_fold o ps (set_by l empty_pdir))),
   GLaunch (step_of bs c) l ps ((length allp <=? e_k e - 4)%nat && complete_run md l o)).

(* one call from a canonical tree, in closed form *)
Definition attempt_on (c : nat) (x : extra) (e : entry) : fs * logitem :=
  if is_inc x then (canon c XEmptyIter, GNamed 1 (step_of bs c))
  else if all_done c then (canon c x, GDone)
  else match e_k e with
       | 0 | 1 => (canon c x, GStopped (e_k e))
       | 2 => (canon c XEmptyIter, GStopped 2)
       | 3 => (canon c (XIncomplete empty_pdir), GStopped 3)
       | _ => launched c e
       end%nat.

Lemma attempt_canon_eq fixed c x e :
  okx c x -> fixed = true \/ bs = 1%nat -> (md = Retro -> (c <= n)%nat) ->
  attempt md fixed (Z.of_nat bs) n (canon c x) e = attempt_on c x e.
Proof.
  intros Hx Hfix Hcn. unfold attempt, attempt_on. rewrite (plan_canon fixed c x Hx Hfix Hcn).
  destruct (is_inc x) eqn:Ex.
  { destruct x as [| |d]; try discriminate. now rewrite rmtree_canon_inc. }
  destruct (all_done c); [reflexivity|].
  pose proof (rmtree_canon c x Ex) as F1. pose proof (mk_iter_canon c x Ex) as F2. pose proof (mk_plate_canon c) as F3.
  unfold acts_of, launched. cbn [firstn nth].
  destruct (e_k e) as [|[|[|[|k']]]]; cbn [Nat.ltb Nat.leb firstn fold_left apply_action Nat.sub];
    rewrite ?F1, ?F2, ?F3; try reflexivity.
  now rewrite upd_plate_canon, publish_all_canon.
Qed.

(* every file is published: the step is complete *)
Lemma launched_all c e :
  can_complete c -> covers (e_order e) = true -> (length (pubs_of (ip c) (e_order e)) <= e_k e - 4)%nat ->
  launched c e = (canon (S c) XNone, GLaunch (step_of bs c) (ideal_launch md bs c) (pubs_of (ip c) (e_order e)) true).
Proof.
  intros Hcan Hcov Hall. unfold launched. rewrite (outputs_canon c empty_pdir Hcan).
  rewrite firstn_all2 by exact Hall. rewrite (pub_fold_all (ip c) _ (e_order e) Hcov (ip_by c)).
  apply Nat.leb_le in Hall. now rewrite Hall, complete_ip, canon_complete.
Qed.

(* otherwise the marker is missing: the step stays incomplete and the pipeline run has not succeeded *)
Lemma launched_cases c e :
  entry_ok e = true -> all_done c = false ->
  (can_complete c /\ exists ps, launched c e = (canon (S c) XNone, GLaunch (step_of bs c) (ideal_launch md bs c) ps true))
  \/ (exists d ps, launched c e = (canon c (XIncomplete d), GLaunch (step_of bs c) (ideal_launch md bs c) ps false)
                   /\ f_meta d = None).
Proof.
  intros He Hdone. apply andb_true_iff in He as [Hcov Hml].
  assert (Hdec : can_complete c \/ (md = Prosp /\ (n <= c mod bs)%nat)).
  { unfold can_complete, all_done in *. destruct md_cases as [E|E]; rewrite E in *.
    - left. now apply Nat.leb_gt.
    - destruct (lt_dec (c mod bs) n); [now left|right; split; [reflexivity|lia]]. }
  destruct Hdec as [Hcan|[Emd Hstuck]].
  - destruct (le_lt_dec (length (pubs_of (ip c) (e_order e))) (e_k e - 4)) as [Hall|Hpart].
    + left. split; [exact Hcan|]. eexists. now apply launched_all.
    + (* the marker is published last: a strict prefix of the publications does not hold it *)
      right. unfold launched. rewrite (outputs_canon c empty_pdir Hcan).
      apply Nat.leb_gt in Hpart as Hpart'. rewrite Hpart'. do 2 eexists. split; [reflexivity|].
      apply pub_fold_meta_none; [reflexivity|]. right.
      apply marker_last_prefix; [apply marker_last_filter; exact Hml|exact Hpart].
  - right. pose proof (outputs_stuck c empty_pdir Emd Hstuck) as Hm. unfold launched.
    destruct (complete_run md _ _) eqn:Hcr; [now apply complete_run_meta in Hcr|].
    rewrite andb_false_r. do 2 eexists. split; [reflexivity|].
    apply pub_fold_meta_none; [reflexivity|]. now left.
Qed.

(* the reachable states: completed steps 0..c-1, at most n of them in retrospective mode, and once all n are complete no
   incomplete directory is left over (no call launches any more) *)
Definition state_ok (c : nat) (x : extra) : Prop :=
  okx c x /\ (md = Retro -> (c <= n)%nat /\ (c = n -> is_inc x = false)).

Lemma state_ok_init : state_ok 0 XNone.
Proof. split; [exact I|]. intros _. split; [apply Nat.le_0_l|reflexivity]. Qed.

Lemma state_ok_le c x : state_ok c x -> md = Retro -> (c <= n)%nat.
Proof. intros [_ H] E. now destruct (H E). Qed.

Definition log_ok (c : nat) (g : logitem) : Prop :=
  match g with
  | GLaunch s l _ _ => s = step_of bs c /\ l = ideal_launch md bs c
  | GNamed _ s => s = step_of bs c
  | GFail _ => False
  | _ => True
  end.

(* what one call may do from a reachable state: it completes step c (exactly when the pipeline run succeeds), or completes
   nothing; it returns without acting only when all n steps are complete *)
Definition call_result (c c' : nat) (x' : extra) (g : logitem) : Prop :=
  state_ok c' x' /\ log_ok c g
  /\ ((c' = c /\ forall s l ps, g <> GLaunch s l ps true)
      \/ (c' = S c /\ x' = XNone /\ exists ps, g = GLaunch (step_of bs c) (ideal_launch md bs c) ps true))
  /\ (g = GDone -> md = Retro /\ c = n /\ c' = c).

(* a call that leaves the completed steps as they are *)
Lemma call_result_same c x' g :
  okx c x' -> (md = Retro -> (c <= n)%nat) -> (all_done c = true -> is_inc x' = false) -> log_ok c g ->
  (forall s l ps, g <> GLaunch s l ps true) -> (g = GDone -> all_done c = true) -> call_result c c x' g.
Proof.
  intros Hx' Hcn Hi Hlog Hno Hdone. unfold all_done in *.
  split; [split; [exact Hx'|]|split; [exact Hlog|split; [left; auto|]]].
  - intros E. specialize (Hcn E). rewrite E in Hi. split; [exact Hcn|]. intros ->. apply Hi, Nat.leb_refl.
  - intros Eg. specialize (Hdone Eg). destruct md_cases as [E|E]; rewrite E in Hdone; [|discriminate].
    apply Nat.leb_le in Hdone. specialize (Hcn E). repeat split; [exact E|lia].
Qed.

Theorem attempt_canon fixed c x e :
  state_ok c x -> fixed = true \/ bs = 1%nat -> entry_ok e = true ->
  exists c' x' g, attempt md fixed (Z.of_nat bs) n (canon c x) e = (canon c' x', g) /\ call_result c c' x' g.
Proof.
  intros Hs Hfix He. pose proof (state_ok_le c x Hs) as Hcn. destruct Hs as [Hx Hr].
  rewrite (attempt_canon_eq fixed c x e Hx Hfix Hcn). unfold attempt_on.
  assert (Hsame : forall x' g, call_result c c x' g -> exists c' x'' g', (canon c x', g) = (canon c' x'', g') /\ call_result c c' x'' g')
    by (intros x' g H; now exists c, x', g).
  destruct (is_inc x) eqn:Ex; [apply Hsame, call_result_same; (assumption || reflexivity || congruence)|].
  destruct (all_done c) eqn:Edone; [apply Hsame, call_result_same; (assumption || reflexivity || congruence)|].
  destruct (e_k e) as [|[|[|[|k']]]] eqn:Ek;
    try (apply Hsame, call_result_same; (exact I || assumption || reflexivity || congruence)).
  destruct (launched_cases c e He Edone) as [(Hcan & ps & ->)|(d & ps & -> & Hd)].
  - exists (S c), XNone. eexists. split; [reflexivity|].
    split; [|split; [split; reflexivity|split; [right; eauto|discriminate]]].
    split; [exact I|]. intros E. unfold can_complete in Hcan. rewrite E in Hcan. split; [lia|reflexivity].
  - apply Hsame, call_result_same; (assumption || congruence || (split; reflexivity)).
Qed.

Lemma attempt_named fixed c d e :
  okx c (XIncomplete d) -> fixed = true \/ bs = 1%nat -> (md = Retro -> (c <= n)%nat) ->
  attempt md fixed (Z.of_nat bs) n (canon c (XIncomplete d)) e = (canon c XEmptyIter, GNamed 1 (step_of bs c)).
Proof. intros Hx Hfix Hcn. now rewrite (attempt_canon_eq fixed c _ e Hx Hfix Hcn). Qed.

Lemma attempt_done fixed c x e :
  okx c x -> fixed = true \/ bs = 1%nat -> (md = Retro -> (c <= n)%nat) -> is_inc x = false -> all_done c = true ->
  attempt md fixed (Z.of_nat bs) n (canon c x) e = (canon c x, GDone).
Proof.
  intros Hx Hfix Hcn Hi Hd. rewrite (attempt_canon_eq fixed c x e Hx Hfix Hcn). unfold attempt_on. now rewrite Hi, Hd.
Qed.

(* a call that launches leaves the incomplete directory of the next step behind (possibly with all its files: canon_complete) *)
Lemma attempt_canon_launch fixed c x e s l ps ok :
  okx c x -> fixed = true \/ bs = 1%nat -> (md = Retro -> (c <= n)%nat) ->
  snd (attempt md fixed (Z.of_nat bs) n (canon c x) e) = GLaunch s l ps ok ->
  s = step_of bs c /\ all_done c = false
  /\ exists d, fst (attempt md fixed (Z.of_nat bs) n (canon c x) e) = canon c (XIncomplete d).
Proof.
  intros Hx Hfix Hcn. rewrite (attempt_canon_eq fixed c x e Hx Hfix Hcn). unfold attempt_on, launched.
  destruct (is_inc x), (all_done c), (e_k e) as [|[|[|[|k']]]]; cbn [fst snd]; try discriminate.
  intros H; injection H as <- _ _ _. eauto.
Qed.

(* an entry that lets the attempt run to its end *)
Definition full_entry (e : entry) : Prop := (4 + length (e_order e) <= e_k e)%nat.

Lemma filter_len {A} (p : A -> bool) l : (length (filter p l) <= length l)%nat.
Proof. induction l as [|a l IH]; cbn [filter length]; [lia|]. destruct (p a); cbn [length]; lia. Qed.

Lemma attempt_full fixed c x e :
  okx c x -> fixed = true \/ bs = 1%nat -> is_inc x = false ->
  can_complete c -> (md = Retro -> (c < n)%nat) -> entry_ok e = true -> full_entry e ->
  exists ps, attempt md fixed (Z.of_nat bs) n (canon c x) e
             = (canon (S c) XNone, GLaunch (step_of bs c) (ideal_launch md bs c) ps true).
Proof.
  intros Hx Hfix Hi Hcan Hcn He Hfull. apply andb_true_iff in He as [Hcov _].
  rewrite (attempt_canon_eq fixed c x e Hx Hfix) by (intros E; specialize (Hcn E); lia).
  unfold attempt_on, full_entry in *. rewrite Hi.
  replace (all_done c) with false
    by (unfold all_done; destruct md_cases as [E|E]; rewrite E; [symmetry; apply Nat.leb_gt; auto|reflexivity]).
  destruct (e_k e) as [|[|[|[|k']]]] eqn:Ek; try lia. eexists. apply launched_all; [exact Hcan|exact Hcov|].
  unfold pubs_of. pose proof (filter_len (produced (ip c)) (e_order e)). lia.
Qed.

Lemma step_of_split I a : (a < bs)%nat -> step_of bs (I * bs + a) = (Z.of_nat I, Z.of_nat a).
Proof. intros H. unfold step_of. destruct (dm_unique I a H) as [-> ->]. reflexivity. Qed.

Lemma completed_plates I : forall cnt a, (a + cnt <= bs)%nat ->
  flat_map (fun p : Z * pdir => match f_meta (snd p) with Some _ => [((Z.of_nat I, fst p), snd p)] | None => [] end)
           (plates_of I a cnt)
  = map (ideal_step md bs n) (seq (I * bs + a) cnt).
Proof.
  induction cnt as [|cnt IH]; intros a H; [reflexivity|].
  unfold C19Canon.plates_of. rewrite tab_cons. fold (plates_of I (S a) cnt).
  cbn [flat_map seq map fst snd]. rewrite (ip_meta md bs n). cbn [app]. rewrite IH by lia.
  unfold ideal_step at 2. rewrite step_of_split by lia.
  replace (I * bs + S a)%nat with (S (I * bs + a)) by lia. reflexivity.
Qed.

Lemma completed_of_iter_canon I J x : (J <= bs)%nat -> okx (I * bs + J) x ->
  completed_of_iter (Z.of_nat I, plates_of I 0 J ++ tail_of x J) = map (ideal_step md bs n) (seq (I * bs) J).
Proof.
  intros HJ Hx. unfold completed_of_iter. cbn [fst snd].
  pose proof (sort_plates I 0 J x) as Hs. cbn [Nat.add] in Hs. rewrite Hs.
  rewrite flat_map_app, completed_plates by lia. rewrite Nat.add_0_r.
  destruct x as [| |d]; cbn [tail_of flat_map]; rewrite ?app_nil_r; try reflexivity.
  cbn [snd]. cbn in Hx. rewrite Hx. now rewrite app_nil_r.
Qed.

Lemma completed_full : forall cnt a,
  flat_map completed_of_iter (tab full_iter a cnt) = map (ideal_step md bs n) (seq (a * bs) (cnt * bs)).
Proof.
  induction cnt as [|cnt IH]; intros a; [reflexivity|].
  rewrite tab_cons. cbn [flat_map]. rewrite IH.
  pose proof (completed_of_iter_canon a bs XNone (le_n bs) I) as H. cbn [tail_of] in H. rewrite app_nil_r in H.
  unfold C19Canon.full_iter.
  etransitivity; [apply (f_equal2 (@app _)); [exact H|reflexivity]|]. rewrite <- map_app. f_equal.
  replace (S cnt * bs)%nat with (bs + cnt * bs)%nat by lia. rewrite seq_app. do 2 f_equal. lia.
Qed.

Lemma completed_canon c x : okx c x -> completed (canon c x) = ideal md bs n c.
Proof.
  intros Hx. unfold completed. rewrite sort_canon. unfold C19Canon.canon. rewrite flat_map_app, completed_full.
  destruct (dm_spec c) as [Hc Hr]. unfold ideal. rewrite Hc at 4. rewrite seq_app, map_app. cbn [Nat.mul Nat.add]. f_equal.
  assert (Hx2 : okx (c / bs * bs + c mod bs) x) by (destruct x; cbn in *; auto).
  pose proof (completed_of_iter_canon (c / bs) (c mod bs) x (Nat.lt_le_incl _ _ Hr) Hx2) as H.
  unfold C19Canon.last_iter. destruct (c mod bs)%nat as [|j] eqn:EJ.
  - destruct x as [| |d]; [reflexivity| |]; cbn [flat_map]; rewrite H; reflexivity.
  - cbn [flat_map]. rewrite H. now rewrite app_nil_r.
Qed.

Lemma ideal_length c : length (ideal md bs n c) = c.
Proof. unfold ideal. now rewrite map_length, seq_length. Qed.

Lemma step_of_inj a b : step_of bs a = step_of bs b -> a = b.
Proof.
  unfold step_of. intros E. injection E as E1 E2. apply Nat2Z.inj in E1, E2.
  destruct (dm_spec a) as [Ha _]. destruct (dm_spec b) as [Hb _]. rewrite Ha, Hb, E1, E2. reflexivity.
Qed.

Lemma next_not_completed c : ~ In (step_of bs c) (map fst (ideal md bs n c)).
Proof.
  unfold ideal. rewrite map_map. cbn [ideal_step fst]. intros H. apply in_map_iff in H as (k & E & Hk).
  apply step_of_inj in E. apply in_seq in Hk. lia.
Qed.

End Step.
