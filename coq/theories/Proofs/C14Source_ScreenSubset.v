(* C14, one piece of Proofs/C14Source.v (conventions and objects: see there): Screen.subset *)
From Coq Require Import List.
From Batchie Require Import Lib.Sexp Lib.ListX Model.Views Generated.SrcViews
  Proofs.PyRtLemmas Proofs.C14Source_ScreenSize Proofs.C14Source_ViewInit.
Open Scope Z_scope.

Theorem src_screen_subset_is_model : forall (s : pyscreen) (sv : anyarray),
  src_screen_subset s sv = screen_subset (fst s) (snd s) (fst sv) (snd sv).
Proof.
  intros s sv. unfold src_screen_subset, screen_subset. destruct (negb (fst sv)); [reflexivity|].
  rewrite src_screen_size_is_model. cbn [res_bind]. rewrite of_nat_eqb.
  destruct (negb (Nat.eqb (length (snd sv)) (screen_size (snd s)))); [reflexivity|].
  rewrite src_view_init_is_model, res_bind_ret. reflexivity.
Qed.
