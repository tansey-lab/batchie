(* C06: the holder, argmin over the eligibility mask, the whole pipeline. *)
From Coq Require Import ZArith List Lia Sorted Permutation.
From Batchie Require Import Lib.Sexp Model.Scores Proofs.C06Split Proofs.C06Rows.
Import ListNotations.
Open Scope Z_scope.

Lemma add_score_at size (done rest : list slot) old pid sc :
  add_score (mkholder size (done ++ old :: rest) (length done)) pid sc
  = Ok (mkholder size (done ++ (pid, sc) :: rest) (S (length done))).
Proof.
  unfold add_score. cbn [h_cur h_slots h_size].
  replace (length done <? length (done ++ old :: rest))%nat with true
    by (symmetry; apply Nat.ltb_lt; rewrite app_length; cbn [length]; lia).
  rewrite firstn_app, firstn_all, Nat.sub_diag, skipn_app, skipn_all2 by lia.
  replace (S (length done) - length done)%nat with 1%nat by lia.
  cbn [firstn skipn app]. now rewrite app_nil_r.
Qed.

Lemma add_scores_fill size (done l : list slot) :
  add_scores (mkholder size (done ++ repeat (0, 0) (length l)) (length done)) l
  = Ok (mkholder size (done ++ l) (length done + length l)).
Proof.
  revert done; induction l as [|[pid sc] l IH]; intros done; cbn [add_scores length repeat].
  - now rewrite Nat.add_0_r.
  - rewrite add_score_at. cbn [res_bind].
    specialize (IH (done ++ [(pid, sc)])). rewrite <- !app_assoc, app_length, Nat.add_1_r in IH.
    cbn [app] in IH. rewrite Nat.add_succ_r. exact IH.
Qed.

Lemma exact_fill (answer : list slot) :
  add_scores (holder_new (length answer)) answer
  = Ok (mkholder (Z.of_nat (length answer)) answer (length answer)).
Proof. exact (add_scores_fill (Z.of_nat (length answer)) [] answer). Qed.

Definition slot_of (scorer : scorer_t) (p : Z * list irow) : slot := (fst p, scorer (fst p) (snd p)).

Theorem chunk_holder_exact scorer s batch n k ps :
  score_chunk s batch n k = Ok ps ->
  chunk_holder scorer s batch n k
  = Ok (mkholder (Z.of_nat (length ps)) (map (slot_of scorer) ps) (length ps)).
Proof.
  intros E. unfold chunk_holder, chunk_holder_of_answer. rewrite E. cbn [res_bind].
  rewrite <- (map_length (fun p => (fst p, scorer (fst p) (snd p))) ps) at 1.
  rewrite exact_fill. now rewrite map_length.
Qed.

Theorem overfill_raises h pid sc : (length (h_slots h) <= h_cur h)%nat -> add_score h pid sc = Err 4.
Proof.
  intros H. unfold add_score. destruct (h_cur h <? length (h_slots h))%nat eqn:E; [|reflexivity].
  apply Nat.ltb_lt in E. lia.
Qed.

Theorem save_load h :
  h_slots (h_load (h_save h)) = h_slots h /\ h_cur (h_load (h_save h)) = h_cur h /\
  h_size (h_load (h_save h)) = Z.of_nat (length (h_slots h)).
Proof. now repeat split. Qed.

Lemma fold_combine_slots t h :
  h_slots (fold_left h_combine t h) = h_slots h ++ concat (map h_slots t).
Proof.
  revert h; induction t as [|a t IH]; intros h; cbn [fold_left map concat]; [now rewrite app_nil_r|].
  rewrite IH. cbn [h_combine h_slots]. now rewrite app_assoc.
Qed.

Lemma h_concat_slots hs : hs <> [] ->
  exists h, h_concat hs = Ok h /\ h_slots h = concat (map h_slots hs).
Proof.
  destruct hs as [|a t]; [congruence|]. intros _. eexists. split; [reflexivity|].
  rewrite fold_combine_slots. reflexivity.
Qed.

(* files loaded one by one and combined: if loading x yields a holder with slots g x, the combined holder has
   the slots of all, in the order combined *)
Lemma combined_slots {A} (f : A -> result holder) (g : A -> list slot) l :
  l <> [] -> (forall x, In x l -> exists h, f x = Ok h /\ h_slots h = g x) ->
  exists hs h, res_map_all f l = Ok hs /\ h_concat hs = Ok h /\ h_slots h = concat (map g l).
Proof.
  intros Hne Hf.
  assert (exists hs, res_map_all f l = Ok hs /\ map h_slots hs = map g l) as (hs & Ehs & Hs).
  { clear Hne. induction l as [|x l IH]; [now exists []|].
    destruct (Hf x (or_introl eq_refl)) as (h & Eh & Hh).
    destruct IH as (hs & Ehs & Hs); [intros y Hy; apply Hf; now right|].
    exists (h :: hs). cbn [res_map_all map]. now rewrite Eh, Ehs, Hh, Hs. }
  destruct (h_concat_slots hs) as (h & Eh & Hh).
  { intros ->. destruct l; [congruence|discriminate]. }
  exists hs, h. now rewrite Hh, Hs.
Qed.

Lemma argmin_first_none l : argmin_first l = None -> l = [].
Proof.
  destruct l as [|x r]; [reflexivity|]. cbn [argmin_first].
  destruct (argmin_first r) as [y|]; [destruct (snd y <? snd x)|]; discriminate.
Qed.

Lemma argmin_first_spec l x : argmin_first l = Some x ->
  exists pre post, l = pre ++ x :: post /\
    (forall y, In y pre -> snd x < snd y) /\ (forall y, In y post -> snd x <= snd y).
Proof.
  revert x; induction l as [|a r IH]; intros x; cbn [argmin_first]; [discriminate|].
  destruct (argmin_first r) as [y|] eqn:Er.
  - destruct (IH y eq_refl) as (pre & post & -> & Hpre & Hpost).
    destruct (snd y <? snd a) eqn:E; intros Hx; injection Hx as <-.
    + apply Z.ltb_lt in E. exists (a :: pre), post. split; [reflexivity|]. split; [|exact Hpost].
      intros z [<-|Hz]; [exact E|now apply Hpre].
    + apply Z.ltb_ge in E. exists [], (pre ++ y :: post). split; [reflexivity|]. split; [intros z []|].
      intros z Hz. apply in_app_or in Hz. destruct Hz as [Hz|[<-|Hz]].
      * specialize (Hpre z Hz). lia.
      * exact E.
      * specialize (Hpost z Hz). lia.
  - intros Hx; injection Hx as <-. apply argmin_first_none in Er. subst r.
    exists [], []. split; [reflexivity|]. split; intros z [].
Qed.

Lemma argmin_first_In l x : argmin_first l = Some x -> In x l.
Proof. intros H. destruct (argmin_first_spec l x H) as (pre & post & -> & _). apply in_elt. Qed.

Lemma filter_split {A} (f : A -> bool) l pre x post :
  filter f l = pre ++ x :: post ->
  exists pre' post', l = pre' ++ x :: post' /\ filter f pre' = pre /\ filter f post' = post.
Proof.
  revert pre; induction l as [|a l IH]; intros pre; cbn [filter].
  - destruct pre; discriminate.
  - destruct (f a) eqn:E.
    + destruct pre as [|b pre]; cbn [app]; intros H; injection H as -> H.
      * exists [], l. cbn [filter app]. now repeat split.
      * destruct (IH pre H) as (pre' & post' & -> & H1 & H2).
        exists (b :: pre'), post'. cbn [filter app]. rewrite E, H1. now repeat split.
    + intros H. destruct (IH pre H) as (pre' & post' & -> & H1 & H2).
      exists (a :: pre'), post'. cbn [filter app]. rewrite E. now repeat split.
Qed.

(* plate_id_with_minimum_score: the first slot, in storage order, among the eligible slots
   of minimal score *)
Theorem min_plate_first h (eligible : list Z) pid :
  min_plate h (Some eligible) = Ok pid ->
  exists pre sc post,
    h_slots h = pre ++ (pid, sc) :: post /\ In pid eligible /\
    (forall i v, In (i, v) pre -> In i eligible -> sc < v) /\
    (forall i v, In (i, v) post -> In i eligible -> sc <= v).
Proof.
  unfold min_plate. destruct (argmin_first _) as [[i0 sc]|] eqn:E; [|discriminate].
  cbn [fst]. intros H; injection H as ->.
  destruct (argmin_first_spec _ _ E) as (pre & post & Hf & Hpre & Hpost).
  apply argmin_first_In, filter_In in E. destruct E as [_ Hel]. cbn [fst] in Hel. apply zmem_true in Hel.
  destruct (filter_split _ _ _ _ _ Hf) as (pre' & post' & Hs & H1 & H2).
  exists pre', sc, post'. split; [exact Hs|]. split; [exact Hel|]. split.
  - intros i v Hi He. apply (Hpre (i, v)). rewrite <- H1. apply filter_In. split; [exact Hi|].
    cbn [fst]. now apply zmem_true.
  - intros i v Hi He. apply (Hpost (i, v)). rewrite <- H2. apply filter_In. split; [exact Hi|].
    cbn [fst]. now apply zmem_true.
Qed.

(* ... hence a minimum over all eligible slots *)
Corollary min_plate_least h (eligible : list Z) pid :
  min_plate h (Some eligible) = Ok pid ->
  exists sc, In (pid, sc) (h_slots h) /\ In pid eligible /\
    forall i v, In (i, v) (h_slots h) -> In i eligible -> sc <= v.
Proof.
  intros H. destruct (min_plate_first _ _ _ H) as (pre & sc & post & Hs & Hel & Hpre & Hpost).
  exists sc. rewrite Hs. split; [apply in_elt|]. split; [exact Hel|].
  intros i v Hin Hi. apply in_app_or in Hin. destruct Hin as [Hin|[[= <- <-]|Hin]].
  - specialize (Hpre _ _ Hin Hi). lia.
  - lia.
  - exact (Hpost _ _ Hin Hi).
Qed.

Theorem min_plate_empty h eligible :
  (forall i v, In (i, v) (h_slots h) -> ~ In i eligible) -> min_plate h (Some eligible) = Err 6.
Proof.
  intros H. unfold min_plate.
  destruct (argmin_first _) as [[i v]|] eqn:E; [|reflexivity].
  apply argmin_first_In, filter_In in E. destruct E as [Hin Hz]. apply zmem_true in Hz. now elim (H i v).
Qed.

Lemma min_plate_ok h eligible i v :
  In (i, v) (h_slots h) -> In i eligible -> exists pid, min_plate h (Some eligible) = Ok pid.
Proof.
  intros Hin Hel. unfold min_plate.
  destruct (argmin_first _) as [sl|] eqn:E; [now exists (fst sl)|]. apply argmin_first_none in E.
  assert (Hf : In (i, v) (filter (fun sl => zmem (fst sl) eligible) (h_slots h)))
    by (apply filter_In; split; [exact Hin|now apply zmem_true]).
  rewrite E in Hf. contradiction.
Qed.

Lemma elig_incl policy s batch :
  (forall f, policy = Some f -> forall b c, incl (f b c) c) ->
  incl (eligible_plates policy s batch) (candidates s batch).
Proof.
  intros Hsub. unfold eligible_plates. destruct policy as [f|]; [|apply incl_refl].
  apply (Hsub f eq_refl).
Qed.

(* select_next on a holder in which every allowed plate has a slot and every slot carries a plate id of the screen:
   it does not raise, and answers the argmin over the allowed ids *)
Lemma select_next_ok policy s batch h :
  (forall p, In p (eligible_plates policy s batch) -> exists v, In (p_id p, v) (h_slots h)) ->
  (forall i v, In (i, v) (h_slots h) -> In i (map r_plate s)) ->
  exists r, select_next policy s batch h = Ok r /\
    match r with
    | None => eligible_plates policy s batch = []
    | Some pid => min_plate h (Some (map p_id (eligible_plates policy s batch))) = Ok pid
    end.
Proof.
  intros Hall Hscr. unfold select_next.
  destruct (eligible_plates policy s batch) as [|e0 er]; [now exists None|].
  destruct (Hall e0 (or_introl eq_refl)) as (v & Hv).
  destruct (min_plate_ok h (map p_id (e0 :: er)) _ _ Hv (or_introl eq_refl)) as (pid & Emin).
  rewrite Emin. cbn [res_bind].
  destruct (min_plate_least _ _ _ Emin) as (sc & Hin & _).
  rewrite (proj2 (zmem_true _ _) (Hscr _ _ Hin)). now exists (Some pid).
Qed.

Lemma select_next_some policy s batch h pid :
  select_next policy s batch h = Ok (Some pid) ->
  min_plate h (Some (map p_id (eligible_plates policy s batch))) = Ok pid.
Proof.
  unfold select_next. destruct (eligible_plates policy s batch) as [|e0 er]; [discriminate|].
  destruct (min_plate h _) as [best|t]; cbn [res_bind]; [|discriminate].
  destruct (zmem best (map r_plate s)); [|discriminate]. now intros [= ->].
Qed.

(* the slots of one loaded chunk file *)
Definition chunk_slots (scorer : scorer_t) (s : screen) (batch : list Z) (n k : Z) : list slot :=
  map (slot_of scorer) (map (handed_of s batch) (chunk_plates s batch n (Z.to_nat k))).

Lemma chunk_slots_In scorer s batch n k sl :
  In sl (chunk_slots scorer s batch n k) <->
  exists p, (p_id p, scorer (p_id p) (rows_for s batch p)) = sl /\ In p (chunk_plates s batch n (Z.to_nat k)).
Proof. unfold chunk_slots. rewrite map_map. apply in_map_iff. Qed.

Lemma load_chunk_slots scorer s batch n k : batch_valid s batch -> 0 <= k < n ->
  exists h, load_chunk scorer s batch n k = Ok h /\ h_slots h = chunk_slots scorer s batch n k.
Proof.
  intros Hb Hk. unfold load_chunk.
  rewrite (chunk_holder_exact scorer s batch n k _ (score_chunk_ok s batch n k Hb Hk)).
  eexists. split; reflexivity.
Qed.

(* a candidate is the plate get_plate builds for its id, so what the scorer says of it is its plate_score *)
Lemma plate_score_candidate scorer s batch p : In p (candidates s batch) ->
  scorer (p_id p) (rows_for s batch p) = plate_score scorer s batch (p_id p).
Proof. intros Hp. unfold plate_score. now rewrite <- (candidates_are_plates s batch p Hp). Qed.

(* Chunk files written by arbitrary calls: file x of the list l was written by scorer [sc x] for chunk index [ix x], and the
   files are combined in the order of l.  [pipeline] is the case of one scorer and l = the combine order, [pipeline_pos]
   that of one scorer per position of the combine order. *)
Section Calls.
Context {A : Type}.
Variable policy : option policy_t.
Variable s : screen.
Variable batch : list Z.
Variable n : Z.
Variable l : list A.
Variable sc : A -> scorer_t.
Variable ix : A -> Z.

Hypothesis policy_sub : forall f, policy = Some f -> forall b c, incl (f b c) c.
Hypothesis n_pos : 1 <= n.
Hypothesis batch_ok : batch_valid s batch.
Hypothesis covers : forall k, 0 <= k < n -> exists x, In x l /\ ix x = k.
Hypothesis in_range : forall x, In x l -> 0 <= ix x < n.

Let file_slots (x : A) : list slot := chunk_slots (sc x) s batch n (ix x).
Let selected : result (option Z) :=
  dor hs <- res_map_all (fun x => load_chunk (sc x) s batch n (ix x)) l;
  dor h <- h_concat hs;
  select_next policy s batch h.

Lemma calls_unfold :
  exists h, h_slots h = concat (map file_slots l) /\ selected = select_next policy s batch h.
Proof.
  destruct (combined_slots (fun x => load_chunk (sc x) s batch n (ix x)) file_slots l) as (hs & h & E1 & E2 & Hs).
  - destruct (covers 0 ltac:(lia)) as (x & Hx & _). intros E. now rewrite E in Hx.
  - intros x Hx. apply load_chunk_slots; [exact batch_ok|now apply in_range].
  - exists h. split; [exact Hs|]. unfold selected. rewrite E1. cbn [res_bind]. now rewrite E2.
Qed.

(* the combined holder: one slot per file and plate of the chunk the file's call scored *)
Lemma calls_slots_In sl : In sl (concat (map file_slots l)) <->
  exists x p, In x l /\ In p (chunk_plates s batch n (Z.to_nat (ix x))) /\ sl = (p_id p, sc x (p_id p) (rows_for s batch p)).
Proof.
  rewrite in_concat. split.
  - intros (c & Hc & Hsl). apply in_map_iff in Hc. destruct Hc as (x & <- & Hx).
    apply chunk_slots_In in Hsl. destruct Hsl as (p & <- & Hp). now exists x, p.
  - intros (x & p & Hx & Hp & ->). exists (file_slots x). split; [now apply in_map|].
    apply chunk_slots_In. now exists p.
Qed.

Lemma scored_by_a_call p : In p (candidates s batch) ->
  exists x, In x l /\ In p (chunk_plates s batch n (Z.to_nat (ix x))).
Proof.
  intros Hp. destruct (chunk_plates_cover s batch n p n_pos Hp) as (k & Hk & Hin).
  destruct (covers k Hk) as (x & Hx & <-). now exists x.
Qed.

(* no raise; the plate returned is a candidate, allowed, and the score SOME call stored for it is <= the score ANY call
   stored for ANY allowed plate *)
Theorem select_sound_calls :
  exists r, selected = Ok r /\
    match r with
    | None => eligible_plates policy s batch = []
    | Some pid =>
        In pid (map p_id (candidates s batch)) /\ In pid (map p_id (eligible_plates policy s batch)) /\
        exists x, In x l /\ In (get_plate s pid) (chunk_plates s batch n (Z.to_nat (ix x))) /\
          forall q y, In q (eligible_plates policy s batch) -> In y l ->
            In q (chunk_plates s batch n (Z.to_nat (ix y))) ->
            sc x pid (rows_for s batch (get_plate s pid)) <= sc y (p_id q) (rows_for s batch q)
    end.
Proof.
  destruct calls_unfold as (h & Hs & ->).
  pose proof (elig_incl policy s batch policy_sub) as Hincl.
  destruct (select_next_ok policy s batch h) as (r & Er & Hr).
  - intros p Hp. destruct (scored_by_a_call p (Hincl p Hp)) as (x & Hx & Hin).
    eexists. rewrite Hs. apply calls_slots_In. now exists x, p.
  - intros i v Hin. rewrite Hs in Hin. apply calls_slots_In in Hin. destruct Hin as (x & p & _ & Hp & [= -> _]).
    eapply candidates_on_screen, chunk_plates_cands, Hp.
  - exists r. split; [exact Er|]. destruct r as [pid|]; [|exact Hr].
    destruct (min_plate_least _ _ _ Hr) as (v & Hin & Hel & Hmin). rewrite Hs in Hin, Hmin.
    apply calls_slots_In in Hin. destruct Hin as (x & p & Hx & Hpc & [= -> ->]).
    pose proof (chunk_plates_cands _ _ _ _ _ Hpc) as Hp.
    split; [now apply in_map|]. split; [exact Hel|].
    exists x. rewrite <- (candidates_are_plates s batch p Hp). split; [exact Hx|]. split; [exact Hpc|].
    intros q y Hq Hy Hqin. apply (Hmin (p_id q)); [|now apply in_map]. apply calls_slots_In. now exists y, q.
Qed.

End Calls.

Section Pipeline.
Variable scorer : scorer_t.
Variable policy : option policy_t.
Variable s : screen.
Variable batch : list Z.
Variable n : Z.
Variable order : list Z.

Hypothesis policy_sub : forall f, policy = Some f -> forall b c, incl (f b c) c.
Hypothesis n_pos : 1 <= n.
Hypothesis batch_ok : batch_valid s batch.
Hypothesis order_covers : forall k, 0 <= k < n -> In k order.
Hypothesis order_in_range : forall k, In k order -> 0 <= k < n.

Let cands := candidates s batch.
Let elig := eligible_plates policy s batch.

(* the files are the chunk indices of [order], all written by [scorer] *)
Lemma order_covers_ix : forall k, 0 <= k < n -> exists x, In x order /\ x = k.
Proof. intros k Hk. exists k. split; [now apply order_covers|reflexivity]. Qed.

Lemma pipeline_unfold :
  exists h, h_slots h = concat (map (chunk_slots scorer s batch n) order) /\
            pipeline scorer policy s batch n order = select_next policy s batch h.
Proof. exact (calls_unfold policy s batch n order (fun _ => scorer) (fun k => k) n_pos batch_ok order_covers_ix order_in_range). Qed.

Definition select_post (r : option Z) : Prop :=
  match r with
  | None => elig = []
  | Some pid =>
      In pid (map p_id cands) /\ In pid (map p_id elig) /\
      forall q, In q elig -> plate_score scorer s batch pid <= plate_score scorer s batch (p_id q)
  end.

Theorem select_sound : exists r, pipeline scorer policy s batch n order = Ok r /\ select_post r.
Proof.
  destruct (select_sound_calls policy s batch n order (fun _ => scorer) (fun k => k)
              policy_sub n_pos batch_ok order_covers_ix order_in_range) as (r & Er & Hr).
  exists r. split; [exact Er|]. destruct r as [pid|]; [|exact Hr].
  destruct Hr as (Hc & He & _ & _ & _ & Hmin). split; [exact Hc|]. split; [exact He|].
  (* every allowed plate was scored by some call, and all calls use the one scorer *)
  intros q Hq. pose proof (elig_incl policy s batch policy_sub q Hq) as Hqc.
  destruct (scored_by_a_call s batch n order (fun k => k) n_pos order_covers_ix q Hqc) as (y & Hy & Hin).
  rewrite <- (plate_score_candidate scorer s batch q Hqc). exact (Hmin q y Hq Hy Hin).
Qed.

Theorem none_iff : pipeline scorer policy s batch n order = Ok None <-> elig = [].
Proof.
  destruct select_sound as (r & Er & Hpost). rewrite Er. split.
  - intros H. injection H as ->. exact Hpost.
  - intros He. destruct r as [pid|]; [|reflexivity].
    cbn [select_post] in Hpost. destruct Hpost as (_ & Hin & _). rewrite He in Hin. contradiction.
Qed.

(* ties: the plate returned is the first, in storage order (chunks in the order they were
   combined, each chunk in ascending plate id), among the allowed plates of minimal score *)
Theorem pipeline_first_min pid :
  pipeline scorer policy s batch n order = Ok (Some pid) ->
  exists pre post,
    concat (map (chunk_slots scorer s batch n) order) = pre ++ (pid, plate_score scorer s batch pid) :: post /\
    (forall i v, In (i, v) pre -> In i (map p_id elig) -> plate_score scorer s batch pid < v) /\
    (forall i v, In (i, v) post -> In i (map p_id elig) -> plate_score scorer s batch pid <= v).
Proof.
  destruct pipeline_unfold as (h & Hs & ->). intros H. apply select_next_some in H.
  destruct (min_plate_first _ _ _ H) as (pre & sc & post & Hsl & _ & Hpre & Hpost). rewrite Hs in Hsl.
  assert (Hin : In (pid, sc) (concat (map (chunk_slots scorer s batch n) order))) by (rewrite Hsl; apply in_elt).
  apply (calls_slots_In s batch n order (fun _ => scorer) (fun k => k)) in Hin.
  destruct Hin as (k & p & _ & Hp & [= -> Esc]). apply chunk_plates_cands in Hp. cbn beta in Esc.
  rewrite (plate_score_candidate scorer s batch p Hp) in Esc. subst sc. now exists pre, post.
Qed.

End Pipeline.

Lemma seq_Z_In (n : nat) k : In k (map Z.of_nat (seq 0 n)) <-> 0 <= k < Z.of_nat n.
Proof.
  rewrite in_map_iff. split.
  - intros (j & <- & Hj). apply in_seq in Hj. lia.
  - intros Hk. exists (Z.to_nat k). split; [lia|]. apply in_seq. lia.
Qed.

Theorem select_sound_perm scorer policy s batch (n : nat) order :
  (forall f, policy = Some f -> forall b c, incl (f b c) c) ->
  (0 < n)%nat -> batch_valid s batch ->
  Permutation order (map Z.of_nat (seq 0 n)) ->
  exists r, pipeline scorer policy s batch (Z.of_nat n) order = Ok r /\ select_post scorer policy s batch r.
Proof.
  intros Hpol Hn Hb Hperm. apply select_sound; try assumption; [lia| |].
  - intros k Hk. apply (Permutation_in _ (Permutation_sym Hperm)). now apply seq_Z_In.
  - intros k Hk. apply (Permutation_in _ Hperm) in Hk. now apply seq_Z_In.
Qed.

Lemma StronglySorted_app_cons {A} (R : A -> A -> Prop) l1 x l2 y :
  StronglySorted R (l1 ++ x :: l2) -> In y l2 -> R x y.
Proof.
  induction l1 as [|a l1 IH]; cbn [app]; intros H Hy; inversion H as [|? ? Hs Hall]; subst.
  - rewrite Forall_forall in Hall. now apply Hall.
  - now apply IH.
Qed.

Lemma identity_order_slots scorer s batch (n : nat) :
  (0 < n)%nat ->
  concat (map (chunk_slots scorer s batch (Z.of_nat n)) (map Z.of_nat (seq 0 n)))
  = map (fun p => (p_id p, scorer (p_id p) (rows_for s batch p))) (candidates s batch).
Proof.
  intros Hn. set (slot_for := fun p => (p_id p, scorer (p_id p) (rows_for s batch p))).
  rewrite map_map.
  rewrite (map_ext _ (fun j => map slot_for (chunk_plates s batch (Z.of_nat n) j)))
    by (intros j; unfold chunk_slots; now rewrite map_map, Nat2Z.id).
  rewrite <- (map_map (chunk_plates s batch (Z.of_nat n)) (map slot_for)), chunk_plates_all.
  now rewrite <- concat_map, array_split_concat.
Qed.

(* chunks combined in index order: ties go to the smallest plate id *)
Theorem ties_identity_order scorer policy s batch (n : nat) pid :
  (forall f, policy = Some f -> forall b c, incl (f b c) c) ->
  (0 < n)%nat -> batch_valid s batch ->
  pipeline scorer policy s batch (Z.of_nat n) (map Z.of_nat (seq 0 n)) = Ok (Some pid) ->
  forall q, In q (eligible_plates policy s batch) ->
    plate_score scorer s batch (p_id q) = plate_score scorer s batch pid -> pid <= p_id q.
Proof.
  intros Hpol Hn Hb Hpipe q Hq Heq.
  destruct (pipeline_first_min scorer policy s batch (Z.of_nat n) _ ltac:(lia) Hb
              (fun k => proj2 (seq_Z_In n k)) (fun k => proj1 (seq_Z_In n k)) pid Hpipe)
    as (pre & post & Hs & Hpre & Hpost).
  rewrite identity_order_slots in Hs by exact Hn.
  pose proof (elig_incl policy s batch Hpol q Hq) as Hqc.
  pose proof (in_map p_id _ _ Hq) as Hqe.
  assert (Hqs : In (p_id q, plate_score scorer s batch (p_id q)) (pre ++ (pid, plate_score scorer s batch pid) :: post)).
  { rewrite <- Hs. apply in_map_iff. exists q. split; [|exact Hqc]. now rewrite (plate_score_candidate scorer s batch q Hqc). }
  apply in_app_or in Hqs. destruct Hqs as [Hqs|[[= <- _]|Hqs]].
  - specialize (Hpre _ _ Hqs Hqe). lia.
  - lia.
  - (* after pid in storage order, which here is the order of the ids *)
    assert (Hsorted : StronglySorted Z.lt (map fst (pre ++ (pid, plate_score scorer s batch pid) :: post)))
      by (rewrite <- Hs, map_map; apply candidates_spec).
    rewrite map_app in Hsorted. apply Z.lt_le_incl, (StronglySorted_app_cons _ _ _ _ _ Hsorted).
    apply in_map_iff. now exists (p_id q, plate_score scorer s batch (p_id q)).
Qed.
