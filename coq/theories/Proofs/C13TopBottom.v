(* C13: MergeTopBottom - merges stay within a sample; one iteration halves (rounding up) the
   number of plates of the sample and leaves the other samples' plates alone. *)
From Coq Require Import ZArith List Lia Permutation.
From Batchie Require Import Lib.Sexp Proofs.PyRtLemmas Lib.ListX Model.Encode Model.Screen Model.Retro Proofs.C11Lib Proofs.C13NPlate Proofs.C13MergeLib.
Import ListNotations.
Open Scope nat_scope.

(* sorted(plates, key=size) permutes the plates *)
Lemma insert_sz_map (f : name -> bvec) : forall x l,
  exists l', Permutation l' (x :: l) /\ insert_sz (f x) (map f l) = map f l'.
Proof.
  intros x l. induction l as [|y l (l' & HP & He)]; cbn [map insert_sz].
  - exists [x]. split; reflexivity.
  - destruct (vcount (f x) <=? vcount (f y)).
    + exists (x :: y :: l). split; reflexivity.
    + exists (y :: l'). split; [rewrite HP; apply perm_swap|]. cbn [map]. now rewrite He.
Qed.

Lemma sort_sz_map (f : name -> bvec) : forall l,
  exists l', Permutation l' l /\ sort_sz (map f l) = map f l'.
Proof.
  induction l as [|x l (l' & HP & He)]; cbn [map sort_sz fold_right].
  - exists []. split; reflexivity.
  - change (fold_right insert_sz [] (map f l)) with (sort_sz (map f l)). rewrite He.
    destruct (insert_sz_map f x l') as (l'' & HP' & He'). exists l''. split; [|exact He'].
    rewrite HP'. now constructor.
Qed.

Lemma combine_map2 {A B} (f : A -> B) : forall (la lb : list A),
  combine (map f la) (map f lb) = map (fun ab => (f (fst ab), f (snd ab))) (combine la lb).
Proof.
  induction la as [|a la IH]; intros [|b lb]; cbn [map combine fst snd]; try reflexivity. now rewrite IH.
Qed.

Lemma NoDup_drop_mid {A} : forall (a m b : list A), NoDup (a ++ m ++ b) -> NoDup (a ++ b).
Proof.
  induction a as [|x a IH]; intros m b H; cbn [app] in *.
  - now destruct (NoDup_app_inv _ _ H) as (_ & H2 & _).
  - inversion H as [|? ? Hn Hd]; subst. constructor; [|eapply IH; exact Hd].
    intros Hin. apply Hn. apply in_app_or in Hin as [Hin|Hin]; apply in_or_app; [now left|right].
    apply in_or_app. now right.
Qed.

Lemma NoDup_top_bottom {A} : forall (l : list A) h, NoDup l -> 2 * h <= length l ->
  NoDup (firstn h l ++ firstn h (rev l)).
Proof.
  intros l h Hnd Hh. rewrite firstn_rev.
  eapply Permutation_NoDup; [apply Permutation_app_head, Permutation_rev|].
  apply (NoDup_drop_mid _ (firstn (length l - 2 * h) (skipn h l))).
  replace (skipn (length l - h) l) with (skipn (length l - 2 * h) (skipn h l))
    by (rewrite skipn_skipn; f_equal; lia).
  now rewrite (firstn_skipn (length l - 2 * h)), firstn_skipn.
Qed.

Section Pairs.
Variables (s : name) (rows0 : list row).

Lemma tb_pairs_effect : forall (npairs : list (name * name)) rows,
  one_sample rows ->
  NoDup (map fst npairs ++ map snd npairs) ->
  (forall c, In c (map fst npairs ++ map snd npairs) ->
     In c (sample_plates s rows) /\ plate_vec c rows = plate_vec c rows0) ->
  let out := tb_merge_pairs (map (fun ab => (plate_vec (fst ab) rows0, plate_vec (snd ab) rows0)) npairs) rows in
  one_sample out /\
  length (sample_plates s rows) = length npairs + length (sample_plates s out) /\
  forall s', s' <> s -> sample_plates s' out = sample_plates s' rows.
Proof.
  induction npairs as [|[sm bg] npairs IH]; intros rows Hone Hnd Hin; cbn [map tb_merge_pairs fst snd length].
  - auto.
  - cbn [map fst snd app] in Hnd, Hin.
    assert (Hsm : In sm (sample_plates s rows) /\ plate_vec sm rows = plate_vec sm rows0) by (apply Hin; now left).
    assert (Hbg : In bg (sample_plates s rows) /\ plate_vec bg rows = plate_vec bg rows0).
    { apply Hin. right. apply in_or_app. right. now left. }
    destruct Hsm as [Hsm Vsm]. destruct Hbg as [Hbg Vbg].
    assert (Hne : bg <> sm).
    { intros E. inversion Hnd as [|? ? Hn _]; subst. apply Hn. apply in_or_app. right. now left. }
    rewrite <- Vsm, <- Vbg, merge_exact. cbn [snd].
    set (rows1 := merge_names bg sm rows).
    pose proof (eff_one_sample s bg sm rows Hone Hbg Hsm) as Hone1.
    pose proof (eff_plates s bg sm rows Hone Hbg Hsm) as Hpl.
    pose proof (eff_other_samples s bg sm rows Hone Hbg Hsm) as Hos.
    pose proof (eff_other_vec s bg sm rows Hbg) as Hov.
    fold rows1 in Hone1, Hpl, Hos, Hov.
    assert (Hnd' : NoDup (map fst npairs ++ map snd npairs)).
    { inversion Hnd as [|? ? _ Hd]; subst. apply (NoDup_drop_mid _ [bg]) . cbn [app]. exact Hd. }
    assert (Hrest : forall c, In c (map fst npairs ++ map snd npairs) -> c <> sm /\ c <> bg).
    { intros c Hc. inversion Hnd as [|? ? Hn Hd]; subst. split.
      - intros ->. apply Hn. apply in_app_or in Hc as [Hc|Hc]; apply in_or_app; [now left|right; now right].
      - intros ->. apply NoDup_remove_2 in Hd. apply Hd. exact Hc. }
    destruct (IH rows1 Hone1 Hnd') as (I1 & I2 & I3).
    { intros c Hc. destruct (Hrest c Hc) as [Hc1 Hc2].
      assert (Hc' : In c (sample_plates s rows) /\ plate_vec c rows = plate_vec c rows0).
      { apply Hin. apply in_app_or in Hc as [Hc|Hc]; [right; apply in_or_app; now left|].
        right. apply in_or_app. right. now right. }
      destruct Hc' as [Hc3 Hc4]. split.
      - apply Hpl. split; [exact Hc3|]. right. split; congruence.
      - rewrite Hov by congruence. exact Hc4. }
    split; [exact I1|]. split.
    + rewrite (eff_plates_length s bg sm rows Hone Hbg Hsm Hne). fold rows1. lia.
    + intros s' Hs'. rewrite (I3 s' Hs'). now apply Hos.
Qed.
End Pairs.

Theorem tb_iter_halves : forall s rows,
  match tb_iter s rows with
  | Ok (Some rows') =>
      one_sample rows' /\
      length (sample_plates s rows') = (length (sample_plates s rows) + 1) / 2 /\
      forall s', s' <> s -> sample_plates s' rows' = sample_plates s' rows
  | Ok None => one_sample rows /\ length (sample_plates s rows) <= 1
  | Err _ => True
  end.
Proof.
  intros s rows. unfold tb_iter.
  destruct (plates_of_sample s rows) as [ps|t] eqn:Ep; cbn [res_bind]; [|exact I].
  destruct (plates_of_sample_spec _ _ _ Ep) as (Hone & Hnd & Hmem).
  assert (Hlen : length ps = length (sample_plates s rows)).
  { apply Permutation_length, NoDup_Permutation; [exact Hnd|apply NoDup_sort_uniq|exact Hmem]. }
  destruct (length ps <=? 1) eqn:El.
  - apply Nat.leb_le in El. split; [exact Hone|lia].
  - apply Nat.leb_gt in El.
    destruct (sort_sz_map (fun p => plate_vec p rows) ps) as (ps' & HP & Hs). rewrite Hs.
    rewrite map_length. set (h := length ps' / 2).
    assert (Hl' : length ps' = length ps) by now apply Permutation_length.
    assert (Hh : 2 * h <= length ps').
    { unfold h. pose proof (Nat.div_mod (length ps') 2 ltac:(lia)). lia. }
    rewrite <- map_rev, !firstn_map, combine_map2.
    set (npairs := combine (firstn h ps') (firstn h (rev ps'))).
    assert (Hfl : length (firstn h ps') = length (firstn h (rev ps'))).
    { rewrite !firstn_length, rev_length. reflexivity. }
    destruct (map_combine _ _ Hfl) as [Hf1 Hf2]. fold npairs in Hf1, Hf2.
    assert (Hnp : length npairs = h).
    { unfold npairs. rewrite combine_length, !firstn_length, rev_length. lia. }
    destruct (tb_pairs_effect s rows npairs rows Hone) as (I1 & I2 & I3).
    + rewrite Hf1, Hf2. apply NoDup_top_bottom; [|exact Hh]. eapply Permutation_NoDup; [symmetry; exact HP|exact Hnd].
    + intros c Hc. split; [|reflexivity]. apply Hmem. eapply Permutation_in; [exact HP|].
      rewrite Hf1, Hf2 in Hc. apply in_app_or in Hc as [Hc|Hc]; [eapply In_firstn; exact Hc|].
      apply In_firstn in Hc. now apply in_rev.
    + split; [exact I1|]. split; [|exact I3].
      rewrite Hnp in I2. unfold h in I2. rewrite Hl', Hlen in I2.
      pose proof (Nat.div_mod (length (sample_plates s rows)) 2 ltac:(lia)) as D1.
      pose proof (Nat.mod_upper_bound (length (sample_plates s rows)) 2 ltac:(lia)) as D2.
      pose proof (Nat.div_mod (length (sample_plates s rows) + 1) 2 ltac:(lia)) as D3.
      pose proof (Nat.mod_upper_bound (length (sample_plates s rows) + 1) 2 ltac:(lia)) as D4.
      lia.
Qed.

(* merges stay within a sample: when at least one iteration runs the screen is (and stays)
   one-sample-per-plate; otherwise nothing is merged *)
Lemma tb_iters_one_sample : forall n s rows out, tb_iters n s rows = Ok out -> one_sample rows -> one_sample out.
Proof.
  induction n as [|n IH]; intros s rows out H Hone; cbn [tb_iters] in H; [now inversion H; subst|].
  pose proof (tb_iter_halves s rows) as Hh.
  destruct (tb_iter s rows) as [[rows1|]|t]; cbn [res_bind] in H; try discriminate.
  - eapply IH; [exact H|apply Hh].
  - now inversion H; subst.
Qed.

Lemma tb_iters_first : forall n s rows out, tb_iters (S n) s rows = Ok out -> one_sample rows.
Proof.
  intros n s rows out H. cbn [tb_iters] in H. pose proof (tb_iter_halves s rows) as Hh.
  destruct (tb_iter s rows) as [[rows1|]|t] eqn:E; cbn [res_bind] in H; try discriminate.
  - unfold tb_iter in E. destruct (plates_of_sample s rows) as [ps|t] eqn:Ep; [|discriminate].
    now destruct (plates_of_sample_spec _ _ _ Ep).
  - apply Hh.
Qed.

Lemma tb_samples_one_sample : forall n samples rows out,
  tb_samples n samples rows = Ok out -> one_sample rows -> one_sample out.
Proof.
  induction samples as [|s samples IH]; intros rows out H Hone; cbn [tb_samples] in H; [now inversion H; subst|].
  apply res_bind_inv in H as (rows1 & E & H); cbn beta iota in H.
  eapply IH; [exact H|]. eapply tb_iters_one_sample; eassumption.
Qed.

Lemma tb_samples_zero : forall samples rows out, tb_samples 0 samples rows = Ok out -> out = rows.
Proof.
  induction samples as [|s l IH]; intros rows out H; cbn [tb_samples tb_iters res_bind] in H; [now inversion H|].
  now apply IH.
Qed.

Theorem merge_tb_same_sample : forall n rows out,
  merge_tb n rows = Ok out -> one_sample out \/ ((n <= 0)%Z /\ out = rows).
Proof.
  intros n rows out H. unfold merge_tb in H.
  destruct (Z.to_nat n) as [|k] eqn:En.
  - right. split; [lia|]. eapply tb_samples_zero; exact H.
  - left. destruct (sample_names rows) as [|s l] eqn:Es.
    + apply sample_names_nil in Es. subst rows. inversion H; subst. intros r1 r2 [].
    + cbn [tb_samples] in H. apply res_bind_inv in H as (rows1 & E & H); cbn beta iota in H.
      eapply tb_samples_one_sample; [exact H|]. eapply tb_iters_one_sample; [exact E|].
      eapply tb_iters_first; exact E.
Qed.
