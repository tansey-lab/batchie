(* One piece of Proofs/C18SourceParser.v (which see): the option table of evaluate_model.get_parser(), read from /repo on every run
   (Generated/SrcParser_evaluate_model.v), provides what the argument record of that command assumes. *)
From Coq Require Import List.
From Batchie Require Import Model.Cli Proofs.C18Parser Generated.SrcParser_evaluate_model.

Theorem parser_evaluate_model_fields : forall f, In f (ev_fields ++ logging_fields) -> declares src_parser_evaluate_model f.
Proof. apply declares_all. vm_compute. reflexivity. Qed.

Theorem parser_evaluate_model_dests_derived : dests_derived src_parser_evaluate_model.
Proof. apply dests_derived_sound. vm_compute. reflexivity. Qed.

Theorem parser_evaluate_model_dests_distinct : dests_distinct src_parser_evaluate_model.
Proof. apply dests_distinct_sound. vm_compute. reflexivity. Qed.
