(* C08, source-translation links, second part:
     batchie.fast_mvn.sample_mvn_from_precision            (Generated/SrcMvn.v)      = Model/Mvn.v
     LegacySparseDrugComboImpl.__init__ / reset_model      (Generated/SrcGibbsObj.v) = the initial / reset state, whose
       shapes are the shape hypotheses of the block links of Proofs/C08Source.v; every block preserves them for
       well-shaped answers, hence the closed whole-sweep statement
     SparseDrugCombo.get_model_state / step / n_obs / reset_model / set_rng (wrappers). *)
From Coq Require Import List QArith Qcanon Lia.
From Batchie Require Import Lib.ListX Lib.Sexp Lib.PyRt Lib.Num Model.Gibbs Model.Mvn Generated.SrcGibbs Generated.SrcMvn Generated.SrcGibbsObj
  Proofs.C08Sums Proofs.C08Cache Proofs.C08Mvn Proofs.C08Source.
Import ListNotations.
Open Scope Qc_scope.

Lemma vnth_map_rows (f : list Qc -> Qc) (M : list (list Qc)) k : f [] = 0 -> vnth (map f M) k = f (rnth M k).
Proof. intros H. unfold vnth, rnth. rewrite <- H at 1. apply map_nth. Qed.

(* entry (j, k) of the transpose is entry (k, j) - also outside the matrix, where both are 0 *)
Lemma transpose_entry n (M : list (list Qc)) j k : (j < n)%nat ->
  vnth (rnth (np_transpose n M) j) k = vnth (rnth M k) j.
Proof.
  intros Hj. unfold np_transpose. rewrite rnth_tab by exact Hj.
  apply (vnth_map_rows (fun r => vnth r j)). apply vnth_nil.
Qed.

Lemma solve_upper_go_is_back_go (L : list (list Qc)) z n : forall j acc, (j <= n)%nat ->
  solve_upper_go (np_transpose n L) z n j acc = back_go n L z j acc.
Proof.
  induction j as [|j IH]; intros acc Hj; cbn [solve_upper_go back_go]; [reflexivity|].
  rewrite IH by lia. f_equal. f_equal. rewrite transpose_entry by lia. f_equal. f_equal.
  apply sumn_ext. intros t _. now rewrite transpose_entry by lia.
Qed.

Lemma transpose_length n (M : list (list Qc)) : length (np_transpose n M) = n.
Proof. apply tab_length. Qed.

(* solve_triangular(L.T, z, lower=False) is the model's back substitution with L *)
Lemma solve_upper_transpose (L : list (list Qc)) z :
  solve_upper (np_transpose_sq L) z = back_subst (length L) L z.
Proof.
  unfold solve_upper, np_transpose_sq, back_subst. rewrite transpose_length. now apply solve_upper_go_is_back_go.
Qed.

Lemma back_go_length D L z : forall j acc, length (back_go D L z j acc) = (j + length acc)%nat.
Proof. induction j as [|j IH]; intros acc; cbn [back_go]; [reflexivity|]. rewrite IH. cbn [length]. lia. Qed.

Lemma back_subst_length D L z : length (back_subst D L z) = D.
Proof. unfold back_subst. rewrite back_go_length. cbn [length]. lia. Qed.

(* the forward substitution reads row j only up to the diagonal: rows may be cut / padded to n entries *)
Lemma fwd_go_trunc n : forall rows b acc, (length acc + length rows <= n)%nat ->
  fwd_go (map (fun r => tab n (vnth r)) rows) b acc = fwd_go rows b acc.
Proof.
  induction rows as [|r rows IH]; intros b acc H; cbn [map fwd_go]; [reflexivity|].
  destruct b as [|bj b]; [reflexivity|]. cbn [length] in H. rewrite IH by (rewrite app_length; cbn [length]; lia).
  f_equal. f_equal. f_equal. rewrite vnth_tab by lia. f_equal. f_equal.
  unfold vdot. apply sumn_ext. intros k Hk. now rewrite vnth_tab by lia.
Qed.

Lemma rows_as_tab (M : list (list Qc)) : M = tab (length M) (rnth M).
Proof. apply (list_eq_map_nth M []). Qed.

Lemma transpose_twice (L : list (list Qc)) :
  np_transpose_sq (np_transpose_sq L) = map (fun r => tab (length L) (vnth r)) L.
Proof.
  unfold np_transpose_sq. rewrite transpose_length. remember (length L) as n eqn:En.
  transitivity (map (fun r => tab n (vnth r)) (tab n (rnth L))); [|f_equal; rewrite En; symmetry; apply rows_as_tab].
  unfold np_transpose at 1. unfold tab at 3. rewrite map_map. apply map_ext_in. intros j Hj. apply in_seq in Hj.
  rewrite (map_as_tab_gen [] (fun r => vnth r j)), transpose_length. apply tab_ext. intros k Hk.
  change (nth k (np_transpose n L) []) with (rnth (np_transpose n L) k). now apply transpose_entry.
Qed.

(* cho_solve((L.T, False), b) is the model's mean Q^-1 b computed from L *)
Lemma cho_solve_transpose (L : list (list Qc)) b :
  cho_solve_upper (np_transpose_sq L) b = mvn_mean (length L) L b.
Proof.
  unfold cho_solve_upper, mvn_mean. rewrite solve_upper_transpose. f_equal.
  rewrite transpose_twice. unfold fwd_subst. apply fwd_go_trunc. cbn [length]. lia.
Qed.

Lemma vadd_is_np_vadd D a b : length a = D -> length b = D -> np_vadd a b = vadd D a b.
Proof.
  intros Ha Hb. unfold np_vadd, vadd. rewrite (zipw_nth Qcplus 0 0) by congruence. now rewrite Ha.
Qed.

Lemma mvn_mean_length D L b : length (mvn_mean D L b) = D.
Proof. apply back_subst_length. Qed.

(* everything after the factorisation, for the factor L: the draw node, the two solves, the addition *)
Lemma src_mvn_tail lin_solve (Q L : list (list Qc)) (mu mu_part : option (list Qc)) :
  geq (dmv r__3 <- mp_draw_std (Z.of_nat (length Q));
       let z' : list qnum := r__3 in
       dmv result' <- (if false then
           let result' : list qnum := lin_solve (np_transpose_sq L) z' in mp_ret result'
         else
           let result' : list qnum := solve_upper (np_transpose_sq L) z' in mp_ret result');
       dmv result' <- (if is_some mu_part then
           dmv u__4 <- mp_unwrap mu_part;
           let result' := np_vadd result' (cho_solve_upper (np_transpose_sq L) u__4) in mp_ret result'
         else
           dmv result' <- (if is_some mu then
               dmv u__5 <- mp_unwrap mu; let result' := np_vadd result' u__5 in mp_ret result'
             else mp_ret result');
           mp_ret result');
       mp_ret result')
      (GDraw (DNormalVec (repeat 1 (length Q))) (fun v =>
        let x := back_subst (length L) L (val_v v) in
        GRet (Ok (match mu_part, mu with
                  | Some b, _ => vadd (length L) x (mvn_mean (length L) L b)
                  | None, Some m => np_vadd x m
                  | None, None => x
                  end)))).
Proof.
  unfold mp_draw_std, mp_bind at 1. cbn [gbind]. rewrite Nat2Z.id. constructor. intros v. cbv zeta.
  rewrite solve_upper_transpose.
  destruct mu_part as [b|]; [|destruct mu as [m|]]; cbn [is_some mp_unwrap mp_bind mp_ret gbind];
    rewrite ?cho_solve_transpose, ?(vadd_is_np_vadd (length L)) by (apply back_subst_length || apply mvn_mean_length);
    apply geq_refl.
Qed.

(* the whole function, for every argument combination (chol: any function; lin_solve, reached only for a masked array:
   any function; the generator argument does not matter to the program of draws) *)
Theorem src_sample_mvn_general chol lin_solve Q mu mu_part chol_factor rng :
  geq (src_sample_mvn_from_precision chol lin_solve Q mu mu_part chol_factor rng) (mvn_general chol Q mu mu_part chol_factor).
Proof.
  unfold src_sample_mvn_from_precision, mvn_general. cbv zeta.
  destruct chol_factor; cbn [negb].
  - unfold mp_bind at 1. unfold mp_ret at 1. cbn [gbind]. apply (src_mvn_tail lin_solve).
  - unfold mp_bind at 1. unfold mp_bind at 1. unfold mp_lift. cbn [gbind]. destruct (chol Q) as [L|t]; cbn [gbind mp_ret].
    + apply (src_mvn_tail lin_solve).
    + apply geq_refl.
Qed.

(* ... as the Gibbs blocks call it: sample_mvn_from_precision(Q, mu_part=b) with the defaults mu=None, chol_factor=False, rng=None *)
Theorem src_sample_mvn_is_model chol lin_solve Q b rng :
  geq (src_sample_mvn_from_precision chol lin_solve Q None (Some b) false rng) (mvn_prog chol Q b).
Proof.
  eapply geq_trans; [apply src_sample_mvn_general|]. unfold mvn_general, mvn_prog, sample_mvn.
  destruct (chol Q); apply geq_refl.
Qed.

Lemma np_zeros1_nat n : np_zeros1 (Z.of_nat n) = Ok (repeat 0 n).
Proof. unfold np_zeros1. destruct (Z.ltb_spec (Z.of_nat n) 0); [lia|]. now rewrite Nat2Z.id. Qed.
Lemma np_ones1_nat n : np_ones1 (Z.of_nat n) = Ok (repeat 1 n).
Proof. unfold np_ones1. destruct (Z.ltb_spec (Z.of_nat n) 0); [lia|]. now rewrite Nat2Z.id. Qed.
Lemma np_zeros2_nat a b : np_zeros2 (Z.of_nat a, Z.of_nat b) = Ok (repeat (repeat 0 b) a).
Proof.
  unfold np_zeros2. cbn [fst snd]. destruct (Z.ltb_spec (Z.of_nat a) 0); [lia|]. destruct (Z.ltb_spec (Z.of_nat b) 0); [lia|].
  cbn [orb]. now rewrite !Nat2Z.id.
Qed.

(* records: projections of setters.  (The translated constructor is a chain of some forty rebindings of `self`; it is
   opened with cbv, never with unfold / zeta alone - the kernel compares let-expanded terms as trees.) *)
Ltac obj_red := cbv beta iota zeta delta [W W0 V2 V1 V0 alpha prec tau tau0 phi2 phi1 phi0 eta2 eta1 eta0 gam Mu set_W set_W0 set_V2 set_V1 set_V0 set_alpha set_prec set_tau set_tau0 set_phi2 set_phi1 set_phi0 set_eta2 set_eta1 set_eta0 set_gam set_Mu o_y o_cl o_dd1 o_dd2 o_cidx o_1idx o_2idx set_o_y set_o_cl set_o_dd1 set_o_dd2 set_o_cidx set_o_1idx set_o_2idx pi_D pi_ndd pi_ncl pi_minMu pi_maxMu pi_a0 pi_b0 pi_individual_eff pi_intercept pi_fake_intercept pi_local_shrinkage pi_mult_gamma_proc pi_steps pi_obs pi_st set_pi_D set_pi_ndd set_pi_ncl set_pi_minMu set_pi_maxMu set_pi_a0 set_pi_b0 set_pi_individual_eff set_pi_intercept set_pi_fake_intercept set_pi_local_shrinkage set_pi_mult_gamma_proc set_pi_steps set_pi_obs set_pi_st pi_set_W pi_set_W0 pi_set_V2 pi_set_V1 pi_set_V0 pi_set_alpha pi_set_prec pi_set_tau pi_set_tau0 pi_set_phi2 pi_set_phi1 pi_set_phi0 pi_set_eta2 pi_set_eta1 pi_set_eta0 pi_set_gam pi_set_Mu pi_set_o_y pi_set_o_cl pi_set_o_dd1 pi_set_o_dd2 pi_set_o_cidx pi_set_o_1idx pi_set_o_2idx].

(* the constructor, for any previous content of the object (every attribute is assigned; with mult_gamma_proc = False
   `gam` would not be) *)
Theorem src_impl_init_is_model self0 D ndd ncl ic fi ie ls a0 b0 mn mx :
  src_impl_init self0 (Z.of_nat D) (Z.of_nat ndd) (Z.of_nat ncl) ic fi ie true ls a0 b0 mn mx
  = Ok (init_obj D ndd ncl ic fi ie true ls a0 b0 mn mx).
Proof.
  cbv beta delta [src_impl_init]. obj_red.
  rewrite !np_zeros2_nat. cbn [res_bind]. rewrite !np_zeros1_nat. cbn [res_bind]. rewrite !np_ones1_nat. cbn [res_bind].
  obj_red.
  change (np_zeros1 0%Z) with (np_zeros1 (Z.of_nat 0)). rewrite np_zeros1_nat. cbn [res_bind repeat].
  unfold init_obj, init_st, obs_empty. obj_red. unfold np_ones_like2, np_ones_like1, np_smul, q1. rewrite !map_repeat, !Qcmult_1_r.
  reflexivity.
Qed.

(* a negative size: numpy refuses the allocation (ValueError), no object is built *)
Theorem src_impl_init_negative self0 nd ndd ncl ic fi ie mgp ls a0 b0 mn mx :
  (nd < 0 \/ ndd < 0 \/ ncl < 0)%Z -> src_impl_init self0 nd ndd ncl ic fi ie mgp ls a0 b0 mn mx = Err 7%Z.
Proof.
  intros H. cbv beta delta [src_impl_init]. obj_red. unfold np_zeros2, np_zeros1. cbn [fst snd].
  destruct (Z.ltb_spec ndd 0); cbn [orb res_bind]; [reflexivity|].
  destruct (Z.ltb_spec nd 0); cbn [orb res_bind]; [reflexivity|].
  destruct (Z.ltb_spec ncl 0); cbn [orb res_bind]; [reflexivity|]. lia.
Qed.

(* reset_model: exactly the five embeddings, alpha, prec and Mu are reset; everything else is kept *)
Theorem src_impl_reset_is_model o : src_impl_reset_model o = Ok (set_pi_st o (reset_st (pi_st o))).
Proof.
  cbv beta delta [src_impl_reset_model]. obj_red. change (np_zeros1 0%Z) with (np_zeros1 (Z.of_nat 0)). rewrite np_zeros1_nat.
  cbn [res_bind repeat]. unfold reset_st. obj_red. rewrite !mul0_vec, !mul0_mat. reflexivity.
Qed.

Lemma prog_eq_ws_of_eq p q : prog_eq p q -> prog_eq_ws p q.
Proof. induction 1 as [s|dr k1 k2 _ IH]; constructor. intros v _. apply IH. Qed.

Lemma prog_eq_ws_refl p : prog_eq_ws p p.
Proof. apply prog_eq_ws_of_eq, prog_eq_refl. Qed.

Lemma prog_eq_ws_sym p q : prog_eq_ws p q -> prog_eq_ws q p.
Proof. induction 1 as [s|dr k1 k2 _ IH]; constructor; assumption. Qed.

Lemma prog_eq_ws_trans p q r : prog_eq_ws p q -> prog_eq_ws q r -> prog_eq_ws p r.
Proof.
  intros H; revert r. induction H as [s|dr k1 k2 _ IH]; intros r Hr; [exact Hr|].
  inversion Hr as [|dr' k2' k3 Hk]; subst. constructor. intros v Hv. apply IH; [exact Hv | apply Hk, Hv].
Qed.

(* programs equal in this sense answer every well-shaped stream of drawn values alike *)
Lemma prog_eq_ws_run p q : prog_eq_ws p q -> forall vals, answers_ok p vals -> run_prog p vals = run_prog q vals.
Proof.
  induction 1 as [s|dr k1 k2 _ IH]; intros vals Hok; [reflexivity|].
  cbn [run_prog]. destruct vals as [|v r]; [reflexivity|]. cbn [answers_ok] in Hok. destruct Hok as [Hv Hr].
  now rewrite (IH v Hv r Hr).
Qed.

Lemma all_rets_ws_of_all P p : all_rets P p -> all_rets_ws P p.
Proof. induction p as [s|dr k IH]; cbn [all_rets all_rets_ws]; [auto|]. intros H v _. apply IH, H. Qed.

Lemma all_rets_ws_weaken (P R : st -> Prop) p : (forall s, P s -> R s) -> all_rets_ws P p -> all_rets_ws R p.
Proof. intros HPR. induction p as [s|dr k IH]; cbn [all_rets_ws]; [auto|]. intros H v Hv. apply IH, H, Hv. Qed.

Lemma all_rets_ws_bind P p f : all_rets_ws (fun s => all_rets_ws P (f s)) p -> all_rets_ws P (bind p f).
Proof. induction p as [s|dr k IH]; cbn [bind all_rets_ws]; [auto|]. intros H v Hv. apply IH, H, Hv. Qed.

Lemma all_rets_ws_eq P p q : prog_eq_ws p q -> all_rets_ws P q -> all_rets_ws P p.
Proof. induction 1 as [s|dr k1 k2 _ IH]; cbn [all_rets_ws]; [auto|]. intros H v Hv. apply IH; [exact Hv | apply H, Hv]. Qed.

Lemma all_rets_ws_run P p : all_rets_ws P p -> forall vals s', answers_ok p vals -> snd (run_prog p vals) = Some s' -> P s'.
Proof.
  induction p as [s|dr k IH]; cbn [all_rets_ws run_prog answers_ok]; intros H vals s' Hok Hrun.
  - destruct vals; cbn [snd] in Hrun; [|discriminate]. now injection Hrun as <-.
  - destruct vals as [|v r]; cbn [snd] in Hrun; [discriminate|]. destruct Hok as [Hv Hr]. exact (IH v (H v Hv) r s' Hr Hrun).
Qed.

Lemma all_rets_ws_seq_blocks (P : st -> Prop) blocks :
  (forall b, In b blocks -> forall s v, P s -> val_ok (fst (b s)) v -> P (snd (b s) v)) ->
  forall s, P s -> all_rets_ws P (seq_blocks blocks s).
Proof.
  induction blocks as [|b r IH]; intros Hb s Hs; cbn [seq_blocks all_rets_ws]; [exact Hs|].
  intros v Hv. apply IH; [intros b' Hb'; apply Hb; now right|]. apply Hb; [now left | exact Hs | exact Hv].
Qed.

(* bind is a congruence on the states the first program can return *)
Lemma bind_cong_ws (I : st -> Prop) p p' f f' :
  prog_eq_ws p p' -> all_rets_ws I p' -> (forall s, I s -> prog_eq_ws (f s) (f' s)) -> prog_eq_ws (bind p f) (bind p' f').
Proof.
  intros H HI Hf. induction H as [s|dr k1 k2 _ IH]; cbn [bind all_rets_ws] in *; [apply Hf, HI|].
  constructor. intros v Hv. apply IH; [exact Hv | apply HI, Hv].
Qed.

Lemma run_right_cong_ws (J : st -> Prop) step step' bs :
  (forall b s, In b bs -> J s -> prog_eq_ws (step b s) (step' b s) /\ all_rets_ws J (step' b s)) ->
  forall s, J s -> prog_eq_ws (run_right step bs s) (run_right step' bs s).
Proof.
  induction bs as [|b r IH]; intros H s Hs; cbn [run_right]; [apply prog_eq_ws_refl|].
  destruct (H b s (or_introl eq_refl) Hs) as [He Hr].
  apply (bind_cong_ws J); [exact He | exact Hr|]. intros s' Hs'. apply IH; [|exact Hs']. intros b' s'' Hin. apply H. now right.
Qed.

Lemma all_rets_ws_run_right (J : st -> Prop) step bs :
  (forall b s, In b bs -> J s -> all_rets_ws J (step b s)) -> forall s, J s -> all_rets_ws J (run_right step bs s).
Proof.
  induction bs as [|b r IH]; intros H s Hs; cbn [run_right all_rets_ws]; [exact Hs|].
  apply all_rets_ws_bind. eapply all_rets_ws_weaken; [|apply H; [now left | exact Hs]].
  intros s' Hs'. apply IH; [|exact Hs']. intros b' s'' Hin. apply H. now right.
Qed.

(* reduces every field read of a state that is written as a chain of setters *)
Ltac st_red := cbn [W W0 V2 V1 V0 alpha prec tau tau0 phi2 phi1 phi0 eta2 eta1 eta0 gam Mu
                    set_W set_W0 set_V2 set_V1 set_V0 set_alpha set_prec set_tau set_tau0 set_phi2 set_phi1 set_phi0
                    set_eta2 set_eta1 set_eta0 set_gam set_Mu].
Lemma shape2_set_nth (M : list (list Qc)) n D c r : shape2 M n D -> length r = D -> shape2 (set_nth c r M) n D.
Proof.
  intros [Hl Hr] Hlen. split; [now rewrite set_nth_length|].
  intros i Hi. unfold rnth. destruct (Nat.eq_dec c i) as [->|Hne].
  - rewrite nth_set_nth_eq by lia. exact Hlen.
  - rewrite nth_set_nth_neq by exact Hne. now apply Hr.
Qed.

Lemma shape2_repeat (x : Qc) n D : shape2 (repeat (repeat x D) n) n D.
Proof.
  split; [apply repeat_length|]. intros i Hi. unfold rnth. rewrite nth_repeat_in by exact Hi. apply repeat_length.
Qed.

(* after __init__ every shape hypothesis of the block links holds, and the cache is empty *)
Theorem init_shapes g : shapes g (init_st g) /\ Mu (init_st g) = [].
Proof. unfold shapes, init_st; st_red. repeat split; try apply shape2_repeat; apply repeat_length. Qed.

(* ... and reset_model keeps them *)
Theorem reset_shapes g s : shapes g s -> shapes g (reset_st s) /\ Mu (reset_st s) = [].
Proof.
  unfold shapes, reset_st; st_red. intros (HW & HW0 & HV2 & HV1 & HV0 & H).
  pose proof (shape2_map (fun _ => 0) _ _ _ HW) as HW'. pose proof (shape2_map (fun _ => 0) _ _ _ HV2) as HV2'.
  pose proof (shape2_map (fun _ => 0) _ _ _ HV1) as HV1'. split; [|reflexivity]. rewrite !map_length. tauto.
Qed.

Section Keep.
Variable g : cfg.
Variable d : data.
Variable orc : oracle.

(* in_sweep of a state that differs from an in_sweep state by stores of the same sizes *)
Ltac keep := unfold in_sweep, shapes in *; st_red;
  rewrite ?set_nth_length, ?scatter_add_length, ?map_length; tauto.

Lemma keep_block_W0 s c v : in_sweep g d s -> in_sweep g d (snd (block_W0 d s c) v).
Proof. intros Hs. unfold block_W0. destruct (positions _ _); cbn [snd]; keep. Qed.

Lemma keep_block_V0 s m v : in_sweep g d s -> in_sweep g d (snd (block_V0 d s m) v).
Proof. intros Hs. unfold block_V0. destruct (_ ++ _); cbn [snd]; keep. Qed.

Lemma keep_block_W s c v : in_sweep g d s -> val_ok (fst (block_W g d s c)) v -> in_sweep g d (snd (block_W g d s c) v).
Proof.
  intros Hs Hv. unfold block_W in *. destruct (positions _ _) as [|i0 cidx]; cbn [fst snd] in *.
  - destruct Hv as (l & -> & Hl). rewrite map_length in Hl. cbn [val_v].
    assert (HW : shape2 (set_nth c l (W s)) (c_ncl g) (c_D g)) by (apply shape2_set_nth; unfold in_sweep, shapes in Hs; [tauto | lia]).
    unfold in_sweep, shapes in *; st_red; tauto.
  - destruct Hv as [->|(l & -> & Hl)]; [exact Hs|]. unfold gramQ in Hl. rewrite tab_length in Hl.
    assert (HW : shape2 (set_nth c l (W s)) (c_ncl g) (c_D g)) by (apply shape2_set_nth; unfold in_sweep, shapes in Hs; [tauto | lia]).
    unfold in_sweep, shapes in *; st_red. rewrite scatter_add_length. tauto.
Qed.

Lemma keep_block_V2 s m v : in_sweep g d s -> val_ok (fst (block_V2 g d s m)) v -> in_sweep g d (snd (block_V2 g d s m) v).
Proof.
  intros Hs Hv. unfold block_V2, block_V in *. destruct (_ ++ _) as [|i0 idx]; cbn [fst snd] in *.
  - destruct Hv as (l & -> & Hl). unfold lam_V2 in Hl. rewrite map_length, tab_length in Hl. cbn [val_v].
    assert (HW : shape2 (set_nth m l (V2 s)) (c_ndd g) (c_D g)) by (apply shape2_set_nth; unfold in_sweep, shapes in Hs; [tauto | lia]).
    unfold in_sweep, shapes in *; st_red; tauto.
  - destruct Hv as [->|(l & -> & Hl)]; [exact Hs|]. unfold gramQ in Hl. rewrite tab_length in Hl.
    assert (HW : shape2 (set_nth m l (V2 s)) (c_ndd g) (c_D g)) by (apply shape2_set_nth; unfold in_sweep, shapes in Hs; [tauto | lia]).
    unfold in_sweep, shapes in *; st_red. rewrite scatter_add_length. tauto.
Qed.

Lemma keep_block_V1 s m v : in_sweep g d s -> val_ok (fst (block_V1 g d s m)) v -> in_sweep g d (snd (block_V1 g d s m) v).
Proof.
  intros Hs Hv. unfold block_V1, block_V in *. destruct (_ ++ _) as [|i0 idx]; cbn [fst snd] in *.
  - destruct Hv as (l & -> & Hl). unfold lam_V1 in Hl. rewrite map_length, tab_length in Hl. cbn [val_v].
    assert (HW : shape2 (set_nth m l (V1 s)) (c_ndd g) (c_D g)) by (apply shape2_set_nth; unfold in_sweep, shapes in Hs; [tauto | lia]).
    unfold in_sweep, shapes in *; st_red; tauto.
  - destruct Hv as [->|(l & -> & Hl)]; [exact Hs|]. unfold gramQ in Hl. rewrite tab_length in Hl.
    assert (HW : shape2 (set_nth m l (V1 s)) (c_ndd g) (c_D g)) by (apply shape2_set_nth; unfold in_sweep, shapes in Hs; [tauto | lia]).
    unfold in_sweep, shapes in *; st_red. rewrite scatter_add_length. tauto.
Qed.

Lemma keep_prog_gam ds : forall s, in_sweep g d s -> all_rets_ws (in_sweep g d) (prog_gam g d orc ds s).
Proof.
  induction ds as [|dd r IH]; intros s Hs; cbn [prog_gam all_rets_ws].
  - unfold in_sweep, shapes in *; st_red. rewrite map_length, cumprod_length. tauto.
  - intros v _. apply IH. keep.
Qed.

Lemma keep_reconstruct clip s : sweep_ready g d s -> in_sweep g d (reconstruct_Mu g d clip s).
Proof.
  intros [Hs HMu]. unfold reconstruct_Mu. destruct (nobs d) as [|n] eqn:En.
  - split; [exact Hs | lia].
  - unfold in_sweep, shapes in *; st_red. destruct clip; rewrite ?map_length; unfold reconstruct; rewrite tab_length; tauto.
Qed.

Lemma in_sweep_ready s : in_sweep g d s -> sweep_ready g d s.
Proof. intros [Hs HMu]. split; [exact Hs | lia]. Qed.

(* every step function keeps the shapes and the length of the cache, for well-shaped answers *)
Theorem step_keeps b s : in_sweep g d s -> all_rets_ws (in_sweep g d) (step_prog g d orc b s).
Proof.
  intros Hs. destruct b; cbn [step_prog].
  - cbn [all_rets_ws]. apply keep_reconstruct, in_sweep_ready, Hs.
  - cbn [all_rets_ws]. unfold alpha_step. destruct (nobs d) eqn:En; [exact Hs|]. keep.
  - apply all_rets_ws_seq_blocks; [|exact Hs]. refine (range_blocks _ (fun c s' => block_W0 d s' c) _ _). intros c _ s0 v Hs0 _. now apply keep_block_W0.
  - apply all_rets_ws_seq_blocks; [|exact Hs]. refine (range_blocks _ (fun c s' => block_V0 d s' c) _ _). intros c _ s0 v Hs0 _. now apply keep_block_V0.
  - apply all_rets_ws_seq_blocks; [|exact Hs]. refine (range_blocks _ (fun c s' => block_W g d s' c) _ _). intros c _ s0 v Hs0 Hv. now apply keep_block_W.
  - apply all_rets_ws_seq_blocks; [|exact Hs]. refine (range_blocks _ (fun c s' => block_V2 g d s' c) _ _). intros c _ s0 v Hs0 Hv. now apply keep_block_V2.
  - apply all_rets_ws_seq_blocks; [|exact Hs]. refine (range_blocks _ (fun c s' => block_V1 g d s' c) _ _). intros c _ s0 v Hs0 Hv. now apply keep_block_V1.
  - unfold prog_prec_W0. cbn [all_rets_ws]. intros v _. keep.
  - unfold prog_prec_V0. cbn [all_rets_ws]. intros v1 _ v2 _ v3 _ v4 _. unfold in_sweep, shapes in *; st_red. rewrite tab_length. tauto.
  - unfold prog_prec_obs. destruct (nobs d) eqn:En; cbn [all_rets_ws]; intros v _; keep.
  - unfold prog_prec_V2, prog_prec_Vk. cbn [all_rets_ws]. intros v1 _ v2 _ v3 _ v4 _.
    pose proof (tab2_shape (c_ndd g) (c_D g) (fun m k => clipC orc (n_occ d m) (vnth (rnth (val_m v2) m) k))) as Hsh. unfold tab2 in Hsh.
    unfold in_sweep, shapes in *; st_red. rewrite tab_length. tauto.
  - unfold prog_prec_V1, prog_prec_Vk. cbn [all_rets_ws]. intros v1 _ v2 _ v3 _ v4 _.
    pose proof (tab2_shape (c_ndd g) (c_D g) (fun m k => clipC orc (n_occ d m) (vnth (rnth (val_m v2) m) k))) as Hsh. unfold tab2 in Hsh.
    unfold in_sweep, shapes in *; st_red. rewrite tab_length. tauto.
  - unfold prog_prec_W. now apply keep_prog_gam.
Qed.
End Keep.

(* what mcmc_step's thirteen calls run: the translated methods, the option flags as the object holds them *)
Definition src_run (fake_intercept local_shrinkage mult_gamma_proc : bool) (g : cfg) (d : data) (orc : oracle)
    (b : blk) (s : st) : gprog st :=
  match b with
  | BReconstruct => src_reconstruct_Mu g d false s
  | BAlpha => src_alpha_step g d fake_intercept s
  | BW0 => src_W0_step g d s
  | BV0 => src_V0_step g d s
  | BW => src_W_step g d s
  | BV2 => src_V2_step g d s
  | BV1 => src_V1_step g d s
  | BPrecW0 => src_prec_W0_step g d orc s
  | BPrecV0 => src_prec_V0_step g d orc local_shrinkage s
  | BPrecObs => src_prec_obs_step g d orc s
  | BPrecV2 => src_prec_V2_step g d orc local_shrinkage s
  | BPrecV1 => src_prec_V1_step g d orc local_shrinkage s
  | BPrecW => src_prec_W_step g d orc mult_gamma_proc s
  end.

Lemma shape2_len M n D : shape2 M n D -> length M = n.
Proof. now intros [H _]. Qed.

(* every block link of the first part, its shape hypotheses discharged by [shapes] *)
Theorem src_block_is_model g d orc b s : data_ok d -> (0 < c_D g)%nat -> shapes g s -> (b = BReconstruct \/ length (Mu s) = nobs d) ->
  prog_eq (to_prog (src_run true true true g d orc b s)) (step_prog g d orc b s).
Proof.
  intros (Hd1 & Hd2 & Hd3) HD (HW & HW0 & HV2 & HV1 & HV0 & Htau & Hp2 & Hp1 & Hp0 & He2 & He1 & Hgam) HMu.
  destruct b; cbn [src_run].
  - rewrite src_reconstruct_Mu_is_model by assumption. apply prog_eq_refl.
  - rewrite src_alpha_step_is_model. apply prog_eq_refl.
  - now apply src_W0_step_is_model.
  - now apply src_V0_step_is_model.
  - apply src_W_step_is_model; [eapply shape2_len; eassumption | assumption..].
  - apply src_V2_step_is_model; [eapply shape2_len; eassumption | assumption..].
  - apply src_V1_step_is_model; [eapply shape2_len; eassumption | assumption..].
  - apply src_prec_W0_step_is_model.
  - now apply src_prec_V0_step_is_model.
  - apply src_prec_obs_step_is_model. destruct HMu as [HMu|HMu]; [discriminate | exact HMu].
  - now apply src_prec_V2_step_is_model.
  - now apply src_prec_V1_step_is_model.
  - now apply src_prec_W_step_is_model.
Qed.

Definition step_rest : list blk := [BAlpha; BW0; BV0; BW; BV2; BV1; BPrecW0; BPrecV0; BPrecObs; BPrecV2; BPrecV1; BPrecW].
Lemma step_order_split : step_order = BReconstruct :: step_rest.
Proof. reflexivity. Qed.

Lemma mcmc_step_right g d orc s : prog_eq (mcmc_step g d orc s) (run_right (step_prog g d orc) step_order s).
Proof. apply (run_blocks_with_right (step_prog g d orc)). Qed.

(* a sweep started with well-shaped arrays and a cache no longer than the data ends with well-shaped arrays and a cache of
   the data's length, for well-shaped answers *)
Theorem sweep_keeps g d orc s : sweep_ready g d s -> all_rets_ws (in_sweep g d) (mcmc_step g d orc s).
Proof.
  intros Hs. eapply all_rets_ws_eq; [apply prog_eq_ws_of_eq, mcmc_step_right|].
  rewrite step_order_split. cbn [run_right step_prog bind].
  apply all_rets_ws_run_right; [|now apply keep_reconstruct]. intros b s' _ Hs'. now apply step_keeps.
Qed.

(* the translated mcmc_step running the translated block methods is the model's sweep, on well-shaped answers *)
Theorem src_sweep_is_model g d orc n s : data_ok d -> (0 < c_D g)%nat -> sweep_ready g d s ->
  prog_eq_ws (to_prog (src_mcmc_step (src_run true true true g d orc) n s)) (mcmc_step g d orc s).
Proof.
  intros Hd HD [Hs HMu].
  eapply prog_eq_ws_trans; [apply prog_eq_ws_of_eq, src_mcmc_step_order|].
  eapply prog_eq_ws_trans; [apply prog_eq_ws_of_eq, run_blocks_with_right|].
  eapply prog_eq_ws_trans; [|apply prog_eq_ws_sym, prog_eq_ws_of_eq, mcmc_step_right].
  rewrite step_order_split. cbn [run_right].
  apply (bind_cong_ws (in_sweep g d)).
  - apply prog_eq_ws_of_eq, src_block_is_model; auto.
  - cbn [step_prog all_rets_ws]. apply keep_reconstruct. now split.
  - intros s' Hs'. apply (run_right_cong_ws (in_sweep g d)); [|exact Hs']. intros b s'' _ [Hs'' HMu'']. split.
    + apply prog_eq_ws_of_eq, src_block_is_model; auto.
    + apply step_keeps. now split.
Qed.

Lemma data_ok_empty : data_ok data_empty.
Proof. repeat split. Qed.

Lemma data_ok_snoc d y cl dd1 dd2 : data_ok d -> data_ok (data_snoc d y cl dd1 dd2).
Proof.
  unfold data_ok, nobs, data_snoc. cbn [d_y d_cl d_dd1 d_dd2]. rewrite !app_length. cbn [length]. lia.
Qed.

Lemma nobs_snoc d y cl dd1 dd2 : nobs (data_snoc d y cl dd1 dd2) = S (nobs d).
Proof. unfold nobs, data_snoc. cbn [d_y]. rewrite app_length. cbn [length]. lia. Qed.

Theorem reach_ready g orc d s : reach g orc d s -> sweep_ready g d s /\ data_ok d.
Proof.
  induction 1 as [|d s y cl dd1 dd2 _ [[Hs HMu] Hd]|d s vals s' _ [Hs Hd] Hok Hrun|d s _ [[Hs HMu] Hd]].
  - destruct (init_shapes g) as [Hs HMu]. split; [split; [exact Hs | rewrite HMu; cbn [length]; lia] | apply data_ok_empty].
  - split; [split; [exact Hs | rewrite nobs_snoc; lia] | now apply data_ok_snoc].
  - split; [|exact Hd]. apply in_sweep_ready. exact (all_rets_ws_run _ _ (sweep_keeps g d orc s Hs) vals s' Hok Hrun).
  - destruct (reset_shapes g s Hs) as [Hs' HMu']. split; [split; [exact Hs' | rewrite HMu'; cbn [length]; lia] | exact Hd].
Qed.

Theorem src_sweep_reachable g orc d s n : reach g orc d s -> (0 < c_D g)%nat ->
  prog_eq_ws (to_prog (src_mcmc_step (src_run true true true g d orc) n s)) (mcmc_step g d orc s).
Proof. intros H HD. destruct (reach_ready g orc d s H) as [Hs Hd]. now apply src_sweep_is_model. Qed.

Fixpoint src_updates (o : pyobs) (rows : list (Qc * Z * Z * Z)) : result pyobs :=
  match rows with
  | [] => Ok o
  | (y, cl, dd1, dd2) :: r => dor o' <- src_update o y cl dd1 dd2; src_updates o' r
  end.
Fixpoint data_rows (d : data) (rows : list (Qc * Z * Z * Z)) : data :=
  match rows with
  | [] => d
  | (y, cl, dd1, dd2) :: r => data_rows (data_snoc d y cl dd1 dd2) r
  end.

Lemma src_updates_rep rows : forall o d, obs_rep o d -> data_ok d ->
  exists o', src_updates o rows = Ok o' /\ obs_rep o' (data_rows d rows) /\ data_ok (data_rows d rows).
Proof.
  induction rows as [|[[[y cl] dd1] dd2] r IH]; intros o d Ho Hd; cbn [src_updates data_rows]; [now exists o|].
  destruct Hd as (H1 & H2 & H3). destruct (src_update_is_model o d y cl dd1 dd2 Ho H1 H2 H3) as (o1 & -> & Ho1).
  cbn [res_bind]. apply IH; [exact Ho1 | apply data_ok_snoc; now repeat split].
Qed.

Lemma reach_rows g orc rows : forall d s, reach g orc d s -> reach g orc (data_rows d rows) s.
Proof.
  induction rows as [|[[[y cl] dd1] dd2] r IH]; intros d s H; cbn [data_rows]; [exact H|]. apply IH. now constructor.
Qed.

Lemma cfg_of_init D ndd ncl ic fi ie mgp ls a0 b0 mn mx :
  cfg_of (init_obj D ndd ncl ic fi ie mgp ls a0 b0 mn mx)
  = {| c_D := D; c_ndd := ndd; c_ncl := ncl; c_a0 := a0; c_b0 := b0; c_minMu := mn; c_maxMu := mx |}.
Proof. unfold cfg_of, init_obj. cbn [pi_D pi_ndd pi_ncl pi_a0 pi_b0 pi_minMu pi_maxMu]. now rewrite !Nat2Z.id. Qed.

(* the object built by the translated __init__ (default options), fed by any number of translated _update calls: the translated
   mcmc_step is the model's sweep on the data the store then represents, for every well-shaped answer stream *)
Theorem src_sweep_from_init self0 D ndd ncl ic ie a0 b0 mn mx rows orc n : (0 < D)%nat ->
  exists o o', src_impl_init self0 (Z.of_nat D) (Z.of_nat ndd) (Z.of_nat ncl) ic true ie true true a0 b0 mn mx = Ok o /\
    src_updates (pi_obs o) rows = Ok o' /\
    exists d, obs_rep o' d /\ reach (cfg_of o) orc d (pi_st o) /\
      prog_eq_ws (to_prog (src_mcmc_step (src_run (pi_fake_intercept o) (pi_local_shrinkage o) (pi_mult_gamma_proc o) (cfg_of o) d orc) n (pi_st o)))
                 (mcmc_step (cfg_of o) d orc (pi_st o)).
Proof.
  intros HD. eexists. rewrite src_impl_init_is_model.
  destruct (src_updates_rep rows obs_empty data_empty obs_rep_empty data_ok_empty) as (o' & Hu & Hrep & Hd).
  exists o'. split; [reflexivity|]. split; [exact Hu|]. exists (data_rows data_empty rows). split; [exact Hrep|].
  rewrite cfg_of_init. cbn [pi_st pi_fake_intercept pi_local_shrinkage pi_mult_gamma_proc init_obj].
  assert (Hr : reach {| c_D := D; c_ndd := ndd; c_ncl := ncl; c_a0 := a0; c_b0 := b0; c_minMu := mn; c_maxMu := mx |} orc
                 (data_rows data_empty rows)
                 (init_st {| c_D := D; c_ndd := ndd; c_ncl := ncl; c_a0 := a0; c_b0 := b0; c_minMu := mn; c_maxMu := mx |}))
    by (apply reach_rows; constructor).
  split; [exact Hr|]. apply src_sweep_reachable; [exact Hr | exact HD].
Qed.

Lemma gplug_cong q q' k k' : geq q q' -> (forall v, prog_eq (k v) (k' v)) -> prog_eq (gplug q k) (gplug q' k').
Proof. intros H Hk. induction H as [x|dr k1 k2 _ IH]; cbn [gplug]; [apply Hk|]. constructor. intros a. apply IH. Qed.

Lemma expand_mvn_cong f f' p q : (forall Q b, geq (f Q b) (f' Q b)) -> prog_eq p q ->
  prog_eq (expand_mvn f p) (expand_mvn f' q).
Proof.
  intros Hf H. induction H as [s|dr k1 k2 _ IH]; cbn [expand_mvn]; [apply prog_eq_refl|].
  destruct dr; try (constructor; intros v; apply IH). apply gplug_cong; [apply Hf | intros v; apply IH].
Qed.

Lemma mvn_call_cong p q : geq p q -> geq (mvn_call p) (mvn_call q).
Proof. intros H. unfold mvn_call. apply gbind_cong; [exact H | intros r; apply geq_refl]. Qed.

(* how a block calls it: sample_mvn_from_precision(Q, mu_part=b), every other argument at its default *)
Definition src_mvn_call chol lin_solve (Q : list (list Qc)) (b : list Qc) : gprog val :=
  mvn_call (src_sample_mvn_from_precision chol lin_solve Q None (Some b) false None).

(* equal programs stay equal when every DMvn node is replaced by the translated function on one side and by the model's
   mvn_prog on the other: the Cholesky call, the standard-normal draw node and the two solves take the node's place *)
Theorem src_mvn_node chol lin_solve p q : prog_eq p q ->
  prog_eq (expand_mvn (src_mvn_call chol lin_solve) p) (expand_mvn (fun Q b => mvn_call (mvn_prog chol Q b)) q).
Proof. apply expand_mvn_cong. intros Q b. apply mvn_call_cong, src_sample_mvn_is_model. Qed.

(* ... on well-shaped answers: the expanded node only gives well-shaped answers back when chol keeps the size of Q *)
Fixpoint grets_ws (P : val -> Prop) (q : gprog val) : Prop :=
  match q with GRet v => P v | GDraw dr k => forall a, val_ok dr a -> grets_ws P (k a) end.

Lemma gplug_cong_ws (P : val -> Prop) q q' k k' : geq q q' -> grets_ws P q' ->
  (forall v, P v -> prog_eq_ws (k v) (k' v)) -> prog_eq_ws (gplug q k) (gplug q' k').
Proof.
  intros H HP Hk. induction H as [x|dr k1 k2 _ IH]; cbn [gplug grets_ws] in *; [apply Hk, HP|].
  constructor. intros a Ha. apply IH, HP, Ha.
Qed.

Lemma expand_mvn_cong_ws f f' p q : (forall Q b, geq (f Q b) (f' Q b)) -> (forall Q b, grets_ws (val_ok (DMvn Q b)) (f' Q b)) ->
  prog_eq_ws p q -> prog_eq_ws (expand_mvn f p) (expand_mvn f' q).
Proof.
  intros Hf Hok H. induction H as [s|dr k1 k2 Hk IH]; cbn [expand_mvn]; [apply prog_eq_ws_refl|].
  destruct dr; try (constructor; intros v Hv; apply IH, Hv).
  apply (gplug_cong_ws (val_ok (DMvn Q b))); [apply Hf | apply Hok | intros v Hv; apply IH, Hv].
Qed.

Lemma sample_mvn_length D L z b : length (sample_mvn D L z b) = D.
Proof. unfold sample_mvn, vadd. apply tab_length. Qed.

Lemma mvn_prog_answers chol Q b : (forall Q L, chol Q = Ok L -> length L = length Q) ->
  grets_ws (val_ok (DMvn Q b)) (mvn_call (mvn_prog chol Q b)).
Proof.
  intros Hc. unfold mvn_call, mvn_prog. destruct (chol Q) as [L|t] eqn:E; cbn [gbind grets_ws mvn_answer val_ok].
  - intros a _. right. eexists. split; [reflexivity|]. rewrite sample_mvn_length. now apply Hc.
  - now left.
Qed.

(* the whole sweep with the MVN draws expanded: from a reachable state the translated mcmc_step, running the translated block
   methods and the translated sample_mvn_from_precision, is the model's sweep with the model's mvn_prog at every MVN node *)
Theorem src_sweep_mvn chol lin_solve g orc d s n : (forall Q L, chol Q = Ok L -> length L = length Q) ->
  reach g orc d s -> (0 < c_D g)%nat ->
  prog_eq_ws (expand_mvn (src_mvn_call chol lin_solve) (to_prog (src_mcmc_step (src_run true true true g d orc) n s)))
             (expand_mvn (fun Q b => mvn_call (mvn_prog chol Q b)) (mcmc_step g d orc s)).
Proof.
  intros Hc Hr HD. apply expand_mvn_cong_ws.
  - intros Q b. apply mvn_call_cong, src_sample_mvn_is_model.
  - intros Q b. now apply mvn_prog_answers.
  - now apply src_sweep_reachable.
Qed.

(* the law of the model's mvn_prog under np.linalg.cholesky's contract (C08_mvn_mean_cov at D = the size of Q) *)
Theorem mvn_prog_law chol Q L b : chol_contract chol -> chol Q = Ok L -> length b = length Q ->
  let D := length Q in let m := mvn_mean D L b in
  mvn_prog chol Q b = GDraw (DNormalVec (repeat 1 D)) (fun v => GRet (Ok (sample_mvn D L (val_v v) b))) /\
  (forall j, (j < D)%nat -> sumn D (fun k => vnth (rnth Q j) k * vnth m k) = vnth b j) /\
  (forall z j, (j < D)%nat -> sumn D (fun k => vnth (rnth L k) j * (vnth (sample_mvn D L z b) k - vnth m k)) = vnth z j).
Proof.
  intros Hc E Hb. destruct (Hc Q L E) as (HL & Hlow & Hdiag & HQ). cbv zeta. split; [|split].
  - unfold mvn_prog. rewrite E, HL. reflexivity.
  - intros j Hj. now apply (C08Mvn.mvn_mean_solves (length Q) L Hlow Hdiag HL Q HQ b j).
  - intros z j Hj. now apply (C08Mvn.mvn_sample_law (length Q) L Hlow Hdiag z b j).
Qed.

(* __init__: the experiment space's sizes become n_clines / n_drugdoses, the embedding dimension n_dims, every option and
   hyper-parameter reaches the parameter of the same name of the translated legacy constructor (run on a new instance) *)
Theorem src_sdc_init_is_model self0 nS nT D fi ie ls a0 b0 mn mx rng pint ilt ic :
  src_sdc_init self0 (Z.of_nat nS) (Z.of_nat nT) (Z.of_nat D) fi ie true ls a0 b0 mn mx rng pint ilt ic
  = Ok (sdc_init_obj nS nT D fi ie true ls a0 b0 mn mx rng pint ilt ic).
Proof.
  cbv beta delta [src_sdc_init]. cbv beta iota zeta delta [sdc_n_dims sdc_n_treatments sdc_n_samples sdc_rng sdc_predict_interactions
    sdc_interaction_log_transform sdc_wrapped set_sdc_n_dims set_sdc_n_treatments set_sdc_n_samples set_sdc_rng
    set_sdc_predict_interactions set_sdc_interaction_log_transform set_sdc_wrapped].
  rewrite src_impl_init_is_model. reflexivity.
Qed.

(* get_model_state exports exactly the model's [export]: W, W0, V2, V1, V0, alpha and the observation precision *)
Theorem src_sdc_get_model_state_is_model o : src_sdc_get_model_state o = Ok (export (pi_st (sdc_wrapped o))).
Proof. reflexivity. Qed.

Theorem src_sdc_n_obs_is_model o d : obs_rep (pi_obs (sdc_wrapped o)) d -> src_sdc_n_obs o = Ok (Z.of_nat (nobs d)).
Proof. intros (Hy & _). unfold src_sdc_n_obs, src_impl_n_obs, nobs. cbn [res_bind]. now rewrite Hy. Qed.

(* reset_model resets the wrapped object's state (the translated legacy reset_model) and nothing else *)
Theorem src_sdc_reset_is_model o :
  src_sdc_reset_model o = Ok (sdc_with_state o (reset_st (pi_st (sdc_wrapped o)))).
Proof. unfold src_sdc_reset_model. rewrite src_impl_reset_is_model. reflexivity. Qed.

Theorem src_sdc_set_rng_is_model o r : src_sdc_set_rng o r = Ok (set_sdc_rng o (Some r)) /\ src_sdc_rng o = Ok (sdc_rng o).
Proof. split; reflexivity. Qed.

(* step is one call of the wrapped object's mcmc_step: the sweep's program, the wrapper then holding the new state *)
Theorem src_sdc_step_is_model run o :
  geq (src_sdc_step run o)
      (gbind (src_mcmc_step run (pi_steps (sdc_wrapped o)) (pi_st (sdc_wrapped o))) (fun s => GRet (sdc_with_state o s))).
Proof. unfold src_sdc_step. apply gbind_ret. Qed.

(* ... hence, read on the wrapped object's state, the model's sweep (from every reachable state, well-shaped answers) *)
Theorem src_sdc_step_sweep g orc d o : reach g orc d (pi_st (sdc_wrapped o)) -> (0 < c_D g)%nat ->
  prog_eq_ws (to_prog (gbind (src_sdc_step (src_run true true true g d orc) o) (fun o' => GRet (pi_st (sdc_wrapped o')))))
             (mcmc_step g d orc (pi_st (sdc_wrapped o))).
Proof.
  intros Hr HD. eapply prog_eq_ws_trans; [|apply (src_sweep_reachable g orc d _ (pi_steps (sdc_wrapped o)) Hr HD)].
  apply prog_eq_ws_of_eq, to_prog_geq.
  eapply geq_trans; [apply gbind_cong; [apply src_sdc_step_is_model | intros x; apply geq_refl]|].
  eapply geq_trans; [apply gbind_assoc|]. cbn [gbind]. apply gbind_ret.
Qed.
