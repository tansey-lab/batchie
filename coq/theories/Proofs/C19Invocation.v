(* C19 — the invocation level: one call seen with its return value, one invocation of main()
   (calls repeated while the previous one returned True), and sessions of invocations with the
   operator's screens, on canonical trees. *)
From Coq Require Import ZArith List Lia.
From Batchie Require Import Model.Orchestrate Proofs.C19Base Proofs.C19Canon Proofs.C19Step Proofs.C19Main.
Import ListNotations.
Open Scope Z_scope.

Lemma attempt_done_iff md fixed bs n f e :
  snd (attempt md fixed bs n f e) = GDone <-> plan_of md fixed bs f = PDone.
Proof.
  unfold attempt. destruct (plan_of md fixed bs f) as [w s| |acts]; cbn [snd].
  - split; discriminate.
  - tauto.
  - split; [|discriminate]. destruct (e_k e <? 4)%nat; cbn [snd]; [discriminate|].
    destruct (nth 3 acts (AFail 0)); cbn [snd]; discriminate.
Qed.

Lemma plan_done_iff md fixed bs f :
  plan_of md fixed bs f = PDone <->
  md = Retro /\ exists i j m scr, examine fixed bs f = XOk (i, j, Some m, scr) /\ m <= 0.
Proof.
  rewrite plan_of_eq. unfold no_plates_remain.
  destruct (examine fixed bs f) as [[[[i j] [m|]] scr]|w s], md;
    try (split; [discriminate|intros (E & i' & j' & m' & scr' & E' & _); discriminate]).
  destruct (Z.leb_spec m 0) as [Hm|Hm].
  - split; [intros _|reflexivity]. split; [reflexivity|]. exists i, j, m, scr. auto.
  - split; [discriminate|]. intros (_ & i' & j' & m' & scr' & E & Hm'). injection E as _ _ <- _. lia.
Qed.

(* retrospective: a call returns False exactly when the metadata of the last completed step, as
   read back from the output directory, says that no unobserved plates remain *)
Lemma retro_returns_false_iff fixed bs n f e :
  call_returns Retro bs (snd (attempt Retro fixed bs n f e)) = Some false <->
  exists i j m scr, examine fixed bs f = XOk (i, j, Some m, scr) /\ m <= 0.
Proof.
  split.
  - intros H.
    assert (Hg : snd (attempt Retro fixed bs n f e) = GDone).
    { destruct (snd (attempt Retro fixed bs n f e)) as [| | | |s l ps ok]; cbn [call_returns] in H; try discriminate; [reflexivity|].
      destruct ok; discriminate. }
    apply attempt_done_iff, plan_done_iff in Hg. tauto.
  - intros H. assert (Hp : plan_of Retro fixed bs f = PDone) by (apply plan_done_iff; auto).
    apply attempt_done_iff with (n := n) (e := e) in Hp. now rewrite Hp.
Qed.

(* structure of an invocation: it consumes a prefix of the schedule, one entry per call, and is
   the script_run of that prefix; all calls but the last returned True *)
Lemma invocation_split md fixed bs n : forall sched f,
  let r := invocation md fixed bs n f sched in
  exists used,
    sched = used ++ r_rest r /\
    script_run md fixed bs n f used = (r_fs r, r_calls r) /\
    length used = length (r_calls r) /\
    (sched <> [] -> used <> []).
Proof.
  induction sched as [|e rest IH]; intros f; cbn [invocation].
  - exists []. cbn. repeat split. congruence.
  - destruct (attempt md fixed bs n f e) as [f1 g] eqn:Ea.
    destruct (call_returns md bs g) as [[|]|].
    + destruct (IH f1) as (used & E1 & E2 & E3 & _). cbn [r_fs r_calls r_end r_rest].
      exists (e :: used). cbn [app script_run length]. rewrite Ea, E2, <- E1, E3. repeat split. discriminate.
    + exists [e]. cbn [app script_run r_fs r_calls r_rest length]. rewrite Ea. repeat split. discriminate.
    + exists [e]. cbn [app script_run r_fs r_calls r_rest length]. rewrite Ea. repeat split. discriminate.
Qed.

Lemma invocation_calls md fixed bs n : forall sched f,
  let r := invocation md fixed bs n f sched in
  match r_end r with
  | IExhausted => Forall (fun g => call_returns md bs g = Some true) (r_calls r) /\ r_rest r = []
  | IReturned => exists pre g, r_calls r = pre ++ [g] /\ Forall (fun g => call_returns md bs g = Some true) pre
                               /\ call_returns md bs g = Some false
  | IRaised => exists pre g, r_calls r = pre ++ [g] /\ Forall (fun g => call_returns md bs g = Some true) pre
                             /\ call_returns md bs g = None
  end.
Proof.
  induction sched as [|e rest IH]; intros f; cbn [invocation].
  - cbn. auto.
  - destruct (attempt md fixed bs n f e) as [f1 g] eqn:Ea.
    destruct (call_returns md bs g) as [[|]|] eqn:Ec.
    + specialize (IH f1). cbn zeta in IH. cbn [r_fs r_calls r_end r_rest].
      destruct (r_end (invocation md fixed bs n f1 rest)).
      * destruct IH as (pre & g' & E & Hp & Hg). exists (g :: pre), g'. rewrite E. repeat split; auto.
      * destruct IH as (pre & g' & E & Hp & Hg). exists (g :: pre), g'. rewrite E. repeat split; auto.
      * destruct IH as [Hp Hr]. split; auto.
    + exists [], g. cbn. auto.
    + exists [], g. cbn. auto.
Qed.

(* a session is the script_run of its schedule, cut into invocations *)
Lemma session_flat md fixed bs n : forall fuel sched f, (length sched <= fuel)%nat ->
  fst (session fuel md fixed bs n f sched) = fst (script_run md fixed bs n f sched) /\
  concat (map i_calls (snd (session fuel md fixed bs n f sched))) = snd (script_run md fixed bs n f sched).
Proof.
  induction fuel as [|fuel IH]; intros sched f Hlen.
  - destruct sched; [cbn; auto|cbn in Hlen; lia].
  - destruct sched as [|e rest]; [cbn; auto|].
    cbn [session]. set (r := invocation md fixed bs n f (e :: rest)).
    destruct (invocation_split md fixed bs n (e :: rest) f) as (used & E1 & E2 & E3 & E4). fold r in E1, E2, E3.
    specialize (E4 ltac:(discriminate)).
    assert (Hl : (length (r_rest r) <= fuel)%nat).
    { apply (f_equal (@length _)) in E1. rewrite app_length in E1. cbn [length] in E1, Hlen.
      destruct used; [congruence|]. cbn [length] in E1. lia. }
    destruct (IH (r_rest r) (r_fs r) Hl) as [H1 H2].
    destruct (session fuel md fixed bs n (r_fs r) (r_rest r)) as [f2 recs]. cbn [fst snd] in *.
    rewrite E1, script_run_app, E2. cbn zeta. cbn [fst snd].
    destruct (script_run md fixed bs n (r_fs r) (r_rest r)) as [f3 g3]. cbn [fst snd map concat i_calls] in *.
    subst. auto.
Qed.

Section Inv.
Variables (md : mode) (bs n : nat) (fixed : bool).
Hypothesis Hbs : (1 <= bs)%nat.
Hypothesis Hn : (1 <= n)%nat.
Hypothesis Hfix : fixed = true \/ bs = 1%nat.

Local Notation ip := (ip md bs n).
Local Notation canon := (canon md bs n).
Local Notation B := (Z.of_nat bs).

Let dm_spec := dm_spec bs Hbs.
Let dm_succ := dm_succ bs Hbs.
Let dm_unique := dm_unique bs Hbs.

Lemma op_screen_prosp_canon c x : okx c x -> op_screen Prosp B (canon c x) = Z.of_nat (c / bs).
Proof.
  intros Hx. unfold op_screen. rewrite (completed_canon md bs n Hbs Hn c x Hx). unfold zlen.
  rewrite (ideal_length md bs n). now rewrite Nat2Z.inj_div.
Qed.

Lemma op_screen_canon c x : okx c x -> op_screen md B (canon c x) = ideal_screen md bs c.
Proof.
  intros Hx. generalize (op_screen_prosp_canon c x Hx). unfold ideal_screen. destruct md; [reflexivity|auto].
Qed.

(* the operator's screen index is the iteration the script is about to work on (or complains about) *)
Lemma op_screen_examine c x : okx c x ->
  match examine fixed B (canon c x) with
  | XOk (i, _, _, _) => op_screen Prosp B (canon c x) = i
  | XNamed _ s => op_screen Prosp B (canon c x) = fst s
  end.
Proof.
  intros Hx. rewrite (examine_canon md bs n Hbs Hn fixed c x Hx Hfix), (op_screen_prosp_canon c x Hx).
  now destruct (is_inc x).
Qed.

Definition launch_in (c0 : nat) (g : logitem) : Prop :=
  match g with
  | GLaunch s l _ _ => exists k, (c0 <= k)%nat /\ s = step_of bs k /\ l = ideal_launch md bs k
                                 /\ (md = Prosp -> (k / bs = c0 / bs)%nat)
  | GFail _ => False
  | _ => True
  end.

Lemma call_true_inv g : call_returns md B g = Some true ->
  exists s l ps, g = GLaunch s l ps true /\ (md = Prosp -> snd s < B - 1).
Proof.
  destruct g as [| | | |s l ps ok]; cbn [call_returns]; try discriminate.
  destruct ok; [|discriminate]. intros E. exists s, l, ps. split; [reflexivity|].
  intros Emd. rewrite Emd in E. injection E as E. now apply Z.ltb_lt.
Qed.

Lemma call_false_retro g : md = Retro -> call_returns md B g = Some false -> g = GDone.
Proof.
  intros Emd. destruct g as [| | | |s l ps ok]; cbn [call_returns]; try discriminate; [reflexivity|].
  destruct ok; [|discriminate]. rewrite Emd. discriminate.
Qed.

Lemma invocation_canon : forall sched c x, sched_ok sched -> state_ok md n c x ->
  let r := invocation md fixed B n (canon c x) sched in
  exists c' x', r_fs r = canon c' x' /\ state_ok md n c' x' /\ (c <= c')%nat
    /\ Forall (launch_in c) (r_calls r) /\ sched_ok (r_rest r)
    /\ (md = Retro -> r_end r = IReturned -> c' = n).
Proof.
  induction sched as [|e rest IH]; intros c x Hs Hi; cbn [invocation].
  - exists c, x. cbn [r_fs r_calls r_end r_rest]. split; [reflexivity|]. split; [exact Hi|]. split; [lia|].
    split; [constructor|]. split; [constructor|]. intros _ H. discriminate H.
  - inversion Hs as [|? ? He Hr]; subst.
    destruct (attempt_canon md bs n Hbs Hn fixed c x e Hi Hfix He) as (c1 & x1 & g & Ea & Hi1 & Hlog & Hd & Hdone). rewrite Ea.
    assert (Hg : launch_in c g).
    { destruct g as [| | | |s l ps ok]; cbn [launch_in log_ok] in *; auto.
      destruct Hlog as [-> ->]. exists c. repeat split; auto. }
    assert (Hle : (c <= c1)%nat) by (destruct Hd as [[-> _]|[-> _]]; lia).
    destruct (call_returns md B g) as [[|]|] eqn:Ec.
    + destruct (call_true_inv g Ec) as (s & l & ps & Eg & Hlt).
      destruct Hd as [[_ Hno]|(-> & -> & ps' & Eg')]; [now apply Hno in Eg|].
      destruct (IH (S c) XNone Hr Hi1) as (c' & x' & E & Hi' & Hle' & Hl & Hs' & Hret). cbn zeta in *.
      cbn [r_fs r_calls r_end r_rest]. exists c', x'. split; [exact E|]. split; [exact Hi'|]. split; [lia|].
      split; [|split; [exact Hs'|exact Hret]]. constructor; [exact Hg|].
      eapply Forall_impl; [|exact Hl]. intros g' Hg'.
      destruct g' as [| | | |s' l' ps'' ok']; cbn [launch_in] in *; auto.
      destruct Hg' as (k & Hk & Es & El & Hp). exists k. split; [lia|]. split; [exact Es|]. split; [exact El|].
      intros Emd. rewrite (Hp Emd). rewrite Eg in Eg'. injection Eg' as Es' _ _. subst s.
      specialize (Hlt Emd). unfold step_of in Hlt. cbn [snd] in Hlt. now destruct (div_same_batch bs Hbs c Hlt).
    + cbn [r_fs r_calls r_end r_rest]. exists c1, x1. split; [reflexivity|]. split; [exact Hi1|]. split; [exact Hle|].
      split; [constructor; [exact Hg|constructor]|]. split; [exact Hr|].
      intros Emd _. destruct (Hdone (call_false_retro g Emd Ec)) as (_ & E1 & E2). lia.
    + cbn [r_fs r_calls r_end r_rest]. exists c1, x1. split; [reflexivity|]. split; [exact Hi1|]. split; [exact Hle|].
      split; [constructor; [exact Hg|constructor]|]. split; [exact Hr|]. intros _ H. discriminate H.
Qed.

Definition rec_ok (rc : irec) : Prop :=
  exists c0, i_screen rc = ideal_screen md bs c0 /\ Forall (launch_in c0) (i_calls rc).

Lemma session_canon : forall fuel sched c x, sched_ok sched -> state_ok md n c x ->
  exists c' x', fst (session fuel md fixed B n (canon c x) sched) = canon c' x' /\ state_ok md n c' x'
    /\ Forall rec_ok (snd (session fuel md fixed B n (canon c x) sched)).
Proof.
  induction fuel as [|fuel IH]; intros sched c x Hs Hi.
  - exists c, x. cbn. auto.
  - destruct sched as [|e rest]; [exists c, x; cbn; auto|]. cbn [session].
    destruct (invocation_canon (e :: rest) c x Hs Hi) as (c1 & x1 & E1 & Hi1 & _ & Hl & Hs1 & _). cbn zeta in *.
    set (r := invocation md fixed B n (canon c x) (e :: rest)) in *.
    rewrite E1. destruct (IH (r_rest r) c1 x1 Hs1 Hi1) as (c2 & x2 & E2 & Hi2 & Hrecs).
    destruct (session fuel md fixed B n (canon c1 x1) (r_rest r)) as [f2 recs]. cbn [fst snd] in *.
    exists c2, x2. split; [exact E2|]. split; [exact Hi2|]. constructor; [|exact Hrecs].
    exists c. cbn [i_screen i_calls]. split; [|exact Hl]. apply op_screen_canon. now destruct Hi.
Qed.

Lemma ideal_screen_same k c0 : (md = Prosp -> (k / bs = c0 / bs)%nat) -> ideal_screen md bs k = ideal_screen md bs c0.
Proof. unfold ideal_screen. destruct md; [reflexivity|]. intros H. now rewrite H. Qed.

Lemma rec_ok_launches rc : rec_ok rc ->
  forall s r l, In (s, r, l) (launches_of_rec rc) -> exists k, (s, r, l) = ideal_stamped md bs k.
Proof.
  intros (c0 & Escr & Hl) s r l Hin. unfold launches_of_rec in Hin. apply in_flat_map in Hin as (g & Hg & Hin).
  rewrite Forall_forall in Hl. specialize (Hl g Hg).
  destruct g as [| | | |s' l' ps ok]; cbn [In] in Hin; try contradiction. destruct Hin as [E|[]]. injection E as -> <- ->.
  destruct Hl as (k & _ & -> & -> & Hp). exists k. unfold ideal_stamped. now rewrite Escr, (ideal_screen_same k c0 Hp).
Qed.

Definition launch_key (g : logitem) : option (step * launch * bool) :=
  match g with GLaunch s l _ ok => Some (s, l, ok) | _ => None end.
Definition ideal_key (c : nat) : option (step * launch * bool) := Some (step_of bs c, ideal_launch md bs c, true).

End Inv.

Lemma launches_of_keys md bs scr en : forall calls ks,
  map launch_key calls = map (ideal_key md bs) ks ->
  launches_of_rec (mki scr calls en) = map (fun k => (step_of bs k, scr, ideal_launch md bs k)) ks.
Proof.
  unfold launches_of_rec. cbn [i_calls i_screen].
  induction calls as [|g calls IH]; intros [|k ks] E; cbn [map] in E; try discriminate; [reflexivity|].
  injection E as Eg E. cbn [flat_map map]. rewrite (IH ks E).
  destruct g as [| | | |s l ps ok]; cbn [launch_key] in Eg; try discriminate.
  unfold ideal_key in Eg. injection Eg as -> -> _. reflexivity.
Qed.

Section Uninterrupted.
Variables (bs n : nat) (fixed : bool).
Hypothesis Hbs : (1 <= bs)%nat.
Hypothesis Hn : (1 <= n)%nat.
Hypothesis Hfix : fixed = true \/ bs = 1%nat.
Variable e : entry.
Hypothesis He : entry_ok e = true.
Hypothesis Hf : full_entry e.
Local Notation B := (Z.of_nat bs).

(* prospective: the calls up to the end of the current batch, then main() leaves its loop *)
Lemma invocation_full_prosp : (bs <= n)%nat ->
  forall m c x rest, okx c x -> is_inc x = false -> (c mod bs + m = bs)%nat -> (1 <= m)%nat ->
  let r := invocation Prosp fixed B n (canon Prosp bs n c x) (repeat e m ++ rest) in
  r_fs r = canon Prosp bs n (c + m) XNone /\ r_end r = IReturned /\ r_rest r = rest
  /\ map launch_key (r_calls r) = map (ideal_key Prosp bs) (seq c m).
Proof.
  intros Hbn. induction m as [|m IH]; intros c x rest Hx Hi Hm H1; [lia|].
  cbn [repeat app invocation].
  destruct (attempt_full Prosp bs n Hbs Hn fixed c x e Hx Hfix Hi) as (ps & ->);
    [cbn; lia|discriminate|exact He|exact Hf|].
  cbn [call_returns]. change (snd (step_of bs c)) with (Z.of_nat (c mod bs)).
  destruct (Z.ltb_spec (Z.of_nat (c mod bs)) (B - 1)) as [Hlt|Hge].
  - destruct (div_same_batch bs Hbs c Hlt) as [_ Hmod].
    specialize (IH (S c) XNone rest I eq_refl ltac:(lia) ltac:(lia)). cbn zeta in IH.
    destruct IH as (E1 & E2 & E3 & E4). cbn [r_fs r_calls r_end r_rest].
    rewrite E1, E2, E3. split; [f_equal; lia|]. split; [reflexivity|]. split; [reflexivity|].
    cbn [map seq launch_key]. now rewrite E4.
  - assert (m = 0)%nat by lia. subst m. cbn [r_fs r_calls r_end r_rest repeat app].
    split; [f_equal; lia|]. split; [reflexivity|]. split; reflexivity.
Qed.

(* retrospective: the remaining steps, then one call that finds nothing left to do *)
Lemma invocation_full_retro e' :
  forall m c x rest, okx c x -> is_inc x = false -> (c + m = n)%nat ->
  let r := invocation Retro fixed B n (canon Retro bs n c x) (repeat e m ++ e' :: rest) in
  completed (r_fs r) = ideal Retro bs n n /\ r_end r = IReturned /\ r_rest r = rest
  /\ map launch_key (r_calls r) = map (ideal_key Retro bs) (seq c m) ++ [None].
Proof.
  induction m as [|m IH]; intros c x rest Hx Hi Hm.
  - cbn [repeat app invocation].
    rewrite (attempt_done Retro bs n Hbs Hn fixed c x e' Hx Hfix) by (lia || exact Hi || (apply Nat.leb_le; lia)).
    cbn [call_returns r_fs r_calls r_end r_rest]. rewrite (completed_canon Retro bs n Hbs Hn c x Hx).
    replace c with n by lia. repeat split.
  - cbn [repeat app invocation].
    destruct (attempt_full Retro bs n Hbs Hn fixed c x e Hx Hfix Hi) as (ps & ->);
      [cbn; lia|intros _; lia|exact He|exact Hf|].
    cbn [call_returns].
    specialize (IH (S c) XNone rest I eq_refl ltac:(lia)). cbn zeta in IH.
    destruct IH as (E1 & E2 & E3 & E4). cbn [r_fs r_calls r_end r_rest].
    rewrite E1, E2, E3. split; [reflexivity|]. split; [reflexivity|]. split; [reflexivity|].
    cbn [map seq launch_key app]. now rewrite E4.
Qed.

Lemma session_full_prosp : (bs <= n)%nat ->
  forall q fuel q0, (q <= fuel)%nat ->
  let sr := session fuel Prosp fixed B n (canon Prosp bs n (q0 * bs) XNone) (repeat e (q * bs)) in
  fst sr = canon Prosp bs n ((q0 + q) * bs) XNone
  /\ launches_of (snd sr) = map (ideal_stamped Prosp bs) (seq (q0 * bs) (q * bs))
  /\ map i_screen (snd sr) = map Z.of_nat (seq q0 q)
  /\ Forall (fun rc => length (i_calls rc) = bs /\ i_end rc = IReturned) (snd sr).
Proof.
  intros Hbn. induction q as [|q IH]; intros fuel q0 Hq.
  - cbn [Nat.mul repeat]. rewrite Nat.add_0_r. destruct fuel; cbn; auto.
  - destruct fuel as [|fuel]; [lia|].
    replace (S q * bs)%nat with (bs + q * bs)%nat by lia. rewrite repeat_app.
    assert (Hne : exists t, repeat e bs ++ repeat e (q * bs) = e :: t).
    { destruct bs as [|b]; [lia|]. cbn [repeat app]. eauto. }
    destruct Hne as (t & Et).
    assert (Hmod : ((q0 * bs) mod bs = 0)%nat) by (apply Nat.mod_mul; lia).
    pose proof (invocation_full_prosp Hbn bs (q0 * bs)%nat XNone (repeat e (q * bs)) I eq_refl
                  ltac:(lia) Hbs) as Hinv.
    cbn zeta in Hinv. destruct Hinv as (E1 & E2 & E3 & E4).
    cbn zeta. rewrite Et. cbn [session]. rewrite <- Et. rewrite E1, E2, E3.
    replace (q0 * bs + bs)%nat with (S q0 * bs)%nat by lia.
    specialize (IH fuel (S q0) ltac:(lia)). cbn zeta in IH. destruct IH as (I1 & I2 & I3 & I4).
    destruct (session fuel Prosp fixed B n (canon Prosp bs n (S q0 * bs) XNone) (repeat e (q * bs))) as [f2 recs].
    cbn [fst snd] in *.
    assert (Hscr : op_screen Prosp B (canon Prosp bs n (q0 * bs) XNone) = Z.of_nat q0).
    { rewrite (op_screen_prosp_canon Prosp bs n Hbs Hn (q0 * bs) XNone I). now rewrite Nat.div_mul by lia. }
    split; [rewrite I1; f_equal; lia|]. split; [|split].
    + unfold launches_of in *. cbn [flat_map]. rewrite I2, (launches_of_keys _ _ _ _ _ _ E4), Hscr.
      rewrite seq_app, map_app. f_equal; [|do 2 f_equal; lia].
      apply map_ext_in. intros k Hk. apply in_seq in Hk. unfold ideal_stamped, ideal_screen. do 3 f_equal.
      destruct (dm_unique bs Hbs q0 (k - q0 * bs)) as [Hd _]; [lia|].
      replace (q0 * bs + (k - q0 * bs))%nat with k in Hd by lia. now rewrite Hd.
    + cbn [map seq i_screen]. now rewrite I3, Hscr.
    + constructor; [|exact I4]. cbn [i_calls i_end]. split; [|reflexivity].
      apply (f_equal (@length _)) in E4. now rewrite !map_length, seq_length in E4.
Qed.

End Uninterrupted.
