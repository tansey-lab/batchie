(* The comparisons of Model/Encode.v (name_cmp, tkey_cmp, Z.compare) are total orders, their boolean tests decide
   equality, and sort_uniq yields the unique strictly sorted list with the same elements. *)
From Coq Require Import ZArith List Bool Sorted Permutation.
From Batchie Require Import Model.Encode.
Import ListNotations.

Record CmpSpec {K : Type} (cmp : K -> K -> comparison) : Prop := {
  cmp_eq : forall a b, cmp a b = Eq <-> a = b;
  cmp_antisym : forall a b, cmp a b = CompOpp (cmp b a);
  cmp_trans : forall a b c, cmp a b = Lt -> cmp b c = Lt -> cmp a c = Lt
}.

Lemma Zcmp_spec : CmpSpec Z.compare.
Proof.
  split.
  - intros a b. apply Z.compare_eq_iff.
  - intros a b. apply Z.compare_antisym.
  - intros a b c. rewrite !Z.compare_lt_iff. apply Z.lt_trans.
Qed.

(* [name_cmp] and [tkey_cmp] are lexicographic: the first component decides unless it says Eq *)
Definition lex (c1 c2 : comparison) : comparison := match c1 with Eq => c2 | Lt => Lt | Gt => Gt end.

Lemma lex_eq c1 c2 : lex c1 c2 = Eq <-> c1 = Eq /\ c2 = Eq.
Proof. destruct c1; cbn [lex]; intuition congruence. Qed.

Lemma lex_opp c1 c2 : lex (CompOpp c1) (CompOpp c2) = CompOpp (lex c1 c2).
Proof. destruct c1; reflexivity. Qed.

(* [c1 c2 c3] stand for the comparisons of the second components of three pairs *)
Lemma lex_trans {A} (cmp : A -> A -> comparison) (HC : CmpSpec cmp) x y z c1 c2 c3 :
  (c1 = Lt -> c2 = Lt -> c3 = Lt) ->
  lex (cmp x y) c1 = Lt -> lex (cmp y z) c2 = Lt -> lex (cmp x z) c3 = Lt.
Proof.
  intros H3. destruct (cmp x y) eqn:E1; destruct (cmp y z) eqn:E2; cbn [lex]; try discriminate.
  - apply (cmp_eq _ HC) in E1, E2. subst. rewrite (proj2 (cmp_eq _ HC z z) eq_refl). exact H3.
  - apply (cmp_eq _ HC) in E1. subst. now rewrite E2.
  - apply (cmp_eq _ HC) in E2. subst. now rewrite E1.
  - now rewrite (cmp_trans _ HC _ _ _ E1 E2).
Qed.

Lemma name_cmp_eq a : forall b, name_cmp a b = Eq <-> a = b.
Proof.
  induction a as [|x a IH]; intros [|y b]; cbn [name_cmp]; try (split; discriminate).
  - split; reflexivity.
  - change (lex (x ?= y)%Z (name_cmp a b) = Eq <-> x :: a = y :: b).
    rewrite lex_eq, Z.compare_eq_iff, IH. split; [intros [-> ->]; reflexivity|intros H; now inversion H].
Qed.

Lemma name_cmp_antisym a : forall b, name_cmp a b = CompOpp (name_cmp b a).
Proof.
  induction a as [|x a IH]; intros [|y b]; cbn [name_cmp CompOpp]; try reflexivity.
  rewrite (Z.compare_antisym y x), (IH b). apply lex_opp.
Qed.

Lemma name_cmp_trans a : forall b c, name_cmp a b = Lt -> name_cmp b c = Lt -> name_cmp a c = Lt.
Proof.
  induction a as [|x a IH]; intros [|y b] [|z c]; cbn [name_cmp]; try discriminate; try reflexivity.
  apply (lex_trans Z.compare Zcmp_spec), IH.
Qed.

Lemma name_cmp_spec : CmpSpec name_cmp.
Proof. split; [apply name_cmp_eq|apply name_cmp_antisym|apply name_cmp_trans]. Qed.

(* the equality test read off a comparison *)
Lemma cmp_eqb_eq {K} (cmp : K -> K -> comparison) (HC : CmpSpec cmp) a b :
  match cmp a b with Eq => true | _ => false end = true <-> a = b.
Proof. rewrite <- (cmp_eq _ HC). destruct (cmp a b); split; congruence. Qed.

Lemma name_eqb_eq a b : name_eqb a b = true <-> a = b.
Proof. exact (cmp_eqb_eq name_cmp name_cmp_spec a b). Qed.

Lemma name_eqb_refl a : name_eqb a a = true.
Proof. now apply name_eqb_eq. Qed.

Lemma name_eqb_neq a b : name_eqb a b = false <-> a <> b.
Proof. rewrite <- name_eqb_eq. destruct (name_eqb a b); split; congruence. Qed.

Lemma name_eqb_sym a b : name_eqb a b = name_eqb b a.
Proof. apply eq_true_iff_eq. rewrite !name_eqb_eq. split; congruence. Qed.

Lemma tkey_cmp_spec : CmpSpec tkey_cmp.
Proof.
  split.
  - intros [n1 d1] [n2 d2]. unfold tkey_cmp; cbn [fst snd].
    change (lex (name_cmp n1 n2) (d1 ?= d2)%Z = Eq <-> (n1, d1) = (n2, d2)).
    rewrite lex_eq, name_cmp_eq, Z.compare_eq_iff. split; [intros [-> ->]; reflexivity|intros H; now inversion H].
  - intros a b. unfold tkey_cmp. rewrite (name_cmp_antisym (fst a)), (Z.compare_antisym (snd b)). apply lex_opp.
  - intros a b c. apply (lex_trans name_cmp name_cmp_spec), (cmp_trans _ Zcmp_spec).
Qed.

Lemma tkey_eqb_eq a b : tkey_eqb a b = true <-> a = b.
Proof. exact (cmp_eqb_eq tkey_cmp tkey_cmp_spec a b). Qed.

Section SortUniqP.
Context {K : Type} (cmp : K -> K -> comparison) (HC : CmpSpec cmp).

Definition cmp_lt (a b : K) : Prop := cmp a b = Lt.
Definition SSorted (l : list K) : Prop := StronglySorted cmp_lt l.

Lemma cmp_refl a : cmp a a = Eq.
Proof. now apply (cmp_eq _ HC). Qed.

Lemma cmp_gt_lt a b : cmp a b = Gt -> cmp b a = Lt.
Proof. intros H. rewrite (cmp_antisym _ HC), H. reflexivity. Qed.

Lemma cmp_lt_irrefl a : ~ cmp_lt a a.
Proof. unfold cmp_lt. rewrite cmp_refl. discriminate. Qed.

Lemma insert_uniq_In k l x : In x (insert_uniq cmp k l) <-> x = k \/ In x l.
Proof.
  induction l as [|y l IH]; cbn [insert_uniq In]; [intuition|].
  destruct (cmp k y) eqn:E; cbn [In].
  - apply (cmp_eq _ HC) in E. subst. intuition.
  - intuition.
  - rewrite IH. intuition.
Qed.

Lemma insert_uniq_sorted k l : SSorted l -> SSorted (insert_uniq cmp k l).
Proof.
  induction l as [|y l IH]; intros Hs; cbn [insert_uniq].
  - repeat constructor.
  - inversion Hs as [|? ? Hs' Hall]; subst.
    destruct (cmp k y) eqn:E.
    + exact Hs.
    + constructor; [exact Hs|]. constructor; [exact E|].
      rewrite Forall_forall in *. intros z Hz. eapply (cmp_trans _ HC); [exact E|now apply Hall].
    + constructor; [now apply IH|]. rewrite Forall_forall in *. intros z Hz.
      apply insert_uniq_In in Hz as [->|Hz]; [now apply cmp_gt_lt|now apply Hall].
Qed.

Lemma sort_uniq_In l x : In x (sort_uniq cmp l) <-> In x l.
Proof.
  induction l as [|y l IH]; cbn [sort_uniq fold_right In]; [tauto|].
  fold (sort_uniq cmp l). rewrite insert_uniq_In, IH. intuition.
Qed.

Lemma sort_uniq_sorted l : SSorted (sort_uniq cmp l).
Proof.
  induction l as [|y l IH]; cbn [sort_uniq fold_right]; [constructor|].
  now apply insert_uniq_sorted.
Qed.

Lemma SSorted_NoDup l : SSorted l -> NoDup l.
Proof.
  induction 1 as [|a l Hs IH Hall]; constructor; [|exact IH].
  intros Hin. rewrite Forall_forall in Hall. exact (cmp_lt_irrefl a (Hall a Hin)).
Qed.

Lemma sort_uniq_NoDup l : NoDup (sort_uniq cmp l).
Proof. apply SSorted_NoDup, sort_uniq_sorted. Qed.

(* a strictly sorted list is determined by its elements *)
Lemma SSorted_unique l1 : forall l2,
  SSorted l1 -> SSorted l2 -> (forall x, In x l1 <-> In x l2) -> l1 = l2.
Proof.
  induction l1 as [|a l1 IH]; intros l2 H1 H2 Hin.
  - destruct l2 as [|b l2]; [reflexivity|]. exfalso. apply (Hin b). now left.
  - destruct l2 as [|b l2]; [exfalso; apply (Hin a); now left|].
    inversion H1 as [|? ? H1' Hall1]; inversion H2 as [|? ? H2' Hall2]; subst.
    rewrite Forall_forall in Hall1, Hall2.
    assert (a = b).
    { destruct (proj1 (Hin a) (or_introl eq_refl)) as [<-|Ha]; [reflexivity|].
      destruct (proj2 (Hin b) (or_introl eq_refl)) as [<-|Hb]; [reflexivity|].
      exfalso. apply (cmp_lt_irrefl a). eapply (cmp_trans _ HC); [apply Hall1, Hb|apply Hall2, Ha]. }
    subst b. f_equal. apply IH; [assumption|assumption|].
    intros x. split; intros Hx.
    + destruct (proj1 (Hin x) (or_intror Hx)) as [<-|H]; [|exact H].
      exfalso. exact (cmp_lt_irrefl a (Hall1 a Hx)).
    + destruct (proj2 (Hin x) (or_intror Hx)) as [<-|H]; [|exact H].
      exfalso. exact (cmp_lt_irrefl a (Hall2 a Hx)).
Qed.

Lemma sort_uniq_of_sorted l : SSorted l -> sort_uniq cmp l = l.
Proof.
  intros H. apply SSorted_unique; [apply sort_uniq_sorted|exact H|apply sort_uniq_In].
Qed.

Lemma sort_uniq_idem l : sort_uniq cmp (sort_uniq cmp l) = sort_uniq cmp l.
Proof. apply sort_uniq_of_sorted, sort_uniq_sorted. Qed.

Lemma sort_uniq_ext l1 l2 : (forall x, In x l1 <-> In x l2) -> sort_uniq cmp l1 = sort_uniq cmp l2.
Proof.
  intros H. apply SSorted_unique; try apply sort_uniq_sorted.
  intros x. rewrite !sort_uniq_In. apply H.
Qed.

Lemma SSorted_filter p l : SSorted l -> SSorted (filter p l).
Proof.
  induction 1 as [|a l Hs IH Hall]; cbn [filter]; [constructor|].
  destruct (p a); [|exact IH]. constructor; [exact IH|].
  rewrite Forall_forall in *. intros x Hx. apply filter_In in Hx as [Hx _]. now apply Hall.
Qed.

Lemma sort_uniq_filter p l : sort_uniq cmp (filter p l) = filter p (sort_uniq cmp l).
Proof.
  apply SSorted_unique; [apply sort_uniq_sorted|apply SSorted_filter, sort_uniq_sorted|].
  intros x. rewrite sort_uniq_In, !filter_In, sort_uniq_In. tauto.
Qed.

Lemma sort_uniq_length_NoDup l : NoDup l -> length (sort_uniq cmp l) = length l.
Proof.
  intros H. apply Permutation_length, NoDup_Permutation; [apply sort_uniq_NoDup|exact H|apply sort_uniq_In].
Qed.
End SortUniqP.
