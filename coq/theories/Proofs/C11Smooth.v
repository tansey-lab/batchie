(* C11: every shipped smoother returns a sub-multiset of its input (any oracle answers);
   merge smoothers only relabel, size / per-sample smoothers only select rows. *)
From Coq Require Import ZArith List Bool Arith Permutation.
From Batchie Require Import Proofs.PyRtLemmas Lib.ListX Lib.Sexp Model.Encode Model.Screen Model.Retro Proofs.C11Lib.
Import ListNotations.
Open Scope nat_scope.

Lemma merge_strip : forall a b rows, map strip (snd (merge a b rows)) = map strip rows.
Proof. intros. unfold merge. cbn [snd]. apply vrelabel_strip. Qed.

Lemma remove_nth_map {A B} (f : A -> B) : forall i l, remove_nth i (map f l) = map f (remove_nth i l).
Proof.
  intros i l. revert i. induction l as [|x l IH]; intros [|i]; cbn [map remove_nth]; try reflexivity. now rewrite IH.
Qed.
Lemma remove_nth_length {A} : forall i (l : list A) x, nth_error l i = Some x -> length l = S (length (remove_nth i l)).
Proof.
  intros i l. revert i. induction l as [|y l IH]; intros [|i] x H; cbn in H; try discriminate; cbn [remove_nth length].
  - reflexivity.
  - f_equal. eapply IH; exact H.
Qed.

Lemma pop_ok : forall heap ds v h ds',
  pop heap ds = Ok (v, h, ds') ->
  exists i, ds = DInts [i] :: ds' /\ nth_error heap i = Some v /\ h = remove_nth i heap
            /\ forallb (fun w => vcount v <=? vcount w) heap = true.
Proof.
  intros heap ds v h ds' H. unfold pop in H.
  destruct ds as [|[[|i [|j l]]|l] ds]; try discriminate.
  destruct (nth_error heap i) as [v0|] eqn:En; [|discriminate].
  destruct (forallb _ heap) eqn:Ef; [|discriminate].
  inversion H; subst. exists i. auto.
Qed.

Lemma mm_loop_strip : forall fuel ms heap rows ds rows' ds',
  mm_loop fuel ms heap rows ds = Ok (rows', ds') -> map strip rows' = map strip rows.
Proof.
  induction fuel as [|f IH]; intros ms heap rows ds rows' ds' H; cbn [mm_loop] in H.
  - now inversion H.
  - destruct (length heap <=? 1); [now inversion H|].
    apply res_bind_inv in H as ([[a h1] ds1] & _ & H).
    apply res_bind_inv in H as ([[b h2] ds2] & _ & H).
    destruct (_ >? ms)%Z; [now inversion H|].
    apply IH in H. rewrite H. apply (merge_strip b a).
Qed.

Lemma mm_samples_strip : forall ms samples rows ds rows' ds',
  mm_samples ms samples rows ds = Ok (rows', ds') -> map strip rows' = map strip rows.
Proof.
  induction samples as [|s samples IH]; intros rows ds rows' ds' H; cbn [mm_samples] in H.
  - now inversion H.
  - apply res_bind_inv in H as (ps & _ & H).
    apply res_bind_inv in H as ([rows1 ds1] & El%mm_loop_strip & H%IH). congruence.
Qed.

Lemma merge_min_strip : forall ms rows ds rows' ds',
  merge_min ms rows ds = Ok (rows', ds') -> map strip rows' = map strip rows.
Proof. intros ms rows ds rows' ds'. apply mm_samples_strip. Qed.

Lemma tb_merge_pairs_strip : forall pairs rows, map strip (tb_merge_pairs pairs rows) = map strip rows.
Proof.
  induction pairs as [|[small big] pairs IH]; intros rows; cbn [tb_merge_pairs]; [reflexivity|].
  rewrite IH. apply merge_strip.
Qed.

Lemma tb_iter_strip : forall s rows rows', tb_iter s rows = Ok (Some rows') -> map strip rows' = map strip rows.
Proof.
  intros s rows rows' H. unfold tb_iter in H.
  apply res_bind_inv in H as (ps & _ & H).
  destruct (length ps <=? 1); [discriminate|]. inversion H. apply tb_merge_pairs_strip.
Qed.

Lemma tb_iters_strip : forall n s rows rows', tb_iters n s rows = Ok rows' -> map strip rows' = map strip rows.
Proof.
  induction n as [|n IH]; intros s rows rows' H; cbn [tb_iters] in H.
  - now inversion H.
  - apply res_bind_inv in H as ([rows1|] & Ei & H).
    + apply tb_iter_strip in Ei. apply IH in H. congruence.
    + now inversion H.
Qed.

Lemma tb_samples_strip : forall n samples rows rows',
  tb_samples n samples rows = Ok rows' -> map strip rows' = map strip rows.
Proof.
  induction samples as [|s samples IH]; intros rows rows' H; cbn [tb_samples] in H.
  - now inversion H.
  - apply res_bind_inv in H as (rows1 & Ei%tb_iters_strip & H%IH). congruence.
Qed.

Lemma merge_tb_strip : forall n rows rows', merge_tb n rows = Ok rows' -> map strip rows' = map strip rows.
Proof. intros n rows rows'. apply tb_samples_strip. Qed.

Lemma size_smooth_selects : forall t rows ds out ds',
  size_smooth t rows ds = Ok (out, ds') -> exists v : bvec, out = vselect v rows.
Proof.
  intros t rows ds out ds' H. unfold size_smooth in H.
  apply res_bind_inv in H as ([vs ds1] & _ & H). inversion H. eauto.
Qed.

Lemma optimal_smooth_selects : forall rows ds out ds',
  optimal_smooth rows ds = Ok (out, ds') -> exists v : bvec, out = vselect v rows.
Proof.
  intros rows ds out ds' H. unfold optimal_smooth in H. destruct (is_nil rows); [discriminate|].
  eapply size_smooth_selects; eassumption.
Qed.

Lemma np_drop_stale_filter : forall m todo rows, exists h, np_drop_stale m todo rows = filter h rows.
Proof.
  induction todo as [|[sid c] todo IH]; intros rows; cbn [np_drop_stale].
  - exists (fun _ => true). induction rows as [|r rows IHr]; cbn [filter]; congruence.
  - destruct (Z.of_nat c <? m)%Z; [|apply IH].
    destruct (IH (filter (fun x => negb (sample_id rows (r_sample x) =? sid)) rows)) as [h ->].
    eexists. apply filter_filter.
Qed.

Lemma nplate_selects : forall fx m rows out, nplate fx m rows = Ok out -> exists v : bvec, out = vselect v rows.
Proof.
  intros fx m rows out H. unfold nplate in H.
  apply res_bind_inv in H as (counts & _ & H).
  destruct fx; inversion H.
  - eexists. apply filter_vselect.
  - destruct (np_drop_stale_filter m (map (fun kc => (sample_id rows (fst kc), snd kc)) counts) rows) as [h Hh].
    rewrite Hh. eexists. apply filter_vselect.
Qed.

Lemma unmasked_of_submulti_strip : forall a b, submulti (map strip a) (map strip b) -> unmasked b -> unmasked a.
Proof. intros a b HS. apply unmasked_incl_strip. intros s. now apply submulti_In. Qed.

Lemma selects_sub : forall (v : bvec) rows, submulti (map strip (vselect v rows)) (map strip rows).
Proof. intros. apply submulti_map, vselect_submulti. Qed.

Lemma pure_sm_ok : forall f rows ds out ds', pure_sm f rows ds = Ok (out, ds') -> f rows = Ok out.
Proof.
  intros f rows ds out ds' H. unfold pure_sm in H. destruct (f rows); cbn [res_bind] in H; congruence.
Qed.

(* an inner smoother whose output is, labels aside, a sub-multiset of its input when that is unobserved;
   the output is then unobserved as well, so such smoothers can be chained *)
Definition sub_inner (f : list row -> list draw -> result (list row * list draw)) : Prop :=
  forall u ds nu ds', unmasked u -> f u ds = Ok (nu, ds') -> submulti (map strip nu) (map strip u).

Lemma wrap_sub : forall f, sub_inner f -> sub_inner (wrap f).
Proof.
  intros f Hf u ds nu ds' Hu H. destruct (wrap_unmasked _ _ _ _ _ Hu H) as [(-> & -> & _)|(_ & H')].
  - apply submulti_refl.
  - eapply Hf; eassumption.
Qed.

Lemma sub_then : forall f g, sub_inner f -> sub_inner g ->
  sub_inner (fun u ds => dor r <- f u ds; let '(s, d) := r in g s d).
Proof.
  intros f g Hf Hg u ds nu ds' Hu H. apply res_bind_inv in H as ([s d] & Ef & Eg).
  pose proof (Hf _ _ _ _ Hu Ef) as S1.
  eapply submulti_trans; [|exact S1]. eapply Hg; [|exact Eg]. eapply unmasked_of_submulti_strip; eassumption.
Qed.

Lemma merge_min_sub : forall ms, sub_inner (merge_min ms).
Proof. intros ms u ds nu ds' _ H. apply submulti_of_eq. eapply merge_min_strip; eassumption. Qed.
Lemma merge_tb_sub : forall n, sub_inner (pure_sm (merge_tb n)).
Proof. intros n u ds nu ds' _ H. apply pure_sm_ok in H. apply submulti_of_eq. eapply merge_tb_strip; eassumption. Qed.
Lemma size_sub : forall t, sub_inner (size_smooth t).
Proof. intros t u ds nu ds' _ H. apply size_smooth_selects in H as [v ->]. apply selects_sub. Qed.
Lemma optimal_sub : sub_inner optimal_smooth.
Proof. intros u ds nu ds' _ H. apply optimal_smooth_selects in H as [v ->]. apply selects_sub. Qed.
Lemma nplate_sub : forall fx m, sub_inner (pure_sm (nplate fx m)).
Proof. intros fx m u ds nu ds' _ H. apply pure_sm_ok in H. apply nplate_selects in H as [v ->]. apply selects_sub. Qed.

Lemma ensemble_sub : forall fx ms n m, sub_inner (ensemble fx ms n m).
Proof.
  intros fx ms n m. unfold ensemble.
  apply sub_then; [apply wrap_sub, merge_min_sub|].
  apply sub_then; [apply wrap_sub, merge_tb_sub|].
  apply sub_then; [apply wrap_sub, optimal_sub|].
  apply wrap_sub, nplate_sub.
Qed.

Lemma smooth_inner_sub : forall sm u ds nu ds', unmasked u -> smooth_inner sm u ds = Ok (nu, ds') ->
  submulti (map strip nu) (map strip u).
Proof.
  intros [ms|n|t| |fx m|fx ms n m]; cbn [smooth_inner].
  - apply merge_min_sub.
  - apply merge_tb_sub.
  - apply size_sub.
  - apply optimal_sub.
  - apply nplate_sub.
  - apply ensemble_sub.
Qed.

Theorem smoother_sub : forall sm rows ds out ds',
  smooth_plates sm rows ds = Ok (out, ds') ->
  exists nu, out = nu ++ observed rows
             /\ Forall (fun r => r_mask r = false) nu
             /\ exists rest, Permutation (map strip nu ++ rest) (map strip (unobserved rows)).
Proof.
  intros sm. apply (wrap_conserves (fun nu u => submulti (map strip nu) (map strip u))).
  - apply submulti_refl.
  - intros nu u HS s. now apply submulti_In.
  - apply smooth_inner_sub.
Qed.

Theorem merge_smoothers_relabel_only : forall rows ds out ds',
  (forall ms, merge_min ms rows ds = Ok (out, ds') -> map strip out = map strip rows) /\
  (forall n, merge_tb n rows = Ok out -> map strip out = map strip rows).
Proof.
  intros rows ds out ds'. split.
  - intros ms. apply merge_min_strip.
  - intros n. apply merge_tb_strip.
Qed.

Theorem size_smoothers_keep_rows : forall rows ds out ds',
  (forall t, size_smooth t rows ds = Ok (out, ds') -> exists v : bvec, out = vselect v rows) /\
  (optimal_smooth rows ds = Ok (out, ds') -> exists v : bvec, out = vselect v rows) /\
  (forall fx m, nplate fx m rows = Ok out -> exists v : bvec, out = vselect v rows).
Proof.
  intros rows ds out ds'. repeat split.
  - intros t. apply size_smooth_selects.
  - apply optimal_smooth_selects.
  - intros fx m. apply nplate_selects.
Qed.

Theorem select_any_sub : forall (v : bvec) (rows : list row), exists rest, Permutation (vselect v rows ++ rest) rows.
Proof. intros. apply vselect_submulti. Qed.
