(* C13 / C11, one of the pieces Proofs/C13SourceHelpers.v collects (its header describes the representation and the side conditions): plate.unique_sample_ids *)
From Coq Require Import List.
From Batchie Require Import Lib.Sexp Model.Encode Model.Screen Model.Views Model.Retro Generated.SrcPlates Proofs.C01Sort Proofs.C14Lists Proofs.C14SourceHelpers_ViewUniqueSamples Proofs.C13SourceHelpers_Base.
Import ListNotations.
Open Scope nat_scope.

(* plate.unique_sample_ids of a plate of a screen with fresh sample ids: the ranks (among the screen's sorted sample names) of
   [plate_unique_samples] - so `len(...) != 1` and `...[0]` in _get_plate_sample_id speak of the same sample *)
Theorem src_view_unique_sample_ids_are_plate_unique_samples : forall v : view, sample_ids_fresh (v_parent v) ->
  src_view_unique_sample_ids v
  = Ok (map (rank_in (sample_names (s_rows (v_parent v)))) (plate_unique_samples (v_sel v) (s_rows (v_parent v)))).
Proof.
  intros v (m & Hm). rewrite src_view_unique_sample_ids_is_model. f_equal.
  unfold view_unique_sids, view_sids, plate_unique_samples, sample_names.
  rewrite (fresh_ids_are_ranks _ _ _ _ Hm), !select_map, select_vselect.
  apply sort_uniq_ranks; [apply (sort_uniq_sorted name_cmp name_cmp_spec)|].
  intros x Hx. apply (sort_uniq_In name_cmp name_cmp_spec). apply in_map_iff in Hx. destruct Hx as (r & <- & Hr).
  apply in_map. eapply In_vselect. exact Hr.
Qed.
