(* C14, one piece of Proofs/C14SourceHelpers.v (which see): Plate.plate_name *)
From Coq Require Import List.
From Batchie Require Import Model.Screen Model.Views Generated.SrcPlates
  Proofs.C14SourceHelpers_Base.
Import ListNotations.
Open Scope Z_scope.

Theorem src_plate_name_is_model : forall v : view, src_plate_name v = view_plate_name v.
Proof.
  intros v. unfold src_plate_name, view_plate_name, view_plate_names, view_screen. cbn [snd].
  rewrite list_get_0. destruct (select (v_sel v) (map r_plate (s_rows (v_parent v)))); reflexivity.
Qed.
