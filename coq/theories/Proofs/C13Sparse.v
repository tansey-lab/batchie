(* C13: the sparse-cover initial plate observes an experiment of every sample and of every
   treatment id; observed rows are labelled initial_plate, all others one unobserved plate. *)
From Coq Require Import List Bool.
From Batchie Require Import Lib.Sexp Proofs.PyRtLemmas Model.Screen Model.Retro Model.RetroInit Proofs.C11Lib Proofs.C11Select Proofs.C11Init Proofs.C13Filter.
Import ListNotations.
Open Scope nat_scope.

Definition covers_row (rows : list row) (chosen : list nat) (P : row -> Prop) : Prop :=
  exists i r, In i chosen /\ nth_error rows i = Some r /\ P r.

Lemma offer_sample_in : forall ctrl rows s chosen i,
  memb i (sc_offer_sample ctrl rows s chosen) = true ->
  exists r, nth_error rows i = Some r /\ r_sample r = s.
Proof.
  intros ctrl rows s chosen i H. apply memb_In in H. unfold sc_offer_sample in H.
  destruct (is_nil _) in H; apply In_idx_where in H as (r & Hn & Hf).
  - apply in_sample_true in Hf. eauto.
  - apply andb_true_iff in Hf as [Hf _]. apply in_sample_true in Hf. eauto.
Qed.

Lemma sc_samples_spec : forall ctrl rows samples chosen ds chosen' ds',
  sc_samples ctrl rows samples chosen ds = Ok (chosen', ds') ->
  incl chosen chosen' /\
  forall s, In s samples -> covers_row rows chosen' (fun r => r_sample r = s).
Proof.
  intros ctrl rows samples. induction samples as [|s samples IH]; intros chosen ds chosen' ds' H;
    cbn [sc_samples] in H.
  - inversion H; subst. split; [apply incl_refl|intros s []].
  - destruct ds as [|[[|i [|j l]]|l] ds1]; try discriminate.
    destruct (memb i (sc_offer_sample ctrl rows s chosen)) eqn:Em; [|discriminate].
    apply IH in H as [Hi Hc]. split.
    + intros x Hx. apply Hi. apply in_or_app. now left.
    + intros s0 [<-|Hs0]; [|now apply Hc].
      destruct (offer_sample_in _ _ _ _ _ Em) as (r & Hn & Hs). exists i, r. repeat split; auto.
      apply Hi. apply in_or_app. right. now left.
Qed.

Lemma sc_loop_spec : forall ctrl rows ds chosen chosen' ds',
  sc_loop ctrl rows chosen ds = Ok (chosen', ds') ->
  incl chosen chosen' /\ sc_remaining ctrl rows chosen' = [].
Proof.
  intros ctrl rows ds. induction ds as [|d ds IH]; intros chosen chosen' ds' H; cbn [sc_loop] in H.
  - destruct (is_nil (sc_remaining ctrl rows chosen)) eqn:En; [|discriminate].
    apply is_nil_true in En. inversion H; subst. split; [apply incl_refl|exact En].
  - destruct (is_nil (sc_remaining ctrl rows chosen)) eqn:En.
    + apply is_nil_true in En. inversion H; subst. split; [apply incl_refl|exact En].
    + destruct d as [[|i [|j l]]|l]; try discriminate.
      destruct (memb i (sc_offer_loop ctrl rows chosen)); [|discriminate].
      apply IH in H as [Hi Hr]. split; [|exact Hr]. intros x Hx. apply Hi. apply in_or_app. now left.
Qed.

Lemma filter_nil {A} (f : A -> bool) : forall l, filter f l = [] -> forall x, In x l -> f x = false.
Proof.
  induction l as [|a l IH]; intros H x Hx; [contradiction|]. cbn [filter] in H.
  destruct (f a) eqn:E; [discriminate|]. destruct Hx as [<-|Hx]; [exact E|now apply IH].
Qed.

Lemma remaining_nil : forall ctrl rows chosen t,
  sc_remaining ctrl rows chosen = [] -> In t (all_tids ctrl rows) ->
  covers_row rows chosen (fun r => In t (row_tids ctrl r)).
Proof.
  intros ctrl rows chosen t H Ht. unfold sc_remaining in H.
  pose proof (filter_nil _ _ H t Ht) as Hm. apply negb_false_iff, tid_mem_In in Hm.
  unfold tids_at in Hm. apply in_concat in Hm as (l & Hl & Htl). apply in_map_iff in Hl as (i & <- & Hi).
  destruct (nth_error rows i) as [r|] eqn:En; [|contradiction]. exists i, r. auto.
Qed.

Lemma combine_nth {A B} : forall (la : list A) (lb : list B) i a b,
  nth_error la i = Some a -> nth_error lb i = Some b -> In (a, b) (combine la lb).
Proof.
  induction la as [|x la IH]; intros [|y lb] [|i] a b Ha Hb; cbn in Ha, Hb; try discriminate; cbn [combine].
  - inversion Ha; inversion Hb; subst. now left.
  - right. eapply IH; eassumption.
Qed.

Lemma vof_idx_nth : forall n K i, i < n -> nth_error (vof_idx n K) i = Some (memb i K).
Proof.
  intros n K i Hi. unfold vof_idx. rewrite nth_error_map.
  rewrite (nth_error_nth' (seq 0 n) 0) by now rewrite seq_length. now rewrite seq_nth.
Qed.

Lemma vor_nth : forall a b i x y, nth_error a i = Some x -> nth_error b i = Some y ->
  nth_error (vor a b) i = Some (x || y).
Proof.
  induction a as [|p a IH]; intros [|q b] [|i] x y Ha Hb; cbn in Ha, Hb; try discriminate; cbn [vor nth_error].
  - now inversion Ha; inversion Hb; subst.
  - now apply IH.
Qed.

Theorem sparse_cover_covers : forall ctrl reveal rows ds out ds',
  sparse_cover ctrl reveal rows ds = Ok (out, ds') ->
  (forall s, In s (sample_names rows) -> exists r, In r out /\ r_mask r = true /\ r_sample r = s) /\
  (forall t, In t (all_tids ctrl rows) -> exists r, In r out /\ r_mask r = true /\ In t (row_tids ctrl r)) /\
  (forall r, In r out -> r_plate r = if r_mask r then initial_plate else unobserved_plate) /\
  map core out = map core rows.
Proof.
  intros ctrl reveal rows ds out ds' H.
  pose proof (initial_plate_conserves _ _ _ _ _ _ H) as Hcore.
  unfold sparse_cover in H. destruct (negb (forallb r_mask rows)); [discriminate|].
  apply res_bind_inv in H as ([c1 ds1] & E1 & H); cbn beta iota in H.
  apply res_bind_inv in H as ([ch ds2] & E2 & H); cbn beta iota in H.
  apply sc_samples_spec in E1 as [_ Hs]. apply sc_loop_spec in E2 as [Hincl Hrem].
  match type of H with (dor c <- construct (map ?g (combine ?f rows)); _) = _ => set (final := f) in *; set (g0 := g) in * end.
  apply res_bind_inv in H as (c & Ec & H); cbn beta iota in H.
  apply construct_ok in Ec. inversion H; subst c out ds2. clear H.
  assert (Hobs : forall P, covers_row rows ch P ->
            exists r, In (g0 (true, r)) (map g0 (combine final rows)) /\ P r).
  { intros P (i & r & Hi & Hn & HP). exists r. split; [|exact HP]. apply in_map.
    assert (Hlt : i < length rows) by (apply nth_error_Some; congruence).
    assert (H0 : nth_error (vof_idx (length rows) ch) i = Some true).
    { rewrite vof_idx_nth by exact Hlt. f_equal. now apply memb_In. }
    apply (combine_nth _ _ i); [|exact Hn]. unfold final. destruct reveal; [|exact H0].
    erewrite vor_nth; [|exact H0|rewrite nth_error_map, Hn; reflexivity]. reflexivity. }
  split; [|split; [|split; [|exact Hcore]]].
  - intros s Hs0. destruct (Hobs (fun r => r_sample r = s)) as (r & Hin & Hr).
    + destruct (Hs s Hs0) as (i & r & Hi & Hn & Hr). exists i, r. auto.
    + eexists. split; [exact Hin|]. split; [reflexivity|exact Hr].
  - intros t Ht. destruct (Hobs _ (remaining_nil _ _ _ _ Hrem Ht)) as (r & Hin & Hr).
    eexists. split; [exact Hin|]. split; [reflexivity|exact Hr].
  - intros r Hr. apply in_map_iff in Hr as ([b r0] & <- & _). unfold g0. cbn. now destruct b.
Qed.
