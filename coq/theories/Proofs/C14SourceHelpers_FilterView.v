(* C14, one piece of Proofs/C14SourceHelpers.v (which see): filter_dataset_to_unique_treatments on a ScreenSubset *)
From Coq Require Import ZArith List Lia.
From Batchie Require Import Lib.Sexp Lib.PyRt Model.Screen Model.Views Generated.SrcViews Generated.SrcPlates
  Proofs.PyRtLemmas Proofs.C14Source_ViewSubset Proofs.C14SourceHelpers_Base Proofs.C14SourceHelpers_ViewArity
  Proofs.C14SourceHelpers_SelectUnique.
Import ListNotations.
Open Scope Z_scope.

Theorem src_filter_unique_view_is_model : forall v : view, src_filter_unique_view v = filter_unique_view v.
Proof.
  intros v. unfold src_filter_unique_view, filter_unique_view, unique_cols.
  change (src_view_sample_ids v) with (Ok (view_sids v)). cbn [res_bind].
  rewrite src_view_treatment_arity_is_model. cbn [res_bind].
  unfold zrange. rewrite Nat2Z.id.
  rewrite (append_columns_loop (s_arity (v_parent v)) (view_tids v)) by (reflexivity || lia). cbn [res_bind app].
  rewrite src_select_unique_is_model.
  destruct (select_unique (view_sids v :: map (fun i => column 0 i (view_tids v)) (seq 0 (s_arity (v_parent v))))) as [m|t];
    cbn [res_bind]; [|reflexivity].
  rewrite src_view_subset_is_model, res_bind_ret. reflexivity.
Qed.
