(* C05: the DOMAIN on which the model's totalisations are never exercised.
   Model/Dbal.v is total over Qc: 1 / 0 = 0, ln is an arbitrary oracle also on non-positive arguments, log(0) = -inf whatever
   distance_factor.  numpy disagrees there (inf / NaN).  On the property's quantifier - positive variances, non-negative
   matrices, distance_factor > 0 - none of these cases is reached: every alpha (padded cells included) is > 0 and every summed
   triple distance is >= 0, so `1.0 / alpha`, `/ np.square(alpha)` are divisions by positive numbers and np.log sees 0 (-inf, as
   modelled) or a positive number. *)
From Coq Require Import QArith Qcanon Lqa.
From Batchie Require Import Lib.Num Lib.NumP Model.Dbal.
Open Scope Qc_scope.

Lemma Qc_add_pos (x y : Qc) : 0 < x -> 0 < y -> 0 < x + y.
Proof. unfold Qclt, Qcplus. cbn [this Q2Qc]. rewrite !Qred_correct. intros; lra. Qed.

(* every real (non-NaN) cell of the variance array is positive *)
Definition vars_pos (vars : arr3n) : Prop := forall p i e v, get3 None vars p i e = Some v -> 0 < v.
(* every entry of the matrix is non-negative *)
Definition matrix_nonneg (D : arr2) : Prop := forall i j, 0 <= get2 0 D i j.

Lemma k_pv_pos vars p i e : vars_pos vars -> 0 < k_pv vars p i e.
Proof.
  intros H. unfold k_pv. destruct (get3 None vars p i e) as [v|] eqn:E; [exact (H p i e v E) | reflexivity].
Qed.

(* alpha > 0 for positive variances: the form the direct estimator computes *)
Theorem triple_alpha_pos (v1 v2 v3 : Qc) : 0 < v1 -> 0 < v2 -> 0 < v3 -> 0 < v1 * v2 + v2 * v3 + v1 * v3.
Proof. intros H1 H2 H3. apply Qc_add_pos; [apply Qc_add_pos|]; apply Qc_mul_pos; assumption. Qed.

(* hence on EVERY cell the kernel computes with, NaN-padded cells (variance set to 1) included *)
Theorem k_alpha_pos vars p t e : vars_pos vars -> 0 < k_alpha vars p t e.
Proof. intros H. destruct t as [[i1 i2] i3]. apply triple_alpha_pos; apply k_pv_pos; exact H. Qed.

(* the summed distance of a triple is >= 0: np.log is applied to 0 (-> -inf, modelled) or to a positive number *)
Theorem k_dsum_nonneg D t : matrix_nonneg D -> 0 <= k_dsum D t.
Proof. intros H. destruct t as [[i1 i2] i3]. apply Qc_add_nonneg; [apply Qc_add_nonneg|]; apply H. Qed.

(* the log-distance term is -inf exactly at summed distance 0 and df * ln(a positive number) otherwise
   (the model's reading df * -inf = -inf is numpy's for distance_factor > 0 only) *)
Theorem k_ltd_domain orc D df t : matrix_nonneg D ->
  (k_dsum D t = 0 /\ k_ltd orc D df t = None) \/ (0 < k_dsum D t /\ k_ltd orc D df t = Some (df * ln orc (k_dsum D t))).
Proof.
  intros H. pose proof (k_dsum_nonneg D t H) as Hn. unfold k_ltd, qeqb.
  destruct (Qc_eq_dec (k_dsum D t) 0) as [E|Hne].
  - left. split; [exact E | reflexivity].
  - right. split; [|reflexivity]. apply Qcle_lt_or_eq in Hn as [Hl|He]; [exact Hl | congruence].
Qed.
