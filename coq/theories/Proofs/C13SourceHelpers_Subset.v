(* C13 / C11, one of the pieces Proofs/C13SourceHelpers.v collects (its header describes the representation and the side conditions): Screen.subset = subset_of, ScreenSubset.to_screen = Retro.to_screen *)
From Coq Require Import ZArith List.
From Batchie Require Import Lib.Sexp Model.Screen Model.Views Model.Retro Generated.SrcViews Proofs.C14Defs Proofs.C14Views Proofs.C14ToScreen Proofs.C14Source_ScreenSubset Proofs.C14Source_ToScreen Proofs.C13SourceHelpers_Base.
Import ListNotations.
Open Scope nat_scope.

(* Screen.subset(v), v a bool array of the screen's length: the view whose rows are subset_of's *)
Theorem src_screen_subset_is_subset_of : forall (t : Z) (p : screen) (v : bvec), length v = screen_size p ->
  exists w, src_screen_subset (t, p) (true, v) = Ok w /\ view_rows w = subset_of (s_rows p) v /\
            v_tag w = t /\ v_parent w = p /\ v_sel w = v /\ view_ok w.
Proof.
  intros t p v H. rewrite src_screen_subset_is_model. cbn [fst snd]. rewrite (screen_subset_ok t p v H).
  eexists. split; [reflexivity|]. unfold view_rows, subset_of, view_ok. cbn [v_sel v_parent v_tag]. auto.
Qed.

(* ScreenSubset.to_screen() on a view of a valid screen: never refused; the new screen's rows are the selected rows
   (Retro.to_screen is the identity on them), and it is a fresh screen of the parent's arity and control name *)
Theorem src_to_screen_is_retro_to_screen : forall v : view, screen_valid (v_parent v) ->
  exists s, src_to_screen v = Ok s /\ s_rows s = Retro.to_screen (subset_of (s_rows (v_parent v)) (v_sel v)) /\
            fresh_screen s /\ s_arity s = s_arity (v_parent v) /\ s_ctrl s = s_ctrl (v_parent v).
Proof.
  intros v Hv. rewrite src_to_screen_is_model. destruct (to_screen_total v Hv) as (s & Hs). exists s. split; [exact Hs|].
  pose proof (mk_screen_fresh _ _ _ _ Hs) as Hf. apply to_screen_rows in Hs. destruct Hs as (H1 & H2 & H3 & _).
  unfold Retro.to_screen, subset_of. rewrite H1. auto.
Qed.
