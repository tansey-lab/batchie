(* C14, one piece of Proofs/C14Source.v (conventions and objects: see there): ScreenSubset.to_screen *)
From Coq Require Import List.
From Batchie Require Import Model.Views Generated.SrcViews
  Proofs.PyRtLemmas Proofs.C14Lists Proofs.C14Source_Base.
Import ListNotations.
Open Scope Z_scope.

(* Screen(...) receives the parent's six per-row arrays at the selected rows and the parent's control name: that is
   the model's constructor on the selected rows, the parent's arity and control name, no mappings, observations and mask given *)
Theorem src_to_screen_is_model : forall v : view, src_to_screen v = to_screen v.
Proof.
  intros v. unfold src_to_screen, to_screen, view_rows. rewrite res_bind_ret.
  unfold screen_of_arrays, select2, screen_treatment_names, screen_treatment_doses, screen_mask, view_screen.
  cbn [fst snd]. rewrite !select_map, rows_of_arrays_rows. reflexivity.
Qed.
