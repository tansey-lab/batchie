(* The option tables of evaluate_model.get_parser() and analyze_model_evaluation.get_parser(), read from /repo on every run:
   both DECLARE --seed (an int option with a non-negative default), like the four randomised commands.  evaluate_model.main()
   does not read args.seed and is deterministic without it (Props/C18.v re-states its link: the argument record of the
   translated main has no seed component and its vocabulary no generator); analyze_model_evaluation.main() hands args.seed to
   both of its regplot-drawing calls (Proofs/C18CliAnalyze.v). *)
From Coq Require Import List.
From Batchie Require Import Model.Cli Proofs.C18Parser Generated.SrcParser_evaluate_model Generated.SrcParser_analyze_model_evaluation.

Theorem parser_evaluate_model_seed : seed_declared src_parser_evaluate_model.
Proof. apply seed_declaredb_sound. vm_compute. reflexivity. Qed.

Theorem parser_analyze_model_evaluation_seed : seed_declared src_parser_analyze_model_evaluation.
Proof. apply seed_declaredb_sound. vm_compute. reflexivity. Qed.
