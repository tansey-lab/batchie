(* C12: the lifecycle operations never fail for a mixed plate, and are defined whenever the reveal guards pass. *)
From Coq Require Import ZArith List Bool.
From Batchie Require Import Lib.Sexp Model.Encode Model.Screen Model.Reveal Model.Holdout Proofs.C01Screen Proofs.C02Encode Proofs.C03Base Proofs.C03Screen Proofs.C12Reveal Proofs.C12Counters Proofs.C03Frozen.
Import ListNotations.
Open Scope Z_scope.

(* the rows a reveal builds are plate-uniform: rows of one plate name have one plate id, hence one reveal bit *)
Lemma uniform_reveal_rows s ids :
  plates_encoded s -> plate_uniform (s_rows s) = true -> plate_uniform (reveal_rows s ids) = true.
Proof.
  intros Hs Hu. rewrite reveal_rows_eq. apply plate_uniform_spec. intros r1 r2 H1 H2 Hp.
  apply in_map_iff in H1. apply in_map_iff in H2.
  destruct H1 as ([x1 p1] & <- & H1). destruct H2 as ([x2 p2] & <- & H2).
  unfold reveal_row in *. cbn [fst snd] in *. rewrite !with_mask_mask.
  change (r_plate x1 = r_plate x2) in Hp.
  rewrite (plates_encoded_same s x1 p1 x2 p2 Hs H1 H2 Hp).
  rewrite (proj1 (plate_uniform_spec _) Hu x1 x2 (in_combine_l _ _ _ _ H1) (in_combine_l _ _ _ _ H2) Hp). reflexivity.
Qed.

Lemma rebuild_not_mixed carry s rows : plate_uniform rows = true -> rebuild carry s rows <> Err 2.
Proof.
  intros Hu H. unfold rebuild in H. apply mk_screen_err2 in H. destruct H as [_ H]. rewrite norm_rows_tt in H. congruence.
Qed.

Theorem step_never_mixed v s o : constructed s -> step v s o <> Err 2.
Proof.
  intros Hc. pose proof (constructed_plates s Hc) as Hs. pose proof (constructed_uniform s Hc) as Hu.
  destruct o as [ids| | |]; cbn [step].
  - unfold reveal_plates. destruct (reveal_zero_guard s ids); [discriminate|].
    destruct (existsb obs_is_nan _); [discriminate|]. apply rebuild_not_mixed. now apply uniform_reveal_rows.
  - apply rebuild_not_mixed, uniform_const_mask.
  - apply rebuild_not_mixed, uniform_const_mask.
  - rewrite save_load_rebuild. now apply rebuild_not_mixed.
Qed.

Theorem history_never_mixed v ops s0 s o :
  constructed s0 -> history v ops s0 = Ok s -> step v s o <> Err 2.
Proof. intros H0 H. apply step_never_mixed. eapply history_constructed; eassumption. Qed.

(* the id columns of both mappings pass numpy_array_is_0_indexed_integers (the check a constructor call makes
   on mappings it is handed) *)
Definition mappings_valid (s : screen) : Prop :=
  zero_indexed true (map snd (s_tmap s)) = true /\ zero_indexed true (map snd (s_smap s)) = true.

(* a constructed screen is what the constructor returns on its own rows and mappings (C02Encode.mk_screen_idem), so
   everything a successful call says about its arguments holds of the screen's own fields *)
Lemma constructed_self s :
  constructed s ->
  exists tflat, built (s_rows s) (s_arity s) (s_ctrl s) (Some (s_tmap s, true)) (Some (s_smap s, true)) true true s tflat.
Proof. intros (rows & a & c & tm & sm & og & mg & H). apply mk_screen_idem in H. exact (mk_screen_inv H). Qed.

Lemma constructed_valid s : constructed s -> mappings_valid s.
Proof.
  intros Hc. destruct (constructed_self s Hc) as [tflat B].
  pose proof (b_tmap_ok B) as A1. pose proof (b_smap_ok B) as A2.
  apply negb_false_iff in A1. apply negb_false_iff in A2. now split.
Qed.

(* its rows encode again under its own mappings, handed over (carry) or built afresh *)
Lemma constructed_reencodes carry s :
  constructed s ->
  arity_ok (s_arity s) (s_rows s) = true /\
  (exists r, encode_treatments (the_tkeys (s_arity s) (s_rows s)) (s_ctrl s) (option_map fst (tmap_arg carry s)) = Ok r) /\
  (exists r, encode_names (map r_sample (s_rows s)) (option_map fst (smap_arg carry s)) 6 = Ok r).
Proof.
  intros Hc. destruct (constructed_self s Hc) as [tflat B]. split; [exact (b_arity_ok B)|]. split.
  - destruct carry; cbn [tmap_arg option_map fst]; [eexists; exact (b_treats B)|].
    destruct (encode_treatments_built_total (the_tkeys (s_arity s) (s_rows s)) (s_ctrl s)) as [tf Htf]. eexists. exact Htf.
  - destruct carry; cbn [smap_arg option_map fst]; [eexists; exact (b_samples B)|].
    destruct (encode_names_built_total (map r_sample (s_rows s)) 6) as [si Hsi]. eexists. exact Hsi.
Qed.

Lemma rebuild_defined carry s rows :
  constructed s ->
  map r_treats rows = map r_treats (s_rows s) -> map r_sample rows = map r_sample (s_rows s) ->
  plate_uniform rows = true -> exists s', rebuild carry s rows = Ok s'.
Proof.
  intros Hc Ht Hsm Hu. destruct (constructed_valid s Hc) as [A1 A2]. destruct (constructed_reencodes carry s Hc) as (Ha & ([tf tmp] & Hk) & ([si smp] & Hs)).
  destruct (encode_names_built_total (map r_plate rows) 6) as [pids Hp].
  unfold rebuild. eexists. eapply mk_screen_ok.
  - rewrite (arity_ok_treats _ _ _ Ht). exact Ha.
  - reflexivity.
  - exact Hu.
  - destruct carry; cbn [tmap_arg tmap_bad]; [now rewrite A1|reflexivity].
  - destruct carry; cbn [smap_arg smap_bad]; [now rewrite A2|reflexivity].
  - unfold the_tkeys. rewrite norm_rows_tt, Ht. exact Hk.
  - rewrite norm_rows_tt, Hsm. exact Hs.
  - exact Hp.
Qed.

(* on a constructed screen an operation fails only by a guard of reveal, whichever call sites pass the mappings on *)
Theorem constructed_step_defined v s o :
  constructed s ->
  match o with
  | Reveal ids => reveal_zero_guard s ids = false /\ existsb obs_is_nan (revealed_values s ids) = false
  | _ => True
  end -> exists s', step v s o = Ok s'.
Proof.
  intros Hc Hg. pose proof (constructed_uniform s Hc) as Hu. destruct o as [ids| | |]; cbn [step].
  - destruct Hg as [Hz Hn]. unfold reveal_plates. rewrite Hz, Hn.
    pose proof (constructed_plates s Hc) as Hs. pose proof (plates_encoded_length s Hs) as Hl.
    apply rebuild_defined; [exact Hc|now apply map_reveal_rows|now apply map_reveal_rows|now apply uniform_reveal_rows].
  - unfold mask_screen. apply rebuild_defined; [exact Hc|now rewrite map_map|now rewrite map_map|apply uniform_const_mask].
  - unfold unmask_screen. apply rebuild_defined; [exact Hc|now rewrite map_map|now rewrite map_map|apply uniform_const_mask].
  - rewrite save_load_rebuild. now apply rebuild_defined.
Qed.

Theorem reveal_defined v s ids :
  constructed s -> (carry_reveal v = true -> mappings_valid s) ->
  reveal_zero_guard s ids = false -> existsb obs_is_nan (revealed_values s ids) = false ->
  exists s', reveal_plates v s ids = Ok s'.
Proof. intros Hc _ Hz Hn. exact (constructed_step_defined v s (Reveal ids) Hc (conj Hz Hn)). Qed.

Theorem step_defined v s o :
  constructed s -> (carries v o = true -> mappings_valid s) ->
  match o with
  | Reveal ids => reveal_zero_guard s ids = false /\ existsb obs_is_nan (revealed_values s ids) = false
  | _ => True
  end -> exists s', step v s o = Ok s'.
Proof. intros Hc _. now apply constructed_step_defined. Qed.

(* repaired construction: along any lifecycle, mask / unmask / save+load are always defined and reveal is
   defined whenever its two guards pass *)
Theorem repaired_lifecycle_defined p sel test ops s o :
  lifecycle (carry_mappings true) p sel test ops = Ok s ->
  match o with
  | Reveal ids => reveal_zero_guard s ids = false /\ existsb obs_is_nan (revealed_values s ids) = false
  | _ => True
  end -> exists s', step (carry_mappings true) s o = Ok s'.
Proof.
  intros H. apply lifecycle_inv in H. destruct H as (pr & E & H). apply constructed_step_defined.
  eapply history_constructed; [eapply holdout_constructed; exact E|exact H].
Qed.
