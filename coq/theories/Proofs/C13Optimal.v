(* C13: the optimal size retains the most experiments:  s * #{plates of size >= s}  is maximal at
   s = optimal_size. *)
From Coq Require Import List Arith Lia Permutation Sorted.
From Batchie Require Import Lib.ListX Model.Retro.
Import ListNotations.
Open Scope nat_scope.

Definition count_ge (x : nat) (l : list nat) : nat := length (filter (fun y => x <=? y) l).

Lemma insert_nat_perm : forall x l, Permutation (insert_nat x l) (x :: l).
Proof.
  intros x l. induction l as [|y l IH]; cbn [insert_nat]; [reflexivity|].
  destruct (x <=? y); [reflexivity|]. rewrite IH. apply perm_swap.
Qed.
Lemma sort_nat_perm : forall l, Permutation (sort_nat l) l.
Proof.
  induction l as [|x l IH]; cbn [sort_nat fold_right]; [constructor|].
  change (fold_right insert_nat [] l) with (sort_nat l). rewrite insert_nat_perm. now constructor.
Qed.
Lemma insert_nat_sorted : forall x l, StronglySorted le l -> StronglySorted le (insert_nat x l).
Proof.
  intros x l H. induction H as [|y l Hs IH Hall]; cbn [insert_nat]; [repeat constructor|].
  destruct (x <=? y) eqn:E.
  - apply Nat.leb_le in E. constructor; [now constructor|]. constructor; [exact E|].
    eapply Forall_impl; [|exact Hall]. intros z Hz. lia.
  - apply Nat.leb_gt in E. constructor; [exact IH|]. apply Forall_forall. intros z Hz.
    apply (Permutation_in _ (insert_nat_perm x l)) in Hz as [<-|Hz]; [lia|].
    rewrite Forall_forall in Hall. now apply Hall.
Qed.
Lemma sort_nat_sorted : forall l, StronglySorted le (sort_nat l).
Proof.
  induction l as [|x l IH]; cbn [sort_nat fold_right]; [constructor|]. now apply insert_nat_sorted.
Qed.

(* the products array, by suffixes *)
Fixpoint prods_suffix (l : list nat) : list nat :=
  match l with [] => [] | x :: r => x * length l :: prods_suffix r end.

Lemma size_products_suffix_gen : forall l k n, n = k + length l ->
  map (fun kx => snd kx * (n - fst kx)) (enum_from k l) = prods_suffix l.
Proof.
  induction l as [|x l IH]; intros k n Hn; cbn [enum_from map prods_suffix fst snd]; [reflexivity|].
  cbn [length] in *. rewrite (IH (S k) n) by lia. f_equal. f_equal. lia.
Qed.
Lemma size_products_suffix : forall s, size_products s = prods_suffix s.
Proof. intros s. unfold size_products. now apply size_products_suffix_gen. Qed.
Lemma prods_suffix_length : forall l, length (prods_suffix l) = length l.
Proof. induction l as [|x l IH]; cbn [prods_suffix length]; congruence. Qed.

Lemma argmax_go_spec : forall l pre i best bi,
  length pre = i -> bi < i -> nth bi pre 0 = best -> (forall y, In y pre -> y <= best) ->
  let j := argmax_go l i best bi in
  j < length (pre ++ l) /\ forall y, In y (pre ++ l) -> y <= nth j (pre ++ l) 0.
Proof.
  induction l as [|y l IH]; intros pre i best bi Hl Hbi Hb Hall; cbn [argmax_go].
  - rewrite app_nil_r. cbn zeta. split; [lia|]. intros z Hz. rewrite Hb. now apply Hall.
  - destruct (best <? y) eqn:E.
    + apply Nat.ltb_lt in E.
      specialize (IH (pre ++ [y]) (S i) y i). rewrite <- app_assoc in IH. cbn [app] in IH. apply IH.
      * rewrite app_length. cbn. lia.
      * lia.
      * rewrite app_nth2 by lia. now replace (i - length pre) with 0 by lia.
      * intros z Hz. apply in_app_or in Hz as [Hz|[<-|[]]]; [specialize (Hall z Hz); lia|lia].
    + apply Nat.ltb_ge in E.
      specialize (IH (pre ++ [y]) (S i) best bi). rewrite <- app_assoc in IH. cbn [app] in IH. apply IH.
      * rewrite app_length. cbn. lia.
      * lia.
      * rewrite app_nth1 by lia. exact Hb.
      * intros z Hz. apply in_app_or in Hz as [Hz|[<-|[]]]; [now apply Hall|lia].
Qed.

Lemma argmax_spec : forall l, l <> [] ->
  argmax l < length l /\ forall y, In y l -> y <= nth (argmax l) l 0.
Proof.
  intros [|x l] H; [congruence|]. unfold argmax.
  apply (argmax_go_spec l [x] 1 x 0); cbn; auto. intros y [<-|[]]. lia.
Qed.

(* sorted lists: counting from a position on *)
Lemma count_ge_all : forall x l, Forall (fun y => x <= y) l -> count_ge x l = length l.
Proof.
  intros x l H. unfold count_ge. induction H as [|y l Hy Hl IH]; cbn [filter length]; [reflexivity|].
  apply Nat.leb_le in Hy. rewrite Hy. cbn [length]. congruence.
Qed.
Lemma count_ge_cons_le : forall x a l, count_ge x l <= count_ge x (a :: l).
Proof. intros. unfold count_ge. cbn [filter]. destruct (x <=? a); cbn [length]; lia. Qed.

Lemma suffix_le_count : forall l, StronglySorted le l -> forall k, k < length l ->
  nth k (prods_suffix l) 0 <= nth k l 0 * count_ge (nth k l 0) l.
Proof.
  intros l H. induction H as [|a l Hs IH Hall]; intros k Hk; [cbn in Hk; lia|].
  destruct k as [|k]; cbn [nth prods_suffix].
  - rewrite count_ge_all; [lia|]. constructor; [lia|exact Hall].
  - cbn [length] in Hk. etransitivity; [apply IH; lia|]. apply Nat.mul_le_mono_l, count_ge_cons_le.
Qed.

Lemma count_le_max : forall l, StronglySorted le l -> forall x m,
  (forall y, In y (prods_suffix l) -> y <= m) -> x * count_ge x l <= m.
Proof.
  intros l H. induction H as [|a l Hs IH Hall]; intros x m Hm; [cbn; lia|].
  destruct (x <=? a) eqn:E.
  - apply Nat.leb_le in E. rewrite count_ge_all.
    + etransitivity; [|apply Hm; cbn [prods_suffix]; left; reflexivity]. apply Nat.mul_le_mono_r. exact E.
    + constructor; [exact E|]. eapply Forall_impl; [|exact Hall]. intros z Hz. lia.
  - unfold count_ge. cbn [filter]. rewrite E. apply IH. intros y Hy. apply Hm. cbn [prods_suffix]. now right.
Qed.

Theorem optimal_size_optimal : forall sizes x,
  x * count_ge x sizes <= optimal_size sizes * count_ge (optimal_size sizes) sizes.
Proof.
  intros sizes x. unfold optimal_size. set (s := sort_nat sizes).
  assert (HP : Permutation s sizes) by apply sort_nat_perm.
  assert (HS : StronglySorted le s) by apply sort_nat_sorted.
  unfold count_ge. rewrite <- !(filter_length_perm _ _ _ HP). fold (count_ge x s).
  rewrite size_products_suffix.
  destruct s as [|a s'] eqn:Es; [cbn; lia|]. rewrite <- Es in *.
  assert (Hne : prods_suffix s <> []) by (rewrite Es; discriminate).
  destruct (argmax_spec _ Hne) as [Hlt Hmax]. rewrite prods_suffix_length in Hlt.
  set (i := argmax (prods_suffix s)) in *.
  etransitivity; [apply (count_le_max s HS x _ Hmax)|].
  apply (suffix_le_count s HS i Hlt).
Qed.

(* the optimal size is the size of an existing plate *)
Lemma optimal_size_In : forall sizes, sizes <> [] -> In (optimal_size sizes) sizes.
Proof.
  intros sizes Hne. unfold optimal_size. set (s := sort_nat sizes).
  assert (HP : Permutation s sizes) by apply sort_nat_perm.
  eapply Permutation_in; [exact HP|]. apply nth_In.
  assert (Hs : s <> []).
  { intros E. rewrite E in HP. apply Permutation_nil in HP. contradiction. }
  rewrite size_products_suffix.
  assert (Hne' : prods_suffix s <> []) by (destruct s; [congruence|discriminate]).
  destruct (argmax_spec _ Hne') as [Hlt _]. now rewrite prods_suffix_length in Hlt.
Qed.
