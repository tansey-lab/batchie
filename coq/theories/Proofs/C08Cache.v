(* C08: the fitted-value cache Mu equals the recomputation after every block
   (under NoSelfCombo), for every draw result; preserved along any sequence of blocks. *)
From Coq Require Import List QArith Qcanon Lia.
From Batchie Require Import Lib.ListX Lib.Num Model.Gibbs Model.GibbsSpec Proofs.C08Sums Proofs.C08Gauss.
Import ListNotations.
Open Scope Qc_scope.

Lemma list_eq_tab (l : list Qc) n f : length l = n -> (forall i, (i < n)%nat -> vnth l i = f i) -> l = tab n f.
Proof.
  intros Hl H. apply (nth_ext _ _ 0 0).
  - now rewrite tab_length.
  - intros i Hi. rewrite Hl in Hi. fold (vnth l i). fold (vnth (tab n f) i). rewrite vnth_tab by exact Hi. now apply H.
Qed.

(* every state a program can return, for all answers to its draws *)
Fixpoint all_rets (P : st -> Prop) (p : prog) : Prop :=
  match p with Ret s => P s | Draw _ k => forall v, all_rets P (k v) end.

Lemma all_rets_bind P p f : all_rets (fun s => all_rets P (f s)) p -> all_rets P (bind p f).
Proof. induction p as [s|dr k IH]; cbn [bind all_rets]; [auto|]. intros H v. apply IH, H. Qed.

Lemma all_rets_weaken (P Q : st -> Prop) p : (forall s, P s -> Q s) -> all_rets P p -> all_rets Q p.
Proof. intros HPQ. induction p as [s|dr k IH]; cbn [all_rets]; [auto|]. intros H v. apply IH, H. Qed.

Lemma all_rets_seq_blocks (P : st -> Prop) blocks :
  (forall b, In b blocks -> forall s v, P s -> P (snd (b s) v)) ->
  forall s, P s -> all_rets P (seq_blocks blocks s).
Proof.
  induction blocks as [|b r IH]; intros Hb s Hs; cbn [seq_blocks all_rets]; [exact Hs|].
  intros v. apply IH; [intros b' Hb'; apply Hb; now right|]. apply Hb; [now left|exact Hs].
Qed.

(* a step function's list of per-index blocks: a property of block c for every c < n holds of every block of the list *)
Lemma range_blocks (R : (st -> draw * (val -> st)) -> Prop) (b : nat -> st -> draw * (val -> st)) n :
  (forall c, (c < n)%nat -> R (fun s' => b c s')) -> forall f, In f (map (fun c s' => b c s') (seq 0 n)) -> R f.
Proof. intros H f Hf. apply in_map_iff in Hf as (c & <- & Hc). apply in_seq in Hc. apply H. lia. Qed.

Section Cache.
Variable g : cfg.
Variable d : data.
Notation D := (c_D g).
Notation n := (nobs d).

Definition Wf (s : st) : Prop :=
  length (W s) = c_ncl g /\ length (W0 s) = c_ncl g /\ length (V2 s) = c_ndd g /\ length (V1 s) = c_ndd g /\ length (V0 s) = c_ndd g.
Definition Inv (s : st) : Prop := cache_ok g d s /\ Wf s.

Lemma cache_len s : cache_ok g d s -> length (Mu s) = n.
Proof. intros H. rewrite H. apply tab_length. Qed.

Lemma cache_step (s s' : st) (pA pB : nat -> bool) (base lA0 lB0 lA1 lB1 : nat -> Qc) :
  ValidData d -> cache_ok g d s ->
  (forall i, (i < n)%nat -> pA i = true -> pB i = true -> False) ->
  (forall i, (i < n)%nat -> spec_mean g d s i = base i + (if pA i then lA0 i else 0) + (if pB i then lB0 i else 0)) ->
  (forall i, (i < n)%nat -> spec_mean g d s' i = base i + (if pA i then lA1 i else 0) + (if pB i then lB1 i else 0)) ->
  Mu s' = scatter_add (Mu s) (filter pA (seq 0 n) ++ filter pB (seq 0 n))
                      (map (fun i => lA1 i - lA0 i) (filter pA (seq 0 n)) ++ map (fun i => lB1 i - lB0 i) (filter pB (seq 0 n))) ->
  cache_ok g d s'.
Proof.
  intros Hv Hc Hdis H0 H1 HMu. unfold cache_ok, reconstruct.
  set (idx := filter pA (seq 0 n) ++ filter pB (seq 0 n)) in *.
  set (h := fun i => if pA i then lA1 i - lA0 i else lB1 i - lB0 i).
  assert (Hdelta : map (fun i => lA1 i - lA0 i) (filter pA (seq 0 n)) ++ map (fun i => lB1 i - lB0 i) (filter pB (seq 0 n)) = map h idx).
  { unfold idx. rewrite map_app. f_equal; apply map_ext_in; intros i Hi; apply filter_In in Hi as [Hi Hp]; apply in_seq in Hi; unfold h.
    - now rewrite Hp.
    - destruct (pA i) eqn:E; [exfalso; eapply (Hdis i); eauto; lia|reflexivity]. }
  rewrite Hdelta in HMu.
  assert (Hin : forall i, In i idx <-> (i < n)%nat /\ (pA i = true \/ pB i = true)).
  { intros i. unfold idx. rewrite in_app_iff, !filter_In, !in_seq. intuition lia. }
  assert (Hnd : NoDup idx).
  { unfold idx. apply NoDup_app_intro; try (apply NoDup_filter, seq_NoDup).
    intros i Ha Hb. apply filter_In in Ha as [Ha Ha'], Hb as [_ Hb']. apply in_seq in Ha. eapply (Hdis i); eauto; lia. }
  apply list_eq_tab.
  - rewrite HMu, scatter_add_length. now apply cache_len.
  - intros i Hi. rewrite HMu, scatter_add_map; [|exact Hnd|intros j Hj; apply Hin in Hj; rewrite (cache_len s Hc); tauto].
    rewrite (mu_at_spec g d s' i Hv), (H1 i Hi), (cache_nth g d s i Hv Hc Hi), (H0 i Hi).
    destruct (in_dec Nat.eq_dec i idx) as [Hi'|Hi'].
    + apply Hin in Hi' as [_ Hp]. unfold h. destruct (pA i) eqn:EA, (pB i) eqn:EB; try ring.
      * exfalso; eapply Hdis; eauto.
      * destruct Hp; discriminate.
    + destruct (pA i) eqn:EA; [exfalso; apply Hi', Hin; auto|].
      destruct (pB i) eqn:EB; [exfalso; apply Hi', Hin; auto|]. ring.
Qed.

Lemma cache_block_W0 s c v :
  ValidData d -> Inv s -> (c < c_ncl g)%nat -> Inv (snd (block_W0 d s c) v).
Proof.
  intros Hv [Hc Hwf] Hlt. pose proof Hwf as (_ & HW0 & _).
  assert (Hlt' : (c < length (W0 s))%nat) by lia.
  set (x := val_q v).
  assert (Hgen : cache_ok g d (set_Mu (upd_W0 s c x)
             (scatter_add (Mu s) (positions (Z.of_nat c) (d_cl d)) (map (fun _ => x - vnth (W0 s) c) (positions (Z.of_nat c) (d_cl d)))))).
  { apply (cache_step s _ (inC d c) (fun _ => false) (spec_mean g d (upd_W0 s c 0)) (fun _ => vnth (W0 s) c) (fun _ => vnth (W0 s) c) (fun _ => x) (fun _ => x) Hv Hc).
    - intros; discriminate.
    - intros i _. rewrite <- (upd_W0_same s c) at 1. now apply mean_W0.
    - intros i _. now apply (mean_W0 g d s c x).
    - cbn [Mu set_Mu]. rewrite filter_false_nil. cbn [map]. rewrite !app_nil_r.
      unfold inC. rewrite <- (positions_eq (Z.of_nat c) (d_cl d) n (proj1 Hv)). reflexivity. }
  assert (Hwf' : forall M, Wf (set_Mu (upd_W0 s c x) M)).
  { intros M. unfold Wf, upd_W0. cbn [W W0 V2 V1 V0 set_Mu set_W0]. rewrite set_nth_length. exact Hwf. }
  unfold block_W0. destruct (positions (Z.of_nat c) (d_cl d)); cbn [snd]; fold x.
  - split; [exact Hgen | apply (Hwf' (Mu s))].
  - split; [exact Hgen | apply Hwf'].
Qed.

Lemma cache_block_V0 s m v :
  ValidData d -> NoSelfCombo d -> Inv s -> (m < c_ndd g)%nat -> Inv (snd (block_V0 d s m) v).
Proof.
  intros Hv Hns [Hc Hwf] Hlt. pose proof Hwf as (_ & _ & _ & _ & HV0).
  assert (Hlt' : (m < length (V0 s))%nat) by lia.
  set (x := val_q v).
  assert (Hgen : cache_ok g d (set_Mu (upd_V0 s m x)
             (scatter_add (Mu s) (idxV d m) (map (fun _ => x - vnth (V0 s) m) (idxV d m))))).
  { apply (cache_step s _ (in1 d m) (in2 d m) (spec_mean g d (upd_V0 s m 0))
             (fun _ => vnth (V0 s) m) (fun _ => vnth (V0 s) m) (fun _ => x) (fun _ => x) Hv Hc).
    - intros i Hi. now apply in12_disjoint.
    - intros i _. rewrite <- (upd_V0_same s m) at 1. now apply mean_V0.
    - intros i _. now apply (mean_V0 g d s m x).
    - cbn [Mu set_Mu]. rewrite (idxV_filter d m Hv), map_app. reflexivity. }
  assert (Hwf' : forall M, Wf (set_Mu (upd_V0 s m x) M)).
  { intros M. unfold Wf, upd_V0. cbn [W W0 V2 V1 V0 set_Mu set_V0]. rewrite set_nth_length. exact Hwf. }
  unfold block_V0. fold (idxV d m). destruct (idxV d m); cbn [snd]; fold x.
  - split; [exact Hgen | apply (Hwf' (Mu s))].
  - split; [exact Hgen | apply Hwf'].
Qed.

Lemma mvn_deltas_rows s X cur w idx :
  mvn_deltas g (mk_rows g d s X cur idx) cur w = map (fun i => vdot D (X i) w - vdot D (X i) cur) idx.
Proof. unfold mvn_deltas, mk_rows. rewrite map_map. reflexivity. Qed.

Lemma cache_block_W s c v :
  ValidData d -> Inv s -> (c < c_ncl g)%nat -> Inv (snd (block_W g d s c) v).
Proof.
  intros Hv [Hc Hwf] Hlt. pose proof Hwf as (HW & _).
  assert (Hlt' : (c < length (W s))%nat) by lia.
  assert (Hgen : forall w, cache_ok g d (set_Mu (upd_W s c w)
             (scatter_add (Mu s) (positions (Z.of_nat c) (d_cl d))
                (mvn_deltas g (mk_rows g d s (xrow_W g d s) (rnth (W s) c) (positions (Z.of_nat c) (d_cl d))) (rnth (W s) c) w)))).
  { intros w.
    apply (cache_step s _ (inC d c) (fun _ => false) (spec_mean g d (upd_W s c []))
             (fun i => vdot D (xrow_W g d s i) (rnth (W s) c)) (fun _ => 0) (fun i => vdot D (xrow_W g d s i) w) (fun _ => 0) Hv Hc).
    - intros; discriminate.
    - intros i _. rewrite <- (upd_W_same s c) at 1. now apply mean_W.
    - intros i _. now apply (mean_W g d s c w).
    - cbn [Mu set_Mu]. rewrite mvn_deltas_rows, filter_false_nil. cbn [map]. rewrite !app_nil_r.
      unfold inC. rewrite <- (positions_eq (Z.of_nat c) (d_cl d) n (proj1 Hv)). reflexivity. }
  assert (Hwf' : forall w M, Wf (set_Mu (upd_W s c w) M)).
  { intros w M. unfold Wf, upd_W. cbn [W W0 V2 V1 V0 set_Mu set_W]. rewrite set_nth_length. exact Hwf. }
  unfold block_W. destruct (positions (Z.of_nat c) (d_cl d)) as [|i0 l] eqn:E; cbn [snd].
  - split; [exact (Hgen (val_v v)) | apply (Hwf' (val_v v) (Mu s))].
  - destruct v as [q|w|mm|]; try (split; assumption). split; [apply Hgen|apply Hwf'].
Qed.

Section VFamily.
Variables (getV : st -> list (list Qc)) (setV : st -> list (list Qc) -> st) (lamf : st -> nat -> list Qc) (Xa Xb : st -> nat -> list Qc).
Notation updV s m x := (setV s (set_nth m x (getV s))).
Hypothesis updV_same : forall s m, updV s m (rnth (getV s) m) = s.
Hypothesis mean_V : forall s m x i, ValidData d -> NoSelfCombo d -> (i < n)%nat -> (m < length (getV s))%nat ->
  spec_mean g d (updV s m x) i
  = spec_mean g d (updV s m []) i + (if in1 d m i then vdot D (Xa s i) x else 0) + (if in2 d m i then vdot D (Xb s i) x else 0).
Hypothesis len_V : forall s, Wf s -> length (getV s) = c_ndd g.
Hypothesis Wf_V : forall s X, Wf s -> length X = length (getV s) -> Wf (setV s X).
Hypothesis Mu_V : forall s X, Mu (setV s X) = Mu s.

Lemma cache_block_V s m v :
  ValidData d -> NoSelfCombo d -> Inv s -> (m < c_ndd g)%nat -> Inv (snd (block_V g d getV setV lamf Xa Xb s m) v).
Proof.
  intros Hv Hns [Hc Hwf] Hlt.
  assert (Hlt' : (m < length (getV s))%nat) by (rewrite len_V by exact Hwf; exact Hlt).
  pose proof Hv as (_ & Hl1 & Hl2 & _).
  set (idx1 := positions (Z.of_nat m) (d_dd1 d)). set (idx2 := positions (Z.of_nat m) (d_dd2 d)).
  set (cur := rnth (getV s) m).
  assert (Hgen : forall w, cache_ok g d (set_Mu (updV s m w)
             (scatter_add (Mu s) (idx1 ++ idx2) (mvn_deltas g (mk_rows g d s (Xa s) cur idx1 ++ mk_rows g d s (Xb s) cur idx2) cur w)))).
  { intros w.
    apply (cache_step s _ (in1 d m) (in2 d m) (spec_mean g d (updV s m []))
             (fun i => vdot D (Xa s i) cur) (fun i => vdot D (Xb s i) cur) (fun i => vdot D (Xa s i) w) (fun i => vdot D (Xb s i) w) Hv Hc).
    - intros i Hi. now apply in12_disjoint.
    - intros i Hi. rewrite <- (updV_same s m) at 1. now apply mean_V.
    - intros i Hi. now apply (mean_V s m w).
    - cbn [Mu set_Mu]. unfold mvn_deltas. rewrite map_app. fold (mvn_deltas g (mk_rows g d s (Xa s) cur idx1) cur w).
      fold (mvn_deltas g (mk_rows g d s (Xb s) cur idx2) cur w). rewrite !mvn_deltas_rows.
      unfold idx1, idx2. rewrite (positions_eq (Z.of_nat m) (d_dd1 d) n Hl1), (positions_eq (Z.of_nat m) (d_dd2 d) n Hl2). reflexivity. }
  assert (Hwf' : forall w, Wf (updV s m w)) by (intros w; apply Wf_V; [exact Hwf | apply set_nth_length]).
  unfold block_V. fold idx1 idx2 cur. destruct (idx1 ++ idx2) as [|i0 l] eqn:E; cbn [snd].
  - split; [|apply Hwf']. specialize (Hgen (val_v v)). unfold scatter_add in Hgen. cbn [combine map scatter_set] in Hgen.
    unfold cache_ok in *. rewrite Mu_V. exact Hgen.
  - destruct v as [q|w|mm|]; try (split; assumption). split; [apply Hgen|apply Hwf'].
Qed.
End VFamily.

Lemma cache_block_V2 s m v :
  ValidData d -> NoSelfCombo d -> Inv s -> (m < c_ndd g)%nat -> Inv (snd (block_V2 g d s m) v).
Proof.
  apply (cache_block_V V2 set_V2); [apply upd_V2_same | apply mean_V2 | | | reflexivity].
  - now intros s0 (_ & _ & H & _).
  - intros s0 X H HX. unfold Wf in *. cbn [W W0 V2 V1 V0 set_V2]. rewrite HX. exact H.
Qed.

Lemma cache_block_V1 s m v :
  ValidData d -> NoSelfCombo d -> Inv s -> (m < c_ndd g)%nat -> Inv (snd (block_V1 g d s m) v).
Proof.
  apply (cache_block_V V1 set_V1); [apply upd_V1_same | intros s0 m0 x i Hv _ _; now apply mean_V1 | | | reflexivity].
  - now intros s0 (_ & _ & _ & H & _).
  - intros s0 X H HX. unfold Wf in *. cbn [W W0 V2 V1 V0 set_V1]. rewrite HX. exact H.
Qed.

Lemma cache_alpha s : ValidData d -> Inv s -> Inv (alpha_step d s).
Proof.
  intros Hv [Hc Hwf]. unfold alpha_step. destruct (nobs d) as [|n0] eqn:En; [split; assumption|].
  split; [|exact Hwf]. unfold cache_ok, reconstruct. cbn [Mu set_Mu]. rewrite En. apply list_eq_tab.
  - rewrite map_length, (cache_len s Hc). exact En.
  - intros i Hi. rewrite <- En in Hi. rewrite vnth_map by (now rewrite (cache_len s Hc)).
    rewrite (cache_nth g d s i Hv Hc Hi), (mu_at_spec g d _ i Hv). unfold spec_mean.
    cbn [W0 W V0 V1 V2 alpha set_Mu set_alpha]. ring.
Qed.

Lemma cache_reconstruct s : Inv s -> Inv (reconstruct_Mu g d false s).
Proof.
  intros [Hc Hwf]. unfold reconstruct_Mu. destruct (nobs d); [split; assumption|]. split; [reflexivity|exact Hwf].
Qed.

Variable orc : oracle.

(* the precision steps store to fields that neither the cache nor Wf reads: Inv of the result is Inv of s by computation *)
Lemma cache_prec_W0 s : Inv s -> all_rets Inv (prog_prec_W0 g d orc s).
Proof. intros Hi v. exact Hi. Qed.
Lemma cache_prec_obs s : Inv s -> all_rets Inv (prog_prec_obs g d orc s).
Proof. intros Hi. unfold prog_prec_obs. destruct (nobs d); intros v; exact Hi. Qed.
Lemma cache_prec_V0 s : Inv s -> all_rets Inv (prog_prec_V0 g d orc s).
Proof. intros Hi v1 v2 v3 v4. exact Hi. Qed.
Lemma cache_prec_V2 s : Inv s -> all_rets Inv (prog_prec_V2 g d orc s).
Proof. intros Hi v1 v2 v3 v4. exact Hi. Qed.
Lemma cache_prec_V1 s : Inv s -> all_rets Inv (prog_prec_V1 g d orc s).
Proof. intros Hi v1 v2 v3 v4. exact Hi. Qed.
Lemma cache_prog_gam ds : forall s, Inv s -> all_rets Inv (prog_gam g d orc ds s).
Proof.
  induction ds as [|dd r IH]; intros s Hi; cbn [prog_gam all_rets]; [exact Hi|].
  intros v. apply IH. exact Hi.
Qed.

(* every per-index block of the five Gaussian step functions keeps the invariant *)
Lemma cache_gauss_block (f : st -> draw * (val -> st)) :
  ValidData d -> NoSelfCombo d ->
  In f (map (fun c s' => block_W0 d s' c) (seq 0 (c_ncl g)) ++ map (fun m s' => block_V0 d s' m) (seq 0 (c_ndd g))
        ++ map (fun c s' => block_W g d s' c) (seq 0 (c_ncl g)) ++ map (fun m s' => block_V2 g d s' m) (seq 0 (c_ndd g))
        ++ map (fun m s' => block_V1 g d s' m) (seq 0 (c_ndd g))) ->
  forall s v, Inv s -> Inv (snd (f s) v).
Proof.
  intros Hv Hns Hf. repeat (apply in_app_or in Hf as [Hf|Hf]); revert f Hf.
  - refine (range_blocks _ (fun c s' => block_W0 d s' c) _ _). intros c Hc s0 v Hs0. now apply cache_block_W0.
  - refine (range_blocks _ (fun c s' => block_V0 d s' c) _ _). intros c Hc s0 v Hs0. now apply cache_block_V0.
  - refine (range_blocks _ (fun c s' => block_W g d s' c) _ _). intros c Hc s0 v Hs0. now apply cache_block_W.
  - refine (range_blocks _ (fun c s' => block_V2 g d s' c) _ _). intros c Hc s0 v Hs0. now apply cache_block_V2.
  - refine (range_blocks _ (fun c s' => block_V1 g d s' c) _ _). intros c Hc s0 v Hs0. now apply cache_block_V1.
Qed.

Lemma step_inv b s : ValidData d -> NoSelfCombo d -> Inv s -> all_rets Inv (step_prog g d orc b s).
Proof.
  intros Hv Hns Hi. destruct b; cbn [step_prog].
  - cbn [all_rets]. now apply cache_reconstruct.
  - cbn [all_rets]. now apply cache_alpha.
  - apply all_rets_seq_blocks; [|exact Hi]. intros f Hf. apply cache_gauss_block; try assumption. rewrite !in_app_iff. tauto.
  - apply all_rets_seq_blocks; [|exact Hi]. intros f Hf. apply cache_gauss_block; try assumption. rewrite !in_app_iff. tauto.
  - apply all_rets_seq_blocks; [|exact Hi]. intros f Hf. apply cache_gauss_block; try assumption. rewrite !in_app_iff. tauto.
  - apply all_rets_seq_blocks; [|exact Hi]. intros f Hf. apply cache_gauss_block; try assumption. rewrite !in_app_iff. tauto.
  - apply all_rets_seq_blocks; [|exact Hi]. intros f Hf. apply cache_gauss_block; try assumption. rewrite !in_app_iff. tauto.
  - now apply cache_prec_W0.
  - now apply cache_prec_V0.
  - now apply cache_prec_obs.
  - now apply cache_prec_V2.
  - now apply cache_prec_V1.
  - now apply cache_prog_gam.
Qed.

(* after any sequence of step functions - in particular after every prefix of one sweep and
   after any number of sweeps - the cache is exact, whatever the draws returned *)
Theorem cache_invariant bs s :
  ValidData d -> NoSelfCombo d -> Inv s -> all_rets Inv (run_blocks g d orc bs s).
Proof.
  intros Hv Hns Hi. unfold run_blocks.
  assert (H : forall p, all_rets Inv p -> all_rets Inv (fold_left (fun p b => bind p (step_prog g d orc b)) bs p)).
  { induction bs as [|b r IH]; intros p Hp; cbn [fold_left]; [exact Hp|].
    apply IH. apply all_rets_bind. eapply all_rets_weaken; [|exact Hp]. intros s0 Hs0. now apply step_inv. }
  apply H. exact Hi.
Qed.

Corollary cache_invariant_steps k s :
  ValidData d -> NoSelfCombo d -> Inv s -> all_rets Inv (run_blocks g d orc (concat (repeat step_order k)) s).
Proof. apply cache_invariant. Qed.
End Cache.

Definition wit_cfg : cfg := {| c_D := 1; c_ndd := 1; c_ncl := 1; c_a0 := 1; c_b0 := 1; c_minMu := - qofZ 10; c_maxMu := qofZ 10 |}.
(* one observation: sample 0 treated with treatment 0 in both columns *)
Definition wit_data : data := {| d_y := [0]; d_cl := [0%Z]; d_dd1 := [0%Z]; d_dd2 := [0%Z] |}.
Definition wit_state : st :=
  {| W := [[0]]; W0 := [0]; V2 := [[0]]; V1 := [[0]]; V0 := [0]; alpha := 0; prec := 1; tau := [1]; tau0 := 1;
     phi2 := [[1]]; phi1 := [[1]]; phi0 := [1]; eta2 := [1]; eta1 := [1]; eta0 := 1; gam := [1]; Mu := [0] |}.

Lemma wit_valid : ValidData wit_data.
Proof.
  unfold ValidData, wit_data, nobs, znth. cbn [d_y d_cl d_dd1 d_dd2 length].
  repeat split; try reflexivity; intros [|[|i]]; cbn [nth]; lia.
Qed.

Theorem cache_refuted :
  exists g d s v, ValidData d /\ Inv g d s /\ ~ NoSelfCombo d /\ ~ cache_ok g d (snd (block_V0 d s 0) v).
Proof.
  exists wit_cfg, wit_data, wit_state, (VQ 1). split; [exact wit_valid|]. split; [|split].
  - split; [|repeat split]. unfold cache_ok. apply (nth_ext _ _ 0 0); [reflexivity|].
    intros [|i] Hi; [|cbn in Hi; lia]. apply Qc_is_canon. vm_compute. reflexivity.
  - intros H. destruct (H 0%nat) as [H0|H0]; [cbn; lia|discriminate H0|apply H0; reflexivity].
  - unfold cache_ok. intros H. apply (f_equal (fun l => this (vnth l 0))) in H. vm_compute in H. discriminate H.
Qed.
