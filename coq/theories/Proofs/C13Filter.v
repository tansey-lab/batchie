(* C13: the combination filter keeps exactly the experiments all of whose treatments occur in a
   full combination. *)
From Coq Require Import ZArith List Bool Lia.
From Batchie Require Import Lib.Sexp Lib.ListX Model.Encode Model.Screen Model.RetroInit Proofs.C11Lib.
Import ListNotations.
Open Scope nat_scope.

Lemma tid_eqb_eq : forall a b, tid_eqb a b = true <-> a = b.
Proof.
  intros [a|] [b|]; cbn [tid_eqb]; try (split; congruence).
  rewrite tkey_eqb_eq. split; congruence.
Qed.

Lemma tid_eqb_sym : forall a b, tid_eqb a b = tid_eqb b a.
Proof.
  intros a b. destruct (tid_eqb a b) eqn:E1, (tid_eqb b a) eqn:E2; try reflexivity.
  - apply tid_eqb_eq in E1. subst. rewrite (proj2 (tid_eqb_eq b b) eq_refl) in E2. discriminate.
  - apply tid_eqb_eq in E2. subst. rewrite (proj2 (tid_eqb_eq a a) eq_refl) in E1. discriminate.
Qed.

Lemma tid_mem_In : forall t l, tid_mem t l = true <-> In t l.
Proof. apply existsb_eqb_In, tid_eqb_eq. Qed.

(* a row without control *)
Lemma full_combo_spec : forall ctrl r, full_combo ctrl r = true <-> ~ In None (row_tids ctrl r).
Proof.
  intros ctrl r. unfold full_combo. rewrite forallb_forall. split.
  - intros H Hin. specialize (H _ Hin). cbn in H. discriminate.
  - intros H t Ht. destruct t as [k|]; [reflexivity|contradiction].
Qed.

Lemma In_all_tids : forall ctrl rows t, In t (all_tids ctrl rows) <-> exists r, In r rows /\ In t (row_tids ctrl r).
Proof.
  intros ctrl rows t. unfold all_tids. rewrite in_concat. split.
  - intros (l & Hl & Ht). apply in_map_iff in Hl as (r & <- & Hr). eauto.
  - intros (r & Hr & Ht). exists (row_tids ctrl r). split; [now apply in_map|exact Ht].
Qed.

(* specification predicate: every treatment of r is a control or occurs in some row without control *)
Definition keeps (ctrl : name) (rows : list row) (r : row) : bool :=
  forallb (fun t => tid_eqb t None || tid_mem t (combo_tids ctrl rows)) (row_tids ctrl r).

Lemma keeps_spec : forall ctrl rows r,
  keeps ctrl rows r = true <->
  forall t, In t (row_tids ctrl r) ->
    t = None \/ exists r', In r' rows /\ ~ In None (row_tids ctrl r') /\ In t (row_tids ctrl r').
Proof.
  intros ctrl rows r. unfold keeps. rewrite forallb_forall. split; intros H t Ht; specialize (H t Ht).
  - apply orb_true_iff in H as [H|H]; [left; now apply tid_eqb_eq|right].
    apply tid_mem_In in H. unfold combo_tids in H. apply In_all_tids in H as (r' & Hr' & Hin).
    apply filter_In in Hr' as [Hr' Hf]. apply full_combo_spec in Hf. eauto.
  - apply orb_true_iff. destruct H as [->|(r' & Hr' & Hf & Hin)]; [left; reflexivity|right].
    apply tid_mem_In. unfold combo_tids. apply In_all_tids. exists r'. split; [|exact Hin].
    apply filter_In. split; [exact Hr'|now apply full_combo_spec].
Qed.

Theorem combo_filter_exact : forall ctrl arity rows out,
  combo_filter ctrl arity rows = Ok out -> out = filter (keeps ctrl rows) rows.
Proof.
  intros ctrl arity rows out H. unfold combo_filter in H. destruct (arity <? 2); [discriminate|].
  now apply construct_ok in H.
Qed.
