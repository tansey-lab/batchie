(* C06: the PRIMITIVES of the scoring links that are data.py helpers are theorems.
   The configurations C06_SELECT / C06_SCORE_CHUNK (harness/src_functions.py) give a meaning, in the vocabulary of Model/Scores.v
   (a Screen = its rows (plate id, observed bit, sample id, treatment ids) in storage order; a Plate = its id and the
   (position, row) pairs it selects), to screen.plates, screen.get_plate, plate.plate_id, plate.is_observed and plate.plate_name.
   Those helpers are translated themselves (Generated/SrcViews.v, Generated/SrcPlates.v; equal to the models of Model/Views.v by
   Props/C14.v).  This file proves that each translation, read through the representation below, is the meaning the primitive was
   given.  Representation: [sc_rows p] = the Scores rows of a Views screen (row i = the i-th entries of plate_ids, the mask,
   sample_ids, treatment_ids), [sc_subset v] = the (position, row) pairs at the positions the view's selection vector selects.
   Side conditions: [screen_wf] (every constructed screen), [view_ok] (every constructed view). *)
From Coq Require Import ZArith List Lia.
From Batchie Require Import Lib.ListX Lib.Sexp Model.Encode Model.Screen Model.Views Generated.SrcViews
  Generated.SrcPlates Proofs.C01Sort Proofs.C14Defs Proofs.C14Lists Proofs.C14Views Proofs.C14Source_GetPlate
  Proofs.C14Source_Plates Proofs.C14SourceHelpers_PlateId Proofs.C14SourceHelpers_PlateName
  Proofs.C14SourceHelpers_ViewObserved.
From Batchie Require Model.Scores.
Import ListNotations.
Open Scope nat_scope.

Definition sc_row (p : screen) (i : nat) : Scores.row :=
  Scores.mkrow (nth i (s_pids p) 0%Z) (nth i (screen_mask p) false) (nth i (s_sids p) 0%Z) (nth i (s_tids p) []).
Definition sc_rows (p : screen) : Scores.screen := map (sc_row p) (seq 0 (screen_size p)).
Definition sc_subset (v : view) : list Scores.irow :=
  filter (fun ir => nth (fst ir) (v_sel v) false) (Scores.indexed (sc_rows (v_parent v))).
Definition sc_plate (pid : Z) (v : view) : Scores.plate := Scores.mkplate pid (sc_subset v).

Lemma sc_insert_uniq x l : Scores.insert_uniq x l = insert_uniq Z.compare x l.
Proof.
  induction l as [|y l IH]; cbn [Scores.insert_uniq insert_uniq]; [reflexivity|].
  destruct (Z.compare_spec x y) as [->|H|H].
  - rewrite Z.ltb_irrefl, Z.eqb_refl. reflexivity.
  - now rewrite (proj2 (Z.ltb_lt x y) H).
  - rewrite (proj2 (Z.ltb_ge x y)), (proj2 (Z.eqb_neq x y)) by lia. now rewrite IH.
Qed.

Lemma sc_sort_uniq l : Scores.sort_uniq l = sort_uniq Z.compare l.
Proof.
  unfold Scores.sort_uniq, sort_uniq. induction l as [|x l IH]; cbn [fold_right]; [reflexivity|]. now rewrite IH, sc_insert_uniq.
Qed.

Lemma sc_indexed p : Scores.indexed (sc_rows p) = map (fun i => (i, sc_row p i)) (seq 0 (screen_size p)).
Proof.
  unfold Scores.indexed, sc_rows. rewrite map_length, seq_length.
  generalize (seq 0 (screen_size p)). intros l. induction l as [|i l IH]; cbn [map combine]; [reflexivity | now rewrite IH].
Qed.

Lemma sc_plate_ids p : screen_wf p -> map Scores.r_plate (sc_rows p) = s_pids p.
Proof.
  intros (_ & HP & _). unfold sc_rows. rewrite map_map. cbn [sc_row Scores.r_plate]. rewrite <- HP. apply map_nth_seq.
Qed.

(* the view screen.get_plate(pid) builds *)
Definition plate_view (t : Z) (p : screen) (pid : Z) : view :=
  {| v_tag := t; v_parent := p; v_sel := map (fun x => (x =? pid)%Z) (s_pids p) |}.

Lemma src_get_plate_view t p pid : screen_wf p -> src_get_plate (t, p) pid = Ok (plate_view t p pid).
Proof. intros (_ & HP & _). rewrite src_get_plate_is_model. apply mk_view_ok. now rewrite map_length. Qed.

Lemma plate_view_ok t p pid : screen_wf p -> view_ok (plate_view t p pid).
Proof. intros (_ & HP & _). unfold view_ok. cbn [plate_view v_sel v_parent]. now rewrite map_length. Qed.

Lemma sc_plate_view t p pid : screen_wf p -> sc_plate pid (plate_view t p pid) = Scores.get_plate (sc_rows p) pid.
Proof.
  intros (_ & HP & _). unfold sc_plate, Scores.get_plate, sc_subset, Scores.sub_rows. f_equal.
  cbn [plate_view v_sel v_parent]. rewrite sc_indexed.
  apply filter_ext_in. intros ir Hir. apply in_map_iff in Hir. destruct Hir as (i & <- & Hi). apply in_seq in Hi.
  cbn [fst snd sc_row Scores.r_plate]. rewrite (nth_indep _ false ((0 =? pid)%Z)) by (rewrite map_length; lia).
  rewrite (map_nth (fun x => (x =? pid)%Z)). apply Z.eqb_sym.
Qed.

Theorem src_get_plate_is_scores_get_plate : forall (t : Z) (p : screen) (pid : Z), screen_wf p ->
  exists v, src_get_plate (t, p) pid = Ok v /\ sc_plate pid v = Scores.get_plate (sc_rows p) pid /\
            v_tag v = t /\ v_parent v = p /\ view_ok v.
Proof.
  intros t p pid Hwf. exists (plate_view t p pid).
  split; [now apply src_get_plate_view|]. split; [now apply sc_plate_view|]. repeat split. now apply plate_view_ok.
Qed.

Theorem src_plates_is_scores_plates : forall (t : Z) (p : screen), screen_wf p ->
  exists vs, src_plates (t, p) = Ok vs /\
    Scores.plates (sc_rows p) = map (fun iv => sc_plate (fst iv) (snd iv)) (combine (sort_uniq Z.compare (s_pids p)) vs) /\
    length vs = length (sort_uniq Z.compare (s_pids p)) /\
    Forall (fun v => v_tag v = t /\ v_parent v = p /\ view_ok v) vs.
Proof.
  intros t p Hwf. rewrite src_plates_is_model. cbn [fst snd]. rewrite (plates_spec t p Hwf).
  exists (map (plate_view t p) (sort_uniq Z.compare (s_pids p))). split; [reflexivity|].
  unfold Scores.plates, Scores.unique_plate_ids. rewrite (sc_plate_ids p Hwf), sc_sort_uniq.
  set (ids := sort_uniq Z.compare (s_pids p)). split; [|split].
  - induction ids as [|pid ids IH]; cbn [map combine]; [reflexivity|]. rewrite IH. f_equal. cbn [fst snd].
    symmetry. now apply sc_plate_view.
  - now rewrite map_length.
  - apply Forall_forall. intros v Hv. apply in_map_iff in Hv. destruct Hv as (pid & <- & _).
    repeat split. now apply plate_view_ok.
Qed.

(* the plate screen.get_plate(pid) returns, pid a plate id of the screen, answers pid to plate_id: the [p_id] of the model's plate *)
Theorem src_plate_id_is_scores_p_id : forall (t : Z) (p : screen) (pid : Z), screen_wf p -> In pid (s_pids p) ->
  exists v, src_get_plate (t, p) pid = Ok v /\ src_plate_id v = Ok (Scores.p_id (Scores.get_plate (sc_rows p) pid)).
Proof.
  intros t p pid Hwf Hin. exists (plate_view t p pid). split; [now apply src_get_plate_view|].
  rewrite src_plate_id_is_model. unfold view_plate_id, view_unique_pids, view_pids.
  cbn [plate_view v_sel v_parent Scores.p_id Scores.get_plate].
  rewrite select_map_filter.
  rewrite (sort_uniq_ext Z.compare Zcmp_spec _ [pid]); [reflexivity|].
  intros x. rewrite filter_In. cbn [In]. split.
  - intros [_ E]. left. symmetry. now apply Z.eqb_eq.
  - intros [<-|[]]. split; [exact Hin | apply Z.eqb_refl].
Qed.

Lemma sc_subset_positions v : screen_wf (v_parent v) -> view_ok v ->
  sc_subset v = map (fun i => (i, sc_row (v_parent v) i)) (np_where (v_sel v)).
Proof.
  intros Hwf Hok. unfold sc_subset. rewrite sc_indexed, where_filter. unfold view_ok in Hok. rewrite Hok.
  generalize (seq 0 (screen_size (v_parent v))). intros l.
  induction l as [|i l IH]; cbn [map filter fst]; [reflexivity|]. destruct (nth i (v_sel v) false); cbn [map]; now rewrite IH.
Qed.

Theorem src_view_is_observed_is_scores : forall (pid : Z) (v : view), screen_wf (v_parent v) -> view_ok v ->
  src_view_is_observed v = Ok (Scores.is_observed (sc_plate pid v)).
Proof.
  intros pid v Hwf Hok. rewrite src_view_is_observed_is_model. f_equal.
  unfold view_is_observed, view_mask, Scores.is_observed, sc_plate. cbn [Scores.p_rows].
  rewrite (sc_subset_positions v Hwf Hok), forallb_map. cbn [snd sc_row Scores.r_obs].
  fold (screen_mask (v_parent v)).
  rewrite (select_nth false (v_sel v) (screen_mask (v_parent v))).
  - now rewrite forallb_map.
  - unfold screen_mask. rewrite map_length. destruct Hwf as (_ & _ & HR & _). unfold view_ok in Hok. congruence.
Qed.

(* plate.plate_name: the model's answer is the POSITION of the plate's first row; the translated property returns the plate
   name stored at that position, and raises (IndexError) exactly when the model does *)
Theorem src_plate_name_is_scores_plate_name : forall (pid : Z) (v : view), screen_wf (v_parent v) -> view_ok v ->
  match Scores.plate_name (sc_plate pid v) with
  | Ok i => src_plate_name v = Ok (nth i (map r_plate (s_rows (v_parent v))) [])
  | Err _ => src_plate_name v = Err 98%Z
  end.
Proof.
  intros pid v Hwf Hok.
  assert (E : src_plate_name v = match np_where (v_sel v) with
                                 | [] => Err 98%Z
                                 | i :: _ => Ok (nth i (map r_plate (s_rows (v_parent v))) [])
                                 end).
  { rewrite src_plate_name_is_model. unfold view_plate_name, view_plate_names.
    rewrite (select_nth ([] : name) (v_sel v) (map r_plate (s_rows (v_parent v)))).
    - destruct (np_where (v_sel v)); reflexivity.
    - rewrite map_length. destruct Hwf as (_ & _ & HR & _). unfold view_ok in Hok. congruence. }
  unfold Scores.plate_name, sc_plate. cbn [Scores.p_rows]. rewrite (sc_subset_positions v Hwf Hok), E.
  destruct (np_where (v_sel v)) as [|i r]; reflexivity.
Qed.
