(* C01: the DECODE direction - the mapping a screen builds is itself a bijection between the (name, dose) pairs of the data
   and their ids: its keys are exactly the keys of the rows, each once; an id carries the sentinel exactly on controls;
   a non-control id belongs to exactly one key; looking a key up returns the id stored with it.
   Then control-iff and equal-ids-iff-equal-keys on a screen constructed WITH A SUPPLIED mapping that batchie itself built for
   another screen (a superset of the data): no coverage hypothesis is needed - construction succeeding implies coverage. *)
From Coq Require Import ZArith List.
From Batchie Require Import Lib.Sexp Generated.Consts Model.Encode Model.Screen Proofs.C01Encode
  Proofs.C01Screen Proofs.C01Props.
Import ListNotations.
Open Scope Z_scope.

Section Built.
Variables (rows : list row) (a : nat) (ctrl : name) (sm : option (nmapping * bool)) (og mg : bool) (s : screen).
Hypothesis H : mk_screen rows a ctrl None sm og mg = Ok s.

Let Htm : s_tmap s = build_tmapping ctrl (all_keys s) := ms_tmap (mk_screen_spec H).

Theorem mapping_keys_are_row_keys : NoDup (map fst (s_tmap s)) /\ forall k, In k (map fst (s_tmap s)) <-> row_keys s k.
Proof.
  rewrite Htm. split; [apply built_keys_NoDup|]. intros k. rewrite built_keys_In. apply (all_keys_In H).
Qed.

Theorem mapping_decodes :
  (forall k id, In (k, id) (s_tmap s) -> (id = CONTROL_SENTINEL_VALUE <-> (snd k <= 0 \/ fst k = ctrl))) /\
  (forall k1 k2 id, In (k1, id) (s_tmap s) -> In (k2, id) (s_tmap s) -> id <> CONTROL_SENTINEL_VALUE -> k1 = k2) /\
  (forall k id, In (k, id) (s_tmap s) -> tid_of (s_tmap s) k = id).
Proof.
  rewrite Htm. split; [|split].
  - intros k id Hin. rewrite <- is_control_iff. now apply (built_control_iff ctrl (all_keys s)).
  - intros k1 k2 id H1 H2 Hne. exact (built_inj ctrl (all_keys s) k1 k2 id H1 H2 Hne).
  - intros k id Hin. unfold tid_of.
    now rewrite (tlookup_NoDup _ k id (built_keys_NoDup ctrl (all_keys s)) Hin).
Qed.

(* a second screen constructed with this mapping supplied *)
Variables (sub : list row) (a' : nat) (b : bool) (sm' : option (nmapping * bool)) (og' mg' : bool) (s' : screen).
Hypothesis H' : mk_screen sub a' ctrl (Some (s_tmap s, b)) sm' og' mg' = Ok s'.

Lemma supplied_same_map : s_tmap s' = s_tmap s.
Proof. exact (proj1 (supplied_verbatim _ _ _ _ _ _ _ _ _ H')). Qed.

Lemma supplied_covered k : row_keys s' k -> row_keys s k.
Proof.
  intros Hk. pose proof (treat_entry H' k Hk) as Hin.
  rewrite supplied_same_map in Hin. exact (proj1 (proj2 mapping_keys_are_row_keys k) (in_map fst _ _ Hin)).
Qed.

Theorem control_iff_supplied k : row_keys s' k ->
  (tid_of (s_tmap s') k = CONTROL_SENTINEL_VALUE <-> (snd k <= 0 \/ fst k = ctrl)).
Proof.
  intros Hk. rewrite supplied_same_map. apply (control_iff _ _ _ _ _ _ _ H). now apply supplied_covered.
Qed.

Theorem treatment_ids_injective_supplied k1 k2 : row_keys s' k1 -> row_keys s' k2 ->
  tid_of (s_tmap s') k1 <> CONTROL_SENTINEL_VALUE ->
  (tid_of (s_tmap s') k1 = tid_of (s_tmap s') k2 <-> k1 = k2).
Proof.
  rewrite supplied_same_map. intros H1 H2. apply (treatment_ids_injective _ _ _ _ _ _ _ H); now apply supplied_covered.
Qed.

(* same (name, dose) => same id as in the screen the mapping was built for, and below ITS space size *)
Theorem ids_of_superset_supplied k : row_keys s' k ->
  tid_of (s_tmap s') k = tid_of (s_tmap s) k /\ tid_of (s_tmap s') k < space_n_treatments s /\ space_n_treatments s' = space_n_treatments s.
Proof.
  intros Hk. rewrite supplied_same_map. split; [reflexivity|]. split.
  - apply (treatment_ids_bounded _ _ _ _ _ _ _ _ k H); [now apply supplied_covered|exact I].
  - unfold space_n_treatments. now rewrite supplied_same_map.
Qed.
End Built.

(* samples: a sample mapping batchie built, supplied to another constructor call *)
Section BuiltSamples.
Variables (rows : list row) (a : nat) (ctrl : name) (tm : option (tmapping * bool)) (og mg : bool) (s : screen).
Hypothesis H : mk_screen rows a ctrl tm None og mg = Ok s.

Theorem sample_mapping_decodes :
  NoDup (map fst (s_smap s)) /\ (forall n, In n (map fst (s_smap s)) <-> exists r, In r (s_rows s) /\ r_sample r = n) /\
  (forall n1 n2 id, In (n1, id) (s_smap s) -> In (n2, id) (s_smap s) -> n1 = n2).
Proof.
  rewrite (smap_built _ _ _ _ _ _ _ H). split; [apply nbuilt_keys_NoDup|]. split.
  - intros n. rewrite nbuilt_keys_In, in_map_iff. split; intros (r & A & B); exists r; tauto.
  - intros n1 n2 id. apply nbuilt_inj.
Qed.

Variables (sub : list row) (a' : nat) (ctrl' : name) (tm' : option (tmapping * bool)) (b : bool) (og' mg' : bool) (s' : screen).
Hypothesis H' : mk_screen sub a' ctrl' tm' (Some (s_smap s, b)) og' mg' = Ok s'.

Theorem sample_ids_injective_supplied r1 r2 : In r1 (s_rows s') -> In r2 (s_rows s') ->
  (nid_of (s_smap s') (r_sample r1) = nid_of (s_smap s') (r_sample r2) <-> r_sample r1 = r_sample r2).
Proof.
  intros H1 H2. split; [|now intros ->]. intros Heq.
  pose proof (sample_entry H' r1 H1) as I1.
  pose proof (sample_entry H' r2 H2) as I2.
  rewrite Heq in I1. rewrite (proj1 (supplied_samples_verbatim _ _ _ _ _ _ _ _ _ H')) in I1, I2.
  exact (proj2 (proj2 sample_mapping_decodes) _ _ _ I1 I2).
Qed.
End BuiltSamples.
