(* C14, one piece of Proofs/C14SourceHelpers.v (which see): ScreenBase.is_observed on a ScreenSubset / Plate object *)
From Batchie Require Import Lib.Sexp Model.Views Generated.SrcPlates.
Open Scope Z_scope.

Theorem src_view_is_observed_is_model : forall v : view, src_view_is_observed v = Ok (view_is_observed v).
Proof. reflexivity. Qed.
