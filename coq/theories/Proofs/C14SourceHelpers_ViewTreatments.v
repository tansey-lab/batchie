(* C14, one piece of Proofs/C14SourceHelpers.v (which see): ScreenBase.unique_treatments / n_unique_treatments on a ScreenSubset / Plate object *)
From Coq Require Import ZArith List.
From Batchie Require Import Lib.Sexp Model.Views Generated.SrcViews Generated.SrcPlates
  Proofs.C14SourceHelpers_Base.
Import ListNotations.
Open Scope Z_scope.

Theorem src_view_unique_treatments_is_model : forall v : view, src_view_unique_treatments v = Ok (view_unique_treatments v).
Proof.
  intros v. unfold src_view_unique_treatments, view_unique_treatments, unique_treatments_of, np_unique2.
  change (src_view_treatment_ids v) with (Ok (view_tids v)). cbn [res_bind snd]. now rewrite setdiff_sentinel.
Qed.

Theorem src_view_n_unique_treatments_is_model : forall v : view,
  src_view_n_unique_treatments v = Ok (Z.of_nat (length (view_unique_treatments v))).
Proof. intros v. unfold src_view_n_unique_treatments. now rewrite src_view_unique_treatments_is_model. Qed.
