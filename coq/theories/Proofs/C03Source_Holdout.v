(* C03: create_plate_balanced_holdout_set_among_masked_plates linked at the id / mapping level.
   Generated/SrcHoldoutIds.v is the whole function re-translated with `screen` the model Screen (ids and mappings included)
   and the two Screen(...) calls the model's constructor on the keyword arguments the call sites pass.  It equals
   Holdout.balanced_holdout_ids: the selection the loop computes (C11's model of the loop), then Holdout.holdout_split -
   so every C03 theorem about holdout_split is a theorem about the translated hold-out. *)
From Coq Require Import ZArith List Bool Lia.
From Batchie Require Import Lib.Sexp Lib.PyRt Model.Screen Model.Reveal Model.Holdout
  Generated.SrcHoldoutIds Proofs.C12Reveal Proofs.C03Frozen Proofs.C12Source_Base.
From Batchie Require Model.Retro Model.RetroHoldout Proofs.C11Lib Proofs.C11Init Proofs.C11Select.
Import Retro.
Import ListNotations.
Open Scope Z_scope.

Lemma remask_self rows : remask rows (map r_mask rows) = rows.
Proof.
  unfold remask. induction rows as [|r rows IH]; cbn [map combine fst snd]; [reflexivity|].
  rewrite IH. f_equal. destruct r; reflexivity.
Qed.

Lemma select_length_vcount {A} : forall (sel : list bool) (l : list A), length sel = length l -> length (select sel l) = vcount sel.
Proof.
  induction sel as [|b sel IH]; intros [|x l] H; cbn [length] in H; try discriminate; cbn [select vcount length]; [reflexivity|].
  destruct b; cbn [length]; rewrite IH by lia; reflexivity.
Qed.

(* Screen(<every column>[m], observation_mask = mk, the parent's control name and mappings) *)
Lemma py_screen_select p m mk :
  py_screen (fst (col_tnames p), select m (snd (col_tnames p))) (fst (col_tdoses p), select m (snd (col_tdoses p)))
            (select m (col_samples p)) (select m (col_plates p)) (Some (select m (col_obs p))) (Some mk)
            (Some (s_ctrl p)) (Some (attr_tmap p)) (Some (attr_smap p))
  = mk_screen (remask (select m (s_rows p)) mk) (s_arity p) (s_ctrl p) (Some (s_tmap p, true)) (Some (s_smap p, true)) true true.
Proof.
  unfold py_screen, col_tnames, col_tdoses, col_samples, col_plates, col_obs, attr_tmap, attr_smap. cbn [fst snd].
  rewrite !select_map, zip_rows_cols. reflexivity.
Qed.

(* the loop over the plates, for an arbitrary body equal to the canonical one and a continuation that only looks at
   selection vectors of the screen's length *)
Lemma ho_ids_for {B : Type} (num : Z) (den : positive) (rows : list row)
      (f : option (list Z) * list draw * bvec -> bvec -> result (option (list Z) * list draw * bvec))
      (K : option (list Z) * list draw * bvec -> result B) (k : bvec -> list draw -> result B) :
  (forall c d sel v, f (c, d, sel) v =
     if RetroHoldout.vec_observed v rows then Ok (c, d, sel)
     else
       dor nc <- RetroHoldout.ceil_count (plate_size v) num den c; let '(n, c') := nc in
       dor xd <- RetroHoldout.choose (RetroHoldout.vec_indices v) n d; let '(idx, d') := xd in
       Ok (c', d', RetroHoldout.set_true (length rows) sel idx)) ->
  (forall c d sel, length sel = length rows -> K (c, d, sel) = k sel d) ->
  forall plates c d sel, length sel = length rows ->
    res_bind (res_fold f (map (fun p => plate_vec p rows) plates) (c, d, sel)) K
    = dor x <- RetroHoldout.ho_plates (length rows) num den rows plates c d sel; k (fst x) (snd x).
Proof.
  intros Hf HK. induction plates as [|p plates IH]; intros c d sel Hl;
    cbn [map res_fold RetroHoldout.ho_plates res_bind fst snd]; [now apply HK|].
  rewrite Hf. unfold RetroHoldout.vec_observed.
  replace (vselect (plate_vec p rows) rows) with (filter (in_plate p) rows) by (unfold plate_vec; apply C11Lib.filter_vselect).
  fold (RetroHoldout.plate_observed p rows).
  destruct (RetroHoldout.plate_observed p rows); cbn [res_bind]; [now apply IH|].
  unfold RetroHoldout.ceil_count, plate_size. rewrite Nat2Z.id.
  destruct (RetroHoldout.next_count (vcount (plate_vec p rows)) num den c) as [[n c']|t]; cbn [res_bind]; [|reflexivity].
  unfold RetroHoldout.choose. destruct (take_ints d) as [[idx d']|t]; cbn [res_bind]; [|reflexivity].
  destruct (negb (Z.of_nat (length idx) =? n)%Z); cbn [res_bind]; [reflexivity|].
  unfold RetroHoldout.set_true. apply IH.
  rewrite C11Init.vor_length, C11Select.vof_idx_length, Hl. apply Nat.min_id.
Qed.

Theorem src_balanced_holdout_ids_is_model : forall num den counts p ds,
  src_balanced_holdout_ids num den counts p ds = balanced_holdout_ids num den counts p ds.
Proof.
  intros num den counts p ds. unfold src_balanced_holdout_ids, balanced_holdout_ids.
  destruct ((num <? 0) || (Z.pos den <? num)); [reflexivity|].
  unfold plates_of. cbv zeta.
  rewrite (ho_ids_for num den (s_rows p) _ _ (fun sel d => dor pr <- holdout_split p sel; Ok (pr, d))).
  - reflexivity.
  - intros c d sel v. reflexivity.
  - intros c d sel Hl. cbv beta.
    rewrite !py_screen_select. unfold holdout_split. rewrite Hl, Nat.eqb_refl. cbn [negb].
    unfold col_mask. rewrite select_map, remask_self.
    rewrite <- (select_length_vcount sel (s_rows p) Hl), remask_const.
    destruct (mk_screen (select (map negb sel) (s_rows p)) _ _ _ _ true true) as [tr|t]; cbn [res_bind]; [|reflexivity].
    destruct (mk_screen (map (with_mask true) (select sel (s_rows p))) _ _ _ _ true true) as [te|t]; reflexivity.
  - now rewrite repeat_length.
Qed.

(* whatever it returns is a holdout_split for SOME selection vector of the screen's length (the one its loop computed) *)
Theorem src_holdout_is_split : forall num den counts p ds pr ds',
  src_balanced_holdout_ids num den counts p ds = Ok (pr, ds') ->
  exists sel, length sel = length (s_rows p) /\ holdout_split p sel = Ok pr.
Proof.
  intros num den counts p ds pr ds' H. rewrite src_balanced_holdout_ids_is_model in H.
  unfold balanced_holdout_ids in H. destruct ((num <? 0) || (Z.pos den <? num)); [discriminate|]. cbv zeta in H.
  destruct (RetroHoldout.ho_plates _ _ _ _ _ _ _ _) as [[sel d]|t]; cbn [res_bind fst snd] in H; [|discriminate].
  destruct (holdout_split p sel) as [pr'|t] eqn:E; cbn [res_bind] in H; [|discriminate].
  inversion H; subst. exists sel. split; [|exact E].
  destruct pr as [tr te]. now apply holdout_split_inv in E.
Qed.

Theorem src_holdout_frozen : forall num den counts p ds pr ds' test,
  src_balanced_holdout_ids num den counts p ds = Ok (pr, ds') -> frozen_to p (half test pr).
Proof.
  intros num den counts p ds pr ds' test H. destruct (src_holdout_is_split _ _ _ _ _ _ _ H) as (sel & _ & E).
  exact (split_frozen p sel pr test E).
Qed.
