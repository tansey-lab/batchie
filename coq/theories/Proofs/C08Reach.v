(* C08: the bridge between reachable states and the cache invariant.  The block theorems (the C08_gauss_block theorems) and the cache
   theorems (the C08_cache_invariant theorems) assume the cache exact at the START; after __init__, after _update and after reset_model
   it is stale (Mu = [] or shorter than the data).  Here: the first block of every sweep, _reconstruct_Mu, ESTABLISHES the
   invariant from the shapes alone, so from every reachable state every later block of the sweep - and every per-index draw
   inside the five Gaussian step functions - starts from a state whose cache is exact and whose arrays have their sizes. *)
From Coq Require Import List QArith Qcanon Lia.
From Batchie Require Import Lib.Num Model.Gibbs Model.GibbsSpec Proofs.C08Sums Proofs.C08Cache Proofs.C08Gauss Proofs.C08SourceObj.
Import ListNotations.
Open Scope Qc_scope.

Lemma shapes_Wf g s : shapes g s -> Wf g s.
Proof.
  intros (HW & HW0 & HV2 & HV1 & HV0 & _). unfold Wf. destruct HW as [HW _], HV2 as [HV2 _], HV1 as [HV1 _]. repeat split; assumption.
Qed.

(* _reconstruct_Mu establishes the invariant from a stale cache: with data it recomputes every entry; without data the
   cache of a sweep-ready state is empty, which is what the empty data imply *)
Lemma ready_reconstruct_inv g d s : sweep_ready g d s -> Inv g d (reconstruct_Mu g d false s).
Proof.
  intros [Hs HMu]. unfold reconstruct_Mu. destruct (nobs d) as [|n0] eqn:En.
  - split; [|now apply shapes_Wf]. unfold cache_ok, reconstruct. rewrite En. cbn [tab seq map].
    destruct (Mu s) as [|x l]; [reflexivity|cbn [length] in HMu; lia].
  - split; [reflexivity|]. apply shapes_Wf in Hs. exact Hs.
Qed.

Section Reach.
Variables (g : cfg) (d : data) (orc : oracle).

Lemma run_blocks_reconstruct_first bs s :
  run_blocks g d orc (BReconstruct :: bs) s = run_blocks g d orc bs (reconstruct_Mu g d false s).
Proof. reflexivity. Qed.

(* from a sweep-ready state: after _reconstruct_Mu and ANY further sequence of step functions, for all answers *)
Theorem ready_cache_invariant bs s :
  ValidData d -> NoSelfCombo d -> sweep_ready g d s ->
  all_rets (Inv g d) (run_blocks g d orc (BReconstruct :: bs) s).
Proof.
  intros Hv Hns Hr. rewrite run_blocks_reconstruct_first. apply cache_invariant; [exact Hv|exact Hns|].
  now apply ready_reconstruct_inv.
Qed.

Theorem reach_cache_invariant bs s :
  reach g orc d s -> ValidData d -> NoSelfCombo d ->
  all_rets (Inv g d) (run_blocks g d orc (BReconstruct :: bs) s).
Proof.
  intros Hreach Hv Hns. apply ready_cache_invariant; [exact Hv|exact Hns|]. exact (proj1 (reach_ready g orc d s Hreach)).
Qed.

(* every non-empty prefix of the documented sweep, after any number of whole sweeps *)
Theorem reach_cache_invariant_prefix j k s :
  reach g orc d s -> ValidData d -> NoSelfCombo d -> (1 <= k)%nat ->
  all_rets (Inv g d) (run_blocks g d orc (firstn k step_order ++ concat (repeat step_order j)) s)
  /\ all_rets (Inv g d) (run_blocks g d orc (step_order ++ concat (repeat step_order j) ++ firstn k step_order) s).
Proof.
  intros Hreach Hv Hns Hk. split.
  - destruct k as [|k]; [lia|]. cbn [firstn step_order app]. now apply reach_cache_invariant.
  - cbn [step_order app]. now apply reach_cache_invariant.
Qed.

Corollary reach_sweep_invariant s :
  reach g orc d s -> ValidData d -> NoSelfCombo d -> all_rets (Inv g d) (mcmc_step g d orc s).
Proof. intros Hr Hv Hns. unfold mcmc_step, step_order. now apply reach_cache_invariant. Qed.

Fixpoint all_block_starts (P : st -> Prop) (blocks : list (st -> draw * (val -> st))) (s : st) : Prop :=
  match blocks with
  | [] => True
  | b :: r => P s /\ forall v, all_block_starts P r (snd (b s) v)
  end.

Lemma all_block_starts_intro (P : st -> Prop) blocks :
  (forall b, In b blocks -> forall s v, P s -> P (snd (b s) v)) ->
  forall s, P s -> all_block_starts P blocks s.
Proof.
  induction blocks as [|b r IH]; intros Hb s Hs; cbn [all_block_starts]; [exact I|].
  split; [exact Hs|]. intros v. apply IH; [intros b' Hb'; apply Hb; now right|]. apply Hb; [now left|exact Hs].
Qed.

Lemma all_block_starts_weaken (P Q : st -> Prop) blocks : (forall s, P s -> Q s) ->
  forall s, all_block_starts P blocks s -> all_block_starts Q blocks s.
Proof.
  intros HPQ. induction blocks as [|b r IH]; intros s; cbn [all_block_starts]; [auto|].
  intros [Hs Hr]. split; [now apply HPQ|]. intros v. apply IH, Hr.
Qed.

(* the per-index blocks of the five Gaussian step functions *)
Definition gauss_blocks (b : blk) : list (st -> draw * (val -> st)) :=
  match b with
  | BW0 => map (fun c s' => block_W0 d s' c) (seq 0 (c_ncl g))
  | BV0 => map (fun m s' => block_V0 d s' m) (seq 0 (c_ndd g))
  | BW => map (fun c s' => block_W g d s' c) (seq 0 (c_ncl g))
  | BV2 => map (fun m s' => block_V2 g d s' m) (seq 0 (c_ndd g))
  | BV1 => map (fun m s' => block_V1 g d s' m) (seq 0 (c_ndd g))
  | _ => []
  end.

Lemma gauss_blocks_step b s : In b [BW0; BV0; BW; BV2; BV1] -> step_prog g d orc b s = seq_blocks (gauss_blocks b) s.
Proof. intros [<-|[<-|[<-|[<-|[<-|[]]]]]]; reflexivity. Qed.

Lemma inv_block_starts b s : ValidData d -> NoSelfCombo d -> Inv g d s -> all_block_starts (Inv g d) (gauss_blocks b) s.
Proof.
  intros Hv Hns Hi. apply all_block_starts_intro; [|exact Hi].
  destruct b; cbn [gauss_blocks]; try (intros b0 []);
    intros f Hf; apply cache_gauss_block; try assumption; rewrite !in_app_iff; tauto.
Qed.

(* from a reachable state, after _reconstruct_Mu and any further step functions `pre` of the sweep, whichever Gaussian
   step function b runs next: EVERY per-index draw of it is computed in a state with exact cache and full-size arrays *)
Theorem reach_gauss_block_starts pre b s :
  reach g orc d s -> ValidData d -> NoSelfCombo d ->
  all_rets (all_block_starts (Inv g d) (gauss_blocks b)) (run_blocks g d orc (BReconstruct :: pre) s).
Proof.
  intros Hr Hv Hns. eapply all_rets_weaken; [|now apply (reach_cache_invariant pre s)].
  intros s1 Hs1. now apply inv_block_starts.
Qed.

(* ... hence the draw arguments are those of the full conditional: the conclusion of the block theorems at every such state *)
Definition W0_conditional (ln : Qc -> Qc) (s : st) : Prop :=
  forall c m v k, (c < c_ncl g)%nat -> block_W0 d s c = (DNormal m v, k) -> v <> 0 ->
  forall x, energy ln g d (upd_W0 s c x) - energy ln g d (upd_W0 s c 0) = (x * x - qofZ 2 * m * x) / v.
Definition V0_conditional (ln : Qc -> Qc) (s : st) : Prop :=
  forall m mu v k, (m < c_ndd g)%nat -> block_V0 d s m = (DNormal mu v, k) -> v <> 0 ->
  forall x, energy ln g d (upd_V0 s m x) - energy ln g d (upd_V0 s m 0) = (x * x - qofZ 2 * mu * x) / v.
Definition W_conditional (ln : Qc -> Qc) (s : st) : Prop :=
  forall c Q b k, (c < c_ncl g)%nat -> block_W g d s c = (DMvn Q b, k) ->
  forall x, energy ln g d (upd_W s c x) - energy ln g d (upd_W s c []) = quad (c_D g) Q x - qofZ 2 * vdot (c_D g) b x.
Definition V2_conditional (ln : Qc -> Qc) (s : st) : Prop :=
  forall m Q b k, (m < c_ndd g)%nat -> block_V2 g d s m = (DMvn Q b, k) ->
  forall x, energy ln g d (upd_V2 s m x) - energy ln g d (upd_V2 s m []) = quad (c_D g) Q x - qofZ 2 * vdot (c_D g) b x.
Definition V1_conditional (ln : Qc -> Qc) (s : st) : Prop :=
  forall m Q b k, (m < c_ndd g)%nat -> block_V1 g d s m = (DMvn Q b, k) ->
  forall x, energy ln g d (upd_V1 s m x) - energy ln g d (upd_V1 s m []) = quad (c_D g) Q x - qofZ 2 * vdot (c_D g) b x.

Lemma inv_conditionals ln s : ValidData d -> NoSelfCombo d -> Inv g d s ->
  W0_conditional ln s /\ V0_conditional ln s /\ W_conditional ln s /\ V2_conditional ln s /\ V1_conditional ln s.
Proof.
  intros Hv Hns [Hc (HW & HW0 & HV2 & HV1 & HV0)]. repeat split.
  - intros c m v k Hlt Hb Hne x. eapply gauss_block_W0; eauto. now rewrite HW0.
  - intros m mu v k Hlt Hb Hne x. eapply gauss_block_V0; eauto. now rewrite HV0.
  - intros c Q b k Hlt Hb x. eapply gauss_block_W; eauto. now rewrite HW.
  - intros m Q b k Hlt Hb x. eapply gauss_block_V2; eauto. now rewrite HV2.
  - intros m Q b k Hlt Hb x. eapply gauss_block_V1; eauto. now rewrite HV1.
Qed.

Theorem reach_gauss_draws_are_conditionals ln pre b s :
  reach g orc d s -> ValidData d -> NoSelfCombo d ->
  all_rets (all_block_starts (fun s2 => W0_conditional ln s2 /\ V0_conditional ln s2 /\ W_conditional ln s2 /\
                                        V2_conditional ln s2 /\ V1_conditional ln s2) (gauss_blocks b))
           (run_blocks g d orc (BReconstruct :: pre) s).
Proof.
  intros Hr Hv Hns. eapply all_rets_weaken; [|now apply (reach_gauss_block_starts pre b s)].
  intros s1. apply all_block_starts_weaken. intros s2 Hs2. now apply inv_conditionals.
Qed.
End Reach.
