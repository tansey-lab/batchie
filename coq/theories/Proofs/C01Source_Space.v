(* C01, one piece of Proofs/C01Source.v (which see): ExperimentSpace.n_unique_samples / n_unique_treatments *)
From Coq Require Import ZArith List.
From Batchie Require Import Lib.Sexp Model.Screen Generated.SrcScreenIds Proofs.C01Sort Proofs.C01Source_SpaceBase.
Import ListNotations.
Open Scope Z_scope.

Theorem src_space_n_samples_is_model : forall s : screen,
  src_space_n_unique_samples (nmap_cols2 (s_smap s)) = Ok (space_n_samples s).
Proof. reflexivity. Qed.

Theorem src_space_n_treatments_is_model : forall s : screen,
  src_space_n_unique_treatments (tmap_cols3 (s_tmap s)) = Ok (space_n_treatments s).
Proof.
  intros s. unfold src_space_n_unique_treatments, space_n_treatments, tmap_cols3. cbn [snd].
  now rewrite setdiff1d_one, (sort_uniq_idem _ Zcmp_spec).
Qed.
