(* C14, one piece of Proofs/C14Source.v (conventions and objects: see there): ScreenBase.unique_plate_ids on a Screen object *)
From Coq Require Import ZArith.
From Batchie Require Import Lib.Sexp Model.Encode Model.Screen Model.Views Generated.SrcViews.
Open Scope Z_scope.

Theorem src_unique_plate_ids_is_model : forall s : pyscreen,
  src_unique_plate_ids s = Ok (sort_uniq Z.compare (s_pids (snd s))).
Proof. reflexivity. Qed.
