(* C14, one piece of Proofs/C14SourceHelpers.v (which see): filter_dataset_to_unique_treatments on a Screen *)
From Coq Require Import ZArith List Lia.
From Batchie Require Import Lib.Sexp Lib.PyRt Model.Screen Model.Views Generated.SrcPlates Proofs.PyRtLemmas
  Proofs.C14Source_ScreenSubset Proofs.C14SourceHelpers_Base Proofs.C14SourceHelpers_ScreenArity
  Proofs.C14SourceHelpers_SelectUnique.
Import ListNotations.
Open Scope Z_scope.

Theorem src_filter_unique_screen_is_model : forall s : pyscreen,
  src_filter_unique_screen s = filter_unique_screen (fst s) (snd s).
Proof.
  intros s. unfold src_filter_unique_screen, filter_unique_screen, unique_cols.
  rewrite src_screen_treatment_arity_is_model. cbn [res_bind].
  unfold zrange. rewrite Nat2Z.id.
  rewrite (append_columns_loop (s_arity (snd s)) (s_tids (snd s))) by (reflexivity || lia). cbn [res_bind app].
  rewrite src_select_unique_is_model.
  destruct (select_unique (s_sids (snd s) :: map (fun i => column 0 i (s_tids (snd s))) (seq 0 (s_arity (snd s))))) as [m|t];
    cbn [res_bind]; [|reflexivity].
  rewrite src_screen_subset_is_model, res_bind_ret. reflexivity.
Qed.
