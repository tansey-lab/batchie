(* C05: the vectorised kernel on any arrays that REPRESENT a list of plates
   (agree with each plate on its own cells, 0 / NaN elsewhere, wide enough) equals the direct
   one-plate estimator, plate by plate; the 0/NaN padding of the code is such a representation. *)
From Coq Require Import List Qcanon Lia Arith.
From Batchie Require Import Lib.Num Lib.ListX Model.Dbal Proofs.C05Pad.
Import ListNotations.

Definition rect {A} (T E : nat) (a : list (list A)) : Prop :=
  length a = T /\ Forall (fun r => length r = E) a.
(* a plate: means and variances are both n_thetas x n_exp arrays *)
Definition plate_wf (T : nat) (pl : plate) : Prop := exists E, rect T E (fst pl) /\ rect T E (snd pl).
Definition triple_valid (T : nat) (t : triple) : Prop :=
  let '(a, b, c) := t in (a < T /\ b < T /\ c < T)%nat.
(* a triple a > b > c of samples, as the unranking enumerates them *)
Definition desc (T : nat) (t : triple) : Prop := let '(a, b, c) := t in (c < b /\ b < a /\ a < T)%nat.
Lemma desc_valid T t : desc T t -> triple_valid T t.
Proof. destruct t as [[a b] c]. cbn. lia. Qed.

Definition n_exp (pl : plate) : nat := snd (shape2 (fst pl)).

(* [pred]/[vars] are dense arrays holding the plates: plate p occupies cells (p, i, e) with
   e < n_exp; all other cells of the first T rows hold 0 (means) / NaN (variances). *)
Definition represents (T : nat) (plates : list plate)
  (pred : list (list (list Qc))) (vars : list (list (list (option Qc)))) : Prop :=
  fst (fst (shape3 pred)) = length plates /\
  forall p, (p < length plates)%nat ->
    let pl := nth p plates ([], []) in
    (n_exp pl <= snd (shape3 pred))%nat /\
    forall i e, (i < T)%nat ->
      get3 0%Qc pred p i e = (if (e <? n_exp pl)%nat then get2 0%Qc (fst pl) i e else 0%Qc) /\
      get3 None vars p i e = (if (e <? n_exp pl)%nat then Some (get2 0%Qc (snd pl) i e) else None).

Section KernelProofs.
Variable orc : oracle.
Variable pred : list (list (list Qc)).
Variable vars : list (list (list (option Qc))).
Variable D : list (list Qc).
Variable df : Qc.
Variable T : nat.
Variable pl : plate.
Variable p : nat.
Hypothesis Hcells : forall i e, (i < T)%nat ->
  get3 0%Qc pred p i e = (if (e <? n_exp pl)%nat then get2 0%Qc (fst pl) i e else 0%Qc) /\
  get3 None vars p i e = (if (e <? n_exp pl)%nat then Some (get2 0%Qc (snd pl) i e) else None).

Lemma k_mu_cell i e : (i < T)%nat ->
  k_mu pred p i e = if (e <? n_exp pl)%nat then get2 0%Qc (fst pl) i e else 0%Qc.
Proof. intros Hi. unfold k_mu. apply (Hcells i e Hi). Qed.
Lemma k_pv_cell i e : (i < T)%nat ->
  k_pv vars p i e = if (e <? n_exp pl)%nat then get2 0%Qc (snd pl) i e else 1%Qc.
Proof. intros Hi. unfold k_pv. rewrite (proj2 (Hcells i e Hi)). now destruct (e <? n_exp pl)%nat. Qed.
Lemma k_mask_cell i e : (i < T)%nat ->
  k_mask vars p i e = if (e <? n_exp pl)%nat then 1%Qc else 0%Qc.
Proof. intros Hi. unfold k_mask. rewrite (proj2 (Hcells i e Hi)). now destruct (e <? n_exp pl)%nat. Qed.

(* on a real cell the two per-experiment terms are those of the direct estimator *)
Lemma exp_term_in t e : triple_valid T t -> (e < n_exp pl)%nat ->
  (k_mask vars p (fst (fst t)) e * half * ln orc (1 / k_alpha vars p t e))%Qc = fst (direct_exp_term orc pl t e) /\
  (- k_exp_factor vars p t e * (k_d12 pred vars p t e + k_d13 pred vars p t e + k_d23 pred vars p t e))%Qc
  = snd (direct_exp_term orc pl t e).
Proof.
  destruct t as [[i1 i2] i3]. intros (H1 & H2 & H3) He. apply Nat.ltb_lt in He.
  unfold k_exp_factor, k_alpha, k_d12, k_d13, k_d23, direct_exp_term, triple_term. cbn [fst snd].
  rewrite !k_pv_cell, !k_mu_cell, !k_mask_cell by assumption. rewrite He. split; [ring|reflexivity].
Qed.

(* on a padded cell both terms vanish *)
Lemma exp_term_out t e : triple_valid T t -> (n_exp pl <= e)%nat ->
  (k_mask vars p (fst (fst t)) e * half * ln orc (1 / k_alpha vars p t e))%Qc = 0%Qc /\
  (- k_exp_factor vars p t e * (k_d12 pred vars p t e + k_d13 pred vars p t e + k_d23 pred vars p t e))%Qc = 0%Qc.
Proof.
  destruct t as [[i1 i2] i3]. intros (H1 & H2 & H3) He. apply Nat.ltb_ge in He.
  unfold k_exp_factor, k_alpha, k_d12, k_d13, k_d23. cbn [fst snd].
  rewrite !k_pv_cell, !k_mu_cell, !k_mask_cell by assumption. rewrite He. unfold qsq. split; ring.
Qed.

Lemma summand_eq W t : triple_valid T t -> (n_exp pl <= W)%nat ->
  k_summand orc pred vars D df W p t = direct_summand orc D df pl t.
Proof.
  intros Hv Hle.
  (* either sum over the W columns of the dense array is the sum over the plate's own experiments *)
  assert (HA : k_log_norm orc vars W p t
               = qsum (map (fun e => fst (direct_exp_term orc pl t e)) (seq 0 (n_exp pl)))).
  { destruct t as [[i1 i2] i3]. apply (qsum_seq_trunc _ _ _ _ Hle); intros e He;
      [apply (exp_term_in (i1, i2, i3) e Hv He) | apply (exp_term_out (i1, i2, i3) e Hv He)]. }
  assert (HB : k_ll pred vars W p t
               = qsum (map (fun e => snd (direct_exp_term orc pl t e)) (seq 0 (n_exp pl)))).
  { apply (qsum_seq_trunc _ _ _ _ Hle); intros e He;
      [apply (exp_term_in t e Hv He) | apply (exp_term_out t e Hv He)]. }
  unfold k_summand, k_ltd, direct_summand. rewrite HA, HB.
  destruct t as [[i1 i2] i3]. unfold k_dsum. destruct (qeqb _ 0%Qc); [reflexivity|]. now rewrite !map_map.
Qed.
End KernelProofs.

Theorem kernel_represents orc T plates pred vars D df ts :
  represents T plates pred vars -> Forall (triple_valid T) ts ->
  kernel orc pred vars D df ts = map (direct orc D df ts) plates.
Proof.
  intros [Hn Hrep] Hts. unfold kernel. destruct (shape3 pred) as [[n T'] W] eqn:Hs.
  cbn [fst snd] in Hn, Hrep. subst n.
  rewrite <- (map_seq_nth (direct orc D df ts) plates ([], [])).
  apply map_ext_in. intros p Hp. apply in_seq in Hp.
  destruct (Hrep p ltac:(lia)) as [Hle Hcells].
  unfold direct. f_equal. apply map_ext_in. intros t Ht.
  rewrite Forall_forall in Hts.
  exact (summand_eq orc pred vars D df T _ p Hcells W t (Hts t Ht) Hle).
Qed.

Lemma rect_width {A} T E (a : list (list A)) : rect T E a -> (0 < T)%nat -> snd (shape2 a) = E.
Proof.
  intros [Hl HF] HT. destruct a as [|r a]; cbn [length] in Hl; [lia|].
  cbn [shape2 snd hd]. now inversion HF.
Qed.

Lemma rect_row {A} T E (a : list (list A)) i : rect T E a -> (i < T)%nat -> length (nth i a []) = E.
Proof.
  intros [Hl HF] Hi. rewrite Forall_forall in HF. apply HF. apply nth_In. lia.
Qed.

Lemma plate_shapes T pl : (0 < T)%nat -> plate_wf T pl ->
  shape2 (fst pl) = (T, n_exp pl) /\ shape2 (snd pl) = (T, n_exp pl).
Proof.
  intros HT (E & Hm & Hv). unfold n_exp. rewrite (rect_width T E _ Hm HT).
  rewrite <- (rect_width T E _ Hm HT) at 1. rewrite <- (rect_width T E _ Hv HT).
  destruct Hm as [<- _]. destruct Hv as [Hl _]. unfold shape2. cbn [snd]. now rewrite Hl.
Qed.

(* both padded arrays of well-formed plates have the shape (plates, T, widest plate) *)
Lemma shape3_pad_plates T plates : (0 < T)%nat -> plates <> [] -> Forall (plate_wf T) plates ->
  shape3 (pad_means (map fst plates)) = (length plates, T, max_list (map n_exp plates)) /\
  shape3 (pad_vars (map snd plates)) = (length plates, T, max_list (map n_exp plates)).
Proof.
  intros HT Hne Hwf. rewrite Forall_forall in Hwf.
  assert (Hne' : forall {B} (f : plate -> B), map f plates <> []) by (destruct plates; [congruence|discriminate]).
  unfold pad_means, pad_vars. rewrite !(shape3_pad_ragged_rows _ T _ (map n_exp plates)), !map_length.
  - split; reflexivity.
  - exact HT.
  - rewrite map_map. apply Hne'.
  - rewrite !map_map. apply map_ext_in. intros pl Hin.
    rewrite shape2_map_some. apply (plate_shapes T pl HT (Hwf pl Hin)).
  - exact HT.
  - apply Hne'.
  - rewrite !map_map. apply map_ext_in. intros pl Hin. apply (plate_shapes T pl HT (Hwf pl Hin)).
Qed.

Lemma pad_represents T plates :
  (0 < T)%nat -> Forall (plate_wf T) plates ->
  represents T plates (pad_means (map fst plates)) (pad_vars (map snd plates)).
Proof.
  intros HT Hwf. destruct plates as [|pl0 rest] eqn:Epl; [split; [reflexivity | intros p Hp; inversion Hp]|].
  rewrite <- Epl in *. assert (Hne : plates <> []) by (rewrite Epl; discriminate).
  destruct (shape3_pad_plates T plates HT Hne Hwf) as [Hs _].
  split; [now rewrite Hs|]. intros p Hp pl.
  assert (Hin : In pl plates) by (apply nth_In; exact Hp).
  rewrite Forall_forall in Hwf. destruct (Hwf pl Hin) as (E & Hm & Hv).
  assert (HE : n_exp pl = E) by (eapply rect_width; eassumption).
  split.
  - rewrite Hs. cbn [snd]. apply max_list_ge, in_map, Hin.
  - (* the cell (p, i, e) of either padded array is the cell (i, e) of plate p's own array *)
    intros i e Hi. unfold pad_means, pad_vars. rewrite !get3_pad_ragged, map_map.
    rewrite !(get3_map _ plates ([], [])) by reflexivity. fold pl. unfold get2.
    rewrite (nth_map_lt _ (snd pl) [] [] i) by (destruct Hv as [-> _]; exact Hi).
    rewrite (nth_map_Some _ e 0%Qc), (rect_row T E _ i Hv Hi), HE.
    split; [|reflexivity].
    destruct (Nat.ltb_spec e E); [reflexivity|]. apply nth_overflow. now rewrite (rect_row T E _ i Hm Hi).
Qed.

Theorem hetero_eq_direct orc T plates D df ts :
  (0 < T)%nat -> Forall (plate_wf T) plates -> Forall (triple_valid T) ts ->
  hetero orc plates D df ts = map (direct orc D df ts) plates.
Proof.
  intros HT Hwf Hts. unfold hetero. apply (kernel_represents orc T); [now apply pad_represents|exact Hts].
Qed.
