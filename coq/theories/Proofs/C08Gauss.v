(* C08: the code's fitted value is the documented mean; splitting the likelihood
   over the rows a block touches; the five Gaussian blocks. *)
From Coq Require Import List QArith Qcanon Lia.
From Batchie Require Import Lib.Num Lib.NumP Model.Gibbs Model.GibbsSpec Proofs.C08Sums.
Import ListNotations.
Open Scope Qc_scope.

Lemma pyidx_nonneg len z : (0 <= z)%Z -> pyidx len z = Z.to_nat z.
Proof. intros H. unfold pyidx. destruct (z <? 0)%Z eqn:E; [apply Z.ltb_lt in E; lia|reflexivity]. Qed.

(* a python read that gives z at -1 is the plain read that gives z at every negative index, for indices >= -1 *)
Lemma py_emb {A} (z : A) l t : (-1 <= t)%Z ->
  (if (t =? -1)%Z then z else nth (pyidx (length l) t) l z) = (if (t <? 0)%Z then z else nth (Z.to_nat t) l z).
Proof.
  intros H. destruct (Z.eqb_spec t (-1)) as [->|E]; [reflexivity|].
  destruct (Z.ltb_spec t 0); [lia|]. rewrite pyidx_nonneg by lia. reflexivity.
Qed.
Lemma get_v_emb v t : (-1 <= t)%Z -> get_v v t = emb_v v t.
Proof. apply (py_emb 0). Qed.
Lemma get_r_emb M t : (-1 <= t)%Z -> get_r M t = emb_r M t.
Proof. apply (py_emb []). Qed.
Lemma py_r_nat M c : (0 <= c)%Z -> py_r M c = rnth M (Z.to_nat c).
Proof. intros H. unfold py_r. now rewrite pyidx_nonneg. Qed.
Lemma py_v_nat v c : (0 <= c)%Z -> py_v v c = vnth v (Z.to_nat c).
Proof. intros H. unfold py_v. now rewrite pyidx_nonneg. Qed.

Lemma zeqb_nat z c : (0 <= z)%Z -> (z =? Z.of_nat c)%Z = Nat.eqb c (Z.to_nat z).
Proof.
  intros H. destruct (z =? Z.of_nat c)%Z eqn:E.
  - apply Z.eqb_eq in E. symmetry. apply Nat.eqb_eq. lia.
  - apply Z.eqb_neq in E. symmetry. apply Nat.eqb_neq. lia.
Qed.

(* the embedding of treatment t after entry m of the array was replaced *)
Lemma emb_set {A} (z : A) l m x t : (m < length l)%nat ->
  (if (t <? 0)%Z then z else nth (Z.to_nat t) (set_nth m x l) z)
  = if (t =? Z.of_nat m)%Z then x else if (t <? 0)%Z then z else nth (Z.to_nat t) l z.
Proof.
  intros Hm. destruct (Z.ltb_spec t 0) as [E|E].
  - destruct (Z.eqb_spec t (Z.of_nat m)); [lia|reflexivity].
  - rewrite zeqb_nat, nth_set_nth by exact E. apply Nat.ltb_lt in Hm. rewrite Hm, andb_true_r. reflexivity.
Qed.
Lemma emb_r_set M m x t :
  (m < length M)%nat -> emb_r (set_nth m x M) t = if (t =? Z.of_nat m)%Z then x else emb_r M t.
Proof. apply (emb_set []). Qed.
Lemma emb_v_set v m x t :
  (m < length v)%nat -> emb_v (set_nth m x v) t = if (t =? Z.of_nat m)%Z then x else emb_v v t.
Proof. apply (emb_set 0). Qed.

Lemma mu_at_spec g d s i : ValidData d -> mu_at g d s i = spec_mean g d s i.
Proof.
  intros (_ & _ & _ & Hc & H1 & H2). unfold mu_at, mu_row, spec_mean.
  rewrite py_r_nat, py_v_nat by apply Hc. rewrite !get_v_emb, !get_r_emb by (apply H1 || apply H2).
  f_equal. f_equal. unfold vdot. apply sumn_ext; intros k Hk. unfold vadd. now rewrite vnth_tab by exact Hk.
Qed.

Lemma cache_nth g d s i : ValidData d -> cache_ok g d s -> (i < nobs d)%nat -> vnth (Mu s) i = spec_mean g d s i.
Proof.
  intros Hv Hc Hi. rewrite Hc. unfold reconstruct. rewrite vnth_tab by exact Hi. now apply mu_at_spec.
Qed.

Lemma lik_split n (y mx m0 : nat -> Qc) (pA pB : nat -> bool) (lA lB : nat -> Qc) :
  (forall i, (i < n)%nat -> pA i = true -> pB i = true -> False) ->
  (forall i, (i < n)%nat -> mx i = m0 i + (if pA i then lA i else 0) + (if pB i then lB i else 0)) ->
  sumn n (fun i => qsq (y i - mx i)) - sumn n (fun i => qsq (y i - m0 i))
  = qsum (map (fun i => hterm (y i - m0 i) (lA i)) (filter pA (seq 0 n)))
    + qsum (map (fun i => hterm (y i - m0 i) (lB i)) (filter pB (seq 0 n))).
Proof.
  intros Hdis Hm. rewrite !qsum_filter_seq, <- sumn_sub, <- sumn_add. apply sumn_ext; intros i Hi.
  rewrite (Hm i Hi). destruct (pA i) eqn:EA, (pB i) eqn:EB.
  - exfalso. eapply Hdis; eauto.
  - unfold hterm, qsq. ring.
  - unfold hterm, qsq. ring.
  - unfold hterm, qsq. ring.
Qed.

Lemma positions_eq k keys n : length keys = n -> positions k keys = filter (fun i => (znth keys i =? k)%Z) (seq 0 n).
Proof. intros <-. reflexivity. Qed.

Lemma positions_lt k keys i : In i (positions k keys) -> (i < length keys)%nat /\ (znth keys i =? k)%Z = true.
Proof. unfold positions. intros H. apply filter_In in H as [H1 H2]. apply in_seq in H1. split; [lia|exact H2]. Qed.

Lemma positions_NoDup k keys : NoDup (positions k keys).
Proof. unfold positions. apply NoDup_filter, seq_NoDup. Qed.

(* scalar version of the quadratic lemma *)
Lemma gauss_scalar (p lam x : Qc) (rs : list Qc) :
  p * qsum (map (fun rho => hterm rho x) rs) + lam * qsq x
  = (p * qlen rs + lam) * qsq x - qofZ 2 * (p * qsum rs) * x.
Proof.
  rewrite (qsum_map_ext _ (fun rho => qsq x + (- qofZ 2 * x) * rho)) by (intros; rewrite hterm_expand; ring).
  rewrite qsum_map_add, qsum_map_scale, qsum_map_const, map_id. ring.
Qed.

Lemma qlen_app {A} (l1 l2 : list A) : qlen (l1 ++ l2) = qlen l1 + qlen l2.
Proof. unfold qlen. rewrite app_length, Nat2Z.inj_add. apply qofZ_add. Qed.

Lemma scalar_rows (y m0 Mu_ : nat -> Qc) (old p lam x : Qc) (idx : list nat) :
  (forall i, In i idx -> y i - m0 i = y i - Mu_ i + old) ->
  p * qsum (map (fun i => hterm (y i - m0 i) x) idx) + lam * qsq x
  = (p * qlen idx + lam) * qsq x - qofZ 2 * (p * qsum (map (fun i => y i - Mu_ i + old) idx)) * x.
Proof.
  intros H. rewrite (qsum_map_ext _ (fun i => hterm (y i - Mu_ i + old) x)) by (intros i Hi; now rewrite H).
  rewrite <- (map_map (fun i => y i - Mu_ i + old) (fun rho => hterm rho x)), gauss_scalar.
  unfold qlen. now rewrite map_length.
Qed.

(* (x^2 - 2 m x)/v with v = 1/P, m = B/P is P x^2 - 2 B x *)
Lemma normal_form (P B x : Qc) : / P <> 0 -> (x * x - qofZ 2 * (B / P) * x) / (/ P) = P * qsq x - qofZ 2 * B * x.
Proof.
  intros Hv. assert (HP : P <> 0) by (intros ->; apply Hv; reflexivity).
  unfold qsq. field. split; [assumption|intro H; inversion H].
Qed.

Lemma normal_form0 (P x : Qc) : / P <> 0 -> (x * x - qofZ 2 * 0 * x) / (/ P) = P * qsq x.
Proof.
  intros Hv. assert (HP : P <> 0) by (intros ->; apply Hv; reflexivity).
  unfold qsq. field. split; [assumption|intro H; inversion H].
Qed.
Lemma qlen_nil {A} : qlen (@nil A) = 0.
Proof. apply Qc_is_canon. reflexivity. Qed.

Section Blocks.
Variable ln : Qc -> Qc.
Variable g : cfg.
Variable d : data.
Notation D := (c_D g).
Notation n := (nobs d).

(* two states with the same precisions: the energy difference is the likelihood part plus the differences of the
   five Gaussian priors (every ln term and the hyper-priors cancel) *)
Definition same_hyper (s1 s2 : st) : Prop :=
  prec s1 = prec s2 /\ tau s1 = tau s2 /\ tau0 s1 = tau0 s2 /\ gam s1 = gam s2 /\
  phi2 s1 = phi2 s2 /\ phi1 s1 = phi1 s2 /\ phi0 s1 = phi0 s2 /\ eta2 s1 = eta2 s2 /\ eta1 s1 = eta1 s2 /\ eta0 s1 = eta0 s2.

Lemma energy_diff_emb s1 s2 : same_hyper s1 s2 ->
  energy ln g d s1 - energy ln g d s2
  = prec s2 * (sse g d s1 - sse g d s2) + (e_W0 ln g s1 - e_W0 ln g s2) + (e_V0 ln g s1 - e_V0 ln g s2)
    + (e_W ln g s1 - e_W ln g s2) + (e_Vk ln g (V2 s1) (phi2 s2) (eta2 s2) - e_Vk ln g (V2 s2) (phi2 s2) (eta2 s2))
    + (e_Vk ln g (V1 s1) (phi1 s2) (eta1 s2) - e_Vk ln g (V1 s2) (phi1 s2) (eta1 s2)).
Proof.
  intros (Hp & Ht & Ht0 & Hg & Hp2 & Hp1 & Hp0 & He2 & He1 & He0).
  unfold energy, e_lik, e_hyper. rewrite Hp, Ht0, Hg, Hp2, Hp1, He2, He1. ring.
Qed.

Definition inC (c : nat) (i : nat) : bool := (znth (d_cl d) i =? Z.of_nat c)%Z.
Definition in1 (m : nat) (i : nat) : bool := (znth (d_dd1 d) i =? Z.of_nat m)%Z.
Definition in2 (m : nat) (i : nat) : bool := (znth (d_dd2 d) i =? Z.of_nat m)%Z.

Lemma in12_disjoint m i : NoSelfCombo d -> (i < n)%nat -> in1 m i = true -> in2 m i = true -> False.
Proof.
  unfold in1, in2. intros Hns Hi H1 H2. apply Z.eqb_eq in H1, H2.
  destruct (Hns i Hi) as [H|H]; [lia|congruence].
Qed.

Lemma filter_false_nil {A} (l : list A) : filter (fun _ => false) l = [].
Proof. induction l; [reflexivity|assumption]. Qed.

(* [mean x] is the documented mean with the block's entry set to x; it is linear in x on the rows pA, pB the block
   touches, and the cache holds the mean at the current entry [old] *)
Lemma scalar_core (mean : Qc -> nat -> Qc) (s : st) (pA pB : nat -> bool) (old lam : Qc) :
  (forall i, (i < n)%nat -> pA i = true -> pB i = true -> False) ->
  (forall x i, mean x i = mean 0 i + (if pA i then x else 0) + (if pB i then x else 0)) ->
  (forall i, (i < n)%nat -> vnth (Mu s) i = mean old i) ->
  forall x,
    prec s * (sumn n (fun i => qsq (yi d i - mean x i)) - sumn n (fun i => qsq (yi d i - mean 0 i))) + lam * qsq x
    = (prec s * qlen (filter pA (seq 0 n) ++ filter pB (seq 0 n)) + lam) * qsq x
      - qofZ 2 * (prec s * qsum (map (fun i => yi d i - vnth (Mu s) i + old) (filter pA (seq 0 n) ++ filter pB (seq 0 n)))) * x.
Proof.
  intros Hdis Hlin Hcache x.
  rewrite (lik_split n (yi d) _ _ pA pB (fun _ => x) (fun _ => x) Hdis) by (intros i _; apply Hlin).
  rewrite <- qsum_app, <- map_app. apply scalar_rows.
  intros i Hi. apply in_app_or in Hi. rewrite !filter_In, !in_seq in Hi.
  assert (Hi' : (i < n)%nat) by (destruct Hi as [[Hi _]|[Hi _]]; lia).
  rewrite (Hcache i Hi'), (Hlin old i).
  destruct (pA i) eqn:EA, (pB i) eqn:EB; try ring.
  - exfalso. eapply Hdis; eauto.
  - destruct Hi as [[_ Hi]|[_ Hi]]; discriminate.
Qed.

Definition upd_W0 (s : st) (c : nat) (x : Qc) : st := set_W0 s (set_nth c x (W0 s)).

(* (the empty second summand gives the statement the two-row-set shape that scalar_core and cache_step take) *)
Lemma mean_W0 s c x i :
  ValidData d -> (c < length (W0 s))%nat ->
  spec_mean g d (upd_W0 s c x) i
  = spec_mean g d (upd_W0 s c 0) i + (if inC c i then x else 0) + (if false then x else 0).
Proof.
  intros (_ & _ & _ & Hc & _ & _) Hlt. unfold spec_mean, upd_W0, inC. cbn [W0 W V0 V1 V2 alpha set_W0].
  rewrite !vnth_set_nth. rewrite zeqb_nat by apply Hc.
  apply Nat.ltb_lt in Hlt. rewrite Hlt, andb_true_r.
  destruct (Nat.eqb c (Z.to_nat (znth (d_cl d) i))); ring.
Qed.

Lemma upd_W0_same s c : upd_W0 s c (vnth (W0 s) c) = s.
Proof. unfold upd_W0, vnth. rewrite set_nth_same. destruct s; reflexivity. Qed.

Lemma energy_W0 s c x :
  (c < c_ncl g)%nat -> (c < length (W0 s))%nat ->
  energy ln g d (upd_W0 s c x) - energy ln g d (upd_W0 s c 0)
  = prec s * (sse g d (upd_W0 s c x) - sse g d (upd_W0 s c 0)) + tau0 s * qsq x.
Proof.
  intros Hc Hlt. rewrite energy_diff_emb by (repeat split).
  unfold e_W0, e_V0, e_W, upd_W0. cbn [W0 W V0 V1 V2 prec tau0 tau phi0 eta0 set_W0].
  rewrite !(sumn_set_vnth _ c _ (W0 s) (fun _ => qsq)) by assumption. unfold qsq. ring.
Qed.

Theorem gauss_block_W0 s c m v k :
  ValidData d -> cache_ok g d s -> (c < c_ncl g)%nat -> (c < length (W0 s))%nat ->
  block_W0 d s c = (DNormal m v, k) -> v <> 0 ->
  forall x, energy ln g d (upd_W0 s c x) - energy ln g d (upd_W0 s c 0) = (x * x - qofZ 2 * m * x) / v.
Proof.
  intros Hv Hcache Hc Hlt Hb Hv0 x.
  rewrite energy_W0 by assumption. unfold sse.
  rewrite (scalar_core (fun z => spec_mean g d (upd_W0 s c z)) s (inC c) (fun _ => false) (vnth (W0 s) c));
    [|intros; discriminate|intros z i; now apply mean_W0|intros i Hi; rewrite upd_W0_same; now apply cache_nth].
  rewrite filter_false_nil, app_nil_r. unfold inC. rewrite <- (positions_eq (Z.of_nat c) (d_cl d) n (proj1 Hv)).
  unfold block_W0 in Hb. destruct (positions (Z.of_nat c) (d_cl d)) as [|i0 l]; inversion Hb; subst m v; symmetry.
  - cbn [map]. rewrite qsum_nil, (@qlen_nil nat), normal_form0 by exact Hv0. ring.
  - apply normal_form. exact Hv0.
Qed.

Definition upd_V0 (s : st) (m : nat) (x : Qc) : st := set_V0 s (set_nth m x (V0 s)).

Lemma mean_V0 s m x i :
  (m < length (V0 s))%nat ->
  spec_mean g d (upd_V0 s m x) i
  = spec_mean g d (upd_V0 s m 0) i + (if in1 m i then x else 0) + (if in2 m i then x else 0).
Proof.
  intros Hlt. unfold spec_mean, upd_V0, in1, in2. cbn [W0 W V0 V1 V2 alpha set_V0].
  rewrite !emb_v_set by exact Hlt.
  destruct (znth (d_dd1 d) i =? Z.of_nat m)%Z, (znth (d_dd2 d) i =? Z.of_nat m)%Z; ring.
Qed.

Lemma upd_V0_same s m : upd_V0 s m (vnth (V0 s) m) = s.
Proof. unfold upd_V0, vnth. rewrite set_nth_same. destruct s; reflexivity. Qed.

Lemma energy_V0 s m x :
  (m < c_ndd g)%nat -> (m < length (V0 s))%nat ->
  energy ln g d (upd_V0 s m x) - energy ln g d (upd_V0 s m 0)
  = prec s * (sse g d (upd_V0 s m x) - sse g d (upd_V0 s m 0)) + vnth (phi0 s) m * eta0 s * qsq x.
Proof.
  intros Hm Hlt. rewrite energy_diff_emb by (repeat split).
  unfold e_W0, e_V0, e_W, upd_V0. cbn [W0 W V0 V1 V2 prec tau0 tau phi0 eta0 set_V0].
  rewrite !(sumn_set_vnth _ m _ (V0 s) (fun m0 a => vnth (phi0 s) m0 * eta0 s * qsq a)) by assumption. unfold qsq. ring.
Qed.

Definition idxV (m : nat) : list nat := positions (Z.of_nat m) (d_dd1 d) ++ positions (Z.of_nat m) (d_dd2 d).

Lemma idxV_filter m : ValidData d -> idxV m = filter (in1 m) (seq 0 n) ++ filter (in2 m) (seq 0 n).
Proof. intros (_ & H1 & H2 & _). unfold idxV. now rewrite (positions_eq _ _ n H1), (positions_eq _ _ n H2). Qed.

Theorem gauss_block_V0 s m mu v k :
  ValidData d -> NoSelfCombo d -> cache_ok g d s -> (m < c_ndd g)%nat -> (m < length (V0 s))%nat ->
  block_V0 d s m = (DNormal mu v, k) -> v <> 0 ->
  forall x, energy ln g d (upd_V0 s m x) - energy ln g d (upd_V0 s m 0) = (x * x - qofZ 2 * mu * x) / v.
Proof.
  intros Hv Hns Hcache Hm Hlt Hb Hv0 x.
  rewrite energy_V0 by assumption. unfold sse.
  rewrite (scalar_core (fun z => spec_mean g d (upd_V0 s m z)) s (in1 m) (in2 m) (vnth (V0 s) m));
    [|intros i Hi; now apply in12_disjoint|intros z i; now apply mean_V0|intros i Hi; rewrite upd_V0_same; now apply cache_nth].
  rewrite <- (idxV_filter m Hv).
  unfold block_V0 in Hb. fold (idxV m) in Hb. destruct (idxV m) as [|i0 l]; inversion Hb; subst mu v; symmetry.
  - cbn [map]. rewrite qsum_nil, (@qlen_nil nat), normal_form0 by exact Hv0. ring.
  - apply normal_form. exact Hv0.
Qed.

Lemma vec_core (mean : list Qc -> nat -> Qc) (s : st) (XA XB : nat -> list Qc) (pA pB : nat -> bool)
      (cur lam : list Qc) (p : Qc) :
  (forall i, (i < n)%nat -> pA i = true -> pB i = true -> False) ->
  (forall x i, (i < n)%nat ->
     mean x i = mean [] i + (if pA i then vdot D (XA i) x else 0) + (if pB i then vdot D (XB i) x else 0)) ->
  (forall i, (i < n)%nat -> vnth (Mu s) i = mean cur i) ->
  forall x,
    p * (sumn n (fun i => qsq (yi d i - mean x i)) - sumn n (fun i => qsq (yi d i - mean [] i)))
    + sumn D (fun k => vnth lam k * qsq (vnth x k))
    = quad D (gramQ D p (mk_rows g d s XA cur (filter pA (seq 0 n)) ++ mk_rows g d s XB cur (filter pB (seq 0 n))) lam) x
      - qofZ 2 * vdot D (xtr D p (mk_rows g d s XA cur (filter pA (seq 0 n)) ++ mk_rows g d s XB cur (filter pB (seq 0 n)))) x.
Proof.
  intros Hdis Hlin Hcache x.
  rewrite (lik_split n (yi d) _ _ pA pB (fun i => vdot D (XA i) x) (fun i => vdot D (XB i) x) Hdis) by (intros i Hi; now apply Hlin).
  rewrite <- gauss_rows. f_equal. f_equal. rewrite map_app, qsum_app. unfold mk_rows. rewrite !map_map. cbn [fst snd].
  f_equal; apply qsum_map_ext; intros i Hi; apply filter_In in Hi as [Hi Hp]; apply in_seq in Hi;
    assert (Hi' : (i < n)%nat) by lia; f_equal; rewrite (Hcache i Hi'), (Hlin cur i Hi'), Hp.
  - destruct (pB i) eqn:E; [exfalso; eapply Hdis; eauto|ring].
  - destruct (pA i) eqn:E; [exfalso; eapply Hdis; eauto|ring].
Qed.

Definition upd_W (s : st) (c : nat) (x : list Qc) : st := set_W s (set_nth c x (W s)).

Lemma xrow_W_nth s i k :
  ValidData d -> (k < D)%nat ->
  vnth (xrow_W g d s i) k
  = vnth (emb_r (V2 s) (znth (d_dd1 d) i)) k * vnth (emb_r (V2 s) (znth (d_dd2 d) i)) k
    + (vnth (emb_r (V1 s) (znth (d_dd1 d) i)) k + vnth (emb_r (V1 s) (znth (d_dd2 d) i)) k).
Proof.
  intros (_ & _ & _ & _ & H1 & H2) Hk. unfold xrow_W, vadd, vmul. rewrite !vnth_tab by exact Hk.
  rewrite !get_r_emb by (apply H1 || apply H2). reflexivity.
Qed.

Lemma mean_W s c x i :
  ValidData d -> (c < length (W s))%nat ->
  spec_mean g d (upd_W s c x) i
  = spec_mean g d (upd_W s c []) i + (if inC c i then vdot D (xrow_W g d s i) x else 0) + (if false then 0 else 0).
Proof.
  intros Hv Hlt. pose proof Hv as (_ & _ & _ & Hc & _ & _).
  unfold spec_mean, upd_W, inC. cbn [W0 W V0 V1 V2 alpha set_W].
  rewrite !rnth_set_nth. rewrite zeqb_nat by apply Hc.
  apply Nat.ltb_lt in Hlt. rewrite Hlt, andb_true_r.
  destruct (Nat.eqb c (Z.to_nat (znth (d_cl d) i))); [|ring].
  unfold vdot. rewrite (sumn_ext D (fun k => vnth (xrow_W g d s i) k * vnth x k)
     (fun k => vnth x k * (vnth (emb_r (V1 s) (znth (d_dd1 d) i)) k + vnth (emb_r (V1 s) (znth (d_dd2 d) i)) k)
               + vnth x k * vnth (emb_r (V2 s) (znth (d_dd1 d) i)) k * vnth (emb_r (V2 s) (znth (d_dd2 d) i)) k))
    by (intros k Hk; rewrite xrow_W_nth by assumption; ring).
  rewrite sumn_add.
  rewrite (sumn_zero' D (fun k => vnth [] k * _)) by (intros; rewrite vnth_nil; ring).
  rewrite (sumn_zero' D (fun k => vnth [] k * _ * _)) by (intros; rewrite vnth_nil; ring).
  ring.
Qed.

Lemma upd_W_same s c : upd_W s c (rnth (W s) c) = s.
Proof. unfold upd_W, rnth. rewrite set_nth_same. destruct s; reflexivity. Qed.

Lemma energy_W s c x :
  (c < c_ncl g)%nat -> (c < length (W s))%nat ->
  energy ln g d (upd_W s c x) - energy ln g d (upd_W s c [])
  = prec s * (sse g d (upd_W s c x) - sse g d (upd_W s c [])) + sumn D (fun k => vnth (tau s) k * qsq (vnth x k)).
Proof.
  intros Hc Hlt. rewrite energy_diff_emb by (repeat split).
  unfold e_W0, e_V0, e_W, upd_W. cbn [W0 W V0 V1 V2 prec tau0 tau phi0 eta0 set_W].
  rewrite !(sumn_set_rnth _ c _ (W s) (fun _ r => sumn D (fun k => vnth (tau s) k * qsq (vnth r k)))) by assumption.
  rewrite (sumn_zero' D (fun k => _ * qsq (vnth [] k))) by (intros; rewrite vnth_nil; unfold qsq; ring).
  ring.
Qed.

Lemma energy_diff_W s c x :
  ValidData d -> cache_ok g d s -> (c < c_ncl g)%nat -> (c < length (W s))%nat ->
  energy ln g d (upd_W s c x) - energy ln g d (upd_W s c [])
  = quad D (gramQ D (prec s) (mk_rows g d s (xrow_W g d s) (rnth (W s) c) (positions (Z.of_nat c) (d_cl d))) (tau s)) x
    - qofZ 2 * vdot D (xtr D (prec s) (mk_rows g d s (xrow_W g d s) (rnth (W s) c) (positions (Z.of_nat c) (d_cl d)))) x.
Proof.
  intros Hv Hcache Hc Hlt. rewrite energy_W by assumption. unfold sse.
  rewrite (vec_core (fun z => spec_mean g d (upd_W s c z)) s (xrow_W g d s) (fun _ => []) (inC c) (fun _ => false) (rnth (W s) c) (tau s) (prec s)).
  - rewrite filter_false_nil. unfold mk_rows at 2 4. cbn [map]. rewrite !app_nil_r.
    unfold inC. rewrite <- (positions_eq (Z.of_nat c) (d_cl d) n (proj1 Hv)). reflexivity.
  - intros; discriminate.
  - intros z i _. rewrite (mean_W s c z i Hv Hlt). destruct (inC c i); ring.
  - intros i Hi. rewrite upd_W_same. now apply cache_nth.
Qed.

Theorem gauss_block_W s c Q b k :
  ValidData d -> cache_ok g d s -> (c < c_ncl g)%nat -> (c < length (W s))%nat ->
  block_W g d s c = (DMvn Q b, k) ->
  forall x, energy ln g d (upd_W s c x) - energy ln g d (upd_W s c []) = quad D Q x - qofZ 2 * vdot D b x.
Proof.
  intros Hv Hcache Hc Hlt Hb x. rewrite energy_diff_W by assumption.
  unfold block_W in Hb. destruct (positions (Z.of_nat c) (d_cl d)) as [|i0 l] eqn:E; [discriminate|].
  inversion Hb; subst Q b. reflexivity.
Qed.

Theorem prior_block_W s c vars k :
  ValidData d -> cache_ok g d s -> (c < c_ncl g)%nat -> (c < length (W s))%nat ->
  block_W g d s c = (DNormalVec vars, k) ->
  vars = map Qcinv (tau s) /\
  forall x, energy ln g d (upd_W s c x) - energy ln g d (upd_W s c []) = sumn D (fun j => vnth (tau s) j * qsq (vnth x j)).
Proof.
  intros Hv Hcache Hc Hlt Hb. unfold block_W in Hb.
  destruct (positions (Z.of_nat c) (d_cl d)) as [|i0 l] eqn:E; [|discriminate].
  inversion Hb; subst vars. split; [reflexivity|]. intros x.
  rewrite energy_diff_W, E by assumption. unfold mk_rows. cbn [map].
  rewrite <- gauss_rows. cbn [map]. rewrite qsum_nil. ring.
Qed.

Lemma prior_Vk (V phi : list (list Qc)) (eta : list Qc) m x :
  (m < c_ndd g)%nat -> (m < length V)%nat ->
  e_Vk ln g (set_nth m x V) phi eta - e_Vk ln g (set_nth m [] V) phi eta
  = sumn D (fun k => vnth (rnth phi m) k * vnth eta k * qsq (vnth x k)).
Proof.
  intros Hm Hlt. unfold e_Vk.
  rewrite !(sumn_set_rnth _ m _ V (fun m0 r => sumn D (fun k => vnth (rnth phi m0) k * vnth eta k * qsq (vnth r k)))) by assumption.
  rewrite (sumn_zero' D (fun k => _ * qsq (vnth [] k))) by (intros; rewrite vnth_nil; unfold qsq; ring).
  ring.
Qed.

(* a family of treatment embeddings: its matrix, its horseshoe precisions, its design rows *)
Section VFamily.
Variables (getV : st -> list (list Qc)) (setV : st -> list (list Qc) -> st) (getP : st -> list (list Qc)) (getE : st -> list Qc)
          (lamf : st -> nat -> list Qc) (Xa Xb : st -> nat -> list Qc).
Notation updV s m x := (setV s (set_nth m x (getV s))).
Hypothesis updV_same : forall s m, updV s m (rnth (getV s) m) = s.
Hypothesis mean_V : forall s m x i, ValidData d -> NoSelfCombo d -> (i < n)%nat -> (m < length (getV s))%nat ->
  spec_mean g d (updV s m x) i
  = spec_mean g d (updV s m []) i + (if in1 m i then vdot D (Xa s i) x else 0) + (if in2 m i then vdot D (Xb s i) x else 0).
Hypothesis energy_V : forall s m x,
  energy ln g d (updV s m x) - energy ln g d (updV s m [])
  = prec s * (sse g d (updV s m x) - sse g d (updV s m []))
    + (e_Vk ln g (set_nth m x (getV s)) (getP s) (getE s) - e_Vk ln g (set_nth m [] (getV s)) (getP s) (getE s)).
Hypothesis lam_V : forall s m, lamf s m = tab D (fun k => vnth (rnth (getP s) m) k * vnth (getE s) k).

Lemma energy_diff_V s m x :
  ValidData d -> NoSelfCombo d -> cache_ok g d s -> (m < c_ndd g)%nat -> (m < length (getV s))%nat ->
  let rows := mk_rows g d s (Xa s) (rnth (getV s) m) (positions (Z.of_nat m) (d_dd1 d))
              ++ mk_rows g d s (Xb s) (rnth (getV s) m) (positions (Z.of_nat m) (d_dd2 d)) in
  energy ln g d (updV s m x) - energy ln g d (updV s m [])
  = quad D (gramQ D (prec s) rows (lamf s m)) x - qofZ 2 * vdot D (xtr D (prec s) rows) x.
Proof.
  intros Hv Hns Hcache Hm Hlt rows. subst rows. rewrite energy_V, prior_Vk by assumption. unfold sse.
  pose proof Hv as (_ & Hl1 & Hl2 & _).
  rewrite (sumn_ext D _ (fun k => vnth (lamf s m) k * qsq (vnth x k)))
    by (intros k Hk; now rewrite lam_V, vnth_tab by exact Hk).
  rewrite (vec_core (fun z => spec_mean g d (updV s m z)) s (Xa s) (Xb s) (in1 m) (in2 m) (rnth (getV s) m) (lamf s m) (prec s)).
  - rewrite (positions_eq (Z.of_nat m) (d_dd1 d) n Hl1), (positions_eq (Z.of_nat m) (d_dd2 d) n Hl2). reflexivity.
  - intros i Hi. now apply in12_disjoint.
  - intros z i Hi. now apply mean_V.
  - intros i Hi. rewrite updV_same. now apply cache_nth.
Qed.

Theorem gauss_block_V s m Q b k :
  ValidData d -> NoSelfCombo d -> cache_ok g d s -> (m < c_ndd g)%nat -> (m < length (getV s))%nat ->
  block_V g d getV setV lamf Xa Xb s m = (DMvn Q b, k) ->
  forall x, energy ln g d (updV s m x) - energy ln g d (updV s m []) = quad D Q x - qofZ 2 * vdot D b x.
Proof.
  intros Hv Hns Hcache Hm Hlt Hb x. rewrite energy_diff_V by assumption.
  unfold block_V in Hb. destruct (positions (Z.of_nat m) (d_dd1 d) ++ positions (Z.of_nat m) (d_dd2 d)); [discriminate|].
  inversion Hb; subst Q b. reflexivity.
Qed.

Theorem prior_block_V s m vars k :
  ValidData d -> NoSelfCombo d -> cache_ok g d s -> (m < c_ndd g)%nat -> (m < length (getV s))%nat ->
  block_V g d getV setV lamf Xa Xb s m = (DNormalVec vars, k) ->
  vars = map Qcinv (lamf s m) /\
  forall x, energy ln g d (updV s m x) - energy ln g d (updV s m []) = sumn D (fun j => vnth (lamf s m) j * qsq (vnth x j)).
Proof.
  intros Hv Hns Hcache Hm Hlt Hb. unfold block_V in Hb.
  destruct (positions (Z.of_nat m) (d_dd1 d) ++ positions (Z.of_nat m) (d_dd2 d)) eqn:E; [|discriminate].
  inversion Hb; subst vars. apply app_eq_nil in E as [E1 E2]. split; [reflexivity|]. intros x.
  rewrite energy_diff_V, E1, E2 by assumption. unfold mk_rows. cbn [map app].
  rewrite <- gauss_rows. cbn [map]. rewrite qsum_nil. ring.
Qed.
End VFamily.

Definition upd_V2 (s : st) (m : nat) (x : list Qc) : st := set_V2 s (set_nth m x (V2 s)).

Lemma xrow_V2a_nth s i k :
  ValidData d -> (k < D)%nat ->
  vnth (xrow_V2a g d s i) k = vnth (rnth (W s) (Z.to_nat (znth (d_cl d) i))) k * vnth (emb_r (V2 s) (znth (d_dd2 d) i)) k.
Proof.
  intros (_ & _ & _ & Hc & H1 & H2) Hk. unfold xrow_V2a, vmul. rewrite vnth_tab by exact Hk.
  rewrite py_r_nat by apply Hc. rewrite get_r_emb by apply H2. reflexivity.
Qed.
Lemma xrow_V2b_nth s i k :
  ValidData d -> (k < D)%nat ->
  vnth (xrow_V2b g d s i) k = vnth (rnth (W s) (Z.to_nat (znth (d_cl d) i))) k * vnth (emb_r (V2 s) (znth (d_dd1 d) i)) k.
Proof.
  intros (_ & _ & _ & Hc & H1 & H2) Hk. unfold xrow_V2b, vmul. rewrite vnth_tab by exact Hk.
  rewrite py_r_nat by apply Hc. rewrite get_r_emb by apply H1. reflexivity.
Qed.

Lemma mean_V2 s m x i :
  ValidData d -> NoSelfCombo d -> (i < n)%nat -> (m < length (V2 s))%nat ->
  spec_mean g d (upd_V2 s m x) i
  = spec_mean g d (upd_V2 s m []) i + (if in1 m i then vdot D (xrow_V2a g d s i) x else 0)
    + (if in2 m i then vdot D (xrow_V2b g d s i) x else 0).
Proof.
  intros Hv Hns Hi Hlt. unfold spec_mean, upd_V2. cbn [W0 W V0 V1 V2 alpha set_V2].
  rewrite !emb_r_set by exact Hlt. fold (in1 m i) (in2 m i).
  destruct (in1 m i) eqn:E1, (in2 m i) eqn:E2.
  - exfalso. eapply in12_disjoint; eauto.
  - assert (HS : sumn D (fun k => vnth (rnth (W s) (Z.to_nat (znth (d_cl d) i))) k * vnth x k * vnth (emb_r (V2 s) (znth (d_dd2 d) i)) k)
               = sumn D (fun k => vnth (rnth (W s) (Z.to_nat (znth (d_cl d) i))) k * vnth [] k * vnth (emb_r (V2 s) (znth (d_dd2 d) i)) k)
                 + vdot D (xrow_V2a g d s i) x).
    { unfold vdot. rewrite <- sumn_add. apply sumn_ext; intros k Hk. rewrite vnth_nil, xrow_V2a_nth by assumption. ring. }
    rewrite HS. ring.
  - assert (HS : sumn D (fun k => vnth (rnth (W s) (Z.to_nat (znth (d_cl d) i))) k * vnth (emb_r (V2 s) (znth (d_dd1 d) i)) k * vnth x k)
               = sumn D (fun k => vnth (rnth (W s) (Z.to_nat (znth (d_cl d) i))) k * vnth (emb_r (V2 s) (znth (d_dd1 d) i)) k * vnth [] k)
                 + vdot D (xrow_V2b g d s i) x).
    { unfold vdot. rewrite <- sumn_add. apply sumn_ext; intros k Hk. rewrite vnth_nil, xrow_V2b_nth by assumption. ring. }
    rewrite HS. ring.
  - ring.
Qed.

Lemma upd_V2_same s m : upd_V2 s m (rnth (V2 s) m) = s.
Proof. unfold upd_V2, rnth. rewrite set_nth_same. destruct s; reflexivity. Qed.

Lemma energy_V2 s m x :
  energy ln g d (upd_V2 s m x) - energy ln g d (upd_V2 s m [])
  = prec s * (sse g d (upd_V2 s m x) - sse g d (upd_V2 s m []))
    + (e_Vk ln g (set_nth m x (V2 s)) (phi2 s) (eta2 s) - e_Vk ln g (set_nth m [] (V2 s)) (phi2 s) (eta2 s)).
Proof.
  rewrite energy_diff_emb by (repeat split).
  unfold e_W0, e_V0, e_W, upd_V2. cbn [W0 W V0 V1 V2 prec tau0 tau phi0 eta0 phi2 eta2 set_V2]. ring.
Qed.

Theorem gauss_block_V2 s m Q b k :
  ValidData d -> NoSelfCombo d -> cache_ok g d s -> (m < c_ndd g)%nat -> (m < length (V2 s))%nat ->
  block_V2 g d s m = (DMvn Q b, k) ->
  forall x, energy ln g d (upd_V2 s m x) - energy ln g d (upd_V2 s m []) = quad D Q x - qofZ 2 * vdot D b x.
Proof. exact (gauss_block_V V2 set_V2 phi2 eta2 _ _ _ upd_V2_same mean_V2 energy_V2 (fun _ _ => eq_refl) s m Q b k). Qed.

Theorem prior_block_V2 s m vars k :
  ValidData d -> NoSelfCombo d -> cache_ok g d s -> (m < c_ndd g)%nat -> (m < length (V2 s))%nat ->
  block_V2 g d s m = (DNormalVec vars, k) ->
  vars = map Qcinv (lam_V2 g s m) /\
  forall x, energy ln g d (upd_V2 s m x) - energy ln g d (upd_V2 s m []) = sumn D (fun j => vnth (lam_V2 g s m) j * qsq (vnth x j)).
Proof. exact (prior_block_V V2 set_V2 phi2 eta2 _ _ _ upd_V2_same mean_V2 energy_V2 (fun _ _ => eq_refl) s m vars k). Qed.

Definition upd_V1 (s : st) (m : nat) (x : list Qc) : st := set_V1 s (set_nth m x (V1 s)).

Lemma xrow_V1_nth s i k :
  ValidData d -> (k < D)%nat -> vnth (xrow_V1 g d s i) k = vnth (rnth (W s) (Z.to_nat (znth (d_cl d) i))) k.
Proof.
  intros (_ & _ & _ & Hc & _) Hk. unfold xrow_V1. rewrite vnth_tab by exact Hk. rewrite py_r_nat by apply Hc. reflexivity.
Qed.

Lemma mean_V1 s m x i :
  ValidData d -> (m < length (V1 s))%nat ->
  spec_mean g d (upd_V1 s m x) i
  = spec_mean g d (upd_V1 s m []) i + (if in1 m i then vdot D (xrow_V1 g d s i) x else 0)
    + (if in2 m i then vdot D (xrow_V1 g d s i) x else 0).
Proof.
  intros Hv Hlt. unfold spec_mean, upd_V1. cbn [W0 W V0 V1 V2 alpha set_V1].
  rewrite !emb_r_set by exact Hlt. fold (in1 m i) (in2 m i).
  assert (HX : vdot D (xrow_V1 g d s i) x = sumn D (fun k => vnth (rnth (W s) (Z.to_nat (znth (d_cl d) i))) k * vnth x k)).
  { unfold vdot. apply sumn_ext; intros k Hk. now rewrite xrow_V1_nth by assumption. }
  rewrite HX. clear HX.
  assert (HS : forall a b : list Qc,
     sumn D (fun k => vnth (rnth (W s) (Z.to_nat (znth (d_cl d) i))) k * (vnth a k + vnth b k))
     = sumn D (fun k => vnth (rnth (W s) (Z.to_nat (znth (d_cl d) i))) k * vnth a k)
       + sumn D (fun k => vnth (rnth (W s) (Z.to_nat (znth (d_cl d) i))) k * vnth b k)).
  { intros a b. rewrite <- sumn_add. apply sumn_ext; intros; ring. }
  rewrite !HS.
  assert (HZ : sumn D (fun k => vnth (rnth (W s) (Z.to_nat (znth (d_cl d) i))) k * vnth [] k) = 0)
    by (apply sumn_zero'; intros; rewrite vnth_nil; ring).
  destruct (in1 m i), (in2 m i); rewrite ?HZ; ring.
Qed.

Lemma upd_V1_same s m : upd_V1 s m (rnth (V1 s) m) = s.
Proof. unfold upd_V1, rnth. rewrite set_nth_same. destruct s; reflexivity. Qed.

Lemma energy_V1 s m x :
  energy ln g d (upd_V1 s m x) - energy ln g d (upd_V1 s m [])
  = prec s * (sse g d (upd_V1 s m x) - sse g d (upd_V1 s m []))
    + (e_Vk ln g (set_nth m x (V1 s)) (phi1 s) (eta1 s) - e_Vk ln g (set_nth m [] (V1 s)) (phi1 s) (eta1 s)).
Proof.
  rewrite energy_diff_emb by (repeat split).
  unfold e_W0, e_V0, e_W, upd_V1. cbn [W0 W V0 V1 V2 prec tau0 tau phi0 eta0 phi1 eta1 set_V1]. ring.
Qed.

Theorem gauss_block_V1 s m Q b k :
  ValidData d -> NoSelfCombo d -> cache_ok g d s -> (m < c_ndd g)%nat -> (m < length (V1 s))%nat ->
  block_V1 g d s m = (DMvn Q b, k) ->
  forall x, energy ln g d (upd_V1 s m x) - energy ln g d (upd_V1 s m []) = quad D Q x - qofZ 2 * vdot D b x.
Proof.
  exact (gauss_block_V V1 set_V1 phi1 eta1 _ _ _ upd_V1_same (fun s m x i Hv _ _ => mean_V1 s m x i Hv) energy_V1 (fun _ _ => eq_refl) s m Q b k).
Qed.

Theorem prior_block_V1 s m vars k :
  ValidData d -> NoSelfCombo d -> cache_ok g d s -> (m < c_ndd g)%nat -> (m < length (V1 s))%nat ->
  block_V1 g d s m = (DNormalVec vars, k) ->
  vars = map Qcinv (lam_V1 g s m) /\
  forall x, energy ln g d (upd_V1 s m x) - energy ln g d (upd_V1 s m []) = sumn D (fun j => vnth (lam_V1 g s m) j * qsq (vnth x j)).
Proof.
  exact (prior_block_V V1 set_V1 phi1 eta1 _ _ _ upd_V1_same (fun s m x i Hv _ _ => mean_V1 s m x i Hv) energy_V1 (fun _ _ => eq_refl) s m vars k).
Qed.
End Blocks.
