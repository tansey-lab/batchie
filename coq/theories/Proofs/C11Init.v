(* C11: the initial-plate generator and the combination filter do not alter experiments. *)
From Coq Require Import ZArith List Bool Arith Lia.
From Batchie Require Import Proofs.PyRtLemmas Lib.Sexp Model.Encode Model.Screen Model.Retro Model.RetroInit
  Proofs.C11Lib Proofs.C11Select.
Import ListNotations.
Open Scope nat_scope.

(* an experiment minus plate label and mask *)
Definition core (r : row) : name * list tkey * Z := (r_sample r, r_treats r, r_obs r).

Lemma vor_length : forall a b, length (vor a b) = Nat.min (length a) (length b).
Proof. induction a as [|x a IH]; intros [|y b]; cbn [vor length Nat.min]; auto. Qed.

Lemma combine_core : forall (g : bool -> name) (v : bvec) rows, length v = length rows ->
  map core (map (fun br => set_mask (fst br) (set_plate (g (fst br)) (snd br))) (combine v rows)) = map core rows.
Proof.
  induction v as [|b v IH]; intros [|r rows] H; try discriminate; [reflexivity|].
  cbn [combine map fst snd]. rewrite IH by (cbn in H; lia). reflexivity.
Qed.

Lemma sparse_cover_final : forall ctrl reveal rows ds out ds',
  sparse_cover ctrl reveal rows ds = Ok (out, ds') ->
  exists final : bvec, length final = length rows /\
    out = map (fun br => set_mask (fst br) (set_plate (if fst br then initial_plate else unobserved_plate) (snd br)))
              (combine final rows).
Proof.
  intros ctrl reveal rows ds out ds' H. unfold sparse_cover in H.
  destruct (negb (forallb r_mask rows)); [discriminate|].
  apply res_bind_inv in H as ([c1 ds1] & _ & H).
  apply res_bind_inv in H as ([ch ds2] & _ & H).
  apply res_bind_inv in H as (c & ->%construct_ok & [= <- <-]).
  eexists. split; [|reflexivity].
  destruct reveal; [rewrite vor_length, map_length|]; rewrite vof_idx_length; lia.
Qed.

Theorem initial_plate_conserves : forall ctrl reveal rows ds out ds',
  sparse_cover ctrl reveal rows ds = Ok (out, ds') -> map core out = map core rows.
Proof.
  intros ctrl reveal rows ds out ds' H. apply sparse_cover_final in H as (final & Hl & ->).
  now apply (combine_core (fun b => if b then initial_plate else unobserved_plate)).
Qed.

Theorem filter_sub : forall ctrl arity rows out,
  combo_filter ctrl arity rows = Ok out -> exists f, out = filter f rows.
Proof.
  intros ctrl arity rows out H. unfold combo_filter in H. destruct (arity <? 2); [discriminate|].
  apply construct_ok in H. eauto.
Qed.
