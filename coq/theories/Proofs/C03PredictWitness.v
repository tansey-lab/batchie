(* C03 prediction clause: non-vacuity of predict_stable, and its refutation for the construction WITHOUT the mappings
   (the code before the repair): on the witness simulation of Proofs/C03Witness.v a posterior sample whose sample
   intercepts are W0 = [10; 20; 30] and treatment intercepts V0 = [1; 2; 4] predicts 22 for experiment (b, y) at the
   training stage and 11 for the same experiment after one reveal_plates. *)
From Coq Require Import ZArith List QArith Qcanon.
From Batchie Require Import Lib.Sexp Lib.Num Model.Screen Model.Reveal Model.Holdout
  Proofs.C03Frozen Proofs.C03Witness Proofs.C03Predict.
From Batchie Require Model.Predict.
Import ListNotations.
Open Scope Z_scope.

Definition qz (z : Z) : Qc := Q2Qc (inject_Z z).
Definition w_theta : Predict.theta :=
  Predict.TS {| Predict.sW := [[]; []; []]; Predict.sW0 := [qz 10; qz 20; qz 30];
                Predict.sV2 := [[]; []; []]; Predict.sV1 := [[]; []; []]; Predict.sV0 := [qz 1; qz 2; qz 4];
                Predict.salpha := qz 0; Predict.sprec := qz 1 |}.

Definition w_repaired : screen := get (history (carry_mappings true) [Reveal [0]] w_train).

(* the repaired construction: the views of the two stages are the same id rows, the predictions agree *)
Example predict_stable_example : forall orc : oracle,
  pred_view w_train = Predict.Scr1 [(1, 1); (1, 1); (2, 2); (2, 2)] /\
  pred_view w_repaired = Predict.Scr1 [(1, 1); (1, 1); (2, 2); (2, 2)] /\
  Predict.theta_predict orc Predict.KMean w_theta (pred_view w_train) = Ok [qz 22; qz 22; qz 34; qz 34] /\
  Predict.theta_predict orc Predict.KMean w_theta (pred_view w_repaired) = Ok [qz 22; qz 22; qz 34; qz 34].
Proof. intros orc. repeat split; vm_compute; reflexivity. Qed.

Theorem predict_stable_refuted_without_mappings : forall orc : oracle,
  exists rows sel p tr te s' th v1 v2,
    mk_screen rows 1 [] None None true true = Ok p /\
    holdout_split p sel = Ok (tr, te) /\
    history (carry_mappings false) [Reveal [0]] tr = Ok s' /\
    sample_at tr 0 = sample_at s' 0 /\ treat_at tr 0 0 = treat_at s' 0 0 /\        (* the same experiment *)
    Predict.theta_predict orc Predict.KMean th (pred_view tr) = Ok v1 /\
    Predict.theta_predict orc Predict.KMean th (pred_view s') = Ok v2 /\
    nth 0 v1 0%Qc <> nth 0 v2 0%Qc.
Proof.
  intros orc.
  exists w_rows, w_sel, w_parent, w_train, w_test, (w_after (Reveal [0])), w_theta, [qz 22; qz 22; qz 34; qz 34], [qz 11; qz 11; qz 22; qz 22].
  split; [exact w_parent_ok|]. split; [exact w_split_ok|].
  split; [vm_compute; reflexivity|]. split; [vm_compute; reflexivity|]. split; [vm_compute; reflexivity|].
  split; [vm_compute; reflexivity|]. split; [vm_compute; reflexivity|].
  vm_compute. discriminate.
Qed.
