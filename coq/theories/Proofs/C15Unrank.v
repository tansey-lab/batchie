(* C15: loop invariants of generate_combination_at_sorted_index (Model/Unrank.v).
   State at the while test, for the current k = S k' and n:
       n_ck          = C(n-1, k')
       current_index = B + C(n, S k')      (exclusive upper bound of the ranks still possible;
                                            B = rank contribution of the entries already yielded)
       B <= index < current_index
   The test  current_index - n_ck > index  is  index < B + C(n-1, S k')  (Pascal), i.e. "the
   next entry is < n-1".  Each // is exact by an absorption identity and the
   `n_ck -= n_ck % k` line subtracts 0. *)
From Coq Require Import ZArith List Lia.
From Batchie Require Import Lib.Sexp Model.Unrank Model.Binom Proofs.C15Binom.
Import ListNotations.
Open Scope Z_scope.

Lemma krange_S : forall k, krange (S k) = Z.of_nat (S k) :: krange k.
Proof.
  intros k. unfold krange. rewrite seq_S, rev_app_distr. cbn [rev app map]. reflexivity.
Qed.

Lemma unrank_inner_eq : forall fuel index k cur nck n,
  unrank_inner fuel index k cur nck n =
  if cur - nck >? index then
    match fuel with
    | O => Err 9
    | S f =>
        if n - 1 =? 0 then Err 8
        else unrank_inner f index k (cur - nck)
               ((nck * (n - k) - (nck * (n - k)) mod k) / (n - 1)) (n - 1)
    end
  else Ok (cur, nck, n).
Proof. intros [|f]; reflexivity. Qed.

(* the `n_ck -= n_ck % k` line subtracts 0 in every reachable state (n_ck = C(n-1,k-1)) *)
Lemma mod_line_noop : forall n k', 1 <= n ->
  (Cz (n - 1) k' * (n - Z.of_nat (S k'))) mod Z.of_nat (S k') = 0.
Proof.
  intros n k' Hn.
  replace (Cz (n - 1) k' * (n - Z.of_nat (S k'))) with (Cz (n - 1) (S k') * Z.of_nat (S k'))
    by (pose proof (Cz_down (n - 1) k' ltac:(lia)); lia).
  apply Z.mod_mul. lia.
Qed.

(* the new n_ck of one while iteration: C(n-1,k') (n-1-k') = (k'+1) C(n-1,k'+1) = (n-1) C(n-2,k') *)
Lemma step_nck : forall n k', 2 <= n ->
  (Cz (n - 1) k' * (n - Z.of_nat (S k'))
   - (Cz (n - 1) k' * (n - Z.of_nat (S k'))) mod Z.of_nat (S k')) / (n - 1)
  = Cz (n - 1 - 1) k'.
Proof.
  intros n k' Hn. rewrite mod_line_noop, Z.sub_0_r by lia.
  replace (Cz (n - 1) k' * (n - Z.of_nat (S k'))) with (Cz (n - 1 - 1) k' * (n - 1))
    by (pose proof (Cz_down (n - 1) k' ltac:(lia)); pose proof (Cz_absorb (n - 1) k' ltac:(lia)); lia).
  apply Z.div_mul. lia.
Qed.

Lemma inner_spec : forall fuel index k' B n,
  1 <= n -> n <= Z.of_nat fuel ->
  B <= index < B + Cz n (S k') ->
  exists m, Z.of_nat (S k') <= m <= n /\
    unrank_inner fuel index (Z.of_nat (S k')) (B + Cz n (S k')) (Cz (n - 1) k') n
      = Ok (B + Cz m (S k'), Cz (m - 1) k', m) /\
    B + Cz (m - 1) (S k') <= index < B + Cz m (S k').
Proof.
  induction fuel as [|f IH]; intros index k' B n Hn Hf Hi; [lia|].
  rewrite unrank_inner_eq.
  replace (B + Cz n (S k') - Cz (n - 1) k') with (B + Cz (n - 1) (S k')) by (rewrite (Cz_pascal n k'); lia).
  destruct (Z.gtb_spec (B + Cz (n - 1) (S k')) index) as [Ht|Ht].
  - assert (Hk : Z.of_nat (S k') <= n - 1) by (apply Cz_pos_inv; lia).
    destruct (Z.eqb_spec (n - 1) 0) as [|_]; [lia|].
    rewrite step_nck by lia.
    destruct (IH index k' B (n - 1)) as (m & Hm & Hrun & Hb); [lia | lia | lia |].
    exists m. split; [lia|]. split; assumption.
  - exists n. split; [|split; [reflexivity | lia]].
    split; [apply Cz_pos_inv|]; lia.
Qed.

(* outer loop: from the state (cur = B + C(n,k), nck = C(n,k), n) the remaining k entries are
   produced without error, strictly descending below n, and their rank is index - B *)
Lemma outer_spec : forall k index B n,
  0 <= n -> B <= index < B + Cz n k ->
  exists c, unrank_outer index (krange k) (B + Cz n k) (Cz n k) n = Ok c /\
    length c = k /\ desc_below n c /\ B + rank c = index.
Proof.
  induction k as [|k' IH]; intros index B n Hn Hi.
  - exists []. rewrite Cz_0_r in Hi. cbn [rank]. repeat split. lia.
  - rewrite krange_S. cbn [unrank_outer].
    assert (Hk : Z.of_nat (S k') <= n) by (apply Cz_pos_inv; lia).
    destruct (Z.eqb_spec n 0) as [|_]; [lia|].
    replace (Cz n (S k') * Z.of_nat (S k')) with (Cz (n - 1) k' * n)
      by (pose proof (Cz_absorb n k' ltac:(lia)); lia).
    rewrite Z.div_mul by lia.
    destruct (inner_spec (S (Z.to_nat n)) index k' B n) as (m & Hm & -> & Hb); [lia | lia | exact Hi |].
    cbn [res_bind].
    pose proof (Cz_pascal m k' ltac:(lia)) as P.
    replace (B + Cz m (S k')) with (B + Cz (m - 1) (S k') + Cz (m - 1) k') by lia.
    destruct (IH index (B + Cz (m - 1) (S k')) (m - 1)) as (c & -> & Hlen & Hdesc & Hrank); [lia | lia |].
    exists ((m - 1) :: c). cbn [res_bind length desc_below rank]. rewrite Hlen.
    split; [reflexivity|]. split; [reflexivity|]. split; [|lia].
    split; [lia | exact Hdesc].
Qed.

(* every in-range index is unranked without error to a strictly descending
   k-tuple below n whose rank is the index *)
Lemma unrank_spec : forall n k index,
  0 <= n -> 0 <= index < Cz n k ->
  exists c, unrank index n k = Ok c /\ length c = k /\ desc_below n c /\ rank c = index.
Proof.
  intros n k index Hn Hi. unfold unrank. rewrite init_nck_Cz by exact Hn.
  destruct (outer_spec k index 0 n Hn ltac:(lia)) as (c & Hrun & Hlen & Hdesc & Hrank).
  exists c. rewrite Z.add_0_l in Hrun. repeat split; assumption.
Qed.

Lemma unrank_ok_inv : forall n k index c,
  0 <= n -> 0 <= index < Cz n k -> unrank index n k = Ok c ->
  length c = k /\ desc_below n c /\ rank c = index.
Proof.
  intros n k index c Hn Hi E. destruct (unrank_spec n k index Hn Hi) as (c' & E' & H).
  rewrite E in E'. injection E' as <-. exact H.
Qed.

Lemma rank_nonneg : forall c, 0 <= rank c.
Proof.
  induction c as [|x r IH]; cbn [rank]; [lia|].
  pose proof (Cz_nonneg x (S (length r))). lia.
Qed.

Lemma rank_lt : forall c n, desc_below n c -> rank c < Cz n (length c).
Proof.
  induction c as [|x r IH]; intros n Hd; cbn [rank length].
  - rewrite Cz_0_r. lia.
  - destruct Hd as [Hx Hr]. specialize (IH x Hr).
    pose proof (Cz_succ_le x n (length r) Hx). lia.
Qed.

Lemma rank_range : forall c n, desc_below n c -> 0 <= rank c < Cz n (length c).
Proof. intros c n Hd. split; [apply rank_nonneg | apply rank_lt; exact Hd]. Qed.

Lemma desc_below_weaken : forall c n n', n <= n' -> desc_below n c -> desc_below n' c.
Proof. intros [|x r] n n' H Hd; cbn [desc_below] in *; [exact I|]. destruct Hd. split; [lia|assumption]. Qed.

(* rank is strictly monotone for the lexicographic order on descending tuples: everything that
   starts with x ranks below C(x+1,k) <= C(y,k), which anything starting with y > x reaches *)
Lemma rank_lex_mono : forall a b n,
  length a = length b -> desc_below n a -> desc_below n b -> lex_lt a b -> rank a < rank b.
Proof.
  induction a as [|x a' IH]; intros b n Hlen Ha Hb Hlt.
  - destruct b; [contradiction | discriminate].
  - destruct b as [|y b']; [discriminate|].
    injection Hlen as Hlen. cbn [rank]. destruct Ha as [Hx Ha]. destruct Hb as [Hy Hb].
    rewrite <- Hlen. destruct Hlt as [Hxy | [<- Hlt]].
    + pose proof (rank_lt a' x Ha). pose proof (rank_nonneg b').
      pose proof (Cz_succ_le x y (length a') ltac:(lia)). lia.
    + specialize (IH b' x Hlen Ha Hb Hlt). lia.
Qed.

Lemma lex_trichotomy : forall a b, length a = length b -> lex_lt a b \/ a = b \/ lex_lt b a.
Proof.
  induction a as [|x a' IH]; intros [|y b'] Hlen; try discriminate.
  - right; left; reflexivity.
  - injection Hlen as Hlen. cbn [lex_lt].
    destruct (Z.lt_trichotomy x y) as [H | [<- | H]]; [tauto | | tauto].
    destruct (IH b' Hlen) as [H | [<- | H]]; tauto.
Qed.

Lemma lex_lt_irrefl : forall a, ~ lex_lt a a.
Proof. induction a as [|x a IH]; cbn [lex_lt]; [tauto|]. intros [H | [_ H]]; [lia | exact (IH H)]. Qed.

Lemma lex_lt_trans : forall a b c, lex_lt a b -> lex_lt b c -> lex_lt a c.
Proof.
  induction a as [|x a IH]; intros [|y b] [|z c] Hab Hbc; cbn [lex_lt] in *; try tauto.
  destruct Hab as [H1 | [H1 H1']]; destruct Hbc as [H2 | [H2 H2']]; try (left; lia).
  right; split; [lia | exact (IH b c H1' H2')].
Qed.

Lemma rank_injective : forall a b n,
  length a = length b -> desc_below n a -> desc_below n b -> rank a = rank b -> a = b.
Proof.
  intros a b n Hlen Ha Hb Hr.
  destruct (lex_trichotomy a b Hlen) as [H | [H | H]]; [|exact H|].
  - pose proof (rank_lex_mono a b n Hlen Ha Hb H). lia.
  - pose proof (rank_lex_mono b a n (eq_sym Hlen) Hb Ha H). lia.
Qed.

(* unrank is the inverse of rank on the strictly descending k-tuples below n *)
Lemma unrank_rank : forall n c, 0 <= n -> desc_below n c -> unrank (rank c) n (length c) = Ok c.
Proof.
  intros n c Hn Hd.
  destruct (unrank_spec n (length c) (rank c) Hn (rank_range c n Hd)) as (c' & -> & Hlen & Hd' & Hr).
  f_equal. exact (rank_injective c' c n Hlen Hd' Hd Hr).
Qed.

(* ascending enumeration: a larger index gives a lexicographically larger tuple *)
Lemma unrank_ascending : forall n k i j a b,
  0 <= n -> 0 <= i -> i < j -> j < Cz n k ->
  unrank i n k = Ok a -> unrank j n k = Ok b -> lex_lt a b.
Proof.
  intros n k i j a b Hn Hi Hij Hj Ea Eb.
  destruct (unrank_ok_inv n k i a Hn ltac:(lia) Ea) as (La & Da & Ra).
  destruct (unrank_ok_inv n k j b Hn ltac:(lia) Eb) as (Lb & Db & Rb).
  destruct (lex_trichotomy a b ltac:(congruence)) as [H | [H | H]]; [exact H | subst b; lia |].
  pose proof (rank_lex_mono b a n ltac:(congruence) Db Da H). lia.
Qed.

Lemma unrank_injective : forall n k i j c,
  0 <= n -> 0 <= i < Cz n k -> 0 <= j < Cz n k ->
  unrank i n k = Ok c -> unrank j n k = Ok c -> i = j.
Proof.
  intros n k i j c Hn Hi Hj Ei Ej.
  destruct (unrank_ok_inv n k i c Hn Hi Ei) as (_ & _ & <-).
  destruct (unrank_ok_inv n k j c Hn Hj Ej) as (_ & _ & <-). reflexivity.
Qed.

(* The fuel is not an artefact: for n >= 0 and ANY index (in range or not) the model never runs out of fuel.
   The Python while loop terminates: it decrements n and stops with ZeroDivisionError at n = 0 at the latest. *)
Lemma inner_no_fuel_error : forall fuel index k cur nck n,
  1 <= n -> n <= Z.of_nat fuel ->
  match unrank_inner fuel index k cur nck n with
  | Err t => t <> 9
  | Ok (_, _, n') => 1 <= n' <= n
  end.
Proof.
  induction fuel as [|f IH]; intros index k cur nck n Hn Hf; [lia|].
  rewrite unrank_inner_eq.
  destruct (cur - nck >? index); [|lia].
  destruct (Z.eqb_spec (n - 1) 0) as [|Hz]; [discriminate|].
  specialize (IH index k (cur - nck) ((nck * (n - k) - (nck * (n - k)) mod k) / (n - 1)) (n - 1)
                 ltac:(lia) ltac:(lia)).
  destruct (unrank_inner f index k _ _ _) as [[[c' k'] n'] | t]; [lia | exact IH].
Qed.

Lemma outer_no_fuel_error : forall ks index cur nck n,
  0 <= n -> unrank_outer index ks cur nck n <> Err 9.
Proof.
  induction ks as [|k ks IH]; intros index cur nck n Hn; cbn [unrank_outer]; [discriminate|].
  destruct (Z.eqb_spec n 0) as [|Hz]; [discriminate|].
  pose proof (inner_no_fuel_error (S (Z.to_nat n)) index k cur (nck * k / n) n ltac:(lia) ltac:(lia)) as H.
  destruct (unrank_inner (S (Z.to_nat n)) index k cur (nck * k / n) n) as [[[c' k'] n'] | t]; cbn [res_bind].
  - specialize (IH index c' k' (n' - 1) ltac:(lia)).
    destruct (unrank_outer index ks c' k' (n' - 1)) as [rest | t]; cbn [res_bind]; [discriminate | exact IH].
  - congruence.
Qed.

Lemma unrank_no_fuel_error : forall index n k, 0 <= n -> unrank index n k <> Err 9.
Proof. intros index n k Hn. apply outer_no_fuel_error. exact Hn. Qed.
