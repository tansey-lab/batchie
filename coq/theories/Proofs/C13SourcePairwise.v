(* C13 / C11: PairwisePlateGenerator._generate_plates - the hand-written model (Model/Pairwise.v) equals the translation
   of the WHOLE method of /repo's retrospective.py (Generated/SrcRetroGen.v, configuration
   C13_PAIRWISE of harness/src_functions.py). *)
From Coq Require Import ZArith List Bool Lia.
From Batchie Require Import Lib.Sexp Lib.ListX Lib.PyRt Generated.Consts Model.Encode Model.Screen Model.Retro Model.Pairwise Generated.SrcRetro Generated.SrcRetroGen Proofs.PyRtLemmas Proofs.C11Lib Proofs.C11Gen Proofs.C13Source.
Import ListNotations.
Open Scope nat_scope.

Lemma combo_mask_eq : forall ctrl rows,
  map negb (any_in_rows (control_entries ctrl rows)) = map (is_combo ctrl) rows.
Proof.
  intros ctrl rows. unfold any_in_rows, control_entries, is_combo. rewrite !map_map. apply map_ext. intros r.
  now rewrite existsb_map.
Qed.

(* np.argsort's contract, as far as the function depends on it: when anchors are requested the first recorded answer is
   the argsort answer and the positions it uses are positions of the unique-id array *)
Definition argsort_ok (anchor : Z) (n : nat) (ds : list draw) : Prop :=
  (anchor > 0)%Z -> exists order ds0, ds = DInts order :: ds0 /\ Forall (fun i => i < n) (firstn (Z.to_nat anchor) order).

Lemma take_at_ok : forall u idx, Forall (fun i => i < length u) idx -> take_at u idx = Ok (map (fun i => nth i u 0) idx).
Proof.
  intros u idx H. apply res_map_all_ok. intros i Hi. now rewrite (nth_error_nth' u 0 (proj1 (Forall_forall _ _) H i Hi)).
Qed.

Definition src_groupings (subset anchor : Z) (uniq counts : list nat) (ds : list draw)
  : result (list draw * list (list nat)) :=
  if (anchor >? 0)%Z then
    dor (r1, ds) <- argsort_desc counts ds;
    dor anchor_dds <- take_at uniq (slice_to r1 anchor);
    dor na <- floor_div (zlen anchor_dds) subset;
    dor (r4, ds) <- permutation_ints anchor_dds ds;
    dor anchor_groups <- array_split_z r4 na;
    dor nr <- floor_div (zlen (setdiff_sorted uniq anchor_dds)) subset;
    dor (r7, ds) <- permutation_ints (setdiff_sorted uniq anchor_dds) ds;
    dor remain_groups <- array_split_z r7 nr;
    Ok (ds, anchor_groups ++ remain_groups)
  else
    dor ng <- floor_div (zlen uniq) subset;
    dor (r10, ds) <- permutation_ints uniq ds;
    dor g <- array_split_z r10 ng;
    Ok (ds, g).

Lemma src_groupings_is_model : forall subset anchor uniq counts ds, argsort_ok anchor (length uniq) ds ->
  src_groupings subset anchor uniq counts ds = dor g <- pw_groupings subset anchor uniq ds; Ok (snd g, fst g).
Proof.
  intros subset anchor uniq counts ds H. unfold src_groupings, pw_groupings, floor_div, permutation_ints, array_split_z, argsort_desc, zlen.
  destruct (anchor >? 0)%Z eqn:Ea.
  - destruct (H ltac:(lia)) as (order & ds0 & -> & Hr). cbn [take_ints res_bind].
    unfold slice_to. destruct (anchor <? 0)%Z eqn:E0; [lia|]. rewrite (take_at_ok uniq _ Hr). cbn [res_bind].
    set (anchor_dds := map (fun i => nth i uniq 0) (firstn (Z.to_nat anchor) order)).
    destruct (subset =? 0)%Z; cbn [res_bind]; [reflexivity|].
    destruct (take_ints ds0) as [[perm1 ds1]|t]; cbn [res_bind]; [|reflexivity].
    destruct (Z.of_nat (length anchor_dds) / subset <=? 0)%Z; cbn [res_bind]; [reflexivity|].
    unfold setdiff_sorted.
    destruct (take_ints ds1) as [[perm2 ds2]|t]; cbn [res_bind]; [|reflexivity].
    destruct (Z.of_nat (length (filter (fun u => negb (memb u anchor_dds)) uniq)) / subset <=? 0)%Z; reflexivity.
  - destruct (subset =? 0)%Z; cbn [res_bind]; [reflexivity|].
    destruct (take_ints ds) as [[perm ds1]|t]; cbn [res_bind]; [|reflexivity].
    destruct (Z.of_nat (length uniq) / subset <=? 0)%Z; reflexivity.
Qed.

Lemma dict_find_set : forall d k v k', dict_find (dict_set d k v) k' = if (k =? k')%Z then Some v else dict_find d k'.
Proof.
  induction d as [|[k0 v0] d IH]; intros k v k'; cbn [dict_set dict_find].
  - reflexivity.
  - destruct (k0 =? k)%Z eqn:E; cbn [dict_find].
    + apply Z.eqb_eq in E. subst k0. destruct (k =? k')%Z; reflexivity.
    + rewrite IH. destruct (k0 =? k')%Z eqn:E1, (k =? k')%Z eqn:E2; try reflexivity. lia.
Qed.

Lemma dict_inner_loop : forall (l : list nat) (v : Z) d id,
  dict_find (fold_left (fun d i => dict_set d (Z.of_nat i) v) l d) (Z.of_nat id)
  = if memb id l then Some v else dict_find d (Z.of_nat id).
Proof.
  induction l as [|a l IH]; intros v d id; cbn [fold_left memb existsb]; [reflexivity|].
  rewrite IH, dict_find_set. fold (memb id l).
  destruct (memb id l); [now rewrite orb_true_r|]. rewrite orb_false_r.
  destruct (id =? a) eqn:E; [apply Nat.eqb_eq in E|apply Nat.eqb_neq in E].
  - subst. now rewrite Z.eqb_refl.
  - destruct (Z.of_nat a =? Z.of_nat id)%Z eqn:E2; [lia|reflexivity].
Qed.

Lemma dict_outer_loop : forall (gs : list (list nat)) k d acc id,
  dict_find d (Z.of_nat id) = option_map Z.of_nat acc ->
  dict_find (fold_left (fun d (kg : Z * list nat) => fold_left (fun d i => dict_set d (Z.of_nat i) (fst kg)) (snd kg) d)
                       (map (fun kp => (Z.of_nat (fst kp), snd kp)) (enum_from k gs)) d) (Z.of_nat id)
  = option_map Z.of_nat (fold_left (fun acc kg => if memb id (snd kg) then Some (fst kg) else acc) (enum_from k gs) acc).
Proof.
  induction gs as [|g gs IH]; intros k d acc id H; cbn [enum_from map fold_left fst snd]; [exact H|].
  apply IH. rewrite dict_inner_loop. destruct (memb id g); [reflexivity|exact H].
Qed.

Lemma group_lookup_spec : forall gs id,
  dict_find (dict_set (fold_left (fun d (kg : Z * list nat) => fold_left (fun d i => dict_set d (Z.of_nat i) (fst kg)) (snd kg) d)
                                 (enumerate_z gs) []) CONTROL_SENTINEL_VALUE CONTROL_SENTINEL_VALUE) (Z.of_nat id)
  = option_map Z.of_nat (group_of gs id).
Proof.
  intros gs id. rewrite dict_find_set. unfold CONTROL_SENTINEL_VALUE at 1.
  destruct (-1 =? Z.of_nat id)%Z eqn:E; [lia|].
  rewrite enumerate_z_enum. unfold group_of. now apply dict_outer_loop.
Qed.

(* no control group ids in a combination screen: n_control = 0, the store changes nothing *)
Lemma no_sentinel : forall (f : nat -> option nat) (idss : list (list nat)),
  filter is_sentinel (concat (map (map (fun i => option_map Z.of_nat (f i))) idss)) = [].
Proof.
  intros f idss. induction idss as [|ids idss IH]; [reflexivity|]. cbn [map concat]. rewrite filter_app, IH, app_nil_r.
  induction ids as [|i ids IHi]; [reflexivity|]. cbn [map filter].
  destruct (f i) as [g|]; cbn [option_map is_sentinel]; [|exact IHi].
  unfold CONTROL_SENTINEL_VALUE. destruct (Z.of_nat g =? -1)%Z eqn:E; [lia|exact IHi].
Qed.

Lemma fill_row_nil : forall row, fill_row row [] = (row, []).
Proof.
  induction row as [|o row IH]; [reflexivity|]. cbn [fill_row]. rewrite IH. destruct (is_sentinel o); reflexivity.
Qed.
Lemma fill_rows_nil : forall g, fill_rows g [] = g.
Proof. induction g as [|row g IH]; [reflexivity|]. cbn [fill_rows]. now rewrite fill_row_nil, IH. Qed.

Lemma opt_all_of_nat : forall (f : nat -> option nat) ids,
  opt_map_all (fun o : option Z => o) (map (fun i => option_map Z.of_nat (f i)) ids)
  = option_map (map Z.of_nat) (opt_map_all f ids).
Proof.
  intros f. induction ids as [|i ids IH]; [reflexivity|]. cbn [map opt_map_all].
  destruct (f i) as [g|]; cbn [option_map opt_bind]; [|reflexivity].
  rewrite IH. destruct (opt_map_all f ids); reflexivity.
Qed.

Lemma tuples_src : forall samples gs tm (crows : list row),
  (dor sorted <- sort_rows (map (map (fun i => option_map Z.of_nat (group_of gs i))) (map (row_ids tm) crows));
   Ok (hstack2 (map (fun r => [Z.of_nat (index_of (r_sample r) samples)]) crows) sorted))
  = match opt_map_all (fun r => pw_tuple samples gs (row_ids tm r) r) crows with Some t => Ok t | None => Err 92%Z end.
Proof.
  intros samples gs tm. unfold sort_rows. induction crows as [|r crows IH]; [reflexivity|].
  cbn [map opt_map_all]. rewrite opt_all_of_nat. unfold pw_tuple at 1.
  destruct (opt_map_all (group_of gs) (row_ids tm r)) as [g|]; cbn [option_map opt_bind]; [|reflexivity].
  destruct (opt_map_all (fun row => opt_map_all (fun o : option Z => o) row)
              (map (map (fun i => option_map Z.of_nat (group_of gs i))) (map (row_ids tm) crows))) as [m|];
    destruct (opt_map_all (fun r0 => pw_tuple samples gs (row_ids tm r0) r0) crows) as [t|];
    cbn [res_bind opt_bind] in *; try discriminate; try reflexivity.
  inversion IH as [IH']. unfold hstack2. cbn [map combine fst snd app]. rewrite sort_z_of_nat. reflexivity.
Qed.

Definition tlab (k : nat) (U : list (list Z)) (x : list Z) (acc : name) : name :=
  fold_left (fun acc ku => if name_eqb x (snd ku) then gen_name (fst ku) else acc) (enum_from k U) acc.

Lemma label_tuples (tuples : list (list Z)) (F : list name -> Z * list Z -> result (list name)) :
  (forall names k t, F names (k, t) = dor n' <- set_where names (rows_equal tuples t) (gen_name (Z.to_nat k)); Ok n') ->
  forall U k (h : list Z -> name),
    res_fold F (map (fun kp => (Z.of_nat (fst kp), snd kp)) (enum_from k U)) (map h tuples)
    = Ok (map (fun x => tlab k U x (h x)) tuples).
Proof.
  intros HF. induction U as [|u U IH]; intros k h; cbn [enum_from map res_fold fst snd]; [reflexivity|].
  rewrite HF. unfold set_where, rows_equal. rewrite !map_length, Nat.eqb_refl. cbn [res_bind]. rewrite Nat2Z.id.
  assert (map (fun nb : name * bool => if snd nb then gen_name k else fst nb)
              (combine (map h tuples) (map (fun x => name_eqb x u) tuples))
          = map (fun x => if name_eqb x u then gen_name k else h x) tuples) as ->.
  { rewrite combine_map_same, map_map. reflexivity. }
  rewrite IH. reflexivity.
Qed.

Lemma tlab_notin : forall U k x acc, ~ In x U -> tlab k U x acc = acc.
Proof.
  induction U as [|u U IH]; intros k x acc H; [reflexivity|]. unfold tlab. cbn [enum_from fold_left fst snd].
  destruct (name_eqb x u) eqn:E; [apply name_eqb_eq in E; subst; exfalso; apply H; now left|].
  apply IH. intros Hin. apply H. now right.
Qed.

Lemma tlab_in : forall U k x acc, NoDup U -> In x U -> tlab k U x acc = gen_name (k + index_of x U).
Proof.
  induction U as [|u U IH]; intros k x acc HN Hin; [contradiction|]. inversion HN as [|? ? Hnot HN']; subst.
  unfold tlab. cbn [enum_from fold_left fst snd index_of].
  destruct (name_eqb x u) eqn:E.
  - apply name_eqb_eq in E. subst. fold (tlab (S k) U u (gen_name k)). rewrite tlab_notin by exact Hnot. now rewrite Nat.add_0_r.
  - destruct Hin as [->|Hin]; [rewrite name_eqb_refl in E; discriminate|].
    fold (tlab (S k) U x acc). rewrite IH by assumption. f_equal. lia.
Qed.

Lemma label_loop_tuples (tuples : list (list Z)) (F : list name -> Z * list Z -> result (list name)) :
  (forall names k t, F names (k, t) = dor n' <- set_where names (rows_equal tuples t) (gen_name (Z.to_nat k)); Ok n') ->
  res_fold F (enumerate_z (unique_rows tuples)) (blank_names (length tuples))
  = Ok (map (fun x => gen_name (index_of x (sort_uniq name_cmp tuples))) tuples).
Proof.
  intros HF. rewrite enumerate_z_enum. unfold blank_names. rewrite <- (map_const_repeat (@nil Z) tuples).
  rewrite (label_tuples tuples F HF). f_equal. apply map_ext_in. intros x Hx. unfold unique_rows.
  rewrite tlab_in; [reflexivity|apply NoDup_sort_uniq|now apply (sort_uniq_In _ name_cmp_spec)].
Qed.

Lemma singles_for (srows co : list row)
      (f : list draw * list name -> name -> result (list draw * list name)) :
  (forall ds names s, f (ds, names) s =
     if (zlen (plates_of_sample_named co s) =? 0)%Z then Err 6%Z
     else
       dor (asg, d) <- choice_names (plates_of_sample_named co s) (Z.of_nat (vcount (map (in_sample s) srows))) ds;
       dor names' <- (dor s__ <- unwrap (Some srows); store_where names (map (in_sample s) s__) asg);
       Ok (d, names')) ->
  forall samples ds names, length names = length srows ->
    res_fold f samples (ds, names) = dor r <- pw_singles samples srows co names ds; Ok (snd r, fst r).
Proof.
  intros Hf. induction samples as [|s samples IH]; intros ds names HL; cbn [res_fold pw_singles res_bind fst snd]; [reflexivity|].
  rewrite Hf. unfold plates_of_sample_named, zlen.
  destruct (sort_uniq name_cmp (map r_plate (filter (in_sample s) co))) as [|e es] eqn:Ee; cbn [length Retro.is_nil].
  - reflexivity.
  - destruct (Z.of_nat (S (length es)) =? 0)%Z eqn:E0; [lia|].
    unfold choice_names. destruct (take_names ds) as [[asg ds1]|t]; cbn [res_bind]; [|reflexivity].
    rewrite of_nat_eqb.
    destruct (length asg =? vcount (map (in_sample s) srows)) eqn:El; cbn [negb res_bind]; [|reflexivity].
    destruct (negb (forallb (fun x => name_mem x (e :: es)) asg)); cbn [res_bind unwrap]; [reflexivity|].
    unfold store_where. rewrite map_length, HL, Nat.eqb_refl. apply Nat.eqb_eq in El. rewrite <- El, Nat.eqb_refl. cbn [andb res_bind].
    apply IH. now rewrite assign_v_length.
Qed.

Lemma single_opt_eq : forall (f : row -> bool) (rows : list row),
  (if existsb (fun b => b) (map (fun x => negb (f x)) rows)
   then @Ok (option screen_t) (@Some screen_t (filter (fun r => negb (f r)) rows)) else @Ok (option screen_t) (@None screen_t))
  = @Ok (option screen_t) (if Retro.is_nil (filter (fun r => negb (f r)) rows) then @None screen_t
                           else @Some screen_t (filter (fun r => negb (f r)) rows)).
Proof.
  intros f rows. induction rows as [|r rows IH]; [reflexivity|]. cbn [map existsb filter].
  destruct (negb (f r)); cbn [orb Retro.is_nil]; [reflexivity|exact IH].
Qed.

Theorem src_pairwise_is_model : forall ctrl subset anchor rows ds,
  argsort_ok anchor (length (unique_ids ctrl (filter (is_combo ctrl) rows))) ds ->
  src_pairwise_generate_plates ctrl subset anchor rows ds = pairwise ctrl subset anchor rows ds.
Proof.
  intros ctrl subset anchor rows ds Hsort. unfold src_pairwise_generate_plates, pairwise.
  rewrite combo_mask_eq. cbv zeta.
  unfold to_screen, subset_of. rewrite map_map, <- !filter_vselect.
  rewrite (single_opt_eq (is_combo ctrl) rows). cbn [res_bind].
  set (crows := filter (is_combo ctrl) rows) in *. set (srows := filter (fun r => negb (is_combo ctrl r)) rows).
  clearbody crows srows.
  (* the groupings *)
  fold (src_groupings subset anchor (unique_ids ctrl crows) (id_counts ctrl crows) ds).
  rewrite (src_groupings_is_model _ _ _ _ _ Hsort).
  change (sort_uniq Nat.compare (concat (map (row_ids (build_tmapping ctrl (concat (map r_treats crows)))) crows)))
    with (unique_ids ctrl crows).
  destruct (pw_groupings subset anchor (unique_ids ctrl crows) ds) as [[gs ds1]|t]; cbn [res_bind fst snd]; [|reflexivity].
  (* group_lookup *)
  rewrite (res_fold_pure _ (fun d (kg : Z * list nat) => fold_left (fun d i => dict_set d (Z.of_nat i) (fst kg)) (snd kg) d))
    by (intros d [k l]; rewrite (res_fold_pure _ (fun d i => dict_set d (Z.of_nat i) k)) by reflexivity; reflexivity).
  cbn [res_bind].
  match goal with |- context [lookup_all ?d (screen_ids ctrl crows)] =>
    assert (lookup_all d (screen_ids ctrl crows)
            = map (map (fun i => option_map Z.of_nat (group_of gs i))) (screen_ids ctrl crows)) as ->
      by (unfold lookup_all; apply map_ext; intros ids; apply map_ext; intros i; apply group_lookup_spec) end.
  (* n_control = 0 *)
  unfold store_at_sentinel, count_sentinel. rewrite no_sentinel. cbn [length].
  unfold choice_range. destruct (take_ints ds1) as [[ctl ds2]|t]; cbn [res_bind]; [|reflexivity].
  destruct ctl as [|c ctl]; [|reflexivity]. cbn [length Z.of_nat Z.eqb negb Retro.is_nil res_bind]. rewrite fill_rows_nil.
  (* the grouping tuples *)
  unfold screen_ids, sample_id_column, sample_id_z, sample_id.
  pose proof (tuples_src (sample_names crows) gs (build_tmapping ctrl (concat (map r_treats crows))) crows) as HT.
  destruct (sort_rows _) as [sorted|e]; cbn [res_bind] in HT |- *;
    (destruct (opt_map_all (fun r => pw_tuple (sample_names crows) gs (row_ids (build_tmapping ctrl (concat (map r_treats crows))) r) r) crows)
       as [tuples|] eqn:Et; try discriminate); [|now inversion HT].
  injection HT as HT. rewrite HT.
  pose proof (opt_map_all_length _ _ _ Et) as HLt.
  (* the plate names of the combination experiments *)
  rewrite <- HLt. rewrite (label_loop_tuples tuples) by (intros; reflexivity). cbn [res_bind].
  assert (@length name tuples = length crows) as HLt' by exact HLt.
  unfold screen_renamed at 1. rewrite map_length, HLt', Nat.eqb_refl. cbn [negb].
  rewrite combine_map_fst, map_map. cbn [fst snd].
  destruct (construct _) as [co|t]; cbn [res_bind]; [|reflexivity].
  (* the single-agent experiments *)
  destruct (Retro.is_nil srows) eqn:En; cbn [is_none unwrap res_bind]; [reflexivity|].
  rewrite (singles_for srows co) by (first [intros; reflexivity | unfold blank_names; apply repeat_length]).
  unfold blank_names. rewrite <- (map_const_repeat (@nil Z) srows).
  destruct (pw_singles (sample_names srows) srows co (map (fun _ => []) srows) ds2) as [[names ds3]|t] eqn:Es; cbn [res_bind fst snd]; [|reflexivity].
  apply pw_singles_length in Es. rewrite map_length in Es.
  unfold screen_renamed. rewrite Es, Nat.eqb_refl. cbn [negb].
  destruct (construct _) as [so|t]; cbn [res_bind]; [|reflexivity].
  unfold combine_screens. destruct (construct (co ++ so)); reflexivity.
Qed.

Theorem link_pairwise_generate_plates : forall ctrl subset anchor rows ds,
  (argsort_ok anchor (length (unique_ids ctrl (filter (is_combo ctrl) rows))) ds ->
   src_pairwise_generate_plates ctrl subset anchor rows ds = pairwise ctrl subset anchor rows ds) /\
  (argsort_ok anchor (length (unique_ids ctrl (filter (is_combo ctrl) (unobserved rows)))) ds ->
   src_generate_plates (src_pairwise_generate_plates ctrl subset anchor) rows ds
   = generate_plates (GPairwise ctrl subset anchor) rows ds).
Proof.
  intros. split; [apply src_pairwise_is_model|]. intros H. apply src_generate_plates_of. now apply src_pairwise_is_model.
Qed.
