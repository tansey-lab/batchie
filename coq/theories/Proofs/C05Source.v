(* C05: the hand-written models of Model/Dbal.v equal the translations of the corresponding functions of
   /repo's scoring/gaussian_dbal.py, regenerated on every run (Generated/SrcDbal.v, by harness/py2gal.py with the
   configurations C05_* of harness/src_functions.py). *)
From Coq Require Import List ZArith Arith Bool Qcanon Lia.
From Batchie Require Import Lib.Sexp Lib.Num Lib.PyRt Lib.ListX Model.Dbal Generated.SrcDbal Proofs.PyRtLemmas
  Proofs.C05Pad Proofs.C05Scorer Proofs.C05Checked.
From Batchie Require Export Proofs.C05Source_KernelTriples.
Import ListNotations.

Lemma take_sizes_map {A B} (f : A -> B) sizes : forall l,
  take_sizes (map f l) sizes = map (map f) (take_sizes l sizes).
Proof.
  induction sizes as [|s r IH]; intros l; cbn [take_sizes map]; [reflexivity|].
  rewrite firstn_map, skipn_map, IH. reflexivity.
Qed.

Lemma array_split_map {A B} (f : A -> B) l k : array_split (map f l) k = map (map f) (array_split l k).
Proof. unfold array_split. rewrite map_length. apply take_sizes_map. Qed.

(* np.ceil(n / mc) for a positive mc is the model's ceil_div *)
Lemma np_ceil_div_pos n mc : (0 < mc)%Z ->
  np_ceil_div (Z.of_nat n) mc = Ok (Z.of_nat (ceil_div n (Z.to_nat mc))).
Proof.
  intros Hmc. unfold np_ceil_div, ceil_div.
  destruct (Z.eqb_spec mc 0) as [E|_]; [lia|]. f_equal.
  rewrite Nat2Z.inj_div, Nat2Z.inj_sub, Nat2Z.inj_add, Z2Nat.id by lia.
  change (Z.of_nat 1) with 1%Z. set (N := Z.of_nat n).
  assert (HN : (0 <= N)%Z) by (subst N; lia).
  pose proof (Z.div_mod (- N) mc ltac:(lia)) as H1.
  pose proof (Z.mod_pos_bound (- N) mc Hmc) as H2.
  pose proof (Z.div_mod (N + mc - 1) mc ltac:(lia)) as H3.
  pose proof (Z.mod_pos_bound (N + mc - 1) mc Hmc) as H4.
  nia.
Qed.

Lemma np_ceil_div_neg n mc : (mc < 0)%Z -> exists q, np_ceil_div (Z.of_nat n) mc = Ok q /\ (q <= 0)%Z.
Proof.
  intros Hmc. unfold np_ceil_div. destruct (Z.eqb_spec mc 0) as [E|_]; [lia|].
  eexists; split; [reflexivity|].
  pose proof (Z.div_mod (- Z.of_nat n) mc ltac:(lia)) as H1.
  pose proof (Z.mod_neg_bound (- Z.of_nat n) mc Hmc) as H2.
  nia.
Qed.

(* a key of a dict (distinct keys) looks up its own value *)
Lemma dict_get_in {V} (d : list (Z * V)) k v : NoDup (map fst d) -> In (k, v) d -> dict_get d k = Ok v.
Proof.
  induction d as [|[k' v'] d IH]; intros Hnd Hin; [destruct Hin|].
  cbn [map fst] in Hnd. inversion Hnd as [|? ? Hni Hnd']; subst.
  cbn [dict_get]. destruct Hin as [E|Hin].
  - inversion E; subst. now rewrite Z.eqb_refl.
  - destruct (Z.eqb_spec k' k) as [->|_]; [|now apply IH].
    exfalso. apply Hni. apply in_map_iff. now exists (k, v).
Qed.

Lemma lookup_group {V} (d : list (Z * V)) (g : list (Z * V)) :
  Forall (fun kp => dict_get d (fst kp) = Ok (snd kp)) g ->
  res_map_all (fun k => dor r <- dict_get d k; Ok r) (map fst g) = Ok (map snd g).
Proof.
  induction g as [|kp g IH]; intros H; [reflexivity|].
  inversion H as [|? ? Hk Hg]; subst. cbn [map res_map_all]. rewrite Hk. cbn [res_bind].
  rewrite (IH Hg). reflexivity.
Qed.

Lemma dict_update_pairs_fresh {V} (d l : list (Z * V)) :
  NoDup (map fst d ++ map fst l) -> dict_update d (dict_of_pairs l) = d ++ l.
Proof.
  intros H. unfold dict_update, dict_of_pairs.
  assert (Hl : NoDup (map fst (@nil (Z * V)) ++ map fst l)) by (apply NoDup_app_inv in H; cbn [map app]; tauto).
  rewrite (fold_dict_set_distinct fst snd l [] Hl). cbn [app].
  assert (E : map (fun x : Z * V => (fst x, snd x)) l = l)
    by (clear; induction l as [|[a b] l IH]; cbn [map fst snd]; [reflexivity|now rewrite IH]).
  rewrite E, (fold_dict_set_distinct fst snd l d H), E. reflexivity.
Qed.

(* the loop `if a.shape != b.shape: raise ValueError` over zip(means, variances) *)
Lemma shape_loop (f : unit -> arr2 * arr2 -> result unit) (pls : list plate) :
  (forall u ab, f u ab = if shape_ne (fst ab) (snd ab) then Err 24%Z else Ok tt) ->
  res_fold f (combine (map fst pls) (map snd pls)) tt
  = if forallb (fun pl : plate => shape2_eqb (shape2 (fst pl)) (shape2 (snd pl))) pls then Ok tt else Err 24%Z.
Proof.
  intros Hf.
  rewrite (res_fold_check (fun ab : arr2 * arr2 => negb (shape_ne (fst ab) (snd ab))) 24%Z)
    by (intros u ab; rewrite Hf; destruct (shape_ne (fst ab) (snd ab)); reflexivity).
  replace (forallb _ (combine (map fst pls) (map snd pls)))
    with (forallb (fun pl : plate => shape2_eqb (shape2 (fst pl)) (shape2 (snd pl))) pls); [reflexivity|].
  induction pls as [|[m v] l IH]; [reflexivity|].
  cbn [map combine forallb fst snd]. rewrite IH. unfold shape_ne. now rewrite negb_involutive.
Qed.

Section Score.
Variables (orc : oracle) (plates : list (Z * pyplate)) (D : arr2).

(* the (unused) union of the sub-group's selection vectors *)
Definition mask_body (m : option (list bool)) (p : pyplate) : result (option (list bool)) :=
  dor m' <- (if is_none m then Ok (Some (pp_sel p))
             else dor u <- unwrap m; dor r <- np_or_vec u (pp_sel p); Ok (Some r));
  Ok m'.

Lemma mask_loop_ok n (f : option (list bool) -> pyplate -> result (option (list bool))) :
  (forall m p, f m p = mask_body m p) ->
  forall l m, Forall (fun p => length (pp_sel p) = n) l ->
  match m with None => True | Some v => length v = n end ->
  exists m', res_fold f l m = Ok m'.
Proof.
  intros Hf l; induction l as [|p l IH]; intros m Hl Hm; cbn [res_fold]; [now exists m|].
  apply Forall_cons_iff in Hl as [Hp Hl']. rewrite Hf. unfold mask_body.
  destruct m as [v|]; cbn [is_none unwrap res_bind].
  - unfold np_or_vec. rewrite Hm, Hp, Nat.eqb_refl. cbn [res_bind]. apply IH; [exact Hl'|].
    rewrite map_length, combine_length, Hm, Hp. apply Nat.min_id.
  - apply IH; [exact Hl'|exact Hp].
Qed.

(* the body of the loop over the sub-groups, as generated *)
Definition score_body (st : list (list Z) * list (Z * ext)) (ks : list Z)
  : result (list (list Z) * list (Z * ext)) :=
  let '(draws, result) := st in
  dor cur <- res_map_all (fun k => dor r <- dict_get plates k; Ok r) ks;
  dor mask <- res_fold (fun m p => mask_body m p) cur None;
  let means := map (fun p => pp_means p) cur in
  let vars := map (fun p => pp_vars p) cur in
  dor _ <- res_fold (fun (_ : unit) '(a, b) => if shape_ne a b then Err 24%Z else Ok tt) (combine means vars) tt;
  dor pm <- pad_means_py means;
  dor pv <- pad_vars_py vars;
  dor (vals, draws) <- kernel_call orc pm pv D one_q draws;
  Ok (draws, dict_update result (dict_of_pairs (combine ks vals))).

(* what the model does with one sub-group and its recorded draw *)
Definition mstep (g : list (Z * pyplate)) (d : list Z) : result (list (Z * ext)) :=
  dor v <- hetero_checked orc (map (fun kp => snd (snd kp)) g) D 1%Qc d; Ok (combine (map fst g) v).

Lemma kernel_checked_length pred vars df idxs v :
  kernel_checked orc pred vars D df idxs = Ok v -> length v = length pred.
Proof.
  unfold kernel_checked. destruct (shape3 pred) as [[np T] E] eqn:Es. destruct (shape3 vars) as [[np' T'] E'].
  destruct (negb _); [discriminate|]. destruct (negb _); [discriminate|]. destruct (negb _); [discriminate|].
  destruct (T <? 3)%nat; [discriminate|].
  destruct (triples_of_draw T idxs) as [ts|t]; cbn [res_bind]; [|discriminate].
  intros H. inversion H; subst. unfold kernel. rewrite Es, map_length, seq_length.
  unfold shape3 in Es. now inversion Es.
Qed.

Lemma hetero_checked_length pls df idxs v :
  hetero_checked orc pls D df idxs = Ok v -> length v = length pls.
Proof.
  unfold hetero_checked. destruct (negb _); [discriminate|]. intros H.
  apply kernel_checked_length in H. rewrite H. unfold pad_means, pad_ragged. now rewrite !map_length.
Qed.

Lemma mstep_keys g d kv : mstep g d = Ok kv -> map fst kv = map fst g.
Proof.
  unfold mstep. destruct (hetero_checked _ _ _ _ _) as [v|t] eqn:E; cbn [res_bind]; [|discriminate].
  intros H. inversion H; subst. apply hetero_checked_length in E.
  apply map_fst_combine. now rewrite E, !map_length.
Qed.

Lemma score_body_spec n g acc d r :
  g <> [] ->
  Forall (fun kp => dict_get plates (fst kp) = Ok (snd kp)) g ->
  Forall (fun kp => length (pp_sel (snd kp)) = n) g ->
  NoDup (map fst acc ++ map fst g) ->
  score_body (d :: r, acc) (map fst g) = dor kv <- mstep g d; Ok (r, acc ++ kv).
Proof.
  intros Hne Hget Hsel Hnd. unfold score_body.
  rewrite (lookup_group plates g Hget). cbn [res_bind].
  destruct (mask_loop_ok n (fun m p => mask_body m p) (fun m p => eq_refl) (map snd g) None) as [m' Hm];
    [rewrite Forall_map; exact Hsel|exact I|].
  rewrite Hm. cbn [res_bind].
  unfold pp_means, pp_vars, pyplate, plate, arr2 in *.
  rewrite <- (map_map snd fst (map snd g)), <- (map_map snd snd (map snd g)).
  rewrite (shape_loop _ (map snd (map snd g))) by (intros u [a b]; reflexivity).
  unfold mstep, hetero_checked. rewrite !map_map. unfold plate in *.
  destruct (forallb _ (map _ g)) eqn:Echk; cbn [negb res_bind]; [|reflexivity].
  unfold pad_means_py, pad_vars_py.
  destruct g as [|kp g']; [congruence|]. cbn [map]. cbn [res_bind]. unfold kernel_call, one_q.
  change (fst (snd (snd kp)) :: map (fun x => fst (snd (snd x))) g')
    with (map (fun x : Z * pyplate => fst (snd (snd x))) (kp :: g')).
  change (snd (snd (snd kp)) :: map (fun x => snd (snd (snd x))) g')
    with (map (fun x : Z * pyplate => snd (snd (snd x))) (kp :: g')).
  destruct (kernel_checked orc _ _ D 1%Qc d) as [v|t] eqn:Ek; cbn [res_bind]; [|reflexivity].
  f_equal. f_equal. apply dict_update_pairs_fresh.
  apply kernel_checked_length in Ek. unfold pad_means, pad_ragged in Ek. rewrite !map_length in Ek.
  change (fst kp :: map fst g') with (map fst (kp :: g')).
  rewrite map_fst_combine by (now rewrite Ek, map_length). exact Hnd.
Qed.

(* the loop over the sub-groups, for an arbitrary body equal to the generated one *)
Lemma score_loop n (f : list (list Z) * list (Z * ext) -> list Z -> result (list (list Z) * list (Z * ext))) :
  (forall st ks, f st ks = score_body st ks) ->
  forall gs draws acc,
  (length gs <= length draws)%nat ->
  Forall (fun g => g <> [] /\ Forall (fun kp => dict_get plates (fst kp) = Ok (snd kp)) g
                   /\ Forall (fun kp => length (pp_sel (snd kp)) = n) g) gs ->
  NoDup (map fst acc ++ map fst (concat gs)) ->
  res_fold f (map (map fst) gs) (draws, acc)
  = dor rs <- res_map_all (fun gd => mstep (fst gd) (snd gd)) (combine gs draws);
    Ok (skipn (length gs) draws, acc ++ concat rs).
Proof.
  intros Hf gs; induction gs as [|g gs IH]; intros draws acc Hlen Hgs Hnd.
  - cbn [map res_fold combine res_map_all res_bind concat length skipn]. now rewrite app_nil_r.
  - destruct draws as [|d r]; [cbn [length] in Hlen; lia|].
    inversion Hgs as [|? ? (Hne & Hget & Hsel) Hgs']; subst.
    cbn [map res_fold combine res_map_all fst snd]. rewrite Hf.
    cbn [concat] in Hnd. rewrite map_app in Hnd.
    rewrite (score_body_spec n g acc d r Hne Hget Hsel)
      by (rewrite app_assoc in Hnd; apply NoDup_app_inv in Hnd; tauto).
    destruct (mstep g d) as [kv|t] eqn:Em; cbn [res_bind]; [|reflexivity].
    rewrite IH; [| cbn [length] in Hlen; lia | exact Hgs' |].
    + destruct (res_map_all _ (combine gs r)) as [rs|t]; cbn [res_bind]; [|reflexivity].
      cbn [concat length skipn]. now rewrite <- app_assoc.
    + rewrite map_app, (mstep_keys g d kv Em), <- app_assoc. exact Hnd.
Qed.

(* the model's per-group step on the plates without their selection vectors *)
Lemma model_steps gs : forall draws,
  res_map_all (chk_step orc D) (combine (map forget_sel gs) draws)
  = res_map_all (fun gd => mstep (fst gd) (snd gd)) (combine gs draws).
Proof.
  induction gs as [|g gs IH]; intros [|d r]; try reflexivity.
  cbn [map combine res_map_all fst snd]. rewrite IH. unfold chk_step, mstep, forget_sel. cbn [fst snd]. rewrite !map_map. cbn [fst snd].
  reflexivity.
Qed.

Lemma steps_total_length gs : forall draws rs,
  (length gs <= length draws)%nat ->
  res_map_all (fun gd => mstep (fst gd) (snd gd)) (combine gs draws) = Ok rs ->
  length (concat rs) = length (concat gs).
Proof.
  induction gs as [|g gs IH]; intros draws rs Hlen H.
  - cbn [combine res_map_all] in H. inversion H. reflexivity.
  - destruct draws as [|d r]; [cbn [length] in Hlen; lia|].
    cbn [combine res_map_all fst snd] in H.
    destruct (mstep g d) as [kv|t] eqn:Em; cbn [res_bind] in H; [|discriminate].
    destruct (res_map_all _ (combine gs r)) as [rs'|t] eqn:Er; cbn [res_bind] in H; [|discriminate].
    inversion H; subst. cbn [concat]. rewrite !app_length.
    rewrite (IH r rs') by (cbn [length] in Hlen; lia || exact Er).
    apply mstep_keys in Em. apply (f_equal (@length Z)) in Em. rewrite !map_length in Em. lia.
Qed.
End Score.

Definition sel_uniform (plates : list (Z * pyplate)) : Prop :=
  exists n, Forall (fun kp => length (pp_sel (snd kp)) = n) plates.

Lemma forget_sel_nonempty plates : plates <> [] -> forget_sel plates <> [].
Proof. intros H E. apply map_eq_nil in E. contradiction. Qed.

Lemma scorer_py_nonempty orc mc plates D draws : plates <> [] ->
  scorer_py orc mc plates D draws
  = if (mc =? 0)%Z then Err 30%Z else if (mc <? 0)%Z then Err 31%Z else scorer_checked orc (Z.to_nat mc) plates D draws.
Proof. destruct plates; [congruence|reflexivity]. Qed.

Theorem src_score_is_model orc (max_chunk : Z) (plates : list (Z * pyplate)) (D : arr2) (draws : list (list Z)) :
  NoDup (map fst plates) -> sel_uniform plates ->
  (ceil_div (length plates) (Z.to_nat max_chunk) <= length draws)%nat ->
  src_score orc max_chunk plates D draws = scorer_py orc max_chunk (forget_sel plates) D draws.
Proof.
  intros Hnd [n Hsel] Hdraws. unfold src_score.
  destruct plates as [|kp0 rest] eqn:Epl; [reflexivity|]. rewrite <- Epl in *.
  assert (Hne : forget_sel plates <> []) by (apply forget_sel_nonempty; rewrite Epl; discriminate).
  assert (Hn : (0 < length plates)%nat) by (rewrite Epl; cbn [length]; lia).
  rewrite scorer_py_nonempty by exact Hne.
  destruct (Z.eqb_spec (Z.of_nat (length plates)) 0) as [|_]; [lia|]. cbn [negb].
  destruct (Z.eqb_spec max_chunk 0) as [->|Hnz]; [reflexivity|].
  destruct (Z.ltb_spec max_chunk 0) as [Hneg|Hpos].
  - destruct (np_ceil_div_neg (length plates) max_chunk Hneg) as (q & -> & Hq). cbn [res_bind].
    unfold np_array_split. destruct (Z.leb_spec q 0) as [_|]; [reflexivity|lia].
  - rewrite np_ceil_div_pos by lia. cbn [res_bind].
    set (k := ceil_div (length plates) (Z.to_nat max_chunk)) in *.
    assert (Hk : (0 < k)%nat) by (apply ceil_div_pos; lia).
    assert (Hkn : (k <= length plates)%nat) by (apply ceil_div_le; lia).
    unfold np_array_split. destruct (Z.leb_spec (Z.of_nat k) 0) as [|_]; [lia|]. cbn [res_bind].
    rewrite Nat2Z.id, array_split_map.
    set (gs := array_split plates k).
    assert (Hcat : concat gs = plates) by (apply concat_array_split; now left).
    assert (Hlen : length gs = k) by (apply length_array_split; now left).
    match goal with |- context [res_fold ?f (map (map fst) gs) (draws, [])] =>
      assert (Hf : forall st ks, f st ks = score_body orc plates D st ks) by (intros [dr ac] ks; reflexivity);
      rewrite (score_loop orc plates D n f Hf gs draws []); [clear Hf| |clear Hf|clear Hf]
    end.
    + unfold scorer_checked.
      destruct (forget_sel plates) as [|x xs] eqn:Ef; [congruence|].
      rewrite <- Ef. unfold forget_sel at 2. rewrite map_length. fold k.
      unfold forget_sel at 1. rewrite array_split_map. fold gs. fold forget_sel.
      fold (chk_step orc D). rewrite model_steps.
      change (array_split plates (ceil_div (length plates) (Z.to_nat max_chunk))) with gs.
      destruct (res_map_all _ (combine gs draws)) as [rs|t] eqn:Ers; cbn [res_bind app]; [|reflexivity].
      rewrite (steps_total_length orc D gs draws rs) by (lia || exact Ers).
      rewrite Hcat, Z.eqb_refl. reflexivity.
    + lia.
    + pose proof (array_split_nonempty plates k Hk Hkn) as Hnonempty. fold gs in Hnonempty.
      rewrite Forall_forall in Hnonempty. apply Forall_forall. intros g Hg.
      assert (Hsub : forall x, In x g -> In x plates)
        by (intros x Hx; rewrite <- Hcat; apply in_concat; now exists g).
      split; [now apply Hnonempty|]. split; apply Forall_forall; intros [k' p] Hx.
      * apply dict_get_in; [exact Hnd|]. now apply Hsub.
      * rewrite Forall_forall in Hsel. apply (Hsel (k', p)). now apply Hsub.
    + cbn [map app]. rewrite Hcat. exact Hnd.
Qed.

(* for a positive max_chunk this is the model scorer itself *)
Corollary src_score_is_scorer_checked orc (mc : nat) (plates : list (Z * pyplate)) D draws :
  (0 < mc)%nat -> NoDup (map fst plates) -> sel_uniform plates ->
  (ceil_div (length plates) mc <= length draws)%nat ->
  src_score orc (Z.of_nat mc) plates D draws = scorer_checked orc mc (forget_sel plates) D draws.
Proof.
  intros Hmc Hnd Hsel Hd. rewrite src_score_is_model by (rewrite ?Nat2Z.id; assumption).
  unfold scorer_py, scorer_checked. destruct (forget_sel plates); [reflexivity|].
  destruct (Z.eqb_spec (Z.of_nat mc) 0); [lia|]. destruct (Z.ltb_spec (Z.of_nat mc) 0); [lia|].
  now rewrite Nat2Z.id.
Qed.

Lemma fold_zmax_max_list l : forall x,
  fold_left Z.max (map Z.of_nat l) (Z.of_nat x) = Z.of_nat (max_list (x :: l)).
Proof.
  induction l as [|y l IH]; intros x; cbn [map fold_left].
  - unfold max_list. cbn [fold_right]. now rewrite Nat.max_0_r.
  - rewrite <- Nat2Z.inj_max, IH. f_equal. unfold max_list. cbn [fold_right]. lia.
Qed.

Lemma skipn_repeat {A} (a : A) n k : skipn k (repeat a n) = repeat a (n - k).
Proof.
  revert k; induction n as [|n IH]; intros [|k]; cbn [repeat skipn Nat.sub]; try reflexivity. apply IH.
Qed.

Lemma overlay_row_blank {A} (pad : A) w r : overlay_row r (repeat pad w) = pad_row pad w r.
Proof. unfold overlay_row, pad_row. now rewrite skipn_repeat. Qed.

Lemma overlay2_blank {A} (pad : A) w a : forall h, (length a <= h)%nat ->
  overlay2 a (repeat (repeat pad w) h) = pad2 pad h w a.
Proof.
  unfold pad2. induction a as [|r a IH]; intros h Hh; cbn [overlay2 map app length].
  - now rewrite Nat.sub_0_r.
  - destruct h as [|h]; [cbn [length] in Hh; lia|]. cbn [repeat Nat.sub].
    rewrite overlay_row_blank, IH by (cbn [length] in Hh; lia). reflexivity.
Qed.

Lemma pad_loop {A} (pad : A) h w arrays : forall done,
  Forall (fun a => length a <= h)%nat arrays ->
  fold_left (fun res (ia : Z * list (list A)) => set_block res (fst ia) (snd ia))
            (combine (map Z.of_nat (seq (length done) (length arrays))) arrays)
            (done ++ repeat (repeat (repeat pad w) h) (length arrays))
  = done ++ map (pad2 pad h w) arrays.
Proof.
  induction arrays as [|a arrays IH]; intros done Hfit; cbn [length seq map combine fold_left repeat]; [reflexivity|].
  inversion Hfit as [|? ? Ha Hrest]; subst. cbn [fst snd]. unfold set_block at 2. rewrite Nat2Z.id.
  rewrite firstn_app, Nat.sub_diag, firstn_all, skipn_app, Nat.sub_diag, skipn_all. cbn [firstn skipn app].
  rewrite app_nil_r, overlay2_blank by exact Ha.
  replace (S (length done)) with (length (done ++ [pad2 pad h w a])) by (rewrite app_length; cbn [length]; lia).
  change (done ++ pad2 pad h w a :: repeat (repeat (repeat pad w) h) (length arrays))
    with (done ++ [pad2 pad h w a] ++ repeat (repeat (repeat pad w) h) (length arrays)).
  rewrite app_assoc, (IH _ Hrest), <- app_assoc. reflexivity.
Qed.

Theorem src_pad_is_model (A : Type) (arrays : list (list (list A))) (pad : A) :
  src_pad A arrays pad = match arrays with [] => Err 27%Z | _ => Ok (pad_ragged pad arrays) end.
Proof.
  unfold src_pad. destruct arrays as [|a0 rest] eqn:E; [reflexivity|]. rewrite <- E.
  set (h := max_list (map (fun a => fst (shape2 a)) arrays)).
  set (w := max_list (map (fun a => snd (shape2 a)) arrays)).
  assert (Hmax : np_max_axis0 (map (fun a => shape2z a) arrays) = Ok (Z.of_nat h, Z.of_nat w)).
  { subst h w. rewrite E. cbn [map np_max_axis0 shape2z fst snd]. rewrite !map_map. cbn [fst snd].
    rewrite <- (map_map (fun a : list (list A) => length a) Z.of_nat),
            <- (map_map (fun a : list (list A) => length (hd [] a)) Z.of_nat), !fold_zmax_max_list. reflexivity. }
  rewrite Hmax. cbn [res_bind].
  rewrite (res_fold_pure _ (fun res (ia : Z * list (list A)) => set_block res (fst ia) (snd ia)))
    by (intros s [i a]; reflexivity).
  cbn [res_bind]. f_equal. unfold np_full3, enumerate_z. cbn [fst snd]. rewrite !Nat2Z.id.
  apply (pad_loop pad h w arrays []).
  apply Forall_forall. intros a Ha. apply (max_list_ge (map (fun a => fst (shape2 a)) arrays)).
  apply in_map_iff. now exists a.
Qed.

(* the two uses: 0-padding of the means, NaN-padding of the variances (every real cell is [Some]) *)
Corollary pad_means_py_is_source ms : pad_means_py ms = src_pad Qc ms 0%Qc.
Proof. rewrite src_pad_is_model. destruct ms; reflexivity. Qed.
Corollary pad_vars_py_is_source vs : pad_vars_py vs = src_pad (option Qc) (map (map (map Some)) vs) None.
Proof. rewrite src_pad_is_model. destruct vs; reflexivity. Qed.

Theorem src_hetero_is_model orc (plates : list plate) D df idxs :
  src_hetero orc (map fst plates) (map snd plates) D df idxs
  = match plates with [] => Err 27%Z | _ => hetero_checked orc plates D df idxs end.
Proof.
  unfold src_hetero, hetero_checked.
  rewrite (shape_loop _ plates) by (intros u [a b]; reflexivity).
  destruct plates as [|p pls]; [reflexivity|]. unfold plate, arr2 in *.
  destruct (forallb _ (p :: pls)); cbn [negb res_bind]; [|reflexivity].
  cbn [map pad_means_py pad_vars_py res_bind].
  destruct (kernel_checked _ _ _ _ _ _); reflexivity.
Qed.

Lemma homo_loop (variances : arr2) (f : list arr2 -> Z * arr2 -> result (list arr2)) :
  (forall acc ip, f acc ip =
     dor row <- list_get variances (fst ip);
     dor x <- np_col_times_ones row (Z.of_nat (length row)) (dim1 (snd ip));
     Ok (acc ++ [x])) ->
  forall preds s acc, (s + length preds <= length variances)%nat ->
  res_fold f (combine (map Z.of_nat (seq s (length preds))) preds) acc
  = Ok (acc ++ map (fun pv => homo_expand (fst pv) (snd pv)) (combine preds (skipn s variances))).
Proof.
  intros Hf preds; induction preds as [|mu preds IH]; intros s acc Hlen;
    cbn [length seq map combine res_fold]; [now rewrite app_nil_r|].
  cbn [length] in Hlen. rewrite Hf. cbn [fst snd].
  destruct (skipn s variances) as [|row rest] eqn:Esk;
    [apply (f_equal (@length _)) in Esk; rewrite skipn_length in Esk; cbn [length] in Esk; lia|].
  assert (Hnth : nth_error variances s = Some row).
  { rewrite <- (firstn_skipn s variances), Esk, nth_error_app2 by (rewrite firstn_length; lia).
    rewrite firstn_length, Nat.min_l by lia. now rewrite Nat.sub_diag. }
  unfold list_get. destruct (Z.ltb_spec (Z.of_nat s) 0) as [|_]; [lia|].
  destruct (Z.ltb_spec (Z.of_nat s) 0) as [|_]; [lia|]. rewrite Nat2Z.id, Hnth. cbn [res_bind].
  unfold np_col_times_ones. rewrite Z.eqb_refl. cbn [res_bind]. unfold dim1. rewrite Nat2Z.id.
  rewrite IH by lia.
  assert (Erest : skipn (S s) variances = rest).
  { change (S s) with (1 + s)%nat. rewrite Nat.add_comm, <- skipn_skipn, Esk. reflexivity. }
  rewrite Erest. cbn [combine map fst snd]. rewrite <- app_assoc. reflexivity.
Qed.

Lemma pad_vars_py_nonempty l : l <> [] -> pad_vars_py l = Ok (pad_vars l).
Proof. destruct l; [congruence|reflexivity]. Qed.

Theorem src_homo_is_model orc (preds : list arr2) (variances : arr2) D df idxs :
  src_homo orc preds variances D df idxs
  = match preds with
    | [] => match variances with [] => Err 27%Z | _ => Err 25%Z end
    | _ => homo_checked orc preds variances D df idxs
    end.
Proof.
  unfold src_homo, homo_checked. unfold dim0 at 1. rewrite of_nat_eqb. unfold arr2 in *.
  destruct preds as [|mu0 preds0] eqn:E.
  - destruct variances; reflexivity.
  - rewrite <- E. assert (Hne : preds <> []) by (rewrite E; discriminate).
    destruct (Nat.eqb_spec (length preds) (fst (shape2 variances))) as [Hlen|_]; cbn [negb]; [|reflexivity].
    rewrite (res_fold_check (fun mu : arr2 => (dim0 mu =? dim1 variances)%Z) 26%Z)
      by (intros u mu; destruct (dim0 mu =? dim1 variances)%Z; reflexivity).
    assert (Hchk : forallb (fun mu : arr2 => (dim0 mu =? dim1 variances)%Z) preds
                   = forallb (fun mu : list (list Qc) => Nat.eqb (fst (shape2 mu)) (snd (shape2 variances))) preds)
      by (clear; induction preds as [|mu l IH]; cbn [forallb]; [reflexivity|]; rewrite IH; f_equal; unfold dim0, dim1; apply of_nat_eqb).
    rewrite Hchk. clear Hchk.
    destruct (forallb _ preds); cbn [negb res_bind]; [|reflexivity].
    assert (Hpm : pad_means_py preds = Ok (pad_means preds)) by (rewrite E; reflexivity).
    rewrite Hpm. clear Hpm. cbn [res_bind].
    unfold enumerate_z.
    match goal with |- context [res_fold ?f (combine _ preds) []] =>
      rewrite (homo_loop variances f) with (s := 0%nat);
        [| intros acc [i mu]; reflexivity | cbn [shape2 fst] in Hlen; unfold arr2; lia]
    end.
    cbn [res_bind app skipn].
    rewrite pad_vars_py_nonempty.
    + cbn [res_bind]. apply res_bind_ret.
    + cbn [shape2 fst] in Hlen. rewrite E in Hlen |- *.
      destruct variances; [cbn [length] in Hlen; lia|discriminate].
Qed.

Lemma src_kernel_checks_spec (pred : arr3) (vars : arr3n) (D : arr2) :
  src_kernel_checks pred vars D
  = let '(np, T, E) := shape3 pred in
    let '(np', T', E') := shape3 vars in
    if negb (Nat.eqb np np' && Nat.eqb T T' && Nat.eqb E E') then Err 20%Z
    else if negb (Nat.eqb (fst (shape2 D)) (snd (shape2 D))) then Err 21%Z
    else if negb (Nat.eqb (fst (shape2 D)) T) then Err 22%Z
    else Ok tt.
Proof.
  unfold src_kernel_checks, shape3_ne, dim0, dim1, dim3_1.
  destruct (shape3 pred) as [[np T] E]. destruct (shape3 vars) as [[np' T'] E']. cbn [fst snd].
  rewrite !of_nat_eqb, (Nat.eqb_sym np' np), (Nat.eqb_sym T' T), (Nat.eqb_sym E' E),
    (Nat.eqb_sym (snd (shape2 D)) (fst (shape2 D))).
  reflexivity.
Qed.

(* the model's checked kernel IS: the translated shape checks, the translated index-to-triple run on the recorded
   rng.choice answer d, and the (untranslated) tensor expressions [kernel] on the triples that run produces *)
Theorem kernel_checked_is_source orc (pred : arr3) (vars : arr3n) (D : arr2) df (mc : Z) (d : list Z) rest :
  (1 <= mc)%Z ->
  (let T := Z.of_nat (snd (fst (shape3 pred))) in choice_ok (comb3 T) (Z.min (comb3 T) mc) d = true) ->
  kernel_checked orc pred vars D df d
  = dor _ <- src_kernel_checks pred vars D;
    dor r <- src_kernel_triples pred mc (d :: rest);
    Ok (kernel orc pred vars D df (nat_triples (fst r))).
Proof.
  intros Hmc Hok. rewrite src_kernel_checks_spec. unfold kernel_checked.
  destruct (shape3 pred) as [[np T] E] eqn:Es. destruct (shape3 vars) as [[np' T'] E']. cbn [fst snd] in Hok.
  destruct (negb (_ && _ && _)); [reflexivity|].
  destruct (negb (Nat.eqb (fst (shape2 D)) (snd (shape2 D)))); [reflexivity|].
  destruct (negb (Nat.eqb (fst (shape2 D)) T)); [reflexivity|]. cbn [res_bind].
  rewrite (src_kernel_triples_spec pred mc d rest np T E Es Hmc Hok).
  destruct (Nat.ltb_spec T 3) as [Hlt|Hge]; [reflexivity|].
  rewrite triples_via_unrank3.
  destruct (res_map_all _ d) as [zs|t] eqn:Ez; cbn [res_bind]; [|reflexivity].
  destruct (unzip3_of_draw T mc d zs Hge Hmc Hok (res_map_all_length _ _ _ Ez)) as (t3 & -> & <-). reflexivity.
Qed.
