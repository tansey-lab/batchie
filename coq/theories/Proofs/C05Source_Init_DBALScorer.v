(* C05: GaussianDBALScorer.__init__ as translated (Generated/SrcInits.v) stores (max_chunk, max_triples) unchanged. *)
From Coq Require Import ZArith.
From Batchie Require Import Lib.Sexp Generated.SrcInits.

Theorem src_dbal_scorer_init_stores : forall max_chunk max_triples : Z, src_dbal_scorer_init max_chunk max_triples = Ok (max_chunk, max_triples).
Proof. reflexivity. Qed.
