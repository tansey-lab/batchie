(* C14, one piece of Proofs/C14SourceHelpers.v (which see): ScreenBase.unique_sample_ids on a ScreenSubset / Plate object *)
From Batchie Require Import Lib.Sexp Model.Views Generated.SrcPlates.
Open Scope Z_scope.

Theorem src_view_unique_sample_ids_is_model : forall v : view, src_view_unique_sample_ids v = Ok (view_unique_sids v).
Proof. reflexivity. Qed.
