(* C15: consequences of unrank/rank being mutually inverse:
   - the list of all unrankings is sorted, duplicate-free and is exactly the set of strictly
     descending k-tuples below n;
   - every k-element subset (duplicate-free list, any order) of {0..n-1} is hit by exactly one index;
   - the triples drawn by the DBAL scorer are distinct, in range, and complete when the budget
     covers C(n,3). *)
From Coq Require Import ZArith List Lia Sorting.Sorted Sorting.Permutation.
From Batchie Require Import Lib.Sexp Lib.ListX Model.Unrank Model.Binom Proofs.C15Binom Proofs.C15Unrank.
Import ListNotations.
Open Scope Z_scope.

(* On the in-range indices unrank is a total function, the one below; lists of unrankings become plain maps. *)
Definition unrank_or_nil (n : Z) (k : nat) (i : Z) : list Z :=
  match unrank i n k with Ok c => c | Err _ => [] end.

Lemma unrank_or_nil_ok : forall n k i, 0 <= n -> 0 <= i < Cz n k ->
  unrank i n k = Ok (unrank_or_nil n k i).
Proof.
  intros n k i Hn Hi. unfold unrank_or_nil.
  destruct (unrank_spec n k i Hn Hi) as (c & -> & _). reflexivity.
Qed.

Lemma unrank_or_nil_spec : forall n k i, 0 <= n -> 0 <= i < Cz n k ->
  length (unrank_or_nil n k i) = k /\ desc_below n (unrank_or_nil n k i) /\ rank (unrank_or_nil n k i) = i.
Proof. intros n k i Hn Hi. exact (unrank_ok_inv n k i _ Hn Hi (unrank_or_nil_ok n k i Hn Hi)). Qed.

Lemma unrank_or_nil_rank : forall n c, 0 <= n -> desc_below n c -> unrank_or_nil n (length c) (rank c) = c.
Proof. intros n c Hn Hd. unfold unrank_or_nil. rewrite unrank_rank by assumption. reflexivity. Qed.

Lemma sorted_map_seq : forall (A : Type) (R : A -> A -> Prop) (f : nat -> A) m s,
  (forall i j, (s <= i)%nat -> (i < j)%nat -> (j < s + m)%nat -> R (f i) (f j)) ->
  StronglySorted R (map f (seq s m)).
Proof.
  intros A R f m. induction m as [|m IH]; intros s H; cbn [seq map]; constructor.
  - apply IH. intros i j H1 H2 H3. apply H; lia.
  - apply Forall_forall. intros x Hx. apply in_map_iff in Hx as (j & <- & Hj).
    apply in_seq in Hj. apply H; lia.
Qed.

Lemma sorted_irrefl_NoDup : forall (A : Type) (R : A -> A -> Prop) l,
  (forall x, ~ R x x) -> StronglySorted R l -> NoDup l.
Proof.
  intros A R l Hirr Hs. induction Hs as [|x l Hs IH Hf]; constructor; [|exact IH].
  intros Hx. rewrite Forall_forall in Hf. exact (Hirr x (Hf x Hx)).
Qed.

Lemma enum_all_spec : forall n k, 0 <= n ->
  exists L, enum_all n k = map Ok L /\
    length L = Z.to_nat (Cz n k) /\
    StronglySorted lex_lt L /\ NoDup L /\
    forall c, In c L <-> (desc_below n c /\ length c = k).
Proof.
  intros n k Hn.
  set (N := Z.to_nat (Cz n k)).
  set (f := fun i : nat => unrank_or_nil n k (Z.of_nat i)).
  assert (Hs : StronglySorted lex_lt (map f (seq 0 N))).
  { apply sorted_map_seq. intros i j H1 H2 H3.
    apply (unrank_ascending n k (Z.of_nat i) (Z.of_nat j)); try apply unrank_or_nil_ok; lia. }
  exists (map f (seq 0 N)). split; [|split; [|split; [|split]]].
  - unfold enum_all. rewrite init_nck_Cz by exact Hn. fold N. rewrite map_map.
    apply map_ext_in. intros i Hi. apply in_seq in Hi. apply unrank_or_nil_ok; lia.
  - rewrite map_length, seq_length. reflexivity.
  - exact Hs.
  - exact (sorted_irrefl_NoDup _ _ _ lex_lt_irrefl Hs).
  - intros c. rewrite in_map_iff. split.
    + intros (i & <- & Hi). apply in_seq in Hi.
      destruct (unrank_or_nil_spec n k (Z.of_nat i) Hn ltac:(lia)) as (Hl & Hd & _). split; assumption.
    + intros [Hd <-]. pose proof (rank_range c n Hd) as Hr. exists (Z.to_nat (rank c)). split.
      * unfold f. rewrite Z2Nat.id by lia. apply unrank_or_nil_rank; assumption.
      * apply in_seq. lia.
Qed.

Lemma desc_below_bound : forall c n z, desc_below n c -> In z c -> 0 <= z < n.
Proof.
  induction c as [|x r IH]; intros n z Hd Hz; [contradiction|].
  destruct Hd as [Hx Hr]. destruct Hz as [<- | Hz]; [exact Hx|].
  specialize (IH x z Hr Hz). lia.
Qed.

Lemma desc_below_NoDup : forall c n, desc_below n c -> NoDup c.
Proof.
  induction c as [|x r IH]; intros n Hd; constructor.
  - destruct Hd as [_ Hr]. intros Hx. pose proof (desc_below_bound r x x Hr Hx). lia.
  - destruct Hd as [_ Hr]. exact (IH x Hr).
Qed.

Lemma desc_insert : forall c n x, desc_below n c -> 0 <= x < n -> ~ In x c ->
  exists c2, desc_below n c2 /\ Permutation c2 (x :: c).
Proof.
  induction c as [|y r IH]; intros n x Hd Hx Hnin.
  - exists [x]. cbn [desc_below]. split; [tauto | apply Permutation_refl].
  - destruct Hd as [Hy Hr].
    assert (x <> y) by (intros ->; apply Hnin; left; reflexivity).
    destruct (Z_lt_le_dec y x) as [Hlt | Hge].
    + exists (x :: y :: r). cbn [desc_below]. split; [|apply Permutation_refl].
      split; [exact Hx|]. split; [lia | exact Hr].
    + destruct (IH y x Hr ltac:(lia) ltac:(intros Hi; apply Hnin; right; exact Hi)) as [c2 [Hd2 Hp2]].
      exists (y :: c2). cbn [desc_below]. split; [split; [exact Hy | exact Hd2]|].
      eapply Permutation_trans; [apply perm_skip; exact Hp2 | apply perm_swap].
Qed.

Lemma desc_sort_exists : forall s n, NoDup s -> (forall x, In x s -> 0 <= x < n) ->
  exists c, desc_below n c /\ Permutation c s.
Proof.
  induction s as [|x s IH]; intros n Hnd Hin.
  - exists []. split; [exact I | apply Permutation_refl].
  - inversion Hnd as [|x' s' Hx Hnd']; subst.
    destruct (IH n Hnd' ltac:(intros z Hz; apply Hin; right; exact Hz)) as [c [Hd Hp]].
    destruct (desc_insert c n x Hd ltac:(apply Hin; left; reflexivity)
                ltac:(intros Hi; apply Hx; eapply Permutation_in; eassumption)) as [c2 [Hd2 Hp2]].
    exists c2. split; [exact Hd2|]. eapply Permutation_trans; [exact Hp2 | apply perm_skip; exact Hp].
Qed.

Lemma desc_perm_unique : forall c c' n n', desc_below n c -> desc_below n' c' -> Permutation c c' -> c = c'.
Proof.
  induction c as [|x r IH]; intros c' n n' Hd Hd' Hp.
  - apply Permutation_nil in Hp. subst. reflexivity.
  - destruct c' as [|y r']; [apply Permutation_sym, Permutation_nil in Hp; discriminate|].
    destruct Hd as [Hx Hr]. destruct Hd' as [Hy Hr'].
    assert (x = y).
    { assert (Hy' : In y (x :: r)) by (eapply Permutation_in; [apply Permutation_sym; exact Hp | left; reflexivity]).
      assert (Hx' : In x (y :: r')) by (eapply Permutation_in; [exact Hp | left; reflexivity]).
      destruct Hy' as [E | Hy']; [exact E|]. destruct Hx' as [E | Hx']; [symmetry; exact E|].
      pose proof (desc_below_bound r x y Hr Hy'). pose proof (desc_below_bound r' y x Hr' Hx'). lia. }
    subst y. f_equal. apply Permutation_cons_inv in Hp. exact (IH r' x x Hr Hr' Hp).
Qed.

(* every k-element subset of {0..n-1}, given as a duplicate-free list in any order, is the
   image of exactly one index *)
Lemma subset_hit_once : forall n s, 0 <= n -> NoDup s -> (forall x, In x s -> 0 <= x < n) ->
  exists i, (0 <= i < Cz n (length s) /\ exists c, unrank i n (length s) = Ok c /\ Permutation c s) /\
    forall j, (0 <= j < Cz n (length s) /\ exists c, unrank j n (length s) = Ok c /\ Permutation c s) -> j = i.
Proof.
  intros n s Hn Hnd Hin.
  destruct (desc_sort_exists s n Hnd Hin) as [c [Hd Hp]].
  assert (Hl : length c = length s) by (apply Permutation_length; exact Hp).
  exists (rank c). split.
  - rewrite <- Hl. split; [apply rank_range; exact Hd|].
    exists c. split; [apply unrank_rank; assumption | exact Hp].
  - intros j [Hj [c' [E Hp']]].
    destruct (unrank_ok_inv n (length s) j c' Hn Hj E) as (_ & Hd' & <-). f_equal.
    apply (desc_perm_unique c' c n n Hd' Hd).
    eapply Permutation_trans; [exact Hp' | apply Permutation_sym; exact Hp].
Qed.

Lemma desc3_shape : forall n t, desc_below n t -> length t = 3%nat ->
  exists a b c, t = [a; b; c] /\ 0 <= c < b /\ b < a < n.
Proof.
  intros n [|a [|b [|c [|d t]]]] Hd Hl; try discriminate.
  cbn [desc_below] in Hd. exists a, b, c. split; [reflexivity | lia].
Qed.

(* N distinct values of range(N) are all of range(N) *)
Lemma NoDup_range_full : forall (l : list Z) N,
  NoDup l -> (forall i, In i l -> 0 <= i < N) -> Z.of_nat (length l) = N ->
  forall i, 0 <= i < N -> In i l.
Proof.
  intros l N Hnd Hr Hlen i Hi.
  apply (NoDup_length_incl Hnd (l' := map Z.of_nat (seq 0 (Z.to_nat N)))).
  - rewrite map_length, seq_length. lia.
  - intros j Hj. specialize (Hr j Hj). apply in_map_iff. exists (Z.to_nat j).
    split; [lia | apply in_seq; lia].
  - apply in_map_iff. exists (Z.to_nat i). split; [lia | apply in_seq; lia].
Qed.

Lemma triples_in_range : forall n idxs, 0 <= n -> (forall i, In i idxs -> 0 <= i < Cz n 3) ->
  triples n idxs = Ok (map (unrank_or_nil n 3) idxs).
Proof. intros n idxs Hn Hr. apply res_map_all_ok. intros i Hi. apply unrank_or_nil_ok; auto. Qed.

Lemma triples_distinct_complete : forall n idxs, 0 <= n ->
  NoDup idxs -> (forall i, In i idxs -> 0 <= i < Cz n 3) ->
  exists ts, triples n idxs = Ok ts /\ length ts = length idxs /\ NoDup ts /\
    (forall t, In t ts -> exists a b c, t = [a; b; c] /\ 0 <= c < b /\ b < a < n) /\
    (Z.of_nat (length idxs) = Cz n 3 ->
       forall a b c, 0 <= c < b -> b < a < n -> In [a; b; c] ts).
Proof.
  intros n idxs Hn Hnd Hr.
  exists (map (unrank_or_nil n 3) idxs). split; [exact (triples_in_range n idxs Hn Hr)|].
  split; [apply map_length|]. split; [|split].
  - (* the index is recovered from the triple as its rank *)
    apply NoDup_map_inj_in; [|exact Hnd]. intros i j Hi Hj E.
    destruct (unrank_or_nil_spec n 3 i Hn (Hr i Hi)) as (_ & _ & <-).
    destruct (unrank_or_nil_spec n 3 j Hn (Hr j Hj)) as (_ & _ & <-). now rewrite E.
  - intros t Ht. apply in_map_iff in Ht as (i & <- & Hi).
    destruct (unrank_or_nil_spec n 3 i Hn (Hr i Hi)) as (Hl & Hd & _). exact (desc3_shape n _ Hd Hl).
  - intros Hlen a b c Hc Ha.
    assert (Hd : desc_below n [a; b; c]) by (cbn [desc_below]; lia).
    rewrite <- (unrank_or_nil_rank n [a; b; c] Hn Hd). apply in_map.
    exact (NoDup_range_full idxs _ Hnd Hr Hlen _ (rank_range _ n Hd)).
Qed.

(* the use site: with any draw obeying numpy's contract for choice(N, size, replace=False) *)
Lemma dbal_triples_spec : forall draw n max_combos,
  choice_contract draw -> 3 <= n -> 1 <= max_combos ->
  exists ts, dbal_triples n max_combos draw = Ok (Cz n 3, Z.min (Cz n 3) max_combos, ts) /\
    Z.of_nat (length ts) = Z.min (Cz n 3) max_combos /\ NoDup ts /\
    (forall t, In t ts -> exists a b c, t = [a; b; c] /\ 0 <= c < b /\ b < a < n) /\
    (Cz n 3 <= max_combos -> forall a b c, 0 <= c < b -> b < a < n -> In [a; b; c] ts).
Proof.
  intros draw n mc Hc Hn Hmc.
  pose proof (Cz_pos n 3 ltac:(lia)) as Hpos.
  unfold dbal_triples. rewrite init_nck_Cz by lia.
  destruct (Cz n 3 =? 0) eqn:Hz; [apply Z.eqb_eq in Hz; lia|].
  destruct (Hc (Cz n 3) (Z.min (Cz n 3) mc) ltac:(lia)) as [Hnd [Hlen Hr]].
  destruct (triples_distinct_complete n (draw (Cz n 3) (Z.min (Cz n 3) mc)) ltac:(lia) Hnd Hr)
    as [ts [E [Hl [Hnd' [Hin Hall]]]]].
  destruct (draw (Cz n 3) (Z.min (Cz n 3) mc)) as [|i0 idxs] eqn:Ed.
  - cbn [length] in Hlen. lia.
  - rewrite E. cbn [res_bind]. exists ts. split; [reflexivity|].
    split; [rewrite Hl; exact Hlen|]. split; [exact Hnd'|]. split; [exact Hin|].
    intros Hbudget. apply Hall. rewrite Hlen. lia.
Qed.

Lemma dbal_triples_too_few : forall draw n max_combos,
  0 <= n < 3 -> dbal_triples n max_combos draw = Err 7.
Proof.
  intros draw n mc Hn. unfold dbal_triples. rewrite init_nck_Cz by lia.
  rewrite Cz_small by (cbn; lia). reflexivity.
Qed.
