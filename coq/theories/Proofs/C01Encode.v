(* C01: the encoders of Model/Encode.v - what the built mappings look like, when an encoder succeeds, what zero_indexed accepts. *)
From Coq Require Import ZArith List Lia Bool.
From Batchie Require Import Lib.Sexp Lib.ListX Generated.Consts Model.Encode Proofs.C01Sort.
Import ListNotations.
Open Scope Z_scope.

(* the constant read from the source on every run *)
Lemma sentinel_is_minus_one : CONTROL_SENTINEL_VALUE = -1.
Proof. reflexivity. Qed.

Definition zseq (s : Z) (n : nat) : list Z := map (fun i => s + Z.of_nat i) (seq 0 n).

Lemma zseq_S s n : zseq s (S n) = s :: zseq (s + 1) n.
Proof.
  unfold zseq. cbn [seq map]. f_equal; [lia|].
  rewrite <- seq_shift, map_map. apply map_ext. intros i. lia.
Qed.

Lemma zseq_In s n z : In z (zseq s n) <-> s <= z < s + Z.of_nat n.
Proof.
  unfold zseq. rewrite in_map_iff. split.
  - intros (i & <- & Hi). apply in_seq in Hi. lia.
  - intros H. exists (Z.to_nat (z - s)). split; [lia|apply in_seq; lia].
Qed.

Lemma zseq_0 n : zseq 0 n = map Z.of_nat (seq 0 n).
Proof. unfold zseq. apply map_ext. intros; lia. Qed.

Lemma zseq_sorted s n : SSorted Z.compare (zseq s n).
Proof.
  revert s; induction n as [|n IH]; intros s; [constructor|].
  rewrite zseq_S. constructor; [apply IH|]. apply Forall_forall. intros z Hz.
  apply zseq_In in Hz. unfold cmp_lt. apply Z.compare_lt_iff. lia.
Qed.

Lemma zseq_length s n : length (zseq s n) = n.
Proof. unfold zseq. now rewrite map_length, seq_length. Qed.

Lemma zseq_NoDup s n : NoDup (zseq s n).
Proof. apply (SSorted_NoDup _ Zcmp_spec), zseq_sorted. Qed.

(* a function whose values on a list do not repeat is injective on that list *)
Lemma NoDup_map_eq {A B} (f : A -> B) l x y : NoDup (map f l) -> In x l -> In y l -> f x = f y -> x = y.
Proof.
  induction l as [|a l IH]; cbn [map In]; [tauto|]. intros Hnd Hx Hy E.
  inversion Hnd as [|? ? Hn Hnd']; subst.
  destruct Hx as [->|Hx], Hy as [->|Hy]; [reflexivity| | |now apply IH].
  - exfalso. apply Hn. rewrite E. now apply in_map.
  - exfalso. apply Hn. rewrite <- E. now apply in_map.
Qed.

(* in particular a list of pairs without a repeated key holds one value per key *)
Lemma NoDup_keys_eq {A B} (m : list (A * B)) k v1 v2 :
  NoDup (map fst m) -> In (k, v1) m -> In (k, v2) m -> v1 = v2.
Proof. intros Hnd H1 H2. pose proof (NoDup_map_eq fst m _ _ Hnd H1 H2 eq_refl) as H. now inversion H. Qed.

Definition nonctrl (ctrl : name) (k : tkey) : bool := negb (is_control ctrl k).

Lemma is_control_iff ctrl k : is_control ctrl k = true <-> snd k <= 0 \/ fst k = ctrl.
Proof.
  unfold is_control. rewrite orb_true_iff, name_eqb_eq, Z.leb_le. tauto.
Qed.

Lemma assign_from_keys ctrl l : forall idx cum, map fst (assign_from ctrl idx cum l) = l.
Proof. induction l as [|k l IH]; intros; cbn [assign_from map fst]; [reflexivity|now rewrite IH]. Qed.

Lemma assign_from_ctrl ctrl l : forall idx cum e,
  In e (assign_from ctrl idx cum l) -> is_control ctrl (fst e) = true -> snd e = CONTROL_SENTINEL_VALUE.
Proof.
  induction l as [|k l IH]; intros idx cum e; cbn [assign_from In]; [tauto|].
  intros [<-|H] Hc; [cbn [fst snd] in *; now rewrite Hc|eapply IH; eassumption].
Qed.

(* the non-control entries, in order, carry the ids (idx-cum), (idx-cum)+1, ... *)
Lemma assign_from_nonctrl ctrl l : forall idx cum,
  map snd (filter (fun e => nonctrl ctrl (fst e)) (assign_from ctrl idx cum l))
  = zseq (idx - cum) (length (filter (nonctrl ctrl) l)).
Proof.
  induction l as [|k l IH]; intros idx cum; cbn [assign_from filter map]; [reflexivity|].
  cbn [fst]. destruct (is_control ctrl k) eqn:E.
  - assert (En : nonctrl ctrl k = false) by (unfold nonctrl; now rewrite E). rewrite !En.
    rewrite IH. f_equal. lia.
  - assert (En : nonctrl ctrl k = true) by (unfold nonctrl; now rewrite E). rewrite !En.
    cbn [map snd length]. rewrite zseq_S, IH. f_equal. f_equal. lia.
Qed.

Lemma filter_map_fst {A B} (p : A -> bool) (l : list (A * B)) :
  map fst (filter (fun e => p (fst e)) l) = filter p (map fst l).
Proof. symmetry. apply filter_map_comm. Qed.

Lemma assign_from_nonctrl_range ctrl l idx cum e :
  In e (assign_from ctrl idx cum l) -> is_control ctrl (fst e) = false ->
  idx - cum <= snd e < idx - cum + Z.of_nat (length (filter (nonctrl ctrl) l)).
Proof.
  intros Hin Hc. apply zseq_In. rewrite <- assign_from_nonctrl. apply in_map, filter_In.
  split; [exact Hin|unfold nonctrl; now rewrite Hc].
Qed.

(* entries with the same non-control id are the same entry: the ids of the non-control entries do not repeat *)
Lemma assign_from_inj ctrl l idx cum e1 e2 :
  In e1 (assign_from ctrl idx cum l) -> In e2 (assign_from ctrl idx cum l) ->
  is_control ctrl (fst e1) = false -> is_control ctrl (fst e2) = false ->
  snd e1 = snd e2 -> e1 = e2.
Proof.
  intros H1 H2 C1 C2.
  apply (NoDup_map_eq snd (filter (fun e => nonctrl ctrl (fst e)) (assign_from ctrl idx cum l))).
  - rewrite assign_from_nonctrl. apply zseq_NoDup.
  - apply filter_In. split; [exact H1|unfold nonctrl; now rewrite C1].
  - apply filter_In. split; [exact H2|unfold nonctrl; now rewrite C2].
Qed.

(* [tlookup] and [nlookup] are one first-match lookup, each over the equality test of its keys *)
Section Lookup.
Context {K : Type} (eqb : K -> K -> bool) (Heq : forall a b, eqb a b = true <-> a = b)
        (look : list (K * Z) -> K -> option Z).
Hypothesis look_nil : forall k, look [] k = None.
Hypothesis look_cons : forall k' id m k, look ((k', id) :: m) k = if eqb k k' then Some id else look m k.

Lemma look_Some m k id : look m k = Some id -> In (k, id) m.
Proof.
  induction m as [|[k' id'] m IH]; rewrite ?look_nil, ?look_cons; [discriminate|].
  destruct (eqb k k') eqn:E.
  - apply Heq in E. subst. intros H; inversion H; subst. now left.
  - intros H. right. now apply IH.
Qed.

Lemma look_None m k : look m k = None <-> ~ In k (map fst m).
Proof.
  induction m as [|[k' id'] m IH]; rewrite ?look_nil, ?look_cons; cbn [map fst In]; [tauto|].
  destruct (eqb k k') eqn:E.
  - apply Heq in E. subst. split; [discriminate|tauto].
  - rewrite IH. assert (k' <> k) by (intros ->; rewrite (proj2 (Heq k k) eq_refl) in E; discriminate).
    tauto.
Qed.

Lemma look_NoDup m k id : NoDup (map fst m) -> In (k, id) m -> look m k = Some id.
Proof.
  intros Hnd Hin. destruct (look m k) as [id'|] eqn:E.
  - apply look_Some in E. now rewrite (NoDup_keys_eq m k id id' Hnd Hin E).
  - apply look_None in E. destruct E. now apply (in_map fst) in Hin.
Qed.

Lemma look_found m k : In k (map fst m) -> look m k <> None.
Proof. intros Hin Hn. now apply look_None in Hn. Qed.
End Lookup.

Lemma tlookup_Some m k id : tlookup m k = Some id -> In (k, id) m.
Proof. apply (look_Some tkey_eqb tkey_eqb_eq); reflexivity. Qed.

Lemma tlookup_None m k : tlookup m k = None <-> ~ In k (map fst m).
Proof. apply (look_None tkey_eqb tkey_eqb_eq); reflexivity. Qed.

Lemma tlookup_NoDup m k id : NoDup (map fst m) -> In (k, id) m -> tlookup m k = Some id.
Proof. apply (look_NoDup tkey_eqb tkey_eqb_eq); reflexivity. Qed.

Lemma tlookup_found m k : In k (map fst m) -> tlookup m k <> None.
Proof. apply (look_found tkey_eqb tkey_eqb_eq); reflexivity. Qed.

Lemma nlookup_Some m k id : nlookup m k = Some id -> In (k, id) m.
Proof. apply (look_Some name_eqb name_eqb_eq); reflexivity. Qed.

Lemma nlookup_None m k : nlookup m k = None <-> ~ In k (map fst m).
Proof. apply (look_None name_eqb name_eqb_eq); reflexivity. Qed.

Lemma nlookup_found m k : In k (map fst m) -> nlookup m k <> None.
Proof. apply (look_found name_eqb name_eqb_eq); reflexivity. Qed.

Lemma nlookup_NoDup m k id : NoDup (map fst m) -> In (k, id) m -> nlookup m k = Some id.
Proof. apply (look_NoDup name_eqb name_eqb_eq); reflexivity. Qed.

Lemma opt_map_all_Some {A B} (f : A -> option B) l r :
  opt_map_all f l = Some r <-> Forall2 (fun a b => f a = Some b) l r.
Proof.
  split.
  - revert r. induction l as [|a l IH]; intros r; cbn [opt_map_all opt_bind].
    + intros H; inversion H. constructor.
    + destruct (f a) as [b|] eqn:E; [|discriminate]. destruct (opt_map_all f l) as [bs|]; [|discriminate].
      intros H; inversion H. constructor; [exact E|now apply IH].
  - induction 1 as [|a b l r Hab _ IH]; cbn [opt_map_all opt_bind]; [reflexivity|]. now rewrite Hab, IH.
Qed.

(* an encoder succeeds, with the mapping it was given or builds, as soon as that mapping lists every key of the data *)
Lemma encode_treatments_ok keys ctrl existing :
  let m := match existing with Some m => m | None => build_tmapping ctrl keys end in
  (forall k, In k keys -> In k (map fst m)) -> exists ids, encode_treatments keys ctrl existing = Ok (ids, m).
Proof.
  intros m H. unfold encode_treatments. fold m.
  destruct (opt_map_all_total (tlookup m) keys) as (ids & ->); [|now exists ids].
  intros k Hk. rewrite tlookup_None. auto.
Qed.

Lemma encode_names_ok names existing tag :
  let m := match existing with Some m => m | None => build_nmapping names end in
  (forall k, In k names -> In k (map fst m)) -> exists ids, encode_names names existing tag = Ok (ids, m).
Proof.
  intros m H. unfold encode_names. fold m.
  destruct (opt_map_all_total (nlookup m) names) as (ids & ->); [|now exists ids].
  intros k Hk. rewrite nlookup_None. auto.
Qed.

Section Built.
Variable ctrl : name.
Variable keys : list tkey.
Let m := build_tmapping ctrl keys.
Let su := sort_uniq tkey_cmp keys.

Lemma built_keys : map fst m = su.
Proof. apply assign_from_keys. Qed.

Lemma built_keys_NoDup : NoDup (map fst m).
Proof. rewrite built_keys. apply sort_uniq_NoDup, tkey_cmp_spec. Qed.

Lemma built_keys_In k : In k (map fst m) <-> In k keys.
Proof. rewrite built_keys. apply sort_uniq_In, tkey_cmp_spec. Qed.

Lemma built_encode_ok : exists ids, encode_treatments keys ctrl None = Ok (ids, m).
Proof. apply (encode_treatments_ok keys ctrl None). intros k. apply built_keys_In. Qed.

(* sentinel exactly on controls *)
Lemma built_control_iff k id : In (k, id) m -> (id = CONTROL_SENTINEL_VALUE <-> is_control ctrl k = true).
Proof.
  intros Hin. split.
  - intros ->. destruct (is_control ctrl k) eqn:E; [reflexivity|].
    pose proof (assign_from_nonctrl_range ctrl su 0 0 (k, CONTROL_SENTINEL_VALUE) Hin E) as R.
    cbn [snd] in R. rewrite sentinel_is_minus_one in R. lia.
  - intros Hc. exact (assign_from_ctrl ctrl su 0 0 (k, id) Hin Hc).
Qed.

Lemma built_nonctrl k id : In (k, id) m -> id <> CONTROL_SENTINEL_VALUE -> is_control ctrl k = false.
Proof. intros Hin Hne. apply not_true_is_false. intros Hc. now apply (built_control_iff k id Hin) in Hc. Qed.

Definition n_nonctrl : nat := length (filter (nonctrl ctrl) su).

(* the non-control ids of the mapping are exactly 0 .. n-1, each once, in key order *)
Lemma built_nonctrl_ids :
  map snd (filter (fun e => nonctrl ctrl (fst e)) m) = map Z.of_nat (seq 0 n_nonctrl).
Proof.
  unfold m, build_tmapping. rewrite assign_from_nonctrl. fold su. apply zseq_0.
Qed.

Lemma built_dense z :
  (exists k, In (k, z) m /\ z <> CONTROL_SENTINEL_VALUE) <-> 0 <= z < Z.of_nat n_nonctrl.
Proof.
  split.
  - intros (k & Hin & Hne).
    pose proof (assign_from_nonctrl_range ctrl su 0 0 (k, z) Hin (built_nonctrl k z Hin Hne)) as R.
    cbn [snd] in R. unfold n_nonctrl. lia.
  - intros Hz.
    assert (Hin : In z (map snd (filter (fun e => nonctrl ctrl (fst e)) m))).
    { rewrite built_nonctrl_ids, <- zseq_0. apply zseq_In. lia. }
    apply in_map_iff in Hin as ([k id] & Heq & Hf). cbn [snd] in Heq. subst id.
    apply filter_In in Hf as [Hin Hnc]. exists k. split; [exact Hin|].
    rewrite sentinel_is_minus_one. lia.
Qed.

Lemma built_inj k1 k2 id :
  In (k1, id) m -> In (k2, id) m -> id <> CONTROL_SENTINEL_VALUE -> k1 = k2.
Proof.
  intros H1 H2 Hne.
  pose proof (assign_from_inj ctrl su 0 0 (k1, id) (k2, id) H1 H2 (built_nonctrl k1 id H1 Hne) (built_nonctrl k2 id H2 Hne) eq_refl) as H.
  now inversion H.
Qed.

Lemma built_functional k id1 id2 : In (k, id1) m -> In (k, id2) m -> id1 = id2.
Proof.
  exact (NoDup_keys_eq m k id1 id2 built_keys_NoDup).
Qed.
End Built.

Lemma number_from_keys {A} (l : list A) : forall idx, map fst (number_from idx l) = l.
Proof. induction l as [|a l IH]; intros; cbn [number_from map fst]; [reflexivity|now rewrite IH]. Qed.

Lemma number_from_ids {A} (l : list A) : forall idx, map snd (number_from idx l) = zseq idx (length l).
Proof.
  induction l as [|a l IH]; intros idx; cbn [number_from map snd length]; [reflexivity|].
  now rewrite zseq_S, IH.
Qed.

Lemma number_from_inj {A} (l : list A) : forall idx e1 e2,
  In e1 (number_from idx l) -> In e2 (number_from idx l) -> snd e1 = snd e2 -> e1 = e2.
Proof.
  induction l as [|a l IH]; intros idx e1 e2; cbn [number_from In]; [tauto|].
  assert (R : forall e, In e (number_from (idx + 1) l) -> idx + 1 <= snd e).
  { intros e He. apply (in_map snd) in He. rewrite number_from_ids in He. apply zseq_In in He. lia. }
  intros [<-|H1] [<-|H2] Heq; [reflexivity| | |eapply IH; eassumption].
  - apply R in H2. cbn [snd] in Heq. lia.
  - apply R in H1. cbn [snd] in Heq. lia.
Qed.

Section BuiltN.
Variable names : list name.
Let m := build_nmapping names.
Let su := sort_uniq name_cmp names.

Lemma nbuilt_keys : map fst m = su.
Proof. apply number_from_keys. Qed.

Lemma nbuilt_keys_NoDup : NoDup (map fst m).
Proof. rewrite nbuilt_keys. apply sort_uniq_NoDup, name_cmp_spec. Qed.

Lemma nbuilt_keys_In k : In k (map fst m) <-> In k names.
Proof. rewrite nbuilt_keys. apply sort_uniq_In, name_cmp_spec. Qed.

Lemma nbuilt_ids : map snd m = map Z.of_nat (seq 0 (length su)).
Proof. unfold m, build_nmapping. rewrite number_from_ids. apply zseq_0. Qed.

Lemma nbuilt_ids_NoDup : NoDup (map snd m).
Proof. rewrite nbuilt_ids, <- zseq_0. apply zseq_NoDup. Qed.

Lemma nbuilt_encode_ok tag : exists ids, encode_names names None tag = Ok (ids, m).
Proof. apply (encode_names_ok names None tag). intros k. apply nbuilt_keys_In. Qed.

Lemma nbuilt_ids_In z : In z (map snd m) <-> 0 <= z < Z.of_nat (length su).
Proof. rewrite nbuilt_ids, <- zseq_0, zseq_In. lia. Qed.

Lemma nbuilt_dense z : (exists k, In (k, z) m) <-> 0 <= z < Z.of_nat (length su).
Proof.
  rewrite <- nbuilt_ids_In, in_map_iff. split.
  - intros (k & Hin). now exists (k, z).
  - intros ([k id] & Heq & Hin). cbn [snd] in Heq. subst. now exists k.
Qed.

Lemma nbuilt_inj k1 k2 id : In (k1, id) m -> In (k2, id) m -> k1 = k2.
Proof.
  intros H1 H2. pose proof (NoDup_map_eq snd m _ _ nbuilt_ids_NoDup H1 H2 eq_refl) as H. now inversion H.
Qed.

Lemma nbuilt_functional k id1 id2 : In (k, id1) m -> In (k, id2) m -> id1 = id2.
Proof.
  exact (NoDup_keys_eq m k id1 id2 nbuilt_keys_NoDup).
Qed.
End BuiltN.

Lemma Zlist_eqb_eq a : forall b, Zlist_eqb a b = true <-> a = b.
Proof.
  induction a as [|x a IH]; intros [|y b]; cbn [Zlist_eqb]; try (split; [discriminate|discriminate]).
  - tauto.
  - rewrite andb_true_iff, Z.eqb_eq, IH. split; [intros [-> ->]; reflexivity|intros H; inversion H; tauto].
Qed.

Lemma existsb_sentinel ids : existsb (Z.eqb CONTROL_SENTINEL_VALUE) ids = true <-> In (-1) ids.
Proof.
  rewrite existsb_exists. rewrite sentinel_is_minus_one. split.
  - intros (x & Hx & E). apply Z.eqb_eq in E. now subst.
  - intros H. exists (-1). split; [exact H|reflexivity].
Qed.

(* characterisation: the distinct ids are -1 (optionally) and a dense range 0..u-1 *)
Lemma zero_indexed_spec ids :
  zero_indexed true ids = true <->
  exists u : nat, forall z, In z ids <-> ((z = -1 /\ In (-1) ids) \/ 0 <= z < Z.of_nat u).
Proof.
  unfold zero_indexed. cbn [negb]. set (su := sort_uniq Z.compare ids).
  assert (Hin : forall z, In z su <-> In z ids) by (intros; apply (sort_uniq_In _ Zcmp_spec)).
  destruct (existsb (Z.eqb CONTROL_SENTINEL_VALUE) ids) eqn:E.
  - apply existsb_sentinel in E. rewrite Zlist_eqb_eq. split.
    + intros Hsu. remember (length su - 1)%nat as n eqn:En. clear En. exists n. intros z. rewrite <- Hin, Hsu. cbn [In].
      rewrite <- zseq_0, zseq_In. split; [intros [<-|H]; [left; tauto|right; lia]|intros [[-> _]|H]; [now left|right; lia]].
    + intros (u & Hu).
      assert (Hsu : su = (-1) :: zseq 0 u).
      { apply (SSorted_unique _ Zcmp_spec); [apply sort_uniq_sorted, Zcmp_spec| |].
        - constructor; [apply zseq_sorted|]. apply Forall_forall. intros z Hz. apply zseq_In in Hz.
          unfold cmp_lt. apply Z.compare_lt_iff. lia.
        - intros z. rewrite Hin, Hu. cbn [In]. rewrite zseq_In.
          split; [intros [[-> _]|H]; [now left|right; lia]|intros [<-|H]; [left; tauto|right; lia]]. }
      rewrite Hsu. cbn [length]. rewrite zseq_length. replace (S u - 1)%nat with u by lia. now rewrite <- zseq_0.
  - assert (Hno : ~ In (-1) ids).
    { intros H. apply existsb_sentinel in H. congruence. }
    rewrite Zlist_eqb_eq. split.
    + intros Hsu. remember (length su) as n eqn:En. clear En. exists n. intros z. rewrite <- Hin, Hsu. rewrite <- zseq_0, zseq_In.
      split; [intros H; right; lia|intros [[_ H]|H]; [contradiction|lia]].
    + intros (u & Hu).
      assert (Hsu : su = zseq 0 u).
      { apply (SSorted_unique _ Zcmp_spec); [apply sort_uniq_sorted, Zcmp_spec|apply zseq_sorted|].
        intros z. rewrite Hin, Hu, zseq_In. split; [intros [[_ H]|H]; [contradiction|lia]|intros H; right; lia]. }
      rewrite Hsu at 2. rewrite zseq_length. rewrite <- zseq_0. exact Hsu.
Qed.

Lemma zero_indexed_nonint ids : zero_indexed false ids = false.
Proof. reflexivity. Qed.
