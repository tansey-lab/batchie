(* C12: the lifecycle operations on masks, values and plates. *)
From Coq Require Import ZArith List Bool.
From Batchie Require Import Lib.Sexp Lib.ListX Model.Encode Model.Screen Model.Reveal Model.Holdout
  Proofs.C03Base Proofs.C03Screen.
Import ListNotations.
Open Scope Z_scope.

Lemma combine_map_r {A B C} (f : B -> C) (l1 : list A) (l2 : list B) :
  combine l1 (map f l2) = map (fun p => (fst p, f (snd p))) (combine l1 l2).
Proof.
  revert l2; induction l1 as [|a l1 IH]; intros [|b l2]; cbn [combine map fst snd]; try reflexivity. now rewrite IH.
Qed.

Lemma nth_error_combine {A B} (l1 : list A) (l2 : list B) i a b :
  nth_error (combine l1 l2) i = Some (a, b) -> nth_error l1 i = Some a /\ nth_error l2 i = Some b.
Proof.
  revert l2 i; induction l1 as [|x l1 IH]; intros [|y l2] [|i]; cbn [combine nth_error]; try discriminate.
  - intros H; inversion H; auto.
  - apply IH.
Qed.

Lemma In_combine_nth {A B} (l1 : list A) (l2 : list B) a b :
  In (a, b) (combine l1 l2) -> exists i, nth_error l1 i = Some a /\ nth_error l2 i = Some b.
Proof.
  intros H. apply In_nth_error in H. destruct H as [i Hi]. exists i. now apply nth_error_combine.
Qed.

Lemma In_select_map {A P} (f : P -> bool) (ps : list P) (l : list A) x :
  In x (select (map f ps) l) <-> exists p, In (x, p) (combine l ps) /\ f p = true.
Proof.
  revert l; induction ps as [|q ps IH]; intros [|a l]; cbn [map select combine In].
  1-3: split; [intros [] | intros (p & [] & _)].
  destruct (f q) eqn:E; cbn [In]; rewrite IH; split.
  - intros [->|(p & Hp & Hf)]; [exists q; auto | exists p; auto].
  - intros (p & [Hp|Hp] & Hf); [inversion Hp; now left | right; now exists p].
  - intros (p & Hp & Hf). exists p; auto.
  - intros (p & [Hp|Hp] & Hf); [inversion Hp; congruence | now exists p].
Qed.

Lemma select_all_false {A} (sel : list bool) (l : list A) :
  (forall b, In b sel -> b = false) -> select sel l = [].
Proof.
  revert l; induction sel as [|b sel IH]; intros l H; cbn [select]; [reflexivity|].
  destruct l as [|a l]; [reflexivity|].
  rewrite (H b) by now left. apply IH. intros b' Hb'. apply H. now right.
Qed.

Lemma mem_Z_iff x l : mem_Z x l = true <-> In x l.
Proof.
  unfold mem_Z. rewrite existsb_exists. split.
  - intros (y & Hy & E). apply Z.eqb_eq in E. now subst y.
  - intros H. exists x. split; [exact H|apply Z.eqb_refl].
Qed.

Lemma count_true_cons b sel : count_true (b :: sel) = if b then S (count_true sel) else count_true sel.
Proof. unfold count_true. cbn [filter]. destruct b; reflexivity. Qed.

(* everything of a row except the mask *)
Definition row_core (r : row) : name * name * list tkey * Z := (r_sample r, r_plate r, r_treats r, r_obs r).

Lemma with_mask_core b r : row_core (with_mask b r) = row_core r.
Proof. reflexivity. Qed.
Lemma with_mask_mask b r : r_mask (with_mask b r) = b.
Proof. reflexivity. Qed.

Lemma row_eq r1 r2 : row_core r1 = row_core r2 -> r_mask r1 = r_mask r2 -> r1 = r2.
Proof.
  destruct r1 as [a1 b1 c1 d1 e1], r2 as [a2 b2 c2 d2 e2]. unfold row_core.
  cbn [r_sample r_plate r_treats r_obs r_mask]. intros H ->. now inversion H.
Qed.

(* the new row reveal builds from (old row, its plate id) *)
Definition reveal_row (ids : list Z) (rp : row * Z) : row :=
  with_mask (r_mask (fst rp) || mem_Z (snd rp) ids) (fst rp).

Lemma reveal_rows_eq s ids :
  reveal_rows s ids = map (reveal_row ids) (combine (s_rows s) (s_pids s)).
Proof. unfold reveal_rows, reveal_sel. rewrite combine_map_r, map_map. reflexivity. Qed.

Lemma map_reveal_rows {B} (f : row -> B) s ids :
  (forall b r, f (with_mask b r) = f r) -> length (s_pids s) = length (s_rows s) ->
  map f (reveal_rows s ids) = map f (s_rows s).
Proof.
  intros Hf Hl. rewrite reveal_rows_eq, map_map.
  rewrite (map_ext _ (fun rp => f (fst rp))) by (intros rp; apply Hf).
  now rewrite <- map_map, map_fst_combine.
Qed.

(* the plate ids of a screen are the encoding of its plate names *)
Definition plates_encoded (s : screen) : Prop :=
  encode_names (map r_plate (s_rows s)) None 6 = Ok (s_pids s, s_pmap s).

Lemma constructed_inv s : constructed s -> plate_uniform (s_rows s) = true /\ plates_encoded s.
Proof.
  intros (rows & a & c & tm & sm & og & mg & H). destruct (mk_screen_inv H) as [tflat B].
  unfold plates_encoded. rewrite (b_rows B).
  split; [exact (b_uniform B)|exact (b_plates B)].
Qed.

Lemma constructed_plates s : constructed s -> plates_encoded s.
Proof. intros H. apply (constructed_inv s H). Qed.

Lemma constructed_uniform s : constructed s -> plate_uniform (s_rows s) = true.
Proof. intros H. apply (constructed_inv s H). Qed.

Lemma plates_encoded_length s : plates_encoded s -> length (s_pids s) = length (s_rows s).
Proof.
  intros H. apply encode_names_inv in H. destruct H as [_ H]. apply opt_map_all_length in H. now rewrite map_length in H.
Qed.

Lemma plates_encoded_lookup s r pid :
  plates_encoded s -> In (r, pid) (combine (s_rows s) (s_pids s)) -> nlookup (s_pmap s) (r_plate r) = Some pid.
Proof.
  intros H Hin. apply encode_names_inv in H. destruct H as [_ H].
  destruct (In_combine_nth _ _ _ _ Hin) as (i & Hr & Hp).
  apply opt_map_all_Some in H. apply (f_equal (fun l => nth_error l i)) in H.
  rewrite !nth_error_map, Hr, Hp in H. cbn [option_map] in H. now inversion H.
Qed.

Lemma plates_encoded_same s r1 p1 r2 p2 :
  plates_encoded s -> In (r1, p1) (combine (s_rows s) (s_pids s)) -> In (r2, p2) (combine (s_rows s) (s_pids s)) ->
  r_plate r1 = r_plate r2 -> p1 = p2.
Proof.
  intros H H1 H2 Hp. apply (plates_encoded_lookup s _ _ H) in H1. apply (plates_encoded_lookup s _ _ H) in H2.
  rewrite Hp in H1. congruence.
Qed.

Lemma plates_encoded_inj s r1 r2 p :
  plates_encoded s -> In (r1, p) (combine (s_rows s) (s_pids s)) -> In (r2, p) (combine (s_rows s) (s_pids s)) ->
  r_plate r1 = r_plate r2.
Proof.
  intros H H1 H2. pose proof (plates_encoded_lookup s _ _ H H1) as L1. pose proof (plates_encoded_lookup s _ _ H H2) as L2.
  apply encode_names_inv in H. destruct H as [Hm _]. rewrite Hm in L1, L2. eapply build_nmapping_inj; eassumption.
Qed.

Lemma rebuild_inv carry s rows s' :
  rebuild carry s rows = Ok s' ->
  s_rows s' = rows /\ plate_uniform rows = true /\
  encode_names (map r_plate rows) None 6 = Ok (s_pids s', s_pmap s') /\
  s_arity s' = s_arity s /\ s_ctrl s' = s_ctrl s /\ constructed s'.
Proof.
  unfold rebuild. intros H. pose proof H as H0. apply mk_screen_inv in H. destruct H as [tflat B].
  pose proof (b_rows B) as Hr. pose proof (b_uniform B) as Hu.
  pose proof (b_plates B) as Hp. rewrite norm_rows_tt in *.
  repeat split; auto.
  - exact (b_ar B).
  - exact (b_ctrl B).
  - do 7 eexists. exact H0.
Qed.

(* every operation of the lifecycle is a [rebuild] on rows that keep the plate names: it stores exactly these rows and
   derives the same plate ids again *)
Lemma rebuild_exact carry s rows s' :
  plates_encoded s -> map r_plate rows = map r_plate (s_rows s) -> rebuild carry s rows = Ok s' ->
  s_rows s' = rows /\ s_pids s' = s_pids s /\ s_pmap s' = s_pmap s.
Proof.
  intros Hs Hp H. apply rebuild_inv in H. destruct H as (Hr & _ & He & _).
  rewrite Hp in He. unfold plates_encoded in Hs. rewrite Hs in He. now inversion He.
Qed.

Lemma reveal_plates_inv v s ids s' :
  reveal_plates v s ids = Ok s' ->
  reveal_zero_guard s ids = false /\ existsb obs_is_nan (revealed_values s ids) = false /\
  rebuild (carry_reveal v) s (reveal_rows s ids) = Ok s'.
Proof.
  unfold reveal_plates. destruct (reveal_zero_guard s ids); [discriminate|].
  destruct (existsb obs_is_nan _); [discriminate|]. auto.
Qed.

Theorem reveal_exact v s ids s' :
  plates_encoded s -> reveal_plates v s ids = Ok s' ->
  s_rows s' = map (reveal_row ids) (combine (s_rows s) (s_pids s)) /\
  map row_core (s_rows s') = map row_core (s_rows s) /\
  s_pids s' = s_pids s /\ s_pmap s' = s_pmap s.
Proof.
  intros Hs H. apply reveal_plates_inv in H. destruct H as (_ & _ & H).
  pose proof (plates_encoded_length s Hs) as Hl.
  apply rebuild_exact in H; [|exact Hs|now apply map_reveal_rows].
  destruct H as (Hr & Hp & Hm). rewrite Hr. repeat split; auto.
  - apply reveal_rows_eq.
  - now apply map_reveal_rows.
Qed.

Theorem reveal_monotone v s ids s' i r r' :
  plates_encoded s -> reveal_plates v s ids = Ok s' ->
  nth_error (s_rows s) i = Some r -> nth_error (s_rows s') i = Some r' ->
  row_core r' = row_core r /\ (r_mask r = true -> r_mask r' = true).
Proof.
  intros Hs H Hr Hr'. destruct (reveal_exact v s ids s' Hs H) as (Hrows & _).
  rewrite Hrows, nth_error_map in Hr'.
  destruct (nth_error (combine (s_rows s) (s_pids s)) i) as [[r0 p]|] eqn:Hc; [|discriminate].
  apply nth_error_combine in Hc. destruct Hc as [Hc _]. rewrite Hr in Hc.
  inversion Hc; subst r0. inversion Hr'; subst r'.
  unfold reveal_row. cbn [fst snd]. split; [reflexivity|]. intros ->. reflexivity.
Qed.

Theorem reveal_mask_eq v s ids s' :
  plates_encoded s -> reveal_plates v s ids = Ok s' ->
  map r_mask (s_rows s') = map (fun rp => r_mask (fst rp) || mem_Z (snd rp) ids) (combine (s_rows s) (s_pids s)).
Proof.
  intros Hs H. destruct (reveal_exact v s ids s' Hs H) as (Hrows & _). rewrite Hrows, map_map. reflexivity.
Qed.

Theorem reveal_refuses_guard v s ids :
  reveal_zero_guard s ids = true -> reveal_plates v s ids = Err 8.
Proof. unfold reveal_plates. now intros ->. Qed.

Theorem reveal_refuses_zero v s ids :
  forallb obs_is_zero (revealed_values s ids) = true -> reveal_plates v s ids = Err 8.
Proof. intros H. apply reveal_refuses_guard. unfold reveal_zero_guard. now rewrite H. Qed.

Lemma revealed_value_plate s ids x :
  In x (revealed_values s ids) -> exists pid, In pid ids /\ In pid (s_pids s) /\ In x (plate_values s pid).
Proof.
  unfold revealed_values, reveal_sel, plate_values. rewrite in_map_iff. intros (r & <- & Hr).
  apply In_select_map in Hr. destruct Hr as (pid & Hin & Hm).
  exists pid. split; [now apply mem_Z_iff|]. split; [exact (in_combine_r _ _ _ _ Hin)|].
  apply in_map, In_select_map. exists pid. split; [exact Hin|apply Z.eqb_refl].
Qed.

Theorem reveal_refuses_unknown v s ids :
  (forall pid, In pid ids -> ~ In pid (s_pids s)) -> reveal_plates v s ids = Err 8.
Proof.
  intros H. apply reveal_refuses_zero, forallb_forall. intros x Hx.
  destruct (revealed_value_plate s ids x Hx) as (pid & Hid & Hpid & _). destruct (H pid Hid Hpid).
Qed.

Lemma obs_nan_not_zero b : obs_is_nan b = true -> obs_is_zero b = false.
Proof.
  intros H. unfold obs_is_zero.
  destruct (Z.eqb_spec b 0) as [->|_]; [vm_compute in H; discriminate|].
  destruct (Z.eqb_spec b two63) as [->|_]; [vm_compute in H; discriminate|reflexivity].
Qed.

(* a selection containing a NaN is refused: with the NaN error unless the zero guard (which the code tests first:
   some OTHER selected plate holds only zeros) already refused it - never because the selected values are jointly zero *)
Theorem reveal_refuses_nan v s ids :
  existsb obs_is_nan (revealed_values s ids) = true ->
  forallb obs_is_zero (revealed_values s ids) = false /\
  reveal_plates v s ids = Err (if reveal_zero_guard s ids then 8 else 9).
Proof.
  intros H. split.
  - destruct (forallb obs_is_zero (revealed_values s ids)) eqn:E; [|reflexivity].
    exfalso. apply existsb_exists in H. destruct H as (b & Hb & Hn).
    rewrite forallb_forall in E. specialize (E b Hb). now rewrite (obs_nan_not_zero b Hn) in E.
  - unfold reveal_plates. rewrite H. now destruct (reveal_zero_guard s ids).
Qed.

Theorem mask_exact v s s' :
  plates_encoded s -> mask_screen v s = Ok s' ->
  s_rows s' = map (with_mask false) (s_rows s) /\ s_pids s' = s_pids s /\ s_pmap s' = s_pmap s.
Proof. intros Hs H. apply (rebuild_exact _ _ _ _ Hs) in H; [exact H|]. now rewrite map_map. Qed.

Theorem unmask_exact v s s' :
  plates_encoded s -> unmask_screen v s = Ok s' ->
  s_rows s' = map (with_mask true) (s_rows s) /\ s_pids s' = s_pids s /\ s_pmap s' = s_pmap s.
Proof. intros Hs H. apply (rebuild_exact _ _ _ _ Hs) in H; [exact H|]. now rewrite map_map. Qed.

(* load_h5 hands the stored mappings to the constructor *)
Lemma save_load_rebuild s : save_load s = rebuild true s (s_rows s).
Proof. reflexivity. Qed.

Lemma save_load_inv s s' :
  save_load s = Ok s' ->
  s_rows s' = s_rows s /\ s_tmap s' = s_tmap s /\ s_smap s' = s_smap s /\ s_arity s' = s_arity s /\ s_ctrl s' = s_ctrl s /\
  encode_names (map r_plate (s_rows s)) None 6 = Ok (s_pids s', s_pmap s') /\ constructed s'.
Proof.
  rewrite save_load_rebuild. intros H. destruct (rebuild_inv _ _ _ _ H) as (Hr & _ & Hp & Ha & Hc & Hk).
  destruct (mk_screen_inv H) as [tflat B].
  destruct (encode_treatments_inv _ _ _ _ _ (b_treats B)) as [Ht _].
  destruct (encode_names_inv _ _ _ _ _ (b_samples B)) as [Hsm _].
  repeat split; assumption.
Qed.

Theorem save_load_exact s s' :
  plates_encoded s -> save_load s = Ok s' ->
  s_rows s' = s_rows s /\ s_pids s' = s_pids s /\ s_pmap s' = s_pmap s.
Proof. rewrite save_load_rebuild. intros Hs H. now apply (rebuild_exact _ _ _ _ Hs) in H. Qed.

Lemma fold_Err v ops t : fold_left (fun acc o => dor s <- acc; step v s o) ops (Err t) = Err t.
Proof. induction ops as [|o ops IH]; cbn [fold_left res_bind]; [reflexivity|exact IH]. Qed.

Lemma history_cons v o ops s0 : history v (o :: ops) s0 = dor s1 <- step v s0 o; history v ops s1.
Proof.
  unfold history. cbn [fold_left res_bind]. destruct (step v s0 o) as [s1|t]; cbn [res_bind]; [reflexivity|apply fold_Err].
Qed.

Lemma history_nil v s0 : history v [] s0 = Ok s0.
Proof. reflexivity. Qed.

Lemma history_invariant (P : screen -> Prop) v :
  (forall s o s', P s -> step v s o = Ok s' -> P s') ->
  forall ops s0 s, P s0 -> history v ops s0 = Ok s -> P s.
Proof.
  intros Hstep ops. induction ops as [|o ops IH]; intros s0 s H0 H.
  - rewrite history_nil in H. now inversion H; subst.
  - rewrite history_cons in H. destruct (step v s0 o) as [s1|t] eqn:E; cbn [res_bind] in H; [|discriminate].
    eapply IH; [|exact H]. eapply Hstep; eassumption.
Qed.

Lemma step_constructed v s o s' : step v s o = Ok s' -> constructed s'.
Proof.
  destruct o as [ids| | |]; cbn [step]; intros H.
  - apply reveal_plates_inv in H. destruct H as (_ & _ & H). now apply rebuild_inv in H.
  - now apply rebuild_inv in H.
  - now apply rebuild_inv in H.
  - now apply save_load_inv in H.
Qed.

Lemma history_constructed v ops s0 s : constructed s0 -> history v ops s0 = Ok s -> constructed s.
Proof.
  intros H0. apply (history_invariant constructed v); [|exact H0].
  intros s1 o s' _ Hs. eapply step_constructed; eassumption.
Qed.

Theorem atomic_invariant v ops s0 s :
  constructed s0 -> history v ops s0 = Ok s -> plate_uniform (s_rows s) = true.
Proof. intros H0 H. apply constructed_uniform. eapply history_constructed; eassumption. Qed.

Lemma holdout_split_inv p sel tr te :
  holdout_split p sel = Ok (tr, te) ->
  length sel = length (s_rows p) /\
  mk_screen (select (map negb sel) (s_rows p)) (s_arity p) (s_ctrl p) (Some (s_tmap p, true)) (Some (s_smap p, true)) true true = Ok tr /\
  mk_screen (map (with_mask true) (select sel (s_rows p))) (s_arity p) (s_ctrl p) (Some (s_tmap p, true)) (Some (s_smap p, true)) true true = Ok te.
Proof.
  unfold holdout_split. destruct (Nat.eqb (length sel) (length (s_rows p))) eqn:E; cbn [negb]; [|discriminate].
  apply Nat.eqb_eq in E.
  destruct (mk_screen (select (map negb sel) _) _ _ _ _ true true) as [tr'|] eqn:E1; cbn [res_bind]; [|discriminate].
  destruct (mk_screen (map (with_mask true) _) _ _ _ _ true true) as [te'|] eqn:E2; cbn [res_bind]; [|discriminate].
  intros H; inversion H; subst. auto.
Qed.

Lemma holdout_constructed p sel pr t : holdout_split p sel = Ok pr -> constructed (half t pr).
Proof.
  destruct pr as [tr te]. intros H. apply holdout_split_inv in H. destruct H as (_ & H1 & H2).
  destruct t; cbn [half fst snd]; do 7 eexists; eassumption.
Qed.

Lemma lifecycle_inv v p sel t ops s :
  lifecycle v p sel t ops = Ok s -> exists pr, holdout_split p sel = Ok pr /\ history v ops (half t pr) = Ok s.
Proof.
  unfold lifecycle. destruct (holdout_split p sel) as [pr|]; cbn [res_bind]; [|discriminate]. intros H. now exists pr.
Qed.

Theorem atomic_invariant_lifecycle v p sel t ops s :
  lifecycle v p sel t ops = Ok s -> plate_uniform (s_rows s) = true.
Proof.
  intros H. apply lifecycle_inv in H. destruct H as (pr & E & H).
  eapply atomic_invariant; [|exact H]. eapply holdout_constructed; exact E.
Qed.
