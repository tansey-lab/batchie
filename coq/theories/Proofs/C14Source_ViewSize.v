(* C14, one piece of Proofs/C14Source.v (conventions and objects: see there): ScreenBase.size on a ScreenSubset object *)
From Coq Require Import ZArith.
From Batchie Require Import Lib.Sexp Model.Views Generated.SrcViews.
Open Scope Z_scope.

Theorem src_view_size_is_model : forall v : view, src_view_size v = Ok (Z.of_nat (view_size v)).
Proof. reflexivity. Qed.
