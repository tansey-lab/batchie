(* One piece of Proofs/C18SourceArgs.v (which see): KVAppendAction.__call__ *)
From Coq Require Import ZArith List Lia.
From Batchie Require Import Lib.Sexp Lib.PyRt Model.Cli Generated.SrcCliArgs.
Import ListNotations.
Open Scope Z_scope.

Theorem src_kv_append_is_model : forall (dest : option (list (str * str))) (values : list str),
  src_kv_append dest values = kv_append dest values.
Proof.
  intros dest values. unfold src_kv_append, kv_append.
  destruct values as [|w [|w2 r]].
  - reflexivity.
  - cbn [length Z.of_nat Z.eqb Pos.of_succ_nat Pos.eqb]. change (list_get [w] 0) with (Ok w). cbn [res_bind].
    fold s_eq.
    destruct (str_split w s_eq 2) as [parts|t]; cbn [res_bind res_catch_tags].
    + destruct parts as [|k [|v [|x parts]]]; reflexivity.
    + destruct (zmem t [23; 24]); reflexivity.
  - replace (Z.of_nat (length (w :: w2 :: r)) =? 1) with false; [reflexivity|].
    symmetry. apply Z.eqb_neq. cbn [length]. lia.
Qed.
