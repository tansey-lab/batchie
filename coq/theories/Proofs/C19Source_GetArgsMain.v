(* C19: the translated get_args composed with the translated main().  C19_MAIN takes `args, remaining_args = get_args()` as the
   primitive "the parsed arguments (argv, extra)" and its linking theorems carry the hypothesis a_mode argv = modename_of md.
   Here that hypothesis is discharged: whatever the command line, when the TRANSLATED get_args returns, the record main() reads
   off the namespace (margs_of_ns) has a mode main() dispatches on, so main() IS the model's invocation in that mode with that
   batch size; its `else: raise ValueError("Unknown mode")` cannot be reached from the command line. *)
From Coq Require Import ZArith List.
From Batchie Require Import Model.Orchestrate Generated.SrcOrchArgs Generated.SrcOrchMain Proofs.C19Source_GetArgs Proofs.C19SourceMain.
Import ListNotations.
Open Scope Z_scope.

Theorem src_get_args_then_main : forall cmdline ns remaining,
  src_get_args cmdline = SOk (ns, remaining) ->
  exists (md : mode) (argv : margs),
    margs_of_ns ns = Some argv /\ a_mode argv = modename_of md
    /\ (~ In L_batch_size cmdline -> a_batch_size argv = 1)
    /\ forall n fuel extra f sched calls0, (length sched < fuel)%nat ->
         src_main n fuel argv extra (mkw f sched calls0)
         = mres_of_ires calls0 (invocation md true (a_batch_size argv) n f sched).
Proof.
  intros cmdline ns remaining H.
  destruct (src_get_args_gives_main_args _ _ _ H) as (md & b & scr & out & Hm & _ & _ & _ & Hb).
  exists md, (mka (modename_of md) b). repeat split; [exact Hm | exact Hb |].
  intros n fuel extra f sched calls0 Hf.
  apply src_main_is_invocation_window; [reflexivity | exact Hf].
Qed.

(* the ValueError branch of main() is dead code for every namespace get_args can return *)
Theorem src_get_args_mode_known : forall cmdline ns remaining argv z,
  src_get_args cmdline = SOk (ns, remaining) -> margs_of_ns ns = Some argv -> a_mode argv <> NOther z.
Proof.
  intros cmdline ns remaining argv z H Ha.
  destruct (src_get_args_gives_main_args _ _ _ H) as (md & b & scr & out & Hm & _).
  rewrite Hm in Ha. injection Ha as <-. destruct md; discriminate.
Qed.
