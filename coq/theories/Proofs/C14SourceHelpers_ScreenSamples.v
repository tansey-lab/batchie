(* C14, one piece of Proofs/C14SourceHelpers.v (which see): ScreenBase.unique_sample_ids / n_unique_samples on a Screen object *)
From Coq Require Import ZArith.
From Batchie Require Import Lib.Sexp Model.Views Generated.SrcPlates.
Open Scope Z_scope.

Theorem src_screen_unique_sample_ids_is_model : forall s : pyscreen,
  src_screen_unique_sample_ids s = Ok (screen_unique_sids (snd s)).
Proof. reflexivity. Qed.

Theorem src_screen_n_unique_samples_is_model : forall s : pyscreen,
  src_screen_n_unique_samples s = Ok (Z.of_nat (length (screen_unique_sids (snd s)))).
Proof. reflexivity. Qed.
