(* C01, one piece of Proofs/C01Source.v (which see): auxiliary facts for the ExperimentSpace methods (boolean masks over the columns
   of a row list, `.item()`, setdiff1d against one value) that mention no translated function *)
From Coq Require Import ZArith List Bool.
From Batchie Require Import Lib.Sexp Model.Encode Model.Screen Model.Persist Proofs.C01Sort
  Proofs.C01Source_Base.
Import ListNotations.
Open Scope Z_scope.

(* a[mask] where the array and the mask are two columns of ONE row list: the column of the rows the mask's test keeps *)
Lemma mask_of_columns {A B} (p : A -> bool) (f : A -> B) (l : list A) :
  map snd (filter fst (combine (map p l) (map f l))) = map f (filter p l).
Proof.
  induction l as [|a l IH]; [reflexivity|]. cbn [map combine filter fst snd].
  destruct (p a); cbn [map]; now rewrite IH.
Qed.

Lemma arr_mask_columns {A B} (p : A -> bool) (f : A -> B) (l : list A) :
  arr_mask (map f l) (map p l) = Ok (map f (filter p l)).
Proof. unfold arr_mask. now rewrite !map_length, Nat.eqb_refl, mask_of_columns. Qed.

(* np.setdiff1d(a, [v]) = the sorted distinct values of a other than v *)
Lemma setdiff1d_one a v : np_setdiff1d a [v] = sort_uniq Z.compare (filter (fun x => negb (x =? v)) a).
Proof. unfold np_setdiff1d. f_equal. apply filter_ext. intros x. cbn [existsb]. now rewrite orb_false_r. Qed.

Lemma setdiff1d_names_one a v : setdiff1d_names a [v] = sort_uniq name_cmp (filter (fun x => negb (name_eqb x v)) a).
Proof. unfold setdiff1d_names. f_equal. apply filter_ext. intros x. cbn [existsb]. now rewrite orb_false_r. Qed.

(* np.sort of what is already sorted and duplicate-free *)
Lemma np_sort_sort_uniq l : np_sort_Z (sort_uniq Z.compare l) = sort_uniq Z.compare l.
Proof. apply (sort_by_of_sorted _ Zcmp_spec), (sort_uniq_sorted _ Zcmp_spec). Qed.

(* a key that occurs once: the filter on it keeps exactly its row *)
Section KeyFilter.
Context {A B : Type} (f : A -> B) (eqb : B -> B -> bool) (Heq : forall a b, eqb a b = true <-> a = b).

Lemma filter_none (l : list A) k : ~ In k (map f l) -> filter (fun x => eqb (f x) k) l = [].
Proof.
  induction l as [|x l IH]; intros Hn; [reflexivity|]. cbn [filter].
  destruct (eqb (f x) k) eqn:E.
  - exfalso. apply Heq in E. apply Hn. cbn [map In]. now left.
  - apply IH. intros Hin. apply Hn. cbn [map In]. now right.
Qed.

Lemma filter_unique_key (l : list A) e : NoDup (map f l) -> In e l -> filter (fun x => eqb (f x) (f e)) l = [e].
Proof.
  induction l as [|x l IH]; intros Hnd Hin; [contradiction|].
  cbn [map] in Hnd. inversion Hnd as [|? ? Hnot Hnd']; subst. cbn [filter]. destruct Hin as [->|Hin].
  - replace (eqb (f e) (f e)) with true by (symmetry; now apply Heq). now rewrite (filter_none l (f e) Hnot).
  - destruct (eqb (f x) (f e)) eqn:E; [|now apply IH].
    exfalso. apply Heq in E. apply Hnot. rewrite E. now apply in_map.
Qed.

Lemma filter_singleton_In (l : list A) k e : filter (fun x => eqb (f x) k) l = [e] -> In e l /\ f e = k.
Proof.
  intros H. assert (Hin : In e (filter (fun x => eqb (f x) k) l)) by (rewrite H; now left).
  apply filter_In in Hin as [Hin E]. split; [exact Hin|now apply Heq].
Qed.
End KeyFilter.
