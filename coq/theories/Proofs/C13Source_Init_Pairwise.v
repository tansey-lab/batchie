(* C13: PairwisePlateGenerator.__init__ (Generated/SrcInits.v) stores what it is constructed with - (subset_size, anchor_size) *)
From Coq Require Import ZArith.
From Batchie Require Import Lib.Sexp Generated.SrcInits.
Open Scope Z_scope.

Theorem src_pairwise_init_stores : forall subset_size anchor_size : Z, src_pairwise_init subset_size anchor_size = Ok (subset_size, anchor_size).
Proof. reflexivity. Qed.
