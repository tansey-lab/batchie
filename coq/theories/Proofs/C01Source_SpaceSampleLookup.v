(* C01, one piece of Proofs/C01Source.v (which see): ExperimentSpace.sample_id_from_sample_name / sample_name_from_sample_id,
   and what they answer on the space of a constructed screen (mutually inverse; the id lies below n_unique_samples) *)
From Coq Require Import ZArith List.
From Batchie Require Import Lib.Sexp Model.Encode Model.Screen Model.Persist Generated.SrcSpaceMethods
  Proofs.C01Sort Proofs.C01Encode Proofs.C01Screen Proofs.C01Props Proofs.C01Source_SpaceBase.
Import ListNotations.
Open Scope Z_scope.

Theorem src_space_sample_id_is_model : forall (sp : space) (nm : name),
  src_space_sample_id_from_sample_name (pyspace_of sp) nm = space_sample_id sp nm.
Proof.
  intros sp nm. unfold src_space_sample_id_from_sample_name, space_sample_id, pyspace_of, pysp_smap, smap_cols, arr_eq_name.
  cbn [fst snd]. rewrite map_map, arr_mask_columns. cbn [res_bind].
  destruct (filter (fun e => name_eqb (fst e) nm) (sp_smap sp)) as [|e [|e' r]]; reflexivity.
Qed.

Theorem src_space_sample_name_is_model : forall (sp : space) (i : Z),
  src_space_sample_name_from_sample_id (pyspace_of sp) i = space_sample_name sp i.
Proof.
  intros sp i. unfold src_space_sample_name_from_sample_id, space_sample_name, pyspace_of, pysp_smap, smap_cols, arr_eq_id.
  cbn [fst snd]. rewrite map_map, arr_mask_columns. cbn [res_bind].
  destruct (filter (fun e => snd e =? i) (sp_smap sp)) as [|e [|e' r]]; reflexivity.
Qed.

Lemma space_sample_id_In (sp : space) nm i : space_sample_id sp nm = Ok i -> In (nm, i) (sp_smap sp).
Proof.
  unfold space_sample_id. destruct (filter (fun e => name_eqb (fst e) nm) (sp_smap sp)) as [|e [|e' r]] eqn:F; try discriminate.
  intros H. inversion H; subst i. apply (filter_singleton_In fst name_eqb name_eqb_eq) in F as [Hin <-]. now destruct e.
Qed.

Lemma space_sample_name_In (sp : space) nm i : space_sample_name sp i = Ok nm -> In (nm, i) (sp_smap sp).
Proof.
  unfold space_sample_name. destruct (filter (fun e => snd e =? i) (sp_smap sp)) as [|e [|e' r]] eqn:F; try discriminate.
  intros H. inversion H; subst nm. apply (filter_singleton_In snd Z.eqb Z.eqb_eq) in F as [Hin <-]. now destruct e.
Qed.

(* on a mapping without a repeated name / a repeated id the lookups find every entry *)
Lemma In_space_sample_id (sp : space) nm i : NoDup (map fst (sp_smap sp)) -> In (nm, i) (sp_smap sp) -> space_sample_id sp nm = Ok i.
Proof.
  intros Hnd Hin. unfold space_sample_id.
  pose proof (filter_unique_key fst name_eqb name_eqb_eq (sp_smap sp) (nm, i) Hnd Hin) as F. cbn [fst] in F. now rewrite F.
Qed.

Lemma In_space_sample_name (sp : space) nm i : NoDup (map snd (sp_smap sp)) -> In (nm, i) (sp_smap sp) -> space_sample_name sp i = Ok nm.
Proof.
  intros Hnd Hin. unfold space_sample_name.
  pose proof (filter_unique_key snd Z.eqb Z.eqb_eq (sp_smap sp) (nm, i) Hnd Hin) as F. cbn [snd] in F. now rewrite F.
Qed.

Theorem space_sample_lookups_inverse (sp : space) : NoDup (map fst (sp_smap sp)) -> NoDup (map snd (sp_smap sp)) ->
  forall nm i, space_sample_id sp nm = Ok i <-> space_sample_name sp i = Ok nm.
Proof.
  intros Hn Hi nm i. split; intros H.
  - now apply In_space_sample_name, space_sample_id_In.
  - now apply In_space_sample_id, space_sample_name_In.
Qed.

Section OnScreen.
Variables (rows : list row) (a : nat) (ctrl : name) (tm : option (tmapping * bool)) (sm : option (nmapping * bool))
          (og mg : bool) (s : screen).
Hypothesis H : mk_screen rows a ctrl tm sm og mg = Ok s.
(* a supplied sample mapping must not repeat a name or an id (the mappings batchie builds never do) *)
Hypothesis Hsm : match sm with Some (m, _) => NoDup (map fst m) /\ NoDup (map snd m) | None => True end.

Lemma screen_smap_NoDup : NoDup (map fst (s_smap s)) /\ NoDup (map snd (s_smap s)).
Proof.
  rewrite (ms_smap (mk_screen_spec H)). destruct sm as [[m b]|]; [exact Hsm|].
  split; [apply nbuilt_keys_NoDup | apply nbuilt_ids_NoDup].
Qed.

(* in terms of the TRANSLATED methods on the object from_screen builds: the id of a name is i exactly when the name of i is that name *)
Theorem src_sample_lookups_inverse : forall nm i,
  src_space_sample_id_from_sample_name (pyspace_of (space_of_screen s)) nm = Ok i
  <-> src_space_sample_name_from_sample_id (pyspace_of (space_of_screen s)) i = Ok nm.
Proof.
  intros nm i. rewrite src_space_sample_id_is_model, src_space_sample_name_is_model.
  apply space_sample_lookups_inverse; apply screen_smap_NoDup.
Qed.

(* every sample of the screen has an id: the one its experiments carry *)
Theorem src_sample_id_of_row : forall r, In r (s_rows s) ->
  src_space_sample_id_from_sample_name (pyspace_of (space_of_screen s)) (r_sample r) = Ok (nid_of (s_smap s) (r_sample r)).
Proof.
  intros r Hr. rewrite src_space_sample_id_is_model. apply In_space_sample_id; [apply screen_smap_NoDup|].
  exact (sample_entry H r Hr).
Qed.
End OnScreen.

(* an id the method returns lies below n_unique_samples (mapping built by the constructor) *)
Theorem src_sample_id_bounded : forall rows a ctrl tm og mg s nm i,
  mk_screen rows a ctrl tm None og mg = Ok s ->
  src_space_sample_id_from_sample_name (pyspace_of (space_of_screen s)) nm = Ok i -> 0 <= i < space_n_samples s.
Proof.
  intros rows a ctrl tm og mg s nm i H Hi. rewrite src_space_sample_id_is_model in Hi. apply space_sample_id_In in Hi.
  unfold space_of_screen in Hi. cbn [sp_smap] in Hi.
  rewrite (space_samples_built _ _ _ _ _ _ _ H). rewrite (smap_built _ _ _ _ _ _ _ H) in Hi.
  apply (nbuilt_dense (map r_sample (s_rows s)) i). now exists nm.
Qed.
