(* C14, one piece of Proofs/C14Source.v (conventions and objects: see there): ScreenSubset.invert *)
From Coq Require Import List.
From Batchie Require Import Model.Views Generated.SrcViews
  Proofs.PyRtLemmas Proofs.C14Source_ViewInit.
Import ListNotations.
Open Scope Z_scope.

Theorem src_view_invert_is_model : forall v : view, src_view_invert v = view_invert v.
Proof. intros v. unfold src_view_invert. rewrite src_view_init_is_model, res_bind_ret. reflexivity. Qed.
