(* C14, one piece of Proofs/C14SourceHelpers.v (which see): Plate.__lt__ *)
From Coq Require Import List Arith Lia.
From Batchie Require Import Lib.Sexp Model.Views Generated.SrcPlates
  Proofs.C14Source_ViewSize.
Import ListNotations.
Open Scope Z_scope.

Theorem src_plate_lt_is_model : forall a b : view, src_plate_lt a b = Ok (view_lt a b).
Proof.
  intros a b. unfold src_plate_lt, view_lt. rewrite !src_view_size_is_model. cbn [res_bind]. f_equal.
  destruct (Nat.ltb_spec (view_size a) (view_size b)); lia.
Qed.
