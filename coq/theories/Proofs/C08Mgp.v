(* C08: the multiplicative-gamma-process block.  With tau = cumprod gam, the
   draw of gam[dd] is Gamma(shape, rate) with (shape - 1, rate) the coefficients of -2 ln gam[dd]
   and 2 gam[dd] in the energy.  Needs ln (a b) = ln a + ln b on positive numbers. *)
From Coq Require Import List QArith Qcanon Lia Lqa.
From Batchie Require Import Lib.Num Lib.NumP Model.Gibbs Model.GibbsSpec Proofs.C08Sums.
Import ListNotations.
Open Scope Qc_scope.

Lemma vnth_overflow v k : (length v <= k)%nat -> vnth v k = 0.
Proof. intros H. unfold vnth. now apply nth_overflow. Qed.

Lemma cumprod_from_length acc l : length (cumprod_from acc l) = length l.
Proof. revert acc; induction l as [|a l IH]; intros acc; cbn [cumprod_from length]; auto. Qed.

Lemma cumprod_from_scale c acc l k : vnth (cumprod_from (c * acc) l) k = c * vnth (cumprod_from acc l) k.
Proof.
  revert acc k; induction l as [|a l IH]; intros acc k; cbn [cumprod_from].
  - rewrite !vnth_nil. ring.
  - destruct k as [|k]; unfold vnth; cbn [nth]; [ring|]. fold (vnth (cumprod_from (c * acc * a) l) k).
    fold (vnth (cumprod_from (acc * a) l) k). rewrite <- IH. f_equal. f_equal. ring.
Qed.

(* components from dd on are linear in gam[dd] *)
Lemma cumprod_from_set_ge acc l dd t k :
  (dd < length l)%nat -> (dd <= k)%nat ->
  vnth (cumprod_from acc (set_nth dd t l)) k = t * vnth (cumprod_from acc (set_nth dd 1 l)) k.
Proof.
  revert acc dd k; induction l as [|a l IH]; intros acc dd k Hd Hk; [cbn in Hd; lia|].
  destruct dd as [|dd]; cbn [set_nth cumprod_from].
  - destruct k as [|k]; unfold vnth; cbn [nth]; [ring|].
    fold (vnth (cumprod_from (acc * t) l) k). fold (vnth (cumprod_from (acc * 1) l) k).
    replace (acc * t) with (t * (acc * 1)) by ring. apply cumprod_from_scale.
  - destruct k as [|k]; [lia|]. unfold vnth; cbn [nth]. apply IH; cbn [length] in Hd; lia.
Qed.

(* components before dd do not depend on gam[dd] *)
Lemma cumprod_from_set_lt acc l dd t k :
  (k < dd)%nat -> vnth (cumprod_from acc (set_nth dd t l)) k = vnth (cumprod_from acc l) k.
Proof.
  revert acc dd k; induction l as [|a l IH]; intros acc dd k Hk; [reflexivity|].
  destruct dd as [|dd]; [lia|]. cbn [set_nth cumprod_from].
  destruct k as [|k]; unfold vnth; cbn [nth]; [reflexivity|]. apply IH. lia.
Qed.

Lemma cumprod_from_pos acc l k :
  0 < acc -> Forall (fun x => 0 < x) l -> (k < length l)%nat -> 0 < vnth (cumprod_from acc l) k.
Proof.
  revert acc k; induction l as [|a l IH]; intros acc k Ha Hl Hk; [cbn in Hk; lia|].
  inversion Hl as [|? ? Ha' Hl']; subst. cbn [cumprod_from]. destruct k as [|k]; unfold vnth; cbn [nth].
  - now apply Qc_mul_pos.
  - apply IH; [now apply Qc_mul_pos|exact Hl'|cbn [length] in Hk; lia].
Qed.

Lemma Forall_set_nth {A} (P : A -> Prop) i x l : P x -> Forall P l -> Forall P (set_nth i x l).
Proof.
  revert i; induction l as [|a l IH]; intros i Hx Hl; cbn [set_nth]; [constructor|].
  inversion Hl; subst. destruct i; constructor; auto.
Qed.

Section Mgp.
Variable ln : Qc -> Qc.
Hypothesis ln_mul : forall a b, 0 < a -> 0 < b -> ln (a * b) = ln a + ln b.
Variable g : cfg.
Variable d : data.
Notation D := (c_D g).

(* the state in which tau is the cumulative product of gam *)
Definition tie (s : st) : st := set_tau s (cumprod (gam s)).
Definition upd_gam (s : st) (dd : nat) (t : Qc) : st := tie (set_gam s (set_nth dd t (gam s))).

Theorem gamma_block_gam s dd :
  Forall (fun x => 0 < x) (gam s) -> length (gam s) = D -> (dd < D)%nat ->
  forall t t', 0 < t -> 0 < t' ->
    energy ln g d (upd_gam s dd t) - energy ln g d (upd_gam s dd t')
    = - (qofZ 2 * (gam_shape g dd - 1) * (ln t - ln t')) + qofZ 2 * (1 + gam_half_ss g s dd + jitter) * (t - t').
Proof.
  intros Hpos Hlen Hdd t t' Ht Ht'.
  set (R := fun k => vnth (cumprod (set_nth dd 1 (gam s))) k).
  assert (Hdl : (dd < length (gam s))%nat) by lia.
  assert (HR : forall k, (dd <= k)%nat -> (k < D)%nat -> 0 < R k).
  { intros k _ Hk. unfold R, cumprod. apply cumprod_from_pos.
    - unfold Qclt. vm_compute. reflexivity.
    - apply Forall_set_nth; [unfold Qclt; vm_compute; reflexivity|exact Hpos].
    - rewrite set_nth_length. lia. }
  assert (Hge : forall z k, (dd <= k)%nat -> vnth (cumprod (set_nth dd z (gam s))) k = z * R k).
  { intros z k Hk. unfold R, cumprod. now apply cumprod_from_set_ge. }
  assert (Hlt : forall z k, (k < dd)%nat -> vnth (cumprod (set_nth dd z (gam s))) k = vnth (cumprod (gam s)) k).
  { intros z k Hk. unfold cumprod. now apply cumprod_from_set_lt. }
  assert (Hcode : forall k, (dd <= k)%nat -> vnth (cumprod (gam s)) k / vnth (gam s) dd = R k).
  { intros k Hk. rewrite <- (set_nth_same dd 0 (gam s)) at 1. fold (vnth (gam s) dd). rewrite Hge by exact Hk.
    assert (Hg : 0 < vnth (gam s) dd).
    { rewrite Forall_forall in Hpos. apply Hpos. unfold vnth. now apply nth_In. }
    field. intros E. rewrite E in Hg. apply Qclt_not_eq in Hg. now apply Hg. }
  (* the two energy components that mention gam / tau *)
  assert (HW : forall z, 0 < z ->
     e_W ln g (upd_gam s dd z)
     = (sumn (c_ncl g) (fun c => sumn dd (fun k => vnth (cumprod (gam s)) k * qsq (vnth (rnth (W s) c) k)))
        + z * sumn (c_ncl g) (fun c => sumn (D - dd) (fun j => R (dd + j)%nat * qsq (vnth (rnth (W s) c) (dd + j)%nat))))
       - qnat (c_ncl g) * (sumn dd (fun k => ln (vnth (cumprod (gam s)) k))
                           + (qnat (D - dd) * ln z + sumn (D - dd) (fun j => ln (R (dd + j)%nat))))).
  { intros z Hz. unfold e_W, upd_gam, tie. cbn [tau W set_tau set_gam gam]. f_equal.
    - rewrite <- sumn_scale, <- sumn_add. apply sumn_ext; intros c _.
      rewrite (sumn_split D dd) by lia. rewrite <- sumn_scale. f_equal.
      + apply sumn_ext; intros k Hk. now rewrite Hlt by exact Hk.
      + apply sumn_ext; intros j Hj. rewrite Hge by lia. ring.
    - f_equal. rewrite (sumn_split D dd) by lia. f_equal.
      + apply sumn_ext; intros k Hk. now rewrite Hlt by exact Hk.
      + rewrite <- sumn_const, <- sumn_add. apply sumn_ext; intros j Hj. rewrite Hge by lia.
        apply ln_mul; [exact Hz|apply HR; lia]. }
  assert (HH : forall z,
     e_hyper ln g (upd_gam s dd z)
     = e_gamma ln (prec s) (c_a0 g) (c_b0 g + jitter) + e_gamma ln (tau0 s) (c_a0 g) (c_b0 g + jitter)
       + (sumn D (fun l => e_gamma ln (vnth (gam s) l) (match l with O => qofZ 2 | _ => qofZ 3 end) (1 + jitter))
          - e_gamma ln (vnth (gam s) dd) (match dd with O => qofZ 2 | _ => qofZ 3 end) (1 + jitter)
          + e_gamma ln z (match dd with O => qofZ 2 | _ => qofZ 3 end) (1 + jitter))).
  { intros z. unfold e_hyper, upd_gam, tie. cbn [prec tau0 gam set_tau set_gam]. f_equal.
    exact (sumn_set_vnth D dd z (gam s) (fun l a => e_gamma ln a (match l with O => qofZ 2 | _ => qofZ 3 end) (1 + jitter)) Hdd Hdl). }
  unfold energy. rewrite (HW t Ht), (HW t' Ht'), (HH t), (HH t').
  change (e_lik ln g d (upd_gam s dd t)) with (e_lik ln g d s). change (e_lik ln g d (upd_gam s dd t')) with (e_lik ln g d s).
  unfold e_W0, e_V0. cbn [upd_gam tie set_tau set_gam tau0 W0 V0 V2 V1 phi0 phi2 phi1 eta0 eta2 eta1].
  unfold gam_half_ss, gam_shape, e_gamma.
  rewrite (sumn_ext (c_ncl g) (fun c => sumn (D - dd) (fun j => vnth (cumprod (gam s)) (dd + j) / vnth (gam s) dd * qsq (vnth (rnth (W s) c) (dd + j))))
                    (fun c => sumn (D - dd) (fun j => R (dd + j)%nat * qsq (vnth (rnth (W s) c) (dd + j)%nat))))
    by (intros c _; apply sumn_ext; intros j _; rewrite Hcode by lia; reflexivity).
  field_half.
Qed.

(* the head draw of the gamma-process program is exactly that draw *)
Lemma prog_gam_head orc dd r s :
  exists k, prog_gam g d orc (dd :: r) s = Draw (DGamma (gam_shape g dd) (1 + gam_half_ss g s dd + jitter)) k.
Proof. eexists. reflexivity. Qed.
End Mgp.
