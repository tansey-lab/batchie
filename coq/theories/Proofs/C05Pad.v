(* C05: padding.  Reading a padded array with the padding value as the
   out-of-range default is the same as reading the ragged original; shapes of the padded
   arrays. *)
From Coq Require Import List Qcanon Lia Arith Permutation.
From Batchie Require Import Lib.Num Lib.NumP Lib.ListX Model.Dbal.
Import ListNotations.

(* appending copies of the default changes no read *)
Lemma nth_pad_row {A} (pad : A) w r j : nth j (pad_row pad w r) pad = nth j r pad.
Proof. apply nth_app_repeat. Qed.

Lemma get2_nil {A} (d : A) i j : get2 d [] i j = d.
Proof. unfold get2. destruct i; cbn [nth]; now destruct j. Qed.

(* nor does appending blank rows: a read beyond the rows yields the default either way *)
Lemma get2_app_blank {A} (pad : A) a w m i j : get2 pad (a ++ repeat (repeat pad w) m) i j = get2 pad a i j.
Proof.
  unfold get2. destruct (Nat.lt_ge_cases i (length a)) as [Hlt|Hge].
  - now rewrite app_nth1.
  - rewrite app_nth2, (nth_overflow a) by exact Hge.
    destruct (nth_in_or_default (i - length a) (repeat (repeat pad w) m) []) as [Hin| ->].
    + apply repeat_spec in Hin. rewrite Hin, nth_repeat. now destruct j.
    + reflexivity.
Qed.

Lemma get2_pad2 {A} (pad : A) h w a i j : get2 pad (pad2 pad h w a) i j = get2 pad a i j.
Proof.
  unfold pad2. rewrite get2_app_blank. unfold get2.
  destruct (Nat.lt_ge_cases i (length a)) as [Hlt|Hge].
  - rewrite (nth_map_lt _ _ [] []) by exact Hlt. apply nth_pad_row.
  - now rewrite (nth_overflow (map _ a)), (nth_overflow a) by (rewrite ?map_length; exact Hge).
Qed.

Lemma get3_map {A B} (f : B -> list (list A)) (l : list B) d0 d p i j :
  f d0 = [] -> get3 d (map f l) p i j = get2 d (f (nth p l d0)) i j.
Proof. intros H. unfold get3. now rewrite <- (map_nth f l d0 p), H. Qed.

Lemma get3_pad_ragged {A} (pad : A) arrays p i j :
  get3 pad (pad_ragged pad arrays) p i j = get3 pad arrays p i j.
Proof.
  unfold get3, pad_ragged. destruct (Nat.lt_ge_cases p (length arrays)) as [Hlt|Hge].
  - rewrite (nth_map_lt _ _ [] []) by exact Hlt. apply get2_pad2.
  - now rewrite !nth_overflow by (rewrite ?map_length; exact Hge).
Qed.

Lemma max_list_ge l x : In x l -> (x <= max_list l)%nat.
Proof.
  induction l as [|a l IH]; cbn [max_list fold_right In]; [contradiction|].
  intros [->|H]; [apply Nat.le_max_l|]. etransitivity; [now apply IH|apply Nat.le_max_r].
Qed.

Lemma length_pad_row {A} (pad : A) w r : (length r <= w)%nat -> length (pad_row pad w r) = w.
Proof. intros H. unfold pad_row. rewrite app_length, repeat_length. lia. Qed.

Lemma length_pad2 {A} (pad : A) h w a : (length a <= h)%nat -> length (pad2 pad h w a) = h.
Proof. intros H. unfold pad2. rewrite app_length, map_length, repeat_length. lia. Qed.

(* width of the first row of a padded array *)
Lemma width_pad2 {A} (pad : A) h w a :
  (0 < h)%nat -> (length a <= h)%nat -> (length (hd [] a) <= w)%nat ->
  length (hd [] (pad2 pad h w a)) = w.
Proof.
  intros Hh Ha Hw. unfold pad2. destruct a as [|r a]; cbn [map app hd length] in *.
  - rewrite Nat.sub_0_r. destruct h; [lia|]. cbn [repeat hd]. apply repeat_length.
  - now apply length_pad_row.
Qed.

Lemma shape3_pad_ragged {A} (pad : A) a arrays :
  (0 < fst (shape2 a))%nat ->
  shape3 (pad_ragged pad (a :: arrays))
  = (S (length arrays),
     max_list (map (fun a => fst (shape2 a)) (a :: arrays)),
     max_list (map (fun a => snd (shape2 a)) (a :: arrays))).
Proof.
  intros Hpos. unfold shape3, pad_ragged. cbn [map hd length].
  set (h := max_list _). set (w := max_list _).
  assert (Hh : (length a <= h)%nat) by (apply (max_list_ge (_ :: _)); now left).
  assert (Hw : (length (hd [] a) <= w)%nat) by (apply (max_list_ge (_ :: _)); now left).
  cbn [shape2 fst] in Hpos.
  rewrite map_length, length_pad2, width_pad2 by (assumption || lia). reflexivity.
Qed.

Lemma max_list_map_const {A} (l : list A) c : l <> [] -> max_list (map (fun _ => c) l) = c.
Proof.
  induction l as [|x l IH]; intros Hne; [congruence|]. cbn [map max_list fold_right].
  destruct l as [|y l]; [cbn; lia|]. fold (max_list (map (fun _ => c) (y :: l))). rewrite IH by discriminate. lia.
Qed.

(* the padded array of arrays that all have T rows: one block per array, T rows, the widest array's columns *)
Lemma shape3_pad_ragged_rows {A} (pad : A) T arrays ws :
  (0 < T)%nat -> arrays <> [] -> map shape2 arrays = map (fun w => (T, w)) ws ->
  shape3 (pad_ragged pad arrays) = (length arrays, T, max_list ws).
Proof.
  intros HT Hne Hs.
  assert (Hws : ws <> []) by (intros ->; destruct arrays; [congruence|discriminate]).
  destruct arrays as [|a rest]; [congruence|]. rewrite shape3_pad_ragged.
  - rewrite <- (map_map shape2 fst), <- (map_map shape2 snd), Hs, !map_map. cbn [fst snd].
    now rewrite map_id, max_list_map_const by exact Hws.
  - destruct ws; [congruence|]. injection Hs as Hl _ _. cbn [shape2 fst]. now rewrite Hl.
Qed.

Lemma shape2_map_some (a : list (list Qc)) : shape2 (map (map Some) a) = shape2 a.
Proof. unfold shape2. rewrite map_length. destruct a; cbn [map hd length]; [reflexivity|now rewrite map_length]. Qed.

Lemma nth_map_Some {A} (l : list A) e d :
  nth e (map Some l) None = if (e <? length l)%nat then Some (nth e l d) else None.
Proof.
  destruct (Nat.ltb_spec e (length l)) as [H|H]; [now apply (nth_map_lt Some)|].
  apply nth_overflow. now rewrite map_length.
Qed.

Lemma map_seq_nth {A B} (g : A -> B) (l : list A) d :
  map (fun p => g (nth p l d)) (seq 0 (length l)) = map g l.
Proof.
  induction l as [|a l IH]; cbn [length seq map]; [reflexivity|].
  cbn [nth]. f_equal. rewrite <- seq_shift, map_map. exact IH.
Qed.

Lemma qsum_map_zero {A} (f : A -> Qc) l : (forall x, In x l -> f x = 0%Qc) -> qsum (map f l) = 0%Qc.
Proof.
  intros H. apply qsum_zero. apply Forall_forall. intros y Hy.
  apply in_map_iff in Hy as (x & <- & Hx). now apply H.
Qed.

(* a sum over [0, W) whose terms vanish from E on is the sum of the first E terms *)
Lemma qsum_seq_trunc (f g : nat -> Qc) E W :
  (E <= W)%nat -> (forall e, (e < E)%nat -> f e = g e) -> (forall e, (E <= e)%nat -> f e = 0%Qc) ->
  qsum (map f (seq 0 W)) = qsum (map g (seq 0 E)).
Proof.
  intros Hle Hin Hz. replace W with (E + (W - E))%nat by lia.
  rewrite seq_app, map_app, qsum_app. cbn [Nat.add].
  rewrite (qsum_map_zero f (seq E (W - E))) by (intros e He; apply in_seq in He; apply Hz; lia).
  rewrite (qsum_map_ext f g) by (intros e He; apply in_seq in He; apply Hin; lia). ring.
Qed.
