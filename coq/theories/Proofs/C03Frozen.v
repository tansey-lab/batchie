(* C03: ids and mappings along a lifecycle.  Positive theorems for call sites that pass the mappings on. *)
From Coq Require Import ZArith List Lia.
From Batchie Require Import Lib.Sexp Model.Encode Model.Screen Model.Reveal Model.Holdout
  Proofs.C03Base Proofs.C03Screen Proofs.C12Reveal.
Import ListNotations.
Open Scope Z_scope.

Definition dummy_row : row := {| r_sample := []; r_plate := []; r_treats := []; r_obs := 0; r_mask := false |}.

(* what row i of a screen is, and which ids the screen gives it *)
Definition sample_at (s : screen) (i : nat) : name := r_sample (nth i (s_rows s) dummy_row).
Definition treat_at (s : screen) (i c : nat) : tkey := nth c (r_treats (nth i (s_rows s) dummy_row)) ([], 0).
Definition sample_id_at (s : screen) (i : nat) : Z := nth i (s_sids s) 0.
Definition treat_id_at (s : screen) (i c : nat) : Z := nth c (nth i (s_tids s) []) 0.

(* every id of [s] is the entry of the mappings (tm, sm) for the row's name / (name, dose) *)
Definition ids_by (tm : tmapping) (sm : nmapping) (s : screen) : Prop :=
  (forall i, (i < length (s_rows s))%nat -> nlookup sm (sample_at s i) = Some (sample_id_at s i)) /\
  (forall i c, (i < length (s_rows s))%nat -> (c < s_arity s)%nat ->
               tlookup tm (treat_at s i c) = Some (treat_id_at s i c)).

(* [s] carries the parent's mappings and numbers its rows by them *)
Definition frozen_to (p s : screen) : Prop :=
  s_tmap s = s_tmap p /\ s_smap s = s_smap p /\ ids_by (s_tmap p) (s_smap p) s.

(* does the call site of this operation pass the mappings on? *)
Definition carries (v : variant) (o : op) : bool :=
  match o with
  | Reveal _ => carry_reveal v
  | Mask => carry_mask v
  | Unmask => carry_unmask v
  | SaveLoad => true
  end.

Lemma constructed_ids s : constructed s -> ids_by (s_tmap s) (s_smap s) s.
Proof.
  intros Hc. destruct (constructed_lookups s Hc) as (Hs & tflat & Hk & Ht). split.
  - intros i Hi. unfold sample_at, sample_id_at. rewrite <- (map_nth r_sample).
    apply (opt_map_all_nth _ _ _ _ _ _ Hs). now rewrite map_length.
  - intros i c Hi Hc'. unfold treat_at, treat_id_at. rewrite Ht, unflatten_cols_nth by assumption.
    rewrite <- (the_tkeys_nth (s_arity s)) by assumption.
    apply (opt_map_all_nth _ _ _ _ _ _ Hk). rewrite the_tkeys_length. nia.
Qed.

Lemma supplied_maps rows a c tm bt sm bs og mg s :
  mk_screen rows a c (Some (tm, bt)) (Some (sm, bs)) og mg = Ok s -> s_tmap s = tm /\ s_smap s = sm.
Proof.
  intros H. destruct (mk_screen_inv H) as [tflat B]. split.
  - exact (proj1 (encode_treatments_inv _ _ _ _ _ (b_treats B))).
  - exact (proj1 (encode_names_inv _ _ _ _ _ (b_samples B))).
Qed.

(* [s] came out of the constructor with [p]'s two mappings: what a call site that passes the mappings on preserves,
   and all that is needed for [frozen_to p s] *)
Definition inherits (p s : screen) : Prop := s_tmap s = s_tmap p /\ s_smap s = s_smap p /\ constructed s.

Lemma inherits_frozen p s : inherits p s -> frozen_to p s.
Proof.
  intros (Ht & Hs & Hc). split; [exact Ht|]. split; [exact Hs|].
  rewrite <- Ht, <- Hs. now apply constructed_ids.
Qed.

Lemma split_inherits p sel pr t : holdout_split p sel = Ok pr -> inherits p (half t pr).
Proof.
  intros H. pose proof (holdout_constructed p sel pr t H) as Hc.
  destruct pr as [tr te]. apply holdout_split_inv in H. destruct H as (_ & H1 & H2).
  apply supplied_maps in H1. apply supplied_maps in H2. unfold inherits. destruct t; cbn [half fst snd] in *; tauto.
Qed.

(* every operation ends in ONE constructor call: on some rows, with the old arity and control name, and with the old
   mappings exactly when its call site carries them *)
Lemma step_is_mk_screen v s o s' :
  step v s o = Ok s' ->
  exists rows, mk_screen rows (s_arity s) (s_ctrl s) (tmap_arg (carries v o) s) (smap_arg (carries v o) s) true true = Ok s'.
Proof.
  destruct o as [ids| | |]; cbn [carries step]; intros H.
  - apply reveal_plates_inv in H. destruct H as (_ & _ & H). now exists (reveal_rows s ids).
  - now exists (map (with_mask false) (s_rows s)).
  - now exists (map (with_mask true) (s_rows s)).
  - now exists (s_rows s).
Qed.

Lemma step_keeps_maps v s o s' :
  carries v o = true -> step v s o = Ok s' -> s_tmap s' = s_tmap s /\ s_smap s' = s_smap s.
Proof.
  intros Hc H. destruct (step_is_mk_screen v s o s' H) as [rows E]. rewrite Hc in E.
  exact (supplied_maps _ _ _ _ _ _ _ _ _ _ E).
Qed.

Lemma step_inherits v p s o s' : carries v o = true -> inherits p s -> step v s o = Ok s' -> inherits p s'.
Proof.
  intros Hc (Ht & Hs & _) H. destruct (step_keeps_maps v s o s' Hc H) as [Ht' Hs'].
  repeat split; [congruence|congruence|exact (step_constructed v s o s' H)].
Qed.

Lemma history_invariant_in (P : screen -> Prop) v ops :
  (forall s o s', In o ops -> P s -> step v s o = Ok s' -> P s') ->
  forall s0 s, P s0 -> history v ops s0 = Ok s -> P s.
Proof.
  induction ops as [|o ops IH]; intros Hstep s0 s H0 H.
  - rewrite history_nil in H. now inversion H; subst.
  - rewrite history_cons in H. destruct (step v s0 o) as [s1|t] eqn:E; cbn [res_bind] in H; [|discriminate].
    eapply IH; [| |exact H].
    + intros s2 o2 s3 Hin. apply Hstep. now right.
    + eapply Hstep; [now left|exact H0|exact E].
Qed.

Theorem split_frozen p sel pr t : holdout_split p sel = Ok pr -> frozen_to p (half t pr).
Proof. intros H. now apply inherits_frozen, split_inherits with sel. Qed.

Theorem ids_frozen_per_op v p sel pr t ops s :
  holdout_split p sel = Ok pr ->
  (forall o, In o ops -> carries v o = true) ->
  history v ops (half t pr) = Ok s -> frozen_to p s.
Proof.
  intros Hsplit Hcar H. apply inherits_frozen.
  revert H. apply (history_invariant_in (inherits p) v ops).
  - intros s1 o s2 Hin. apply step_inherits, Hcar, Hin.
  - exact (split_inherits p sel pr t Hsplit).
Qed.

Lemma carries_all o : carries (carry_mappings true) o = true.
Proof. now destruct o. Qed.

Theorem ids_frozen p sel test ops s :
  lifecycle (carry_mappings true) p sel test ops = Ok s -> frozen_to p s.
Proof.
  unfold lifecycle. destruct (holdout_split p sel) as [pr|] eqn:E; cbn [res_bind]; [|discriminate].
  intros H. eapply ids_frozen_per_op; [exact E| |exact H]. intros o _. apply carries_all.
Qed.

Theorem parent_frozen p : constructed p -> frozen_to p p.
Proof. intros H. now apply inherits_frozen. Qed.

Theorem same_name_same_id p s1 s2 :
  frozen_to p s1 -> frozen_to p s2 ->
  (forall i j, (i < length (s_rows s1))%nat -> (j < length (s_rows s2))%nat ->
               sample_at s1 i = sample_at s2 j -> sample_id_at s1 i = sample_id_at s2 j) /\
  (forall i c j d, (i < length (s_rows s1))%nat -> (c < s_arity s1)%nat ->
                   (j < length (s_rows s2))%nat -> (d < s_arity s2)%nat ->
                   treat_at s1 i c = treat_at s2 j d -> treat_id_at s1 i c = treat_id_at s2 j d).
Proof.
  intros (_ & _ & S1 & T1) (_ & _ & S2 & T2). split.
  - intros i j Hi Hj He. pose proof (S1 i Hi) as A. pose proof (S2 j Hj) as B. rewrite He in A. congruence.
  - intros i c j d Hi Hc Hj Hd He. pose proof (T1 i c Hi Hc) as A. pose proof (T2 j d Hj Hd) as B. rewrite He in A. congruence.
Qed.

Theorem sizes_frozen p s :
  frozen_to p s -> space_n_samples s = space_n_samples p /\ space_n_treatments s = space_n_treatments p.
Proof. intros (Ht & Hs & _). unfold space_n_samples, space_n_treatments. now rewrite Ht, Hs. Qed.

Theorem sizes_never_shrink p sel test ops s :
  lifecycle (carry_mappings true) p sel test ops = Ok s ->
  space_n_samples s = space_n_samples p /\ space_n_treatments s = space_n_treatments p.
Proof. intros H. exact (sizes_frozen p s (ids_frozen p sel test ops s H)). Qed.
