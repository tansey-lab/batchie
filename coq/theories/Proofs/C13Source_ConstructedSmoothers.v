(* C13: the smoother objects run with the parameters they were constructed with - the translated __init__ composed with the
   translated _smooth_plates (MergeMin, and the ensemble with its three parameters) *)
From Coq Require Import List.
From Batchie Require Import Lib.Sexp Model.Retro Generated.SrcInits Generated.SrcRetro Generated.SrcRetroGen Proofs.C11Source Proofs.C13Source Proofs.C13Source_Init_MergeMin Proofs.C13Source_Init_Ensemble.
Import ListNotations.
Open Scope nat_scope.

Theorem constructed_merge_min_uses_its_min_size : forall min_size rows ds fuel, length rows < fuel ->
  (dor m <- src_merge_min_init min_size; src_merge_min_smooth_plates m rows ds fuel) = merge_min min_size rows ds.
Proof. intros. rewrite src_merge_min_init_stores. cbn [res_bind]. now apply src_merge_min_is_model. Qed.

Theorem constructed_ensemble_uses_its_parameters : forall ms n m rows ds fuel, length rows < fuel ->
  (dor p <- src_ensemble_init ms n m; src_ensemble_smooth_plates (fst (fst p)) (snd (fst p)) (snd p) rows ds fuel)
  = ensemble true ms n m rows ds.
Proof. intros. rewrite src_ensemble_init_stores. cbn [res_bind fst snd]. now apply link_ensemble_smooth_plates. Qed.
