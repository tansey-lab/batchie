(* C03, the clause "posterior samples learned on one stage produce identical predictions for the same experiments on
   every later stage": frozen ids (Proofs/C03Frozen.v) composed with C09's prediction model (Model/Predict.v).

   [pred_view s] is the screen as the prediction code reads it (Predict.screen = sample_ids and the columns of
   treatment_ids), built from the id arrays of the model screen [s]; [pred_view_pydata] shows that, for a constructed
   screen of arity 1 or 2, it stands for exactly the object whose .sample_ids / .treatment_ids are s_sids / s_tids
   (Predict.pydata_of is the representation map of C09's source links).  The prediction of row i is a function of
   (sample id, treatment ids) of that row alone (C09 predict_take), and two screens frozen to one parent give the
   same ids to the same sample name / (treatment, dose) (same_name_same_id). *)
From Coq Require Import ZArith List Lia Qcanon.
From Batchie Require Import Lib.Sexp Lib.ListX Model.Screen Model.Reveal Model.Holdout
  Proofs.C03Base Proofs.C03Screen Proofs.C12Reveal Proofs.C03Frozen.
From Batchie Require Model.Predict Proofs.C09Predict.
Import ListNotations.
Open Scope Z_scope.

Definition id_row1 (s : screen) (i : nat) : Z * Z := (sample_id_at s i, treat_id_at s i 0).
Definition id_row2 (s : screen) (i : nat) : Z * Z * Z := (sample_id_at s i, treat_id_at s i 0, treat_id_at s i 1).

Definition pred_view (s : screen) : Predict.screen :=
  let n := length (s_rows s) in
  match s_arity s with
  | 1%nat => Predict.Scr1 (map (id_row1 s) (seq 0 n))
  | 2%nat => Predict.Scr2 (map (id_row2 s) (seq 0 n))
  | a => Predict.ScrN a n
  end.

(* the experiments [idx] of a stage, as the prediction code reads them; [pred_view s] lists all of them in order *)
Definition rows_view (s : screen) (idx : list nat) : Predict.screen :=
  match s_arity s with
  | 1%nat => Predict.Scr1 (map (id_row1 s) idx)
  | 2%nat => Predict.Scr2 (map (id_row2 s) idx)
  | a => Predict.ScrN a (length idx)
  end.

Lemma pred_view_rows s : pred_view s = rows_view s (seq 0 (length (s_rows s))).
Proof. unfold pred_view, rows_view. now rewrite seq_length. Qed.

Lemma pred_view_size s : Predict.scr_size (pred_view s) = length (s_rows s).
Proof.
  unfold pred_view. destruct (s_arity s) as [|[|[|a]]]; cbn [Predict.scr_size]; rewrite ?map_length, ?seq_length; reflexivity.
Qed.

Lemma take_idx_map_seq {A} (f : nat -> A) d n idx :
  Forall (fun i => (i < n)%nat) idx -> Predict.take_idx d idx (map f (seq 0 n)) = map f idx.
Proof.
  rewrite Forall_forall. intros H. apply map_ext_in. intros i Hi. apply nth_map_seq0, H, Hi.
Qed.

Lemma pred_view_take s idx :
  Forall (fun i => (i < length (s_rows s))%nat) idx -> Predict.scr_take idx (pred_view s) = rows_view s idx.
Proof.
  intros H. unfold pred_view, rows_view.
  destruct (s_arity s) as [|[|[|a]]]; cbn [Predict.scr_take]; now rewrite ?take_idx_map_seq.
Qed.

(* predicting a stage predicts each selection of its experiments (C09 predict_take) *)
Lemma predict_rows orc k th s idx v :
  Forall (fun i => (i < length (s_rows s))%nat) idx ->
  Predict.theta_predict orc k th (pred_view s) = Ok v ->
  Predict.theta_predict orc k th (rows_view s idx) = Ok (Predict.take_idx 0%Qc idx v).
Proof.
  intros Hidx H. rewrite <- (pred_view_take s idx Hidx).
  apply C09Predict.predict_take; [|exact H]. now rewrite pred_view_size.
Qed.

(* row i of [s1] and row j of [s2] are the same experiment: same sample name, same (treatment, dose) in every column *)
Definition same_experiment (s1 : screen) (i : nat) (s2 : screen) (j : nat) : Prop :=
  (i < length (s_rows s1))%nat /\ (j < length (s_rows s2))%nat /\
  sample_at s1 i = sample_at s2 j /\
  forall c, (c < s_arity s1)%nat -> treat_at s1 i c = treat_at s2 j c.

Lemma frozen_same_ids p s1 s2 i j :
  frozen_to p s1 -> frozen_to p s2 -> s_arity s1 = s_arity s2 -> same_experiment s1 i s2 j ->
  sample_id_at s1 i = sample_id_at s2 j /\
  forall c, (c < s_arity s1)%nat -> treat_id_at s1 i c = treat_id_at s2 j c.
Proof.
  intros F1 F2 Ha (Hi & Hj & Hs & Ht). destruct (same_name_same_id p s1 s2 F1 F2) as [SS TT]. split.
  - now apply SS.
  - intros c Hc. apply TT; auto. now rewrite <- Ha.
Qed.

Lemma map_nth_ext {A B C} (f : A -> C) (g : B -> C) l1 l2 d1 d2 :
  length l1 = length l2 -> (forall k, (k < length l1)%nat -> f (nth k l1 d1) = g (nth k l2 d2)) -> map f l1 = map g l2.
Proof.
  intros Hl H. apply (nth_ext _ _ (f d1) (g d2)); rewrite !map_length; [exact Hl|].
  intros k Hk. rewrite !map_nth. now apply H.
Qed.

Lemma frozen_same_rows p s1 s2 idx1 idx2 :
  frozen_to p s1 -> frozen_to p s2 -> s_arity s1 = s_arity s2 -> length idx1 = length idx2 ->
  (forall k, (k < length idx1)%nat -> same_experiment s1 (nth k idx1 0%nat) s2 (nth k idx2 0%nat)) ->
  rows_view s1 idx1 = rows_view s2 idx2.
Proof.
  intros F1 F2 Ha Hl H. unfold rows_view. rewrite <- Ha, <- Hl.
  assert (E := fun k Hk => frozen_same_ids p s1 s2 _ _ F1 F2 Ha (H k Hk)).
  destruct (s_arity s1) as [|[|[|a]]]; try reflexivity.
  - f_equal. apply (map_nth_ext _ _ _ _ 0%nat 0%nat Hl). intros k Hk. destruct (E k Hk) as [Es Et].
    unfold id_row1. now rewrite Es, Et by lia.
  - f_equal. apply (map_nth_ext _ _ _ _ 0%nat 0%nat Hl). intros k Hk. destruct (E k Hk) as [Es Et].
    unfold id_row2. now rewrite Es, !Et by lia.
Qed.

(* THE CLAUSE.  Any posterior sample [th] of either shipped sample type, any of mean / viability / variance, any oracle:
   the prediction for row i of stage s1 and for row j of stage s2 is the same number whenever the two rows are the same
   experiment (same sample name, same (treatment, dose) in every column) and both stages are frozen to one parent. *)
Theorem predict_stable orc k th p s1 s2 i j v1 v2 :
  frozen_to p s1 -> frozen_to p s2 -> s_arity s1 = s_arity s2 ->
  (i < length (s_rows s1))%nat -> (j < length (s_rows s2))%nat ->
  sample_at s1 i = sample_at s2 j ->
  (forall c, (c < s_arity s1)%nat -> treat_at s1 i c = treat_at s2 j c) ->
  Predict.theta_predict orc k th (pred_view s1) = Ok v1 ->
  Predict.theta_predict orc k th (pred_view s2) = Ok v2 ->
  nth i v1 0%Qc = nth j v2 0%Qc.
Proof.
  intros F1 F2 Ha Hi Hj Hs Ht H1 H2.
  apply (predict_rows orc k th s1 [i] v1 (Forall_cons i Hi (Forall_nil _))) in H1.
  apply (predict_rows orc k th s2 [j] v2 (Forall_cons j Hj (Forall_nil _))) in H2.
  rewrite (frozen_same_rows p s1 s2 [i] [j] F1 F2 Ha eq_refl) in H1.
  - rewrite H1 in H2. now inversion H2.
  - intros [|n] Hn; [exact (conj Hi (conj Hj (conj Hs Ht)))|cbn [length] in Hn; lia].
Qed.

Lemma scr_take_app idx1 idx2 scr :
  Predict.scr_take (idx1 ++ idx2) scr =
  match Predict.scr_take idx1 scr, Predict.scr_take idx2 scr with
  | Predict.Scr1 a, Predict.Scr1 b => Predict.Scr1 (a ++ b)
  | Predict.Scr2 a, Predict.Scr2 b => Predict.Scr2 (a ++ b)
  | Predict.ScrN a n, Predict.ScrN _ m => Predict.ScrN a (n + m)
  | x, _ => x
  end.
Proof.
  destruct scr; cbn [Predict.scr_take]; unfold Predict.take_idx; rewrite ?map_app, ?app_length; reflexivity.
Qed.

(* a later stage that lists the experiments [idx] of an earlier one (in any order, with repeats) is predicted as the
   corresponding entries of the earlier stage's prediction, errors included: if the earlier stage can be predicted, so can
   the later one *)
Theorem predict_stable_stage orc k th p s1 s2 idx v1 :
  frozen_to p s1 -> frozen_to p s2 -> s_arity s1 = s_arity s2 ->
  length idx = length (s_rows s2) ->
  Forall (fun i => (i < length (s_rows s1))%nat) idx ->
  (forall j, (j < length (s_rows s2))%nat ->
     sample_at s1 (nth j idx 0%nat) = sample_at s2 j /\
     forall c, (c < s_arity s1)%nat -> treat_at s1 (nth j idx 0%nat) c = treat_at s2 j c) ->
  Predict.theta_predict orc k th (pred_view s1) = Ok v1 ->
  Predict.theta_predict orc k th (pred_view s2) = Ok (Predict.take_idx 0%Qc idx v1).
Proof.
  intros F1 F2 Ha Hlen Hidx Hsame H1.
  rewrite pred_view_rows, <- (frozen_same_rows p s1 s2 idx (seq 0 (length (s_rows s2))) F1 F2 Ha).
  - now apply predict_rows.
  - now rewrite seq_length.
  - intros j Hj. rewrite Hlen in Hj. rewrite seq_nth by exact Hj.
    split; [|split; [exact Hj|apply Hsame, Hj]].
    rewrite Forall_forall in Hidx. apply Hidx, nth_In. now rewrite Hlen.
Qed.

Lemma constructed_id_arrays s : constructed s ->
  s_sids s = map (sample_id_at s) (seq 0 (length (s_rows s))) /\
  s_tids s = map (fun i => map (treat_id_at s i) (seq 0 (s_arity s))) (seq 0 (length (s_rows s))).
Proof.
  intros Hc. destruct (constructed_lookups s Hc) as (Hs & tflat & _ & Ht). split.
  - rewrite <- (map_length r_sample), <- (opt_map_all_length _ _ _ Hs). apply list_eq_map_nth.
  - rewrite Ht at 1. apply map_ext_in. intros i Hi%in_seq. apply map_ext_in. intros c Hc'%in_seq.
    unfold treat_id_at. rewrite Ht. symmetry. apply unflatten_cols_nth; lia.
Qed.

(* for a constructed screen of arity 1 or 2 (the arities the shipped sample types predict), [pred_view s] stands for the object
   whose sample_ids / treatment_ids arrays are exactly s_sids / s_tids: Predict.pydata_of is the representation map under
   which C09 proves the TRANSLATED predict_* methods equal to Predict.theta_predict (C09_model_is_source_theta_predict) *)
Theorem pred_view_pydata s : constructed s -> (s_arity s = 1 \/ s_arity s = 2)%nat ->
  Predict.pydata_of (pred_view s) =
  {| Predict.pd_sample_ids := s_sids s;
     Predict.pd_treatment_ids := {| Predict.im_arity := s_arity s; Predict.im_rows := s_tids s |} |}.
Proof.
  intros Hc Ha. destruct (constructed_id_arrays s Hc) as [Hs Ht]. rewrite Hs, Ht.
  unfold pred_view. destruct Ha as [Ha|Ha]; rewrite Ha; cbn [Predict.pydata_of seq map].
  - unfold Predict.tids1. now rewrite !map_map.
  - unfold Predict.tids2, Predict.col_s. now rewrite !map_map.
Qed.

Lemma step_arity v s o s' : step v s o = Ok s' -> s_arity s' = s_arity s.
Proof.
  intros H. destruct (step_is_mk_screen v s o s' H) as [rows E]. exact (mk_screen_arity _ _ _ _ _ _ _ _ E).
Qed.

Lemma lifecycle_constructed_arity v p sel t ops s :
  lifecycle v p sel t ops = Ok s -> constructed s /\ s_arity s = s_arity p.
Proof.
  unfold lifecycle. destruct (holdout_split p sel) as [pr|] eqn:E; cbn [res_bind]; [|discriminate].
  apply (history_invariant (fun s => constructed s /\ s_arity s = s_arity p) v).
  - intros s1 o s2 [_ Ha] Hstep. split; [exact (step_constructed _ _ _ _ Hstep)|].
    now rewrite (step_arity _ _ _ _ Hstep).
  - split; [exact (holdout_constructed _ _ _ _ E)|].
    destruct pr as [tr te]. apply holdout_split_inv in E. destruct E as (_ & H1 & H2).
    destruct t; cbn [half fst snd]; [exact (mk_screen_arity _ _ _ _ _ _ _ _ H2)|exact (mk_screen_arity _ _ _ _ _ _ _ _ H1)].
Qed.

(* the clause for any two stages of one prepared simulation (either half, any two histories) under the repaired construction *)
Theorem predict_stable_lifecycle orc k th p sel t1 ops1 t2 ops2 s1 s2 i j v1 v2 :
  lifecycle (carry_mappings true) p sel t1 ops1 = Ok s1 ->
  lifecycle (carry_mappings true) p sel t2 ops2 = Ok s2 ->
  (i < length (s_rows s1))%nat -> (j < length (s_rows s2))%nat ->
  sample_at s1 i = sample_at s2 j ->
  (forall c, (c < s_arity p)%nat -> treat_at s1 i c = treat_at s2 j c) ->
  Predict.theta_predict orc k th (pred_view s1) = Ok v1 ->
  Predict.theta_predict orc k th (pred_view s2) = Ok v2 ->
  nth i v1 0%Qc = nth j v2 0%Qc.
Proof.
  intros L1 L2 Hi Hj Hs Ht H1 H2.
  destruct (lifecycle_constructed_arity _ _ _ _ _ _ L1) as [_ A1].
  destruct (lifecycle_constructed_arity _ _ _ _ _ _ L2) as [_ A2].
  apply (predict_stable orc k th p s1 s2 i j v1 v2); auto.
  - exact (ids_frozen _ _ _ _ _ L1).
  - exact (ids_frozen _ _ _ _ _ L2).
  - congruence.
  - rewrite A1. exact Ht.
Qed.
