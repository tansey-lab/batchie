(* C04 downstream, source level: the distance stage (C07's composition of the translated functions).  See Proofs/C04DownSrc.v. *)
From Coq Require Import ZArith List Qcanon.
From Batchie Require Import Lib.Sexp Model.Train Model.Downstream Proofs.C04Train Proofs.C04Down.
From Batchie Require Proofs.C07SourcePipeline.
Open Scope Z_scope.

(* calculate_pairwise_distance_matrix_on_predictions per chunk, save, load, concat, to_dense (C07's src_pipeline); the
   prediction of a posterior sample is ANY function of the sample and the rows' ids *)
Section Dist.
Variables (V : Type) (vzero : V) (visz : V -> bool) (T : Type) (dflt : T).
Variable predict : T -> list (Z * list Z) -> list Qc.
Variable metric : list Qc -> list Qc -> V.

Definition src_stage_dist (th : list T) (rows : list trow) (c : Z) (order : list Z) : result (list (list V)) :=
  C07SourcePipeline.src_pipeline V vzero visz T (list Qc) (fun i => nth (Z.to_nat i) th dflt)
    (fun t => predict t (pred_rows_of rows)) metric (length th) c order.

Lemma src_stage_dist_noninterference th s1 s2 c order : same_except_masked s1 s2 ->
  src_stage_dist th s1 c order = src_stage_dist th s2 c order.
Proof. intros H. unfold src_stage_dist. now rewrite !pred_rows_factors, (downstream_frame s1 s2 H). Qed.
End Dist.

