(* C14, one piece of Proofs/C14SourceHelpers.v (which see): ScreenBase.n_unique_samples on a ScreenSubset / Plate object *)
From Coq Require Import ZArith.
From Batchie Require Import Lib.Sexp Model.Views Generated.SrcPlates.
Open Scope Z_scope.

Theorem src_view_n_unique_samples_is_model : forall v : view,
  src_view_n_unique_samples v = Ok (Z.of_nat (length (view_unique_sids v))).
Proof. reflexivity. Qed.
