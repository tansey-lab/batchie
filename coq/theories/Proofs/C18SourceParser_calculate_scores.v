(* One piece of Proofs/C18SourceParser.v (which see): the option table of calculate_scores.get_parser(), read from /repo on every run
   (Generated/SrcParser_calculate_scores.v), provides what the argument record of that command assumes. *)
From Coq Require Import List.
From Batchie Require Import Model.Cli Proofs.C18Parser Generated.SrcParser_calculate_scores.

Theorem parser_calculate_scores_fields : forall f, In f (cs_fields ++ logging_fields) -> declares src_parser_calculate_scores f.
Proof. apply declares_all. vm_compute. reflexivity. Qed.

Theorem parser_calculate_scores_dests_derived : dests_derived src_parser_calculate_scores.
Proof. apply dests_derived_sound. vm_compute. reflexivity. Qed.

Theorem parser_calculate_scores_dests_distinct : dests_distinct src_parser_calculate_scores.
Proof. apply dests_distinct_sound. vm_compute. reflexivity. Qed.

Theorem parser_calculate_scores_seed : seed_declared src_parser_calculate_scores.
Proof. apply seed_declaredb_sound. vm_compute. reflexivity. Qed.

Theorem parser_calculate_scores_coordinates : coordinates_int src_parser_calculate_scores.
Proof. apply coordinates_intb_sound. vm_compute. reflexivity. Qed.

Theorem parser_calculate_scores_params : params_kv src_parser_calculate_scores.
Proof. apply params_kvb_sound. vm_compute. reflexivity. Qed.
