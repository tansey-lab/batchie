(* C03 / C12: the encoder facts of Proofs/C01Encode.v in the form the lifecycle proofs use them: the two encoders
   inverted, and opt_map_all read position by position. *)
From Coq Require Import ZArith List.
From Batchie Require Import Lib.Sexp Lib.ListX Model.Encode Proofs.C01Encode.
From Batchie Require Export Proofs.C01Sort.
Import ListNotations.
Open Scope Z_scope.

Lemma opt_map_all_Some {A B} (f : A -> option B) l r :
  opt_map_all f l = Some r -> map Some r = map f l.
Proof.
  revert r; induction l as [|a l IH]; intros r H; cbn [opt_map_all] in H.
  - now inversion H.
  - unfold opt_bind in H. destruct (f a) eqn:Ea; [|discriminate].
    destruct (opt_map_all f l) eqn:El; [|discriminate]. inversion H; subst.
    cbn [map]. now rewrite Ea, (IH l0 eq_refl).
Qed.

Lemma opt_map_all_nth {A B} (f : A -> option B) l r (da : A) (db : B) i :
  opt_map_all f l = Some r -> (i < length l)%nat -> f (nth i l da) = Some (nth i r db).
Proof.
  intros H Hi. rewrite <- (nth_map_lt f l None da i Hi), <- (opt_map_all_Some f l r H).
  apply nth_map_lt. now rewrite (opt_map_all_length f l r H).
Qed.

Lemma opt_map_all_ext {A B} (f g : A -> option B) l :
  (forall x, In x l -> f x = g x) -> opt_map_all f l = opt_map_all g l.
Proof.
  induction l as [|a l IH]; intros H; cbn [opt_map_all]; [reflexivity|].
  rewrite (H a) by now left. rewrite IH by (intros x Hx; apply H; now right). reflexivity.
Qed.

Lemma build_nmapping_inj names a b i :
  nlookup (build_nmapping names) a = Some i -> nlookup (build_nmapping names) b = Some i -> a = b.
Proof.
  intros Ha Hb. apply nlookup_Some in Ha. apply nlookup_Some in Hb. exact (nbuilt_inj names a b i Ha Hb).
Qed.

Lemma encode_names_built_total names tag : exists ids, encode_names names None tag = Ok (ids, build_nmapping names).
Proof. exact (nbuilt_encode_ok names tag). Qed.

Lemma encode_treatments_built_total keys ctrl :
  exists ids, encode_treatments keys ctrl None = Ok (ids, build_tmapping ctrl keys).
Proof. exact (built_encode_ok ctrl keys). Qed.

Lemma encode_names_inv names ex tag ids m :
  encode_names names ex tag = Ok (ids, m) ->
  m = match ex with Some m' => m' | None => build_nmapping names end /\ opt_map_all (nlookup m) names = Some ids.
Proof.
  unfold encode_names. set (m0 := match ex with Some m' => m' | None => build_nmapping names end).
  destruct (opt_map_all (nlookup m0) names) eqn:E; [|discriminate].
  intros H; inversion H; subst. split; [reflexivity|exact E].
Qed.

Lemma encode_treatments_inv keys ctrl ex ids m :
  encode_treatments keys ctrl ex = Ok (ids, m) ->
  m = match ex with Some m' => m' | None => build_tmapping ctrl keys end /\ opt_map_all (tlookup m) keys = Some ids.
Proof.
  unfold encode_treatments. set (m0 := match ex with Some m' => m' | None => build_tmapping ctrl keys end).
  destruct (opt_map_all (tlookup m0) keys) eqn:E; [|discriminate].
  intros H; inversion H; subst. split; [reflexivity|exact E].
Qed.
