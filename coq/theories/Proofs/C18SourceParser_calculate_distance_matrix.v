(* One piece of Proofs/C18SourceParser.v (which see): the option table of calculate_distance_matrix.get_parser(), read from /repo on every run
   (Generated/SrcParser_calculate_distance_matrix.v), provides what the argument record of that command assumes. *)
From Coq Require Import List.
From Batchie Require Import Model.Cli Proofs.C18Parser Generated.SrcParser_calculate_distance_matrix.

Theorem parser_calculate_distance_matrix_fields : forall f, In f (cd_fields ++ logging_fields) -> declares src_parser_calculate_distance_matrix f.
Proof. apply declares_all. vm_compute. reflexivity. Qed.

Theorem parser_calculate_distance_matrix_dests_derived : dests_derived src_parser_calculate_distance_matrix.
Proof. apply dests_derived_sound. vm_compute. reflexivity. Qed.

Theorem parser_calculate_distance_matrix_dests_distinct : dests_distinct src_parser_calculate_distance_matrix.
Proof. apply dests_distinct_sound. vm_compute. reflexivity. Qed.

Theorem parser_calculate_distance_matrix_coordinates : coordinates_int src_parser_calculate_distance_matrix.
Proof. apply coordinates_intb_sound. vm_compute. reflexivity. Qed.

Theorem parser_calculate_distance_matrix_params : params_kv src_parser_calculate_distance_matrix.
Proof. apply params_kvb_sound. vm_compute. reflexivity. Qed.
