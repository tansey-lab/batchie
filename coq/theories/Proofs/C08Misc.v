(* C08: sweep order, export, alpha, conjugate gamma blocks, clipping. *)
From Coq Require Import String.
From Coq Require Import List QArith Qcanon.
From Batchie Require Import Lib.Num Lib.NumP Generated.Consts Generated.ConstsMcmc Model.Gibbs Model.GibbsSpec Proofs.C08Sums Proofs.C08Gauss Proofs.C08Cache.
Import ListNotations.
Open Scope Qc_scope.

Theorem order_matches_source :
  map (fun b => (blk_name b, ""%string)) step_order = MCMC_STEP_ORDER.
Proof. reflexivity. Qed.

Theorem order_nodup : NoDup step_order.
Proof. unfold step_order. repeat (constructor; [cbn [In]; intuition discriminate|]). constructor. Qed.

Theorem order_complete : forall b : blk, In b step_order.
Proof. intros b; destruct b; cbn [step_order In]; tauto. Qed.

Theorem order_reconstruct_first : hd_error step_order = Some BReconstruct.
Proof. reflexivity. Qed.

Lemma predict_row_mu D s c d1 d2 : predict_row D (export s) c d1 d2 = mu_row D s c d1 d2.
Proof.
  unfold predict_row, mu_row, export, ctl_v, ctl_r, get_v, get_r. cbn [sm_W sm_W0 sm_V2 sm_V1 sm_V0 sm_alpha].
  change CONTROL_SENTINEL_VALUE with (-1)%Z.
  assert (H : forall w a b, sumn D (fun k => vnth w k * (vnth a k + vnth b k)) = vdot D w (vadd D a b)).
  { intros w a b. unfold vdot. apply sumn_ext; intros k Hk. unfold vadd. now rewrite vnth_tab by exact Hk. }
  rewrite H. reflexivity.
Qed.

Theorem export_predicts g d s :
  predict_training g d (export s) = reconstruct g d s /\ sm_precision (export s) = prec s.
Proof.
  split; [|reflexivity]. unfold predict_training, reconstruct, tab. apply map_ext. intros i. unfold mu_at. apply predict_row_mu.
Qed.

Corollary export_predicts_cache g d s :
  cache_ok g d s -> predict_training g d (export s) = Mu s /\ sm_precision (export s) = prec s.
Proof. intros H. rewrite H. apply export_predicts. Qed.

Theorem alpha_is_mean d s : nobs d <> 0%nat -> alpha (alpha_step d s) = qmean (d_y d).
Proof. intros H. unfold alpha_step. destruct (nobs d); [congruence|reflexivity]. Qed.

Lemma qsum_map_vnth (f : Qc -> Qc) l : qsum (map f l) = sumn (length l) (fun i => f (vnth l i)).
Proof.
  induction l as [|x l IH] using rev_ind; [reflexivity|].
  rewrite map_app, qsum_app, app_length. cbn [map length]. rewrite Nat.add_1_r, sumn_S, qsum_single, IH.
  f_equal.
  - apply sumn_ext; intros i Hi. unfold vnth. now rewrite app_nth1 by exact Hi.
  - unfold vnth. now rewrite nth_middle.
Qed.

Section Gamma.
Variable ln : Qc -> Qc.
Variable orc : oracle.
Variable g : cfg.
Variable d : data.

Lemma sse_cache s : ValidData d -> cache_ok g d s ->
  sumn (nobs d) (fun i => qsq (yi d i - vnth (Mu s) i)) = sse g d s.
Proof. intros Hv Hc. unfold sse. apply sumn_ext; intros i Hi. now rewrite (cache_nth g d s i Hv Hc Hi). Qed.

(* observation precision: with data, the draw is Gamma(shape, rate) where (shape - 1, rate) are
   the coefficients of -2 ln(prec) and 2 prec in the energy *)
Theorem gamma_block_prec_obs s a r k :
  ValidData d -> cache_ok g d s -> nobs d <> 0%nat ->
  prog_prec_obs g d orc s = Draw (DGamma a r) k ->
  forall t t', energy ln g d (set_prec s t) - energy ln g d (set_prec s t')
               = - (qofZ 2 * (a - 1) * (ln t - ln t')) + qofZ 2 * r * (t - t').
Proof.
  intros Hv Hc Hn Hp t t'. unfold prog_prec_obs in Hp. destruct (nobs d) as [|n0] eqn:En; [congruence|].
  inversion Hp; subst a r. clear Hp. rewrite <- En, (sse_cache s Hv Hc).
  unfold energy, e_lik, e_W0, e_V0, e_W, e_hyper, e_gamma.
  change (sse g d (set_prec s t)) with (sse g d s). change (sse g d (set_prec s t')) with (sse g d s).
  cbn [set_prec prec tau tau0 gam W W0 V0 V2 V1 phi0 phi2 phi1 eta0 eta2 eta1]. field_half.
Qed.

(* without data the code draws from Gamma(a0, b0): the prior without the jitter, and (see
   prec_unclipped_without_data) stores it unclipped *)
Theorem prec_obs_prior s : nobs d = 0%nat ->
  prog_prec_obs g d orc s = Draw (DGamma (c_a0 g) (c_b0 g)) (fun v => Ret (set_prec s (val_q v))).
Proof. intros H. unfold prog_prec_obs. now rewrite H. Qed.

Theorem gamma_block_tau0 s a r k :
  length (W0 s) = c_ncl g ->
  prog_prec_W0 g d orc s = Draw (DGamma a r) k ->
  forall t t', energy ln g d (set_tau0 s t) - energy ln g d (set_tau0 s t')
               = - (qofZ 2 * (a - 1) * (ln t - ln t')) + qofZ 2 * r * (t - t').
Proof.
  intros Hl Hp t t'. unfold prog_prec_W0 in Hp. inversion Hp; subst a r. clear Hp.
  rewrite qsum_map_vnth, Hl.
  unfold energy, e_W0, e_V0, e_W, e_hyper, e_gamma.
  change (e_lik ln g d (set_tau0 s t)) with (e_lik ln g d s). change (e_lik ln g d (set_tau0 s t')) with (e_lik ln g d s).
  cbn [set_tau0 prec tau tau0 gam W W0 V0 V2 V1 phi0 phi2 phi1 eta0 eta2 eta1]. field_half.
Qed.

Definition in_bounds (lo x : Qc) : Prop := lo <= x /\ x <= prec_hi.

Lemma qclip_bounds lo hi x : lo <= hi -> lo <= qclip lo hi x /\ qclip lo hi x <= hi.
Proof.
  intros H. unfold qclip, qltb. destruct (Qclt_le_dec x lo); [split; [apply Qcle_refl|exact H]|].
  destruct (Qclt_le_dec hi x); [split; [exact H|apply Qcle_refl]|split; assumption].
Qed.

Lemma clipC_bounds k x : clip_lo orc k <= prec_hi -> in_bounds (clip_lo orc k) (clipC orc k x).
Proof. intros H. unfold clipC. now apply qclip_bounds. Qed.

(* the bound of every precision after its own step; the lower bounds 1/sqrt(1+n) must not
   exceed 1e6 for the sqrt the model is run with *)
Definition LoOk : Prop := forall k, clip_lo orc k <= prec_hi.

Theorem clip_tau0 s : LoOk -> all_rets (fun s' => in_bounds (clip_lo orc (nobs d)) (tau0 s')) (prog_prec_W0 g d orc s).
Proof. intros H. unfold prog_prec_W0. cbn [all_rets tau0 set_tau0]. intros v. apply clipC_bounds, H. Qed.

Theorem clip_prec s : LoOk -> nobs d <> 0%nat ->
  all_rets (fun s' => in_bounds (clip_lo orc (nobs d)) (prec s')) (prog_prec_obs g d orc s).
Proof.
  intros H Hn. unfold prog_prec_obs. destruct (nobs d) eqn:En; [congruence|].
  cbn [all_rets prec set_prec]. intros v. apply clipC_bounds, H.
Qed.

Theorem clip_V0 s : LoOk ->
  all_rets (fun s' => in_bounds (clip_lo orc (nobs d)) (eta0 s') /\
                      forall m, (m < c_ndd g)%nat -> in_bounds (clip_lo orc (n_occ d m)) (vnth (phi0 s') m))
           (prog_prec_V0 g d orc s).
Proof.
  intros H. unfold prog_prec_V0. cbn [all_rets eta0 phi0 set_eta0 set_phi0]. intros v1 v2 v3 v4. split.
  - apply clipC_bounds, H.
  - intros m Hm. rewrite vnth_tab by exact Hm. apply clipC_bounds, H.
Qed.

Lemma clip_Vk V phi eta fin (P : st -> Prop) :
  (forall ph et,
      (forall k, (k < c_D g)%nat -> in_bounds (clip_lo orc (nobs d)) (vnth et k)) ->
      (forall m k, (m < c_ndd g)%nat -> (k < c_D g)%nat -> in_bounds (clip_lo orc (n_occ d m)) (vnth (rnth ph m) k)) ->
      P (fin ph et)) ->
  LoOk -> all_rets P (prog_prec_Vk g d orc V phi eta fin).
Proof.
  intros HP H. unfold prog_prec_Vk. cbn [all_rets]. intros v1 v2 v3 v4. apply HP.
  - intros k Hk. rewrite vnth_tab by exact Hk. apply clipC_bounds, H.
  - intros m k Hm Hk. rewrite rnth_tab by exact Hm. rewrite vnth_tab by exact Hk. apply clipC_bounds, H.
Qed.

Theorem clip_V2 s : LoOk ->
  all_rets (fun s' => (forall k, (k < c_D g)%nat -> in_bounds (clip_lo orc (nobs d)) (vnth (eta2 s') k)) /\
                      forall m k, (m < c_ndd g)%nat -> (k < c_D g)%nat -> in_bounds (clip_lo orc (n_occ d m)) (vnth (rnth (phi2 s') m) k))
           (prog_prec_V2 g d orc s).
Proof. intros H. unfold prog_prec_V2. apply clip_Vk; [|exact H]. intros ph et H1 H2. cbn [eta2 phi2 set_eta2 set_phi2]. split; assumption. Qed.

Theorem clip_V1 s : LoOk ->
  all_rets (fun s' => (forall k, (k < c_D g)%nat -> in_bounds (clip_lo orc (nobs d)) (vnth (eta1 s') k)) /\
                      forall m k, (m < c_ndd g)%nat -> (k < c_D g)%nat -> in_bounds (clip_lo orc (n_occ d m)) (vnth (rnth (phi1 s') m) k))
           (prog_prec_V1 g d orc s).
Proof. intros H. unfold prog_prec_V1. apply clip_Vk; [|exact H]. intros ph et H1 H2. cbn [eta1 phi1 set_eta1 set_phi1]. split; assumption. Qed.

Theorem clip_tau s : LoOk ->
  all_rets (fun s' => Forall (in_bounds (clip_lo orc (nobs d))) (tau s')) (prog_prec_W g d orc s).
Proof.
  intros H. unfold prog_prec_W. generalize (seq 0 (c_D g)) as ds. intros ds; revert s.
  induction ds as [|dd r IH]; intros s; cbn [prog_gam all_rets].
  - cbn [tau set_tau]. apply Forall_forall. intros x Hx. apply in_map_iff in Hx as (y & <- & _). apply clipC_bounds, H.
  - intros v. apply IH.
Qed.
End Gamma.

(* with no observation the precision draw is stored as drawn: a value above 1e6 stays *)
Theorem prec_unclipped_without_data :
  exists orc g d s v k, nobs d = 0%nat /\ (exists dr, prog_prec_obs g d orc s = Draw dr k) /\
                        exists s', k v = Ret s' /\ prec_hi < prec s'.
Proof.
  exists (fun _ x => x), wit_cfg, {| d_y := []; d_cl := []; d_dd1 := []; d_dd2 := [] |}, wit_state, (VQ (qofZ 2000000)).
  eexists. split; [reflexivity|]. split; [eexists; reflexivity|]. eexists. split; [reflexivity|].
  cbn [prec set_prec val_q]. unfold Qclt. vm_compute. reflexivity.
Qed.
