(* C19 — generic facts about the association lists, sorting, the pipeline primitives. *)
From Coq Require Import ZArith List Bool Lia.
From Batchie Require Import Model.Orchestrate.
Import ListNotations.
Open Scope Z_scope.

Definition tab {A} (g : nat -> A) (a cnt : nat) : list (Z * A) :=
  map (fun j => (Z.of_nat j, g j)) (seq a cnt).

Lemma tab_S {A} (g : nat -> A) a cnt : tab g a (S cnt) = tab g a cnt ++ [(Z.of_nat (a + cnt), g (a + cnt)%nat)].
Proof. unfold tab. rewrite seq_S, map_app. reflexivity. Qed.

Lemma tab_cons {A} (g : nat -> A) a cnt : tab g a (S cnt) = (Z.of_nat a, g a) :: tab g (S a) cnt.
Proof. reflexivity. Qed.

Lemma tab_app {A} (g : nat -> A) a c1 c2 : tab g a (c1 + c2) = tab g a c1 ++ tab g (a + c1) c2.
Proof. unfold tab. rewrite seq_app, map_app. reflexivity. Qed.

Lemma tab_ext {A} (g h : nat -> A) a cnt :
  (forall j, (a <= j < a + cnt)%nat -> g j = h j) -> tab g a cnt = tab h a cnt.
Proof.
  intros H. unfold tab. apply map_ext_in. intros j Hj. apply in_seq in Hj. now rewrite H.
Qed.

Lemma tab_keys_lt {A} (g : nat -> A) a cnt q : In q (tab g a cnt) -> Z.of_nat a <= fst q < Z.of_nat (a + cnt).
Proof.
  unfold tab. intros H. apply in_map_iff in H as (j & <- & Hj). apply in_seq in Hj. cbn [fst]. lia.
Qed.

Lemma lookup_app {A} k (l1 l2 : list (Z * A)) :
  lookup k (l1 ++ l2) = match lookup k l1 with Some a => Some a | None => lookup k l2 end.
Proof.
  induction l1 as [|[k' a] l1 IH]; cbn [lookup app]; [reflexivity|].
  destruct (k' =? k); [reflexivity|exact IH].
Qed.

Lemma lookup_none {A} k (l : list (Z * A)) : (forall q, In q l -> fst q <> k) -> lookup k l = None.
Proof.
  induction l as [|[k' a] l IH]; intros H; cbn [lookup]; [reflexivity|].
  destruct (Z.eqb_spec k' k) as [->|_].
  - exfalso. apply (H (k, a)); [now left|reflexivity].
  - apply IH. intros q Hq. apply H. now right.
Qed.

Lemma lookup_tab_out {A} (g : nat -> A) a cnt k : (k < a \/ a + cnt <= k)%nat -> lookup (Z.of_nat k) (tab g a cnt) = None.
Proof.
  intros H. apply lookup_none. intros q Hq E. apply tab_keys_lt in Hq. lia.
Qed.

(* split the table at k: the entries before it have smaller keys *)
Lemma lookup_tab_in {A} (g : nat -> A) a cnt k : (a <= k < a + cnt)%nat -> lookup (Z.of_nat k) (tab g a cnt) = Some (g k).
Proof.
  intros H. replace cnt with ((k - a) + S (a + cnt - S k))%nat by lia.
  rewrite tab_app, lookup_app, lookup_tab_out by lia.
  replace (a + (k - a))%nat with k by lia. rewrite tab_cons. cbn [lookup]. now rewrite Z.eqb_refl.
Qed.

Lemma lookup_tab {A} (g : nat -> A) a cnt k :
  lookup (Z.of_nat k) (tab g a cnt) = if ((a <=? k) && (k <? a + cnt))%nat then Some (g k) else None.
Proof.
  destruct (Nat.leb_spec a k), (Nat.ltb_spec k (a + cnt)); cbn [andb];
    (apply lookup_tab_in || apply lookup_tab_out); lia.
Qed.

Lemma update_none {A} k f (l : list (Z * A)) : lookup k l = None -> update k f l = l.
Proof.
  induction l as [|[k' a] l IH]; cbn [lookup update]; [reflexivity|].
  destruct (k' =? k); [discriminate|]. intros H. now rewrite IH.
Qed.

Lemma update_app_r {A} k f (l1 l2 : list (Z * A)) :
  lookup k l1 = None -> update k f (l1 ++ l2) = l1 ++ update k f l2.
Proof.
  induction l1 as [|[k' a] l1 IH]; cbn [lookup update app]; [reflexivity|].
  destruct (k' =? k); [discriminate|]. intros H. now rewrite IH.
Qed.

Lemma update_hd {A} k f (a : A) (l : list (Z * A)) : update k f ((k, a) :: l) = (k, f a) :: l.
Proof. cbn [update]. now rewrite Z.eqb_refl. Qed.

Lemma remove_key_none {A} k (l : list (Z * A)) : (forall q, In q l -> fst q <> k) -> remove_key k l = l.
Proof.
  unfold remove_key. induction l as [|q l IH]; intros H; cbn [filter]; [reflexivity|].
  destruct (Z.eqb_spec (fst q) k) as [E|E]; cbn [negb].
  - exfalso. apply (H q); [now left|exact E].
  - rewrite IH; [reflexivity|]. intros q' Hq'. apply H. now right.
Qed.

Lemma remove_key_app {A} k (l1 l2 : list (Z * A)) : remove_key k (l1 ++ l2) = remove_key k l1 ++ remove_key k l2.
Proof. unfold remove_key. apply filter_app. Qed.

Lemma remove_key_one {A} k (a : A) : remove_key k [(k, a)] = [].
Proof. unfold remove_key. cbn [filter fst]. now rewrite Z.eqb_refl. Qed.

Fixpoint incr {A} (l : list (Z * A)) : Prop :=
  match l with
  | a :: ((b :: _) as r) => fst a < fst b /\ incr r
  | _ => True
  end.

Lemma sort_incr {A} (l : list (Z * A)) : incr l -> sort_dirs l = l.
Proof.
  induction l as [|a [|b r] IH]; intros H; [reflexivity|reflexivity|].
  destruct H as [Hab Hr]. change (sort_dirs (a :: b :: r)) with (insert_key a (sort_dirs (b :: r))).
  rewrite (IH Hr). cbn [insert_key]. apply Z.ltb_lt in Hab. now rewrite Hab.
Qed.

Lemma incr_tab {A} (g : nat -> A) a cnt : incr (tab g a cnt).
Proof.
  revert a; induction cnt as [|cnt IH]; intros a; [exact I|].
  rewrite tab_cons. destruct cnt as [|cnt]; [exact I|].
  specialize (IH (S a)). rewrite tab_cons in IH |- *. split; [cbn [fst]; lia|exact IH].
Qed.

Lemma incr_app_last {A} (l : list (Z * A)) k d :
  incr l -> (forall q, In q l -> fst q < k) -> incr (l ++ [(k, d)]).
Proof.
  induction l as [|a [|b r] IH]; intros Hl Hk; [exact I| |].
  - cbn [app]. split; [apply Hk; now left|exact I].
  - destruct Hl as [Hab Hr]. change ((a :: b :: r) ++ [(k, d)]) with (a :: ((b :: r) ++ [(k, d)])).
    cbn [app] in IH |- *. split; [exact Hab|]. apply IH; [exact Hr|]. intros q Hq. apply Hk. now right.
Qed.

Lemma step_eqb_refl s : step_eqb s s = true.
Proof. unfold step_eqb. now rewrite !Z.eqb_refl. Qed.

Lemma step_eqb_eq a b : step_eqb a b = true -> a = b.
Proof.
  unfold step_eqb. destruct a, b. cbn [fst snd]. intros H. apply andb_true_iff in H as [H1 H2].
  apply Z.eqb_eq in H1, H2. congruence.
Qed.

Lemma zlist_eqb_eq a b : zlist_eqb a b = true <-> a = b.
Proof.
  revert b; induction a as [|x a IH]; intros [|y b]; cbn [zlist_eqb]; try (split; [discriminate|congruence]).
  - split; reflexivity.
  - rewrite andb_true_iff, Z.eqb_eq, IH. split; [intros [-> ->]; reflexivity | intros H; injection H; auto].
Qed.

Lemma zlist_eqb_refl a : zlist_eqb a a = true.
Proof. now apply zlist_eqb_eq. Qed.

Lemma seqZ_in a m q : In q (seqZ a m) <-> a <= q < a + Z.of_nat m.
Proof.
  revert a; induction m as [|m IH]; intros a; cbn [seqZ In].
  - lia.
  - rewrite IH. lia.
Qed.

Lemma seqZ_length a m : length (seqZ a m) = m.
Proof. revert a; induction m as [|m IH]; intros a; cbn [seqZ length]; [reflexivity|now rewrite IH]. Qed.

Lemma mem_false p l : (forall q, In q l -> q <> p) -> mem p l = false.
Proof.
  unfold mem. induction l as [|q l IH]; intros H; cbn [existsb]; [reflexivity|].
  destruct (Z.eqb_spec p q) as [->|_]; [exfalso; apply (H q); [now left|reflexivity]|].
  apply IH. intros q' Hq'. apply H. now right.
Qed.

Lemma mem_true p l : In p l -> mem p l = true.
Proof. unfold mem. intros H. apply existsb_exists. exists p. split; [exact H|apply Z.eqb_refl]. Qed.

Lemma reveal_id p l : (forall q, In q l -> q <> p) -> reveal p l = l.
Proof.
  unfold reveal. induction l as [|q l IH]; intros H; cbn [filter]; [reflexivity|].
  destruct (Z.eqb_spec q p) as [E|E]; cbn [negb].
  - exfalso. apply (H q); [now left|exact E].
  - rewrite IH; [reflexivity|]. intros q' Hq'. apply H. now right.
Qed.

Lemma reveal_head a m : reveal a (seqZ a (S m)) = seqZ (a + 1) m.
Proof.
  cbn [seqZ]. unfold reveal. cbn [filter]. rewrite Z.eqb_refl. cbn [negb].
  apply reveal_id. intros q Hq. apply seqZ_in in Hq. lia.
Qed.

(* first unobserved plate of [a, a+m) when the excluded ones are all below a *)
Lemma select_head a m excl : (forall q, In q excl -> q < a) -> select (seqZ a (S m)) excl = Some a.
Proof.
  intros H. unfold select. cbn [seqZ find]. rewrite mem_false; [reflexivity|].
  intros q Hq. apply H in Hq. lia.
Qed.

(* prospective: plates 0..j-1 excluded -> plate j *)
Lemma select_skip a (j m : nat) :
  select (seqZ a (j + S m)) (seqZ a j) = Some (a + Z.of_nat j).
Proof.
  unfold select. assert (G : forall (j' : nat) b, b = a + Z.of_nat (j - j')%nat -> (j' <= j)%nat ->
    find (fun p => negb (mem p (seqZ a j))) (seqZ b (j' + S m)) = Some (a + Z.of_nat j)).
  { induction j' as [|j' IH]; intros b Hb Hle.
    - cbn [Nat.add seqZ find]. rewrite mem_false; [cbn [negb]; f_equal; lia|].
      intros q Hq. apply seqZ_in in Hq. lia.
    - cbn [Nat.add seqZ find]. rewrite mem_true; [cbn [negb]|apply seqZ_in; lia].
      apply IH; lia. }
  apply (G j a); [|lia]. replace (j - j)%nat with O by lia. lia.
Qed.

Lemma select_none a (n j : nat) : (n <= j)%nat -> select (seqZ a n) (seqZ a j) = None.
Proof.
  intros H. unfold select.
  assert (G : forall l, (forall q, In q l -> In q (seqZ a j)) -> find (fun p => negb (mem p (seqZ a j))) l = None).
  { induction l as [|q l IH]; intros Hl; cbn [find]; [reflexivity|].
    rewrite mem_true by (apply Hl; now left). cbn [negb]. apply IH. intros q' Hq'. apply Hl. now right. }
  apply G. intros q Hq. apply seqZ_in in Hq. apply seqZ_in. lia.
Qed.

Definition kind_eqb (a b : kind) : bool :=
  match a, b with
  | KTraining, KTraining | KTest, KTest | KThetas, KThetas | KDist, KDist
  | KSelected, KSelected | KAdvanced, KAdvanced | KMeta, KMeta => true
  | _, _ => false
  end.
Lemma kind_eqb_spec a b : reflect (a = b) (kind_eqb a b).
Proof. destruct a, b; cbn; constructor; congruence. Qed.

(* the priority order names every kind, and names the marker last *)
Definition covers (order : list kind) : bool := forallb (fun k => existsb (kind_eqb k) order) all_kinds.
Definition entry_ok (e : entry) : bool := covers (e_order e) && marker_last (e_order e).

Lemma covers_in order k : covers order = true -> In k order.
Proof.
  unfold covers. intros H. rewrite forallb_forall in H.
  assert (Hk : In k all_kinds) by (destruct k; cbn; tauto).
  apply H in Hk. apply existsb_exists in Hk as (k' & Hin & E). destruct (kind_eqb_spec k k'); [now subst|discriminate].
Qed.

Fixpoint pub_fold (o : pdir) (ks : list kind) (d : pdir) : pdir :=
  match ks with [] => d | k :: r => pub_fold o r (publish o k d) end.

Definition inb (k : kind) (ks : list kind) : bool := existsb (kind_eqb k) ks.

Lemma pub_fold_fields o ks : forall d,
  let r := pub_fold o ks d in
  f_training r = (if inb KTraining ks then f_training o else f_training d) /\
  f_test r = (if inb KTest ks then f_test o else f_test d) /\
  f_thetas r = (if inb KThetas ks then f_thetas o else f_thetas d) /\
  f_dist r = (if inb KDist ks then f_dist o else f_dist d) /\
  f_selected r = (if inb KSelected ks then f_selected o else f_selected d) /\
  f_advanced r = (if inb KAdvanced ks then f_advanced o else f_advanced d) /\
  f_meta r = (if inb KMeta ks then f_meta o else f_meta d) /\
  f_by r = f_by d.
Proof.
  induction ks as [|k ks IH]; intros d; cbn [pub_fold inb existsb].
  - repeat split.
  - specialize (IH (publish o k d)). cbn zeta in IH. destruct IH as (H1 & H2 & H3 & H4 & H5 & H6 & H7 & H8).
    cbn zeta. rewrite H1, H2, H3, H4, H5, H6, H7, H8. unfold inb.
    destruct k; cbn [kind_eqb orb publish f_training f_test f_thetas f_dist f_selected f_advanced f_meta f_by];
      repeat split; repeat match goal with |- context [if ?b then _ else _] => destruct b end; reflexivity.
Qed.

Lemma inb_filter k p ks : inb k (filter p ks) = inb k ks && p k.
Proof.
  unfold inb. induction ks as [|a ks IH]; cbn [filter existsb]; [reflexivity|].
  destruct (p a) eqn:Ea; cbn [existsb]; rewrite IH.
  - destruct (kind_eqb_spec k a) as [->|_]; cbn [orb]; [now rewrite Ea|reflexivity].
  - destruct (kind_eqb_spec k a) as [->|_]; cbn [orb]; [rewrite Ea; now rewrite andb_false_r|reflexivity].
Qed.

Lemma inb_in k ks : In k ks -> inb k ks = true.
Proof. intros H. apply existsb_exists. exists k. split; [exact H|]. now destruct (kind_eqb_spec k k). Qed.

(* everything produced is published: the directory holds exactly the outputs *)
Lemma pub_fold_all o l order :
  covers order = true -> f_by o = Some l ->
  pub_fold o (pubs_of o order) (set_by l empty_pdir) = o.
Proof.
  intros Hc Hby. pose proof (pub_fold_fields o (pubs_of o order) (set_by l empty_pdir)) as H. cbn zeta in H.
  destruct H as (H1 & H2 & H3 & H4 & H5 & H6 & H7 & H8).
  unfold pubs_of in *. rewrite !inb_filter in *.
  rewrite !(inb_in _ _ (covers_in order _ Hc)) in *. cbn [andb] in *.
  destruct (pub_fold o (filter (produced o) order) (set_by l empty_pdir)) as [a1 a2 a3 a4 a5 a6 a7 a8].
  destruct o as [b1 b2 b3 b4 b5 b6 b7 b8].
  cbn [f_training f_test f_thetas f_dist f_selected f_advanced f_meta f_by produced set_by empty_pdir] in *.
  subst a8. rewrite Hby. f_equal.
  - rewrite H1. now destruct b1.
  - rewrite H2. now destruct b2.
  - rewrite H3. now destruct b3.
  - rewrite H4. now destruct b4.
  - rewrite H5. now destruct b5.
  - rewrite H6. now destruct b6.
  - rewrite H7. now destruct b7.
Qed.

Lemma marker_last_cons k t : t <> [] -> marker_last (k :: t) = negb (is_meta k) && marker_last t.
Proof. destruct t; [congruence|reflexivity]. Qed.

Lemma marker_last_filter p l : marker_last l = true -> marker_last (filter p l) = true.
Proof.
  induction l as [|k t IH]; intros H; [reflexivity|].
  destruct t as [|k' r].
  - cbn [filter]. destruct (p k); reflexivity.
  - rewrite marker_last_cons in H by congruence.
    apply andb_true_iff in H as [Hk Hr]. specialize (IH Hr).
    change (filter p (k :: k' :: r)) with (if p k then k :: filter p (k' :: r) else filter p (k' :: r)).
    destruct (p k); [|exact IH].
    destruct (filter p (k' :: r)) as [|k2 r2] eqn:E; [reflexivity|].
    rewrite marker_last_cons by congruence. now rewrite Hk, IH.
Qed.

(* a strict prefix of a marker-last list does not contain the marker *)
Lemma marker_last_prefix l p : marker_last l = true -> (p < length l)%nat -> inb KMeta (firstn p l) = false.
Proof.
  revert p; induction l as [|k [|k' r] IH]; intros p H Hp.
  - cbn in Hp. lia.
  - cbn in Hp. assert (p = O) by lia. subst p. reflexivity.
  - change (marker_last (k :: k' :: r)) with (negb (is_meta k) && marker_last (k' :: r)) in H.
    apply andb_true_iff in H as [Hk Hr]. destruct p as [|p]; [reflexivity|].
    cbn [firstn inb existsb]. change (existsb (kind_eqb KMeta) (firstn p (k' :: r))) with (inb KMeta (firstn p (k' :: r))).
    rewrite IH; [|exact Hr|cbn [length] in Hp |- *; lia].
    destruct k; cbn in Hk |- *; congruence.
Qed.
