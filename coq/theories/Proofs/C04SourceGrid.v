(* C04: ComboGridFactorModel._add_observations (models/grid_combo.py) - the hand model Train.grid_inner / grid_add / train_grid
   equals the translation of the WHOLE method regenerated on every run (Generated/SrcTrainGrid.v, configuration C04_GRID_ADD),
   and the property's clauses for this third shipped model class. *)
From Coq Require Import ZArith List.
From Batchie Require Import Lib.Sexp Model.Train Generated.SrcTrain Generated.SrcTrainGrid Proofs.C04Train Proofs.C04Source.
Import ListNotations.
Open Scope Z_scope.

Section Grid.
Variable C : Type.
Variable u : unpack_fn C.

Lemma grid_cols_app (a b : list (gtrip C)) :
  grid_cols (a ++ b) =
  let '(s1, c1, e1, d1, f1, y1) := grid_cols a in
  let '(s2, c2, e2, d2, f2, y2) := grid_cols b in
  (s1 ++ s2, c1 ++ c2, e1 ++ e2, d1 ++ d2, f1 ++ f2, y1 ++ y2).
Proof. unfold grid_cols. rewrite !map_app. reflexivity. Qed.

Lemma grid_cols_new (rows : list trow) :
  grid_cols (map (grid_trip u) rows) =
  let '(s, a, b, c, d) := unpack_cols u (map (fun r => {| t_sample := t_sample r; t_plate := t_plate r; t_treats := t_treats r;
                                                           t_obs := t_obs r; t_mask := true |}) rows) in
  (s, c, d, a, b, map (fun r => oclip01 (t_obs r)) rows).
Proof.
  unfold grid_cols, unpack_cols, grid_trip. cbn [gt_u gt_y].
  assert (E : forall (l : list trow),
    filter t_mask (map (fun r => {| t_sample := t_sample r; t_plate := t_plate r; t_treats := t_treats r; t_obs := t_obs r; t_mask := true |}) l)
    = map (fun r => {| t_sample := t_sample r; t_plate := t_plate r; t_treats := t_treats r; t_obs := t_obs r; t_mask := true |}) l).
  { induction l as [|x l IH]; [reflexivity|]. cbn [map filter t_mask]. now rewrite IH. }
  rewrite E, !map_map. cbn [t_sample t_treats]. reflexivity.
Qed.

Lemma unpack_cols_filter (rows : list trow) :
  unpack_cols u rows =
  (map (fun r => match u (t_sample r) (t_treats r) with (s, _, _, _, _) => s end) (filter t_mask rows),
   map (fun r => match u (t_sample r) (t_treats r) with (_, a, _, _, _) => a end) (filter t_mask rows),
   map (fun r => match u (t_sample r) (t_treats r) with (_, _, b, _, _) => b end) (filter t_mask rows),
   map (fun r => match u (t_sample r) (t_treats r) with (_, _, _, c, _) => c end) (filter t_mask rows),
   map (fun r => match u (t_sample r) (t_treats r) with (_, _, _, _, d) => d end) (filter t_mask rows)).
Proof. unfold unpack_cols. rewrite !map_map. reflexivity. Qed.

(* the translated method on the object holding the training entries [st] = the model, for every st and row list *)
Theorem src_grid_add_observations_is_model : forall (st : list (gtrip C)) (rows : list trow),
  (let '(s, c, e, d, f, y) := grid_cols st in src_grid_add_observations C u s c e d f y rows)
  = dor t <- grid_inner u st rows; Ok (grid_cols t).
Proof.
  intros st rows. unfold grid_inner.
  destruct (grid_cols st) as [[[[[s c] e] d] f] y] eqn:Est.
  unfold src_grid_add_observations. rewrite map_map, all_true_map.
  destruct (forallb (fun r => o_nonneg (t_obs r)) rows); cbn [negb res_bind]; [|reflexivity].
  rewrite unpack_cols_filter. cbv zeta. rewrite select_map_map.
  f_equal. rewrite grid_cols_app, Est.
  unfold grid_cols, grid_trip. rewrite !map_map. cbn [gt_u gt_y]. unfold oclip01. reflexivity.
Qed.

Theorem src_grid_add_is_model : forall (st : list (gtrip C)) (rows : list trow),
  src_add_observations _
    (fun (self : list Z * list C * list C * list Z * list Z * list oval) d =>
       let '(s, c, e, dd, f, y) := self in src_grid_add_observations C u s c e dd f y d)
    (grid_cols st) rows
  = dor t <- grid_add u st rows; Ok (grid_cols t).
Proof. exact (src_add_observations_lift grid_cols _ (grid_inner u) src_grid_add_observations_is_model). Qed.

Lemma train_grid_noninterference (s1 s2 : list trow) : same_except_masked s1 s2 -> train_grid u s1 = train_grid u s2.
Proof. intros H. unfold train_grid. now rewrite (train_input_noninterference s1 s2 H). Qed.

Lemma train_grid_exactly_once (rows : list trow) :
  (forall t, train_grid u rows = Ok t -> t = map (grid_trip u) (filter t_mask rows)) /\
  ((forall r, In r rows -> t_mask r = true -> o_nonneg (t_obs r) = true) -> exists t, train_grid u rows = Ok t).
Proof.
  unfold train_grid, grid_add. rewrite (train_on_observed_total _ (grid_inner u []) [] rows eq_refl). unfold grid_inner. rewrite filter_idem. split.
  - intros t. destruct (negb _); intros H; inversion H. reflexivity.
  - intros H. rewrite (proj2 (forallb_forall _ _)); [now eexists|].
    intros r Hr. apply filter_In in Hr as [Hi Hm]. now apply H.
Qed.

Lemma grid_refuses_masked (st : list (gtrip C)) (rows : list trow) r :
  In r rows -> t_mask r = false -> grid_add u st rows = Err 1.
Proof. exact (add_observations_refuses_masked _ (grid_inner u st) rows r). Qed.

Lemma grid_inner_refuses (st : list (gtrip C)) (rows : list trow) r :
  In r rows -> bad_obs (t_obs r) -> grid_inner u st rows = Err 2.
Proof.
  intros Hi Hb. unfold grid_inner. now rewrite (forallb_false_of_In _ rows r Hi (bad_obs_not_nonneg _ Hb)).
Qed.

Lemma grid_refuses_negative_nan (st : list (gtrip C)) (rows : list trow) r :
  In r rows -> (o_negative (t_obs r) = true \/ t_obs r = ONaN) ->
  (exists t, grid_add u st rows = Err t) /\ (t_mask r = true -> exists t, train_grid u rows = Err t).
Proof.
  intros Hi Hb. destruct (refusal_lifts _ (grid_inner u) [] rows r) as [Ha Ht]; [|exact Hi|exact (conj (Ha st) Ht)].
  intros st' rows' Hi'. eexists. exact (grid_inner_refuses st' rows' r Hi' Hb).
Qed.
End Grid.
