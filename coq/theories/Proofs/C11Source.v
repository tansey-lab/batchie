(* C11 / C13: the hand-written models of Model/Retro.v (the generate_plates / smooth_plates wrapper, MergeMin,
   MergeTopBottom) equal, for all inputs, the translations of the corresponding WHOLE functions of /repo
   (Generated/SrcRetro.v, by harness/py2gal.py with the configurations of harness/src_functions.py).
   The hold-out link, which only C11 states, is in Proofs/C11Source_Holdout.v. *)
From Coq Require Import ZArith List Bool Arith Lia.
From Batchie Require Import Lib.Sexp Lib.PyRt Model.Encode Model.Screen Model.Retro Model.Pairwise
  Generated.SrcRetro Proofs.PyRtLemmas Proofs.C11Lib Proofs.C11Smooth.
Import ListNotations.
Open Scope nat_scope.

(* core.py: RetrospectivePlateGenerator.generate_plates / RetrospectivePlateSmoother.smooth_plates *)
Theorem src_generate_plates_is_wrap : forall (f : inner) rows ds,
  src_generate_plates f rows ds = wrap f rows ds.
Proof.
  intros f rows ds. unfold src_generate_plates, wrap, subset_unobserved, subset_observed, to_screen, combine_screens.
  destruct (unobserved rows) as [|u us]; cbn [Retro.is_nil is_none unwrap res_bind]; [reflexivity|].
  destruct (f (u :: us) ds) as [[nu ds']|t]; cbn [res_bind]; [|reflexivity].
  destruct (observed rows) as [|o os]; cbn [Retro.is_nil is_none unwrap res_bind]; [reflexivity|].
  destruct (construct (nu ++ o :: os)); reflexivity.
Qed.

(* smooth_plates has the text of generate_plates *)
Theorem src_smooth_plates_is_wrap : forall (f : inner) rows ds,
  src_smooth_plates f rows ds = wrap f rows ds.
Proof. exact src_generate_plates_is_wrap. Qed.

Theorem src_generate_plates_is_model : forall rows ds,
  (forall f : inner, src_generate_plates f rows ds = wrap f rows ds) /\
  (forall g, src_generate_plates (generate_inner g) rows ds = generate_plates g rows ds).
Proof. intros rows ds; split; intros; apply src_generate_plates_is_wrap. Qed.

Theorem src_smooth_plates_is_model : forall rows ds,
  (forall f : inner, src_smooth_plates f rows ds = wrap f rows ds) /\
  (forall sm, src_smooth_plates (smooth_inner sm) rows ds = smooth_plates sm rows ds).
Proof. intros rows ds; split; intros; apply src_smooth_plates_is_wrap. Qed.

(* retrospective.py: MergeMinPlateSmoother._get_plate_sample_id *)
Lemma vselect_plate_vec : forall p rows, vselect (plate_vec p rows) rows = filter (in_plate p) rows.
Proof. intros. unfold plate_vec. symmetry. apply filter_vselect. Qed.

(* on a plate of the screen (selection vector of the plate named p) it is the model's [plate_sample] *)
Theorem src_get_plate_sample_id_is_model : forall rows p,
  src_merge_min_get_plate_sample_id rows (plate_vec p rows) = plate_sample p rows.
Proof.
  intros rows p. unfold src_merge_min_get_plate_sample_id, plate_sample, plate_unique_samples, plate_samples, zlen.
  rewrite vselect_plate_vec.
  destruct (sort_uniq name_cmp (map r_sample (filter (in_plate p) rows))) as [|x [|y l]]; cbn [length first_item res_bind];
    try reflexivity.
  destruct (Z.of_nat (S (S (length l))) >? 1)%Z eqn:E; [reflexivity|].
  rewrite Z.gtb_ltb in E. apply Z.ltb_ge in E. lia.
Qed.

(* retrospective.py: MergeMinPlateSmoother._smooth_plates *)
(* the comprehension building the heap *)
Lemma heap_comprehension : forall s rows (g : bvec -> result bool),
  (forall p, g (plate_vec p rows) = dor r <- plate_sample p rows; Ok (name_eqb r s)) ->
  res_filter g (plates_of rows)
  = dor ps <- plates_of_sample s rows; Ok (map (fun p => plate_vec p rows) ps).
Proof.
  intros s rows g Hg. unfold plates_of, plates_of_sample.
  induction (plate_names_of rows) as [|p ps IH]; [reflexivity|].
  cbn [map res_filter res_map_all]. rewrite Hg.
  destruct (plate_sample p rows) as [s'|t]; cbn [res_bind]; [|reflexivity].
  rewrite IH. destruct (res_map_all (fun p0 => plate_sample p0 rows) ps) as [sps|t]; cbn [res_bind combine filter snd]; [|reflexivity].
  destruct (name_eqb s' s); reflexivity.
Qed.

Lemma zlen_leb1 {A} : forall l : list A, (zlen l <=? 1)%Z = (length l <=? 1).
Proof.
  intros l. unfold zlen. destruct (Nat.leb_spec (length l) 1); [apply Z.leb_le|apply Z.leb_gt]; lia.
Qed.

Lemma pop_length : forall heap ds v h ds', pop heap ds = Ok (v, h, ds') -> length heap = S (length h).
Proof.
  intros heap ds v h ds' H. apply pop_ok in H as (i & _ & Hn & -> & _). eapply remove_nth_length; eassumption.
Qed.

(* the `while True` loop, for an arbitrary body [bd] equal to the canonical one and an arbitrary continuation [K]
   that drops the heap the loop ends with *)
Lemma mm_while {B : Type} (ms : Z) (bd : list bvec * list draw * screen_t -> result (bool * (list bvec * list draw * screen_t)))
      (K : list bvec * list draw * screen_t -> result B) (k : screen_t -> list draw -> result B) :
  (forall h d r, bd (h, d, r) =
     if (zlen h <=? 1)%Z then Ok (false, (h, d, r))
     else
       dor p1 <- pop h d; let '(a, h1, d1) := p1 in
       dor p2 <- pop h1 d1; let '(b, h2, d2) := p2 in
       if (plate_size a + plate_size b >? ms)%Z then Ok (false, (h2, d2, r))
       else Ok (true, (h2 ++ [fst (merge b a r)], d2, snd (merge b a r)))) ->
  (forall h d r, K (h, d, r) = k r d) ->
  forall fs fm heap ds rows, length heap < fs -> length heap <= fm ->
    res_bind (res_while fs bd (heap, ds, rows)) K = dor x <- mm_loop fm ms heap rows ds; k (fst x) (snd x).
Proof.
  intros Hbd HK. induction fs as [|fs IH]; intros fm heap ds rows Hs Hm; [lia|].
  cbn [res_while]. rewrite Hbd, zlen_leb1.
  destruct fm as [|fm].
  - destruct heap; [|cbn [length] in Hm; lia]. cbn. apply HK.
  - cbn [mm_loop]. destruct (length heap <=? 1); [cbn; apply HK|].
    destruct (pop heap ds) as [[[a h1] d1]|t] eqn:P1; cbn [res_bind]; [|reflexivity].
    destruct (pop h1 d1) as [[[b h2] d2]|t] eqn:P2; cbn [res_bind]; [|reflexivity].
    unfold plate_size. rewrite <- Nat2Z.inj_add.
    destruct (Z.of_nat (vcount a + vcount b) >? ms)%Z; cbn [res_bind fst snd]; [apply HK|].
    apply pop_length in P1. apply pop_length in P2.
    unfold merge. cbn [fst snd].
    apply IH; rewrite app_length; cbn [length]; lia.
Qed.

Lemma filter_len_le {A} (f : A -> bool) : forall l, length (filter f l) <= length l.
Proof. induction l as [|a l IH]; cbn [filter length]; [lia|]. destruct (f a); cbn [length]; lia. Qed.

Lemma plate_names_of_length : forall rows, length (plate_names_of rows) <= length rows.
Proof.
  intros rows. unfold plate_names_of. rewrite <- (map_length r_plate rows).
  apply NoDup_incl_length; [apply NoDup_sort_uniq|]. intros x. apply (sort_uniq_In _ name_cmp_spec).
Qed.

Lemma plates_of_sample_length : forall s rows ps, plates_of_sample s rows = Ok ps -> length ps <= length rows.
Proof.
  intros s rows ps H. unfold plates_of_sample in H.
  apply res_bind_inv in H as (sps & _ & [= <-]). rewrite map_length.
  etransitivity; [apply filter_len_le|]. rewrite combine_length.
  pose proof (plate_names_of_length rows). lia.
Qed.

(* the loop over the samples, for an arbitrary body equal to the canonical one while the screen keeps its length *)
Lemma mm_for (ms : Z) (fuel : nat) (f : list draw * screen_t -> name -> result (list draw * screen_t)) :
  (forall d r s, length r < fuel ->
     f (d, r) s = dor ps <- plates_of_sample s r;
                  dor x <- mm_loop (length (map (fun p => plate_vec p r) ps)) ms (map (fun p => plate_vec p r) ps) r d;
                  Ok (snd x, fst x)) ->
  forall samples rows ds, length rows < fuel ->
    res_fold f samples (ds, rows) = dor x <- mm_samples ms samples rows ds; Ok (snd x, fst x).
Proof.
  intros Hf. induction samples as [|s samples IH]; intros rows ds Hl; cbn [res_fold mm_samples]; [reflexivity|].
  rewrite Hf by exact Hl.
  destruct (plates_of_sample s rows) as [ps|t]; cbn [res_bind]; [|reflexivity].
  destruct (mm_loop _ ms _ rows ds) as [[r1 d1]|t] eqn:El; cbn [res_bind fst snd]; [|reflexivity].
  apply IH. apply mm_loop_strip in El. apply (f_equal (@length _)) in El. rewrite !map_length in El. lia.
Qed.

Theorem src_merge_min_is_model : forall ms rows ds fuel, length rows < fuel ->
  src_merge_min_smooth_plates ms rows ds fuel = merge_min ms rows ds.
Proof.
  intros ms rows ds fuel Hfuel. unfold src_merge_min_smooth_plates, merge_min.
  rewrite (mm_for ms fuel); [| |exact Hfuel].
  - destruct (mm_samples ms (sample_names rows) rows ds) as [[r d]|t]; reflexivity.
  - intros d r s Hr. cbv beta.
    rewrite (heap_comprehension s r) by (intro p; rewrite src_get_plate_sample_id_is_model; reflexivity).
    destruct (plates_of_sample s r) as [ps|t] eqn:Ep; cbn [res_bind]; [|reflexivity].
    apply plates_of_sample_length in Ep.
    apply (mm_while ms _ _ (fun r d => Ok (d, r))).
    + intros h d0 r0. reflexivity.
    + intros h d0 r0. reflexivity.
    + rewrite map_length. lia.
    + lia.
Qed.

(* retrospective.py: MergeTopBottomPlateSmoother._get_plate_sample_id / ._smooth_plates *)
(* the same text as MergeMin's *)
Theorem src_tb_get_plate_sample_id_is_model : forall rows p,
  src_merge_tb_get_plate_sample_id rows (plate_vec p rows) = plate_sample p rows.
Proof. exact src_get_plate_sample_id_is_model. Qed.

(* the loop over the (smaller, bigger) pairs *)
Lemma tb_pairs_loop : forall pairs rows,
  fold_left (fun r (ab : bvec * bvec) => snd (merge (snd ab) (fst ab) r)) pairs rows = tb_merge_pairs pairs rows.
Proof. induction pairs as [|[a b] pairs IH]; intros rows; cbn [fold_left tb_merge_pairs fst snd]; [reflexivity | apply IH]. Qed.

(* the `for i in range(n_iterations)` loop with its break, for an arbitrary body equal to one model iteration *)
Lemma tb_brk {A : Type} (s : name) (f : screen_t -> A -> result (bool * screen_t)) :
  (forall r i, f r i = dor o <- tb_iter s r; match o with None => Ok (false, r) | Some r' => Ok (true, r') end) ->
  forall (l : list A) rows, res_fold_brk f l rows = tb_iters (length l) s rows.
Proof.
  intros Hf. induction l as [|i l IH]; intros rows; cbn [res_fold_brk length tb_iters]; [reflexivity|].
  rewrite Hf. destruct (tb_iter s rows) as [[r'|]|t]; cbn [res_bind fst snd]; [apply IH | reflexivity | reflexivity].
Qed.

Lemma tb_for (n : nat) (f : screen_t -> name -> result screen_t) :
  (forall r s, f r s = tb_iters n s r) ->
  forall samples rows, res_fold f samples rows = tb_samples n samples rows.
Proof.
  intros Hf. induction samples as [|s samples IH]; intros rows; cbn [res_fold tb_samples]; [reflexivity|].
  rewrite Hf. destruct (tb_iters n s rows); cbn [res_bind]; [apply IH | reflexivity].
Qed.

Theorem src_merge_tb_is_model : forall n_iter rows, src_merge_tb_smooth_plates n_iter rows = merge_tb n_iter rows.
Proof.
  intros n rows. unfold src_merge_tb_smooth_plates, merge_tb.
  rewrite (tb_for (Z.to_nat n)).
  - apply res_bind_ret.
  - intros r s. cbv beta.
    rewrite (tb_brk s).
    + rewrite res_bind_ret. unfold zrange. now rewrite map_length, seq_length.
    + intros r0 i. cbv beta. unfold tb_iter.
      rewrite (heap_comprehension s r0) by (intro p; rewrite src_tb_get_plate_sample_id_is_model; reflexivity).
      destruct (plates_of_sample s r0) as [ps|t]; cbn [res_bind]; [|reflexivity].
      rewrite zlen_leb1, map_length. destruct (length ps <=? 1); [reflexivity|].
      unfold zlen. change 2%Z with (Z.of_nat 2). rewrite <- Nat2Z.inj_div, Nat2Z.id.
      rewrite (res_fold_pure _ (fun r (ab : bvec * bvec) => snd (merge (snd ab) (fst ab) r))) by (intros r1 [a b]; reflexivity).
      cbn [res_bind]. now rewrite tb_pairs_loop.
Qed.
