(* C13 / C11, one of the pieces Proofs/C13SourceHelpers.v collects (its header describes the representation and the side conditions): screen.unique_sample_ids / n_unique_samples *)
From Coq Require Import ZArith List.
From Batchie Require Import Lib.Sexp Model.Screen Model.Views Model.Retro Generated.SrcPlates Proofs.C14SourceHelpers_ScreenSamples Proofs.C13SourceHelpers_Base.
Import ListNotations.
Open Scope nat_scope.

(* on a screen whose sample ids are fresh (any to_screen() / combine result - what every generator and smoother is handed):
   the unique sample ids are 0 .. k-1, k the number of distinct sample names; id j stands for the j-th name of
   [sample_names] (the list the Retro vocabulary iterates over instead): the rows with sample id j are the rows of that sample *)
Theorem src_unique_sample_ids_are_sample_names : forall s : pyscreen, sample_ids_fresh (snd s) ->
  let names := sample_names (s_rows (snd s)) in
  src_screen_unique_sample_ids s = Ok (map Z.of_nat (seq 0 (length names))) /\
  src_screen_n_unique_samples s = Ok (zlen names) /\
  (forall j, j < length names ->
     map (fun x => (x =? Z.of_nat j)%Z) (s_sids (snd s)) = map (in_sample (nth j names [])) (s_rows (snd s))).
Proof.
  intros s (m & Hm) names. pose proof (fresh_ids_are_ranks _ _ _ _ Hm) as Hr.
  rewrite src_screen_unique_sample_ids_is_model, src_screen_n_unique_samples_is_model. unfold screen_unique_sids.
  unfold names, sample_names. set (sn := map r_sample (s_rows (snd s))) in *. rewrite Hr.
  pose proof (ranks_sorted_unique sn) as Hs. cbv zeta in Hs. rewrite Hs.
  split; [reflexivity|]. split; [unfold zlen; now rewrite map_length, seq_length|].
  intros j Hj. pose proof (rank_eqb_name sn j) as He. cbv zeta in He. rewrite He by exact Hj.
  unfold sn. rewrite map_map. reflexivity.
Qed.
