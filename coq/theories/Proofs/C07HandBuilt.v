(* C07: matrices built by hand through the public class, not by the pipeline.
   (1) any matrix whose stored keys are distinct, strictly lower-triangular and in range (whatever order they were added
       in, whatever values they carry) refuses to densify while a pair is missing, and densifies to the symmetric
       zero-diagonal matrix once none is;
   (2) the side condition is needed: add_value accepts a diagonal key (its guard is i < j), is_complete counts entries,
       so three accepted calls on a size-3 matrix give a "complete" matrix that densifies with two pairs missing and a
       non-zero diagonal.  Witness replayed on the implementation by harness/c07.py (extra check). *)
From Coq Require Import ZArith List.
From Batchie Require Import Lib.Sexp Model.DistMat Proofs.C07DistMat.
Import ListNotations.

Theorem hand_built_incomplete_refused (V : Type) (vzero : V) (d : nat -> nat -> V) (n : nat) (ps : list (nat * nat)) i j :
  NoDup ps -> Forall (valid n) ps -> (j < i < n)%nat -> ~ In (i, j) ps ->
  to_dense V vzero (mk V d n ps) = Err 5%Z.
Proof. intros Hnd Hv. exact (to_dense_incomplete V vzero d n ps i j (conj Hnd Hv)). Qed.

Theorem hand_built_complete_densifies (V : Type) (vzero : V) (d : nat -> nat -> V) (n : nat) (ps : list (nat * nat)) :
  NoDup ps -> Forall (valid n) ps -> (forall i j, (j < i < n)%nat -> In (i, j) ps) ->
  to_dense V vzero (mk V d n ps) = Ok (dense_of V vzero d n).
Proof. intros Hnd Hv. exact (to_dense_complete V vzero d n ps (conj Hnd Hv)). Qed.

(* the keys of mk ps are built by add_value calls in the order of ps *)
Theorem hand_built_by_add_value (V : Type) (d : nat -> nat -> V) (n : nat) (ps : list (nat * nat)) :
  Forall (valid n) ps -> add_all V d (dm_empty V (Z.of_nat n)) ps = Ok (mk V d n ps).
Proof. exact (add_all_valid V d n ps []). Qed.

Definition ill_formed_script : result (dmat Z) :=
  dor m1 <- add_value Z (dm_empty Z 3) 1 1 5;
  dor m2 <- add_value Z m1 2 2 7;
  add_value Z m2 1 0 3.

Theorem to_dense_accepts_ill_formed :
  exists m D, ill_formed_script = Ok m /\ to_dense Z 0%Z m = Ok D
              /\ has_key Z (dm_entries m) 2 0 = false /\ has_key Z (dm_entries m) 2 1 = false
              /\ D = [[0; 3; 0]; [3; 5; 0]; [0; 0; 7]]%Z.
Proof.
  eexists. eexists. split; [vm_compute; reflexivity|]. split; [vm_compute; reflexivity|].
  repeat split; vm_compute; reflexivity.
Qed.
