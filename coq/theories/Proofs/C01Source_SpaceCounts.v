(* C01, one piece of Proofs/C01Source.v (which see): ExperimentSpace.n_unique_treatment_types / n_unique_doses *)
From Coq Require Import List.
From Batchie Require Import Lib.Sexp Model.Persist Generated.SrcSpaceMethods Proofs.C01Sort Proofs.C01Source_SpaceBase.
Import ListNotations.
Open Scope Z_scope.

Theorem src_space_n_treatment_types_is_model : forall sp : space,
  src_space_n_unique_treatment_types (pyspace_of sp) = Ok (space_n_treatment_types sp).
Proof.
  intros sp. unfold src_space_n_unique_treatment_types, space_n_treatment_types, pyspace_of, pysp_tmap, pysp_ctrl, tmap_cols.
  cbn [fst snd]. now rewrite setdiff1d_names_one, (sort_uniq_idem _ name_cmp_spec).
Qed.

Theorem src_space_n_doses_is_model : forall sp : space,
  src_space_n_unique_doses (pyspace_of sp) = Ok (space_n_doses sp).
Proof.
  intros sp. unfold src_space_n_unique_doses, space_n_doses, pyspace_of, pysp_tmap, tmap_cols.
  cbn [fst snd]. now rewrite setdiff1d_one, (sort_uniq_idem _ Zcmp_spec).
Qed.
