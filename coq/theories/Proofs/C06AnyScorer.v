(* C06: the selection clause for scorers that are not a function of the plate (the score depends on the
   position of the call in the combine order), chunks repeated: the plate returned is a candidate, allowed, and the score
   stored for it by SOME call that scored it is <= every score ANY call stored for ANY allowed plate. *)
From Coq Require Import ZArith List.
From Batchie Require Import Lib.ListX Lib.Sexp Model.Scores Proofs.C06Rows Proofs.C06Select Proofs.C06Main.
Import ListNotations.
Open Scope Z_scope.

(* a scorer that IS a function of the plate: the positional pipeline is the pipeline *)
Theorem pipeline_pos_constant scorer policy s batch n order :
  pipeline_pos (fun _ => scorer) policy s batch n order = pipeline scorer policy s batch n order.
Proof.
  unfold pipeline_pos, pipeline.
  now rewrite <- (res_map_all_map (load_chunk scorer s batch n) snd), positions_snd.
Qed.

Section AnyScorer.
Variable scorer : pscorer_t.
Variable policy : option policy_t.
Variable s : screen.
Variable batch : list Z.
Variable n : Z.
Variable order : list Z.

Hypothesis policy_sub : forall f, policy = Some f -> forall b c, incl (f b c) c.
Hypothesis n_pos : 1 <= n.
Hypothesis batch_ok : batch_valid s batch.
Hypothesis order_covers : forall k, 0 <= k < n -> In k order.
Hypothesis order_in_range : forall k, In k order -> 0 <= k < n.

Let cands := candidates s batch.
Let elig := eligible_plates policy s batch.

(* the files are the positions of [order]: the one at (pos, k) was written by [scorer pos] for chunk k *)
Lemma positions_cover : forall k, 0 <= k < n -> exists pk, In pk (positions order) /\ snd pk = k.
Proof.
  intros k Hk. destruct (In_nth_error _ _ (order_covers k Hk)) as (pos & Hpos).
  exists (pos, k). split; [now apply positions_In|reflexivity].
Qed.

Lemma positions_in_range : forall pk, In pk (positions order) -> 0 <= snd pk < n.
Proof. intros [pos k] Hpk. apply positions_In, nth_error_In in Hpk. now apply order_in_range. Qed.

Lemma call_handed pos k : nth_error order pos = Some k ->
  score_chunk s batch n k = Ok (map (handed_of s batch) (chunk_plates s batch n (Z.to_nat k))).
Proof. intros Hpk. apply score_chunk_ok; [exact batch_ok|eapply order_in_range, nth_error_In, Hpk]. Qed.

(* "plate q is handed to the scorer in chunk k" in the vocabulary of score_chunk *)
Lemma handed_in_chunk pos k ps q : In q cands -> nth_error order pos = Some k ->
  score_chunk s batch n k = Ok ps ->
  (In (p_id q, rows_for s batch q) ps <-> In q (chunk_plates s batch n (Z.to_nat k))).
Proof.
  intros Hq Hk E. rewrite (call_handed pos k Hk) in E. injection E as <-. split.
  - intros H. apply in_map_iff in H. destruct H as (q' & [= Eid _] & Hq').
    now rewrite <- (cands_same_id s batch q' q (chunk_plates_cands _ _ _ _ _ Hq') Hq Eid).
  - intros H. apply in_map_iff. now exists q.
Qed.

Definition select_post_pos (r : option Z) : Prop :=
  match r with
  | None => elig = []
  | Some pid =>
      is_candidate s batch pid /\ In pid (map p_id elig) /\
      exists pos k ps,
        nth_error order pos = Some k /\ score_chunk s batch n k = Ok ps
        /\ In (pid, rows_for s batch (get_plate s pid)) ps /\
        forall q pos' k' ps', In q elig -> nth_error order pos' = Some k' -> score_chunk s batch n k' = Ok ps' ->
          In (p_id q, rows_for s batch q) ps' ->
          scorer pos pid (rows_for s batch (get_plate s pid)) <= scorer pos' (p_id q) (rows_for s batch q)
  end.

Theorem select_sound_pos_rows : exists r, pipeline_pos scorer policy s batch n order = Ok r /\ select_post_pos r.
Proof.
  destruct (select_sound_calls policy s batch n (positions order) (fun pk => scorer (fst pk)) snd
              policy_sub n_pos batch_ok positions_cover positions_in_range) as (r & Er & Hr).
  exists r. split; [exact Er|]. destruct r as [pid|]; [|exact Hr].
  destruct Hr as (Hc & He & [pos k] & Hpk & Hp & Hmin). apply positions_In in Hpk. cbn [fst snd] in Hp, Hmin.
  split; [now apply candidates_spec|]. split; [exact He|].
  exists pos, k, (map (handed_of s batch) (chunk_plates s batch n (Z.to_nat k))).
  split; [exact Hpk|]. split; [exact (call_handed pos k Hpk)|].
  split; [apply in_map_iff; now exists (get_plate s pid)|].
  intros q pos' k' ps' Hq Hpk' Eps' Hqin.
  apply (handed_in_chunk pos' k' ps' q (elig_incl policy s batch policy_sub q Hq) Hpk' Eps') in Hqin.
  exact (Hmin q (pos', k') Hq (proj2 (positions_In order pos' k') Hpk') Hqin).
Qed.

(* every allowed plate is scored by at least one call: the comparison above is never vacuous *)
Theorem allowed_is_scored_pos_rows q : In q elig ->
  exists pos k ps, nth_error order pos = Some k /\ score_chunk s batch n k = Ok ps /\ In (p_id q, rows_for s batch q) ps.
Proof.
  intros Hq.
  destruct (scored_by_a_call s batch n (positions order) snd n_pos positions_cover q (elig_incl policy s batch policy_sub q Hq))
    as ([pos k] & Hpk & Hin). apply positions_In in Hpk.
  exists pos, k, (map (handed_of s batch) (chunk_plates s batch n (Z.to_nat k))).
  split; [exact Hpk|]. split; [exact (call_handed pos k Hpk)|]. apply in_map_iff. now exists q.
Qed.

End AnyScorer.
