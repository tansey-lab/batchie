(* C14, one piece of Proofs/C14SourceHelpers.v (which see): ScreenBase.unique_treatments / n_unique_treatments on a Screen object *)
From Coq Require Import ZArith List.
From Batchie Require Import Lib.Sexp Model.Views Generated.SrcPlates
  Proofs.C14SourceHelpers_Base.
Import ListNotations.
Open Scope Z_scope.

Theorem src_screen_unique_treatments_is_model : forall s : pyscreen,
  src_screen_unique_treatments s = Ok (screen_unique_treatments (snd s)).
Proof.
  intros s. unfold src_screen_unique_treatments, screen_unique_treatments, unique_treatments_of, np_unique2, screen_tids2. cbn [snd].
  now rewrite setdiff_sentinel.
Qed.

Theorem src_screen_n_unique_treatments_is_model : forall s : pyscreen,
  src_screen_n_unique_treatments s = Ok (Z.of_nat (length (screen_unique_treatments (snd s)))).
Proof. intros s. unfold src_screen_n_unique_treatments. now rewrite src_screen_unique_treatments_is_model. Qed.
