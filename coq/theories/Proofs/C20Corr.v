(* C20: itertools.combinations enumerates every subset of positions once; the
   combinatoric space carries the screen's own ids; the correlation matrix is symmetric, has a
   unit diagonal wherever it is defined (given the square-root property at that row's sum of
   squares), and equals its index-wise definition over the full space. *)
From Coq Require Import ZArith List QArith Qcanon Lia Sorted FinFun.
From Batchie Require Import Lib.Sexp Lib.Num Lib.NumP Lib.ListX Model.Metrics Model.Corr
  Proofs.C20Spec Proofs.C20Base.
Import ListNotations.
Open Scope Qc_scope.

Lemma combs_0 {A} (l : list A) : combs l 0 = [[]].
Proof. now destruct l. Qed.

Lemma combs_map {A B} (g : A -> B) l k : combs (map g l) k = map (map g) (combs l k).
Proof.
  revert k; induction l as [|x l IH]; intros [|k]; try reflexivity.
  cbn [map combs]. rewrite !IH, map_app, !map_map. reflexivity.
Qed.

Lemma combs_nonempty {A} : forall (l : list A) k, (k <= length l)%nat -> combs l k <> [].
Proof.
  induction l as [|x l IH]; intros [|k] H; cbn [combs]; try discriminate.
  - cbn [length] in H. lia.
  - cbn [length] in H. intros E. apply app_eq_nil in E as [E _]. apply map_eq_nil in E. revert E. apply IH. lia.
Qed.

Lemma combs_incl {A} (l : list A) : forall k c, In c (combs l k) -> incl c l /\ length c = k.
Proof.
  induction l as [|x l IH]; intros [|k] c H; cbn [combs] in H.
  1, 3: destruct H as [<-|[]]; split; [intros y []|reflexivity].
  - destruct H.
  - apply in_app_or in H as [H|H].
    + apply in_map_iff in H as (c' & <- & Hc'). destruct (IH _ _ Hc') as [Hi Hl].
      split; [|cbn [length]; now rewrite Hl].
      intros y [<-|Hy]; [now left|right; now apply Hi].
    + destruct (IH _ _ H) as [Hi Hl]. split; [|exact Hl]. intros y Hy. right. now apply Hi.
Qed.

Lemma combs_NoDup {A} (l : list A) : NoDup l -> forall k, NoDup (combs l k).
Proof.
  induction 1 as [|x l Hx Hl IH]; intros [|k]; cbn [combs]; try (repeat constructor; intros []).
  apply NoDup_app_intro.
  - apply Injective_map_NoDup; [|apply IH]. intros a b E. now injection E.
  - apply IH.
  - intros c H1 H2. apply in_map_iff in H1 as (c' & <- & _).
    apply combs_incl in H2 as [Hi _]. apply Hx, Hi. now left.
Qed.

Lemma combs_sorted (l : list nat) : StronglySorted lt l ->
  forall k c, In c (combs l k) <-> (length c = k /\ StronglySorted lt c /\ incl c l).
Proof.
  assert (H0 : forall l' c, In c (combs l' 0) <-> length c = 0%nat /\ StronglySorted lt c /\ incl c l').
  { intros l' c. rewrite combs_0. split.
    - intros [<-|[]]. repeat split; [constructor|intros y []].
    - intros (Hl & _). left. symmetry. now apply length_zero_iff_nil. }
  induction 1 as [|x l Hs IH Hx]; intros [|k] c; try apply H0; cbn [combs].
  - split; [intros []|]. intros (Hl & _ & Hi). destruct c as [|y c]; [discriminate|]. apply (Hi y). now left.
  - rewrite in_app_iff, in_map_iff. rewrite Forall_forall in Hx. split.
    + intros [(c' & <- & Hc')|Hc].
      * apply IH in Hc' as (Hl & Hsc & Hi). repeat split.
        -- cbn [length]. now rewrite Hl.
        -- constructor; [exact Hsc|]. apply Forall_forall. intros y Hy. apply Hx, Hi, Hy.
        -- intros y [<-|Hy]; [now left|right; now apply Hi].
      * apply IH in Hc as (Hl & Hsc & Hi). repeat split; try assumption. intros y Hy. right. now apply Hi.
    + intros (Hl & Hsc & Hi). destruct c as [|y c]; [discriminate|].
      apply StronglySorted_inv in Hsc as [Hsc Hy]. injection Hl as Hl. rewrite Forall_forall in Hy.
      (* the tail lies above y >= x, so it avoids x *)
      assert (Hc : incl c l).
      { intros z Hz. destruct (Hi z (or_intror Hz)) as [<-|Hzl]; [|exact Hzl].
        specialize (Hy _ Hz). destruct (Hi y (or_introl eq_refl)) as [<-|Hyl]; [lia|]. specialize (Hx _ Hyl). lia. }
      destruct (Hi y (or_introl eq_refl)) as [<-|Hyl].
      * left. exists c. split; [reflexivity|]. apply IH. now repeat split.
      * right. apply IH. repeat split.
        -- cbn [length]. now rewrite Hl.
        -- constructor; [exact Hsc|]. now apply Forall_forall.
        -- intros z [<-|Hz]; [exact Hyl|now apply Hc].
Qed.

Theorem combs_every_subset_once {A} (l : list A) (d : A) (k : nat) :
  combs l k = map (map (fun p => nth p l d)) (combs (seq 0 (length l)) k)
  /\ NoDup (combs (seq 0 (length l)) k)
  /\ forall idx, In idx (combs (seq 0 (length l)) k)
                 <-> (length idx = k /\ StronglySorted lt idx /\ Forall (fun p => (p < length l)%nat) idx).
Proof.
  split; [|split].
  - rewrite (list_eq_map_nth l d) at 1. apply combs_map.
  - apply combs_NoDup, seq_NoDup.
  - intros idx. rewrite (combs_sorted _ (seq_sorted 0 (length l))).
    split; intros (H1 & H2 & H3); repeat split; try assumption.
    + apply Forall_forall. intros p Hp. apply H3, in_seq in Hp. lia.
    + intros p Hp. rewrite Forall_forall in H3. apply in_seq. specialize (H3 _ Hp). lia.
Qed.

Lemma zlookup_In k m v : zlookup k m = Some v -> In (k, v) m.
Proof.
  unfold zlookup. destruct (find _ m) as [[k' v']|] eqn:E; [|discriminate].
  intros H. inversion H; subst. apply find_some in E as [Hin Hk]. cbn [fst] in Hk.
  apply Z.eqb_eq in Hk. now subst.
Qed.

Lemma zlookup_NoDup k v m : NoDup (map fst m) -> In (k, v) m -> zlookup k m = Some v.
Proof.
  induction m as [|[k' v'] m IH]; intros Hnd Hin; [destruct Hin|].
  cbn [map fst] in Hnd. inversion Hnd as [|? ? Hk' Hnd']; subst.
  unfold zlookup. cbn [find fst]. destruct (Z.eqb_spec k' k) as [E|E].
  - subst k'. destruct Hin as [Hin|Hin]; [now inversion Hin|].
    exfalso. apply Hk'. apply in_map_iff. now exists (k, v).
  - destruct Hin as [Hin|Hin]; [inversion Hin; congruence|]. now apply IH.
Qed.

Lemma res_map_all_inv {A B} (f : A -> result B) (g : A -> B) l : forall l',
  (forall a b, In a l -> f a = Ok b -> b = g a) -> res_map_all f l = Ok l' -> l' = map g l.
Proof.
  induction l as [|a l IH]; intros l' H Hr; cbn [res_map_all] in Hr.
  - now inversion Hr.
  - destruct (f a) as [b|] eqn:E; [|discriminate]. cbn [res_bind] in Hr.
    destruct (res_map_all f l) as [bs|] eqn:E2; [|discriminate]. cbn [res_bind] in Hr. inversion Hr; subst.
    cbn [map]. f_equal; [apply H; [now left|exact E]|].
    apply IH; [|reflexivity]. intros a' b' Ha'. apply H. now right.
Qed.

(* what a successful full_space looks like *)
Lemma full_space_inv mapping smap arity s ss tids :
  full_space mapping smap arity s = Ok (ss, tids) ->
  (arity <= length mapping)%nat /\
  exists name sid, zlookup s (rev (map swap_pair smap)) = Some name /\ zlookup name smap = Some sid /\
    ss = map (fun _ => sid) (combs mapping arity) /\
    res_map_all (res_map_all (fun row => encode mapping (fst row))) (combs mapping arity) = Ok tids.
Proof.
  unfold full_space, combination_count.
  destruct (Nat.ltb_spec (length mapping) arity) as [|Le]; [discriminate|]. cbn [res_bind].
  destruct (10000000 <? _)%Z; [discriminate|].
  destruct (Nat.eqb arity 0); [discriminate|].
  destruct (zlookup s _) as [name|]; [|discriminate].
  destruct (zlookup name smap) as [sid|] eqn:E; [|discriminate].
  destruct (res_map_all _ _) as [t|]; [|discriminate]. cbn [res_bind].
  intros [= <- <-]. split; [exact Le|]. now exists name, sid.
Qed.

Theorem full_space_eq mapping smap arity s ss tids :
  NoDup (map fst mapping) ->
  full_space mapping smap arity s = Ok (ss, tids) ->
  tids = map (map snd) (combs mapping arity)
  /\ exists sid, ss = map (fun _ => sid) (combs mapping arity) /\ (NoDup (map fst smap) -> sid = s).
Proof.
  intros Hnd H. apply full_space_inv in H as (_ & name & sid & E1 & E2 & -> & Ht).
  rewrite (res_map_all_ok _ (map snd)) in Ht.
  - injection Ht as <-. split; [reflexivity|]. exists sid. split; [reflexivity|].
    intros Hnds. apply zlookup_In, in_rev, in_map_iff in E1 as ([a b] & E & Hin).
    unfold swap_pair in E. cbn [fst snd] in E. inversion E; subst.
    rewrite (zlookup_NoDup _ _ _ Hnds Hin) in E2. now inversion E2.
  - intros combo Hc. apply combs_incl in Hc as [Hi _].
    apply res_map_all_ok. intros [k i] Hr. unfold encode. cbn [fst snd].
    now rewrite (zlookup_NoDup _ _ _ Hnd (Hi _ Hr)).
Qed.

Lemma mat_get_outer {A B} (g : A -> A -> option B) (L : list A) i j :
  mat_get (map (fun a => map (fun b => g a b) L) L) i j
  = match nth_error L i, nth_error L j with
    | Some a, Some b => g a b
    | _, _ => None
    end.
Proof.
  unfold mat_get. destruct (nth_error L i) as [a|] eqn:Ei.
  - rewrite (nth_error_nth (map (fun a => map (fun b => g a b) L) L) i [] (x := map (fun b => g a b) L))
      by (now rewrite nth_error_map, Ei).
    destruct (nth_error L j) as [b|] eqn:Ej.
    + apply nth_error_nth. now rewrite nth_error_map, Ej.
    + apply nth_overflow. rewrite map_length. now apply nth_error_None.
  - rewrite (nth_overflow (map _ L)) by (rewrite map_length; now apply nth_error_None).
    now destruct j.
Qed.

Lemma mat_get_outer_sym {A B} (g : A -> A -> option B) (L : list A) i j :
  (forall a b, g a b = g b a) ->
  mat_get (map (fun a => map (fun b => g a b) L) L) i j = mat_get (map (fun a => map (fun b => g a b) L) L) j i.
Proof.
  intros Hg. rewrite !mat_get_outer. destruct (nth_error L i), (nth_error L j); try reflexivity. apply Hg.
Qed.

Lemma qdot_comm a : forall b, qdot a b = qdot b a.
Proof.
  unfold qdot. induction a as [|x a IH]; intros [|y b]; try reflexivity.
  cbn [combine map fst snd]. rewrite !qsum_cons, IH. ring.
Qed.

Section CorrP.
Variable orc : oracle.

Lemma corr_entry_comm a b : corr_entry a b = corr_entry b a.
Proof. destruct a, b; cbn [corr_entry]; try reflexivity. now rewrite qdot_comm. Qed.

Theorem corr_of_symmetric P ncols i j :
  mat_get (corr_of orc P ncols) i j = mat_get (corr_of orc P ncols) j i.
Proof. apply (mat_get_outer_sym corr_entry), corr_entry_comm. Qed.

Theorem correlation_matrix_symmetric f mapping smap arity nthetas rows index M i j :
  correlation_matrix orc f mapping smap arity nthetas rows = Ok (index, M) ->
  mat_get M i j = mat_get M j i.
Proof.
  unfold correlation_matrix.
  destruct (res_map_all _ _) as [spaces|]; [|discriminate]. cbn [res_bind].
  destruct (sorted_unique (map fst rows)) as [|s0 sids]; [discriminate|]. cbv iota.
  generalize (s0 :: sids). intros L.
  destruct nthetas as [|T]; intros [= _ <-].
  - now apply (mat_get_outer_sym (fun _ _ => None)).
  - apply corr_of_symmetric.
Qed.

Lemma qdot_scaled x : forall y a b,
  qdot (map (fun v => v / a) x) (map (fun v => v / b) y) = qdot x y * (/ a * / b).
Proof.
  unfold qdot. induction x as [|u x IH]; intros [|w y] a b; cbn [map combine]; try (cbn; ring).
  cbn [fst snd]. rewrite !qsum_cons, IH. unfold Qcdiv. ring.
Qed.

Lemma qdot_self x : qdot x x = sumsq x.
Proof.
  unfold qdot, sumsq. induction x as [|u x IH]; [reflexivity|].
  cbn [combine map fst snd]. now rewrite !qsum_cons, IH.
Qed.

Lemma sumsq_nonneg x : 0 <= sumsq x.
Proof.
  unfold sumsq. apply qsum_nonneg. apply Forall_forall. intros y Hy.
  apply in_map_iff in Hy as (v & <- & _). apply Qc_sq_nonneg.
Qed.

Theorem corr_of_diag P ncols i x :
  nth_error (centered P ncols) i = Some x ->
  mat_get (corr_of orc P ncols) i i
  = if qeqb (sumsq x) 0 then None
    else Some (sumsq x * (/ orc ORC_SQRT (sumsq x) * / orc ORC_SQRT (sumsq x))).
Proof.
  intros Hx. unfold corr_of. rewrite mat_get_outer, nth_error_map, Hx. cbn [option_map].
  unfold normalised. destruct (qeqb (sumsq x) 0); cbn [corr_entry]; [reflexivity|].
  now rewrite qdot_scaled, qdot_self.
Qed.

(* unit diagonal: needs the square-root property only at this row's sum of squares *)
Theorem corr_of_unit_diag P ncols i x :
  nth_error (centered P ncols) i = Some x ->
  sumsq x <> 0 ->
  orc ORC_SQRT (sumsq x) * orc ORC_SQRT (sumsq x) = sumsq x ->
  mat_get (corr_of orc P ncols) i i = Some 1.
Proof.
  intros Hx Hne Hsqrt. rewrite (corr_of_diag _ _ _ _ Hx).
  destruct (qeqb_spec (sumsq x) 0); [congruence|]. f_equal.
  set (r := orc ORC_SQRT (sumsq x)) in *.
  assert (Hr : r <> 0) by (intros E; rewrite E in Hsqrt; apply Hne; rewrite <- Hsqrt; ring).
  rewrite <- Hsqrt. field. exact Hr.
Qed.

Theorem corr_of_nan_diag P ncols i x :
  nth_error (centered P ncols) i = Some x -> sumsq x = 0 ->
  mat_get (corr_of orc P ncols) i i = None.
Proof.
  intros Hx H0. rewrite (corr_of_diag _ _ _ _ Hx). destruct (qeqb_spec (sumsq x) 0); [reflexivity|congruence].
Qed.

(* index form: entry (i, j) of the code = the definition *)
Section Index.
Variable P : list (list Qc).
Variable ncols : nat.
Hypothesis Hrect : Forall (fun r => length r = ncols) P.
Let n := length P.

Lemma col_mean_index k : qmean (col P k) = sum_upto n (fun i' => Pc P i' k) / qnat n.
Proof.
  unfold qmean, col. rewrite qlen_qnat, map_length. fold n. f_equal.
  unfold sum_upto, Pc. rewrite (map_seq_nth (fun row => nth k row 0) P []). reflexivity.
Qed.

Lemma centered_index i :
  (i < n)%nat ->
  nth_error (centered P ncols) i = Some (map (fun k => X_def P n i k) (seq 0 ncols)).
Proof.
  intros Hi. unfold centered. rewrite nth_error_map.
  rewrite (nth_error_nth' P [] Hi). cbn [option_map]. f_equal.
  assert (Hlen : length (nth i P []) = ncols) by now apply Forall_nth.
  rewrite (combine_seq_nth _ _ ncols 0 0 Hlen) by (unfold col_means; now rewrite map_length, seq_length).
  rewrite map_map. apply map_ext_in. intros k Hk. apply in_seq in Hk. cbn [fst snd].
  unfold X_def, col_means. rewrite nth_map_seq0 by lia. rewrite col_mean_index. reflexivity.
Qed.

Lemma sumsq_index g : sumsq (map g (seq 0 ncols)) = sum_upto ncols (fun k => qsq (g k)).
Proof. unfold sumsq, sum_upto. now rewrite map_map. Qed.

Lemma qdot_index g h :
  qdot (map g (seq 0 ncols)) (map h (seq 0 ncols)) = sum_upto ncols (fun k => g k * h k).
Proof.
  unfold qdot, sum_upto. induction (seq 0 ncols) as [|k l IH]; [reflexivity|].
  cbn [map combine fst snd]. now rewrite !qsum_cons, IH.
Qed.

Theorem corr_of_entry_def i j :
  (i < n)%nat -> (j < n)%nat ->
  mat_get (corr_of orc P ncols) i j = corr_entry_def orc P n ncols i j.
Proof.
  intros Hi Hj. unfold corr_of. rewrite mat_get_outer, !nth_error_map.
  rewrite (centered_index i Hi), (centered_index j Hj). cbn [option_map].
  unfold normalised, corr_entry_def. rewrite !sumsq_index. fold (S_def P n ncols i). fold (S_def P n ncols j).
  destruct (qeqb (S_def P n ncols i) 0); cbn [orb corr_entry]; [reflexivity|].
  destruct (qeqb (S_def P n ncols j) 0); cbn [corr_entry]; [reflexivity|].
  f_equal. rewrite qdot_scaled, qdot_index. unfold Qcdiv. now rewrite Qcinv_mult_distr.
Qed.
End Index.

Theorem correlation_matrix_over_full_space f mapping smap arity T rows index M :
  NoDup (map fst mapping) -> NoDup (map fst smap) ->
  correlation_matrix orc f mapping smap arity (S T) rows = Ok (index, M) ->
  let space := map (map snd) (combs mapping arity) in
  M = corr_of orc (map (fun s => map (fun ids => avg_pred f (S T) s ids) space)
                       (sorted_unique (map fst rows)))
              (length space).
Proof.
  intros Hnd Hnds. unfold correlation_matrix.
  destruct (res_map_all _ _) as [spaces|] eqn:Esp; [|discriminate]. cbn [res_bind].
  apply (res_map_all_inv _ (fun s => (map (fun _ => s) (combs mapping arity), map (map snd) (combs mapping arity)))) in Esp.
  2:{ intros s [ss tids] _ Hs. destruct (full_space_eq _ _ _ _ _ _ Hnd Hs) as (-> & sid & -> & Hsid).
      now rewrite (Hsid Hnds). }
  destruct (sorted_unique (map fst rows)) as [|s0 sids] eqn:Es; [discriminate|].
  intros H. injection H as _ <-. subst spaces. cbn zeta. f_equal.
  rewrite map_map. apply map_ext. intros s. cbn [fst snd].
  now rewrite combine_map_same, !map_map.
Qed.
End CorrP.

(* a single sample with non-constant average predictions: the diagonal is NaN, not 1 *)
Definition refute_f (th : nat) (s : Z) (ids : list Z) : Qc := qofZ (fold_right Z.add 0%Z ids).

Theorem corr_unit_diag_nonconstant_rows_refuted :
  exists orc f mapping smap arity nthetas rows index,
    correlation_matrix orc f mapping smap arity nthetas rows = Ok (index, [[None]])
    /\ qeqb (avg_pred f nthetas 0%Z [0%Z; 1%Z]) (avg_pred f nthetas 0%Z [0%Z; 2%Z]) = false.
Proof.
  exists (fun _ x => x), refute_f, [(0, 0); (1, 1); (2, 2)]%Z, [(0, 0)]%Z, 2%nat, 1%nat, [(0, 0)]%Z, [0%Z].
  split; vm_compute; reflexivity.
Qed.
