(* The command-line wrapper evaluate_model.main: the hand-written model Cli.cli_evaluate_model (chain ids from the
   declared sizes of the --thetas files in argument order) equals the translation of the WHOLE function of /repo,
   regenerated on every run (Generated/SrcCli.v, configuration CLI_EVALUATE_MODEL of harness/src_functions.py), for
   every record of library functions and all parsed arguments. *)
From Coq Require Import ZArith List.
From Batchie Require Import Lib.Sexp Lib.PyRt Model.Cli Generated.SrcCli Proofs.PyRtLemmas.
Import ListNotations.
Open Scope Z_scope.

(* the chain-id loop, for an arbitrary body equal to the canonical one *)
Lemma chain_loop {Th : Type} (n : Th -> Z) (f : list Z -> Z * Th -> result (list Z)) :
  (forall acc it, f acc it = Ok (acc ++ zrepeat (fst it) (n (snd it)))) ->
  forall l acc, res_fold f l acc = Ok (acc ++ concat (map (fun ih => zrepeat (fst ih) (n (snd ih))) l)).
Proof.
  intros Hf l. induction l as [|x l IH]; intros acc; cbn [res_fold map concat].
  - now rewrite app_nil_r.
  - rewrite Hf. cbn [res_bind]. rewrite IH, <- app_assoc. reflexivity.
Qed.

Theorem src_cli_evaluate_model_is_model :
  forall (Scr Th Pr PrT Ob Nm Ev : Type) (L : ev_lib Scr Th Pr PrT Ob Nm Ev) (a : ev_args),
  src_cli_evaluate_model Scr Th Pr PrT Ob Nm Ev L a = cli_evaluate_model L a.
Proof.
  intros. unfold src_cli_evaluate_model, cli_evaluate_model, chain_ids_of. cbv zeta.
  rewrite !res_map_all_ret.
  cli_step. cli_step. cli_step.
  rewrite (chain_loop (ev_n_thetas L)) by (intros acc [i t]; reflexivity).
  cbn [res_bind app].
  repeat cli_step. all: reflexivity.
Qed.
