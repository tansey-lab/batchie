(* C18 for the initial cover, about the TRANSLATED source: InitialRetrospectivePlateGenerator.generate_and_unmask_initial_plate
   around SparseCoverPlateGenerator._generate_and_unmask_initial_plate (Generated/SrcRetroGen.v; their only request-making
   primitive is rng.choice(a, size=1) on the function's own generator argument, read as taking the next recorded answer) with the
   fuel C13 proves sufficient: output and unread rest depend on the consumed prefix of the answer stream only. *)
From Coq Require Import List Arith.
From Batchie Require Import Lib.Sexp Model.RetroInit Generated.SrcRetroGen Proofs.C13SparseTerm Proofs.C13Source Proofs.C18SparseCover.

Theorem src_sparse_cover_explicit_stream : forall ctrl reveal rows ds out ds',
  src_generate_and_unmask_initial_plate
    (fun s d => src_sparse_cover ctrl reveal s d (S (ndistinct (all_tids ctrl rows)))) rows ds = Ok (out, ds') ->
  exists used, ds = used ++ ds' /\
    forall tail, src_generate_and_unmask_initial_plate
                   (fun s d => src_sparse_cover ctrl reveal s d (S (ndistinct (all_tids ctrl rows)))) rows (used ++ tail) = Ok (out, tail).
Proof.
  intros ctrl reveal rows ds out ds' H.
  assert (L : forall d, src_generate_and_unmask_initial_plate
                          (fun s d' => src_sparse_cover ctrl reveal s d' (S (ndistinct (all_tids ctrl rows)))) rows d
                        = sparse_cover ctrl reveal rows d).
  { intros d. apply link_sparse_cover_generate_and_unmask_initial_plate. right. apply Nat.lt_succ_diag_r. }
  rewrite L in H. destruct (sparse_cover_explicit_stream _ _ _ _ _ _ H) as (used & Hd & Ht).
  exists used. split; [exact Hd|]. intros tail. rewrite L. apply Ht.
Qed.
