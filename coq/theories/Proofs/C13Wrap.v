(* C13: the unobserved part of what generate_plates / smooth_plates return is what the inner
   generator / smoother returned on the unobserved part of the input. *)
From Coq Require Import List Permutation.
From Batchie Require Import Lib.ListX Lib.Sexp Model.Screen Model.Retro Model.Pairwise Proofs.C11Lib Proofs.C11Gen Proofs.C11Smooth.
Import ListNotations.
Open Scope nat_scope.

Lemma unobserved_app_observed : forall nu rows, unmasked nu -> unobserved (nu ++ observed rows) = nu.
Proof.
  intros nu rows Hu. unfold unobserved. rewrite filter_app.
  replace (filter (fun r => negb (r_mask r)) (observed rows)) with (@nil row).
  - rewrite app_nil_r. destruct (unobserved_unmasked nu Hu) as [H _]. exact H.
  - symmetry. unfold observed. rewrite filter_filter. induction rows as [|r rows IH]; cbn [filter]; [reflexivity|].
    destruct (r_mask r); cbn [andb negb]; exact IH.
Qed.

(* for any inner function that lets no row through which is not, its label aside, a row of its input *)
Lemma wrap_unobs : forall f,
  (forall u ds nu ds', unmasked u -> f u ds = Ok (nu, ds') -> incl (map strip nu) (map strip u)) ->
  forall rows ds out ds', wrap f rows ds = Ok (out, ds') ->
  (unobserved rows = [] /\ unobserved out = []) \/ f (unobserved rows) ds = Ok (unobserved out, ds').
Proof.
  intros f Hf rows ds out ds' H. apply wrap_ok in H as [(E & -> & _)|(_ & nu & Hnu & ->)].
  - left. auto.
  - right. rewrite unobserved_app_observed; [exact Hnu|].
    eapply unmasked_incl_strip; [eapply Hf; [|exact Hnu]|]; apply unmasked_unobserved.
Qed.

Lemma smooth_wrap_unobs : forall sm rows ds out ds',
  smooth_plates sm rows ds = Ok (out, ds') ->
  (unobserved rows = [] /\ unobserved out = []) \/
  smooth_inner sm (unobserved rows) ds = Ok (unobserved out, ds').
Proof.
  intros sm. apply wrap_unobs. intros u ds nu ds' Hu H s. apply submulti_In. eapply smooth_inner_sub; eassumption.
Qed.

Lemma generate_wrap_unobs : forall g rows ds out ds',
  generate_plates g rows ds = Ok (out, ds') ->
  (unobserved rows = [] /\ unobserved out = []) \/
  generate_inner g (unobserved rows) ds = Ok (unobserved out, ds').
Proof.
  intros g. apply wrap_unobs. intros u ds nu ds' Hu H s. apply Permutation_in. eapply generate_inner_conserves; eassumption.
Qed.
