(* C07: the index chunks partition the lower triangle. *)
From Coq Require Import ZArith List Lia FinFun.
From Batchie Require Import Lib.ListX Model.Chunks.
Import ListNotations.

Lemma lower_tri_S n : lower_tri (S n) = lower_tri n ++ map (fun j => (n, j)) (seq 0 n).
Proof.
  unfold lower_tri. rewrite seq_S, flat_map_app. cbn [flat_map Nat.add]. now rewrite app_nil_r.
Qed.

Lemma lower_tri_In n i j : In (i, j) (lower_tri n) <-> (j < i < n)%nat.
Proof.
  unfold lower_tri. rewrite in_flat_map. split.
  - intros (x & Hx & Hin). apply in_seq in Hx. apply in_map_iff in Hin as (y & Heq & Hy).
    apply in_seq in Hy. inversion Heq; subst. lia.
  - intros H. exists i. split; [apply in_seq; lia|]. apply in_map_iff. exists j.
    split; [reflexivity|apply in_seq; lia].
Qed.

Lemma lower_tri_NoDup n : NoDup (lower_tri n).
Proof.
  induction n as [|n IH]; [constructor|].
  rewrite lower_tri_S. apply NoDup_app_intro; [exact IH| |].
  - apply FinFun.Injective_map_NoDup; [|apply seq_NoDup].
    intros x y Heq. now inversion Heq.
  - intros [i j] H1 H2. apply lower_tri_In in H1.
    apply in_map_iff in H2 as (y & Heq & _). inversion Heq; subst. lia.
Qed.

Lemma lower_tri_length n : Z.of_nat (length (lower_tri n)) = n_lower (Z.of_nat n).
Proof.
  unfold n_lower. induction n as [|n IH]; [reflexivity|].
  rewrite lower_tri_S, app_length, map_length, seq_length, Nat2Z.inj_add, IH, Nat2Z.inj_succ.
  replace (Z.succ (Z.of_nat n) * (Z.succ (Z.of_nat n) - 1))%Z
    with (Z.of_nat n * (Z.of_nat n - 1) + Z.of_nat n * 2)%Z by ring.
  now rewrite Z.div_add by lia.
Qed.

Open Scope Z_scope.

Lemma n_lower_nonneg n : 0 <= n_lower n.
Proof. unfold n_lower. apply Z.div_pos; [nia | lia]. Qed.

(* closed form of the cut points *)
Definition cut (N c k : Z) : Z := k * (N / c) + Z.min k (N mod c).

Lemma chunk_bounds_cut N k c : chunk_bounds N k c = (cut N c k, cut N c (k + 1)).
Proof.
  unfold chunk_bounds, cut. destruct (k <? N mod c) eqn:E; f_equal; lia.
Qed.

Section Cuts.
Variables N c : Z.
Hypothesis HN : 0 <= N.
Hypothesis Hc : 0 < c.

(* all that the lemmas on cut points use of the quotient and the remainder *)
Lemma div_mod_c : N = c * (N / c) + N mod c /\ 0 <= N mod c < c /\ 0 <= N / c.
Proof.
  split; [apply Z.div_mod; lia|]. split; [now apply Z.mod_pos_bound | apply Z.div_pos; lia].
Qed.

Lemma cut_0 : cut N c 0 = 0.
Proof. unfold cut. pose proof div_mod_c. lia. Qed.

Lemma cut_c : cut N c c = N.
Proof. unfold cut. pose proof div_mod_c. lia. Qed.

Lemma cut_step k : 0 <= k ->
  cut N c (k + 1) - cut N c k = N / c + (if k <? N mod c then 1 else 0).
Proof. intros Hk. unfold cut. destruct (k <? N mod c) eqn:E; lia. Qed.

Lemma cut_mono k : 0 <= k -> cut N c k <= cut N c (k + 1).
Proof.
  intros Hk. pose proof (cut_step k Hk). pose proof div_mod_c.
  destruct (k <? N mod c); lia.
Qed.

Lemma cut_nonneg k : 0 <= k -> 0 <= cut N c k.
Proof. intros Hk. unfold cut. pose proof div_mod_c. nia. Qed.

Lemma cut_le_N k : 0 <= k <= c -> cut N c k <= N.
Proof. intros Hk. unfold cut. pose proof div_mod_c. nia. Qed.
End Cuts.

Definition natcut (N c : Z) (k : nat) : nat := Z.to_nat (cut N c (Z.of_nat k)).

Lemma chunk_as_slice n (k : nat) (c : Z) :
  0 < c ->
  chunk n (Z.of_nat k) c =
  let N := n_lower (Z.of_nat n) in
  firstn (natcut N c (S k) - natcut N c k) (skipn (natcut N c k) (lower_tri n)).
Proof.
  intros Hc. unfold chunk. rewrite chunk_bounds_cut. cbv zeta. unfold slice, natcut.
  pose proof (cut_nonneg _ _ (n_lower_nonneg (Z.of_nat n)) Hc (Z.of_nat k) ltac:(lia)).
  rewrite Nat2Z.inj_succ, <- Z.add_1_r. f_equal.
  rewrite Z2Nat.inj_sub by assumption. reflexivity.
Qed.

Theorem chunks_concat n c : (0 < c)%nat -> concat (all_chunks n c) = lower_tri n.
Proof.
  intros Hc. unfold all_chunks.
  assert (Hc' : 0 < Z.of_nat c) by lia.
  pose proof (n_lower_nonneg (Z.of_nat n)) as HN.
  erewrite map_ext by (intros k; apply chunk_as_slice; exact Hc').
  cbv zeta.
  rewrite (concat_slices (lower_tri n) (natcut (n_lower (Z.of_nat n)) (Z.of_nat c))).
  - cbn [Nat.add]. unfold natcut at 1 2 3.
    rewrite cut_c by assumption. cbn [Z.of_nat]. rewrite cut_0 by assumption.
    cbn [Z.to_nat skipn]. rewrite Nat.sub_0_r, <- lower_tri_length, Nat2Z.id.
    apply firstn_all.
  - intros k. unfold natcut. rewrite Nat2Z.inj_succ, <- Z.add_1_r.
    pose proof (cut_nonneg _ _ HN Hc' (Z.of_nat k) ltac:(lia)).
    pose proof (cut_mono _ _ HN Hc' (Z.of_nat k) ltac:(lia)). lia.
Qed.

Theorem chunk_length n (k : nat) (c : nat) :
  (k < c)%nat ->
  let N := n_lower (Z.of_nat n) in
  Z.of_nat (length (chunk n (Z.of_nat k) (Z.of_nat c)))
  = N / Z.of_nat c + (if Z.of_nat k <? N mod Z.of_nat c then 1 else 0).
Proof.
  intros Hk N.
  assert (Hc' : 0 < Z.of_nat c) by lia.
  pose proof (n_lower_nonneg (Z.of_nat n)) as HN. fold N in HN.
  rewrite chunk_as_slice by exact Hc'. cbv zeta. fold N.
  rewrite firstn_length, skipn_length.
  pose proof (lower_tri_length n) as Hlen. fold N in Hlen.
  unfold natcut. rewrite Nat2Z.inj_succ, <- Z.add_1_r.
  pose proof (cut_nonneg N _ HN Hc' (Z.of_nat k) ltac:(lia)).
  pose proof (cut_mono N _ HN Hc' (Z.of_nat k) ltac:(lia)).
  pose proof (cut_le_N N _ HN Hc' (Z.of_nat k + 1) ltac:(lia)).
  rewrite <- (cut_step N (Z.of_nat c) (Z.of_nat k)) by lia. lia.
Qed.

Theorem chunks_cover_once n c :
  (0 < c)%nat ->
  NoDup (concat (all_chunks n c)) /\
  forall i j, In (i, j) (concat (all_chunks n c)) <-> (j < i < n)%nat.
Proof.
  intros Hc. rewrite chunks_concat by exact Hc. split; [apply lower_tri_NoDup|].
  intros i j; apply lower_tri_In.
Qed.

Theorem chunks_disjoint n c (k1 k2 : nat) p :
  (k1 < c)%nat -> (k2 < c)%nat -> k1 <> k2 ->
  In p (chunk n (Z.of_nat k1) (Z.of_nat c)) -> In p (chunk n (Z.of_nat k2) (Z.of_nat c)) -> False.
Proof.
  intros H1 H2 Hne Hp1 Hp2.
  assert (Hc : (0 < c)%nat) by lia.
  pose proof (lower_tri_NoDup n) as Hnd. rewrite <- (chunks_concat n c Hc) in Hnd.
  apply (NoDup_concat_disjoint (all_chunks n c) k1 k2 p Hnd Hne); unfold all_chunks.
  - now rewrite nth_map_seq0 by exact H1.
  - now rewrite nth_map_seq0 by exact H2.
Qed.

Theorem chunk_sizes_differ_by_at_most_one n c (k1 k2 : nat) :
  (k1 < c)%nat -> (k2 < c)%nat ->
  Z.abs (Z.of_nat (length (chunk n (Z.of_nat k1) (Z.of_nat c)))
         - Z.of_nat (length (chunk n (Z.of_nat k2) (Z.of_nat c)))) <= 1.
Proof.
  intros H1 H2. rewrite !chunk_length by assumption. cbv zeta.
  destruct (Z.of_nat k1 <? _); destruct (Z.of_nat k2 <? _); lia.
Qed.
