(* C01, one piece of Proofs/C01Source.v (which see): the id-encoding statements of Screen.__init__ *)
From Coq Require Import ZArith List Bool Lia.
From Batchie Require Import Lib.Sexp Lib.ListX Lib.PyRt Model.Encode Model.Screen Generated.SrcEncode
  Generated.SrcScreenIds Proofs.PyRtLemmas Proofs.C01Screen Proofs.C03Screen Proofs.C01Source_ValidIds Proofs.C01Source_Treatments
  Proofs.C01Source_Encode1d.
Import ListNotations.
Open Scope Z_scope.

Theorem src_init_control_name_is_param : forall c : name, src_init_control_name c = Ok c.
Proof. reflexivity. Qed.

Lemma res_fold_append_in {A B} (f : list B -> A -> result (list B)) (g : A -> B) l :
  (forall acc x, In x l -> f acc x = Ok (acc ++ [g x])) -> forall acc, res_fold f l acc = Ok (acc ++ map g l).
Proof.
  induction l as [|a l IH]; intros H acc; cbn [res_fold map]; [now rewrite app_nil_r|].
  rewrite H by now left. cbn [res_bind]. rewrite IH by (intros; apply H; now right). now rewrite <- app_assoc.
Qed.

(* a loop over range(n) that appends one value per index *)
Lemma res_fold_range_append {B} (f : list B -> Z -> result (list B)) (g : nat -> B) n :
  (forall acc i, (i < n)%nat -> f acc (Z.of_nat i) = Ok (acc ++ [g i])) ->
  forall acc, res_fold f (map Z.of_nat (seq 0 n)) acc = Ok (acc ++ map g (seq 0 n)).
Proof.
  intros H acc. rewrite (res_fold_append_in f (fun x => g (Z.to_nat x))).
  - rewrite map_map. do 2 f_equal. apply map_ext. intros i. now rewrite Nat2Z.id.
  - intros acc' x Hx. apply in_map_iff in Hx as (i & <- & Hi). apply in_seq in Hi. rewrite Nat2Z.id. apply H. lia.
Qed.

Lemma arr2_col_in {A} (d : A) a rows i : (i < a)%nat -> arr2_col d (a, rows) (Z.of_nat i) = Ok (column d i rows).
Proof.
  intros H. unfold arr2_col. cbn [fst snd].
  replace (Z.of_nat i <? 0) with false by lia.
  replace ((0 <=? Z.of_nat i) && (Z.of_nat i <? Z.of_nat a)) with true by lia. now rewrite Nat2Z.id.
Qed.

Lemma column_map {A B} (f : A -> B) d i rows : column (f d) i (map (map f) rows) = map f (column d i rows).
Proof. unfold column. rewrite !map_map. apply map_ext. intros r. apply map_nth. Qed.

Lemma flatten_cols_map {A B} (f : A -> B) d a rows :
  flatten_cols (f d) a (map (map f) rows) = map f (flatten_cols d a rows).
Proof.
  unfold flatten_cols. rewrite concat_map, map_map. f_equal. apply map_ext. intros i. apply column_map.
Qed.

Lemma np_concat_cons {A} (x : list A) l : np_concat (x :: l) = Ok (concat (x :: l)).
Proof. reflexivity. Qed.

(* the two np.concatenate calls on the column pairs the loop over range(treatment_arity) collects: each concatenates its columns *)
Lemma np_concat_columns {A B} (cols : nat -> list A * list B) (a : nat) : (0 < a)%nat ->
  np_concat (map (fun x => fst x) (map cols (seq 0 a))) = Ok (concat (map (fun i => fst (cols i)) (seq 0 a))) /\
  np_concat (map (fun x => snd x) (map cols (seq 0 a))) = Ok (concat (map (fun i => snd (cols i)) (seq 0 a))).
Proof. intros Ha. rewrite !map_map. destruct a as [|a]; [lia|]. now split. Qed.

Lemma nth_firstn_lt {A} (d : A) : forall n j l, (j < n)%nat -> nth j (firstn n l) d = nth j l d.
Proof. induction n as [|n IH]; intros j l H; [lia|]. destruct l as [|x l]; [now destruct j|]. destruct j; [reflexivity|]. cbn [firstn nth]. apply IH. lia. Qed.

Lemma nth_skipn_add {A} (d : A) : forall k j l, nth j (skipn k l) d = nth (k + j) l d.
Proof. induction k as [|k IH]; intros j l; [reflexivity|]. destruct l as [|x l]; [now destruct j|]. cbn [skipn Nat.add nth]. apply IH. Qed.

Lemma np_split_chunks {A} (l : list A) a n : (0 < a)%nat -> length l = (a * n)%nat ->
  np_split l (Z.of_nat a) = Ok (map (fun i => firstn n (skipn (i * n) l)) (seq 0 a)).
Proof.
  intros Ha Hl. unfold np_split. replace (Z.of_nat a <=? 0) with false by lia.
  rewrite Hl, Nat2Z.inj_mul, Z.mul_comm, Z_mod_mult. cbn [Z.eqb negb].
  rewrite Z.div_mul by lia. now rewrite !Nat2Z.id.
Qed.

Lemma np_vstack_uniform {A} (l : list (list A)) n : l <> [] -> (forall x, In x l -> length x = n) -> np_vstack l = Ok (n, l).
Proof.
  intros Hne H. destruct l as [|r rest]; [contradiction|]. unfold np_vstack.
  rewrite (H r) by now left.
  replace (forallb (fun x => Nat.eqb (length x) n) rest) with true; [reflexivity|].
  symmetry. apply forallb_forall. intros x Hx. apply Nat.eqb_eq. apply H. now right.
Qed.

(* np.vstack(np.split(flat, arity)).T = the model's unflatten_cols *)
Lemma src_unflatten (tflat : list Z) a n : (0 < a)%nat -> length tflat = (a * n)%nat ->
  exists r1 r2, np_split (map Some tflat) (Z.of_nat a) = Ok r1 /\ np_vstack r1 = Ok r2 /\
                arr2_T None r2 = (a, map (map Some) (unflatten_cols a n tflat)).
Proof.
  intros Ha Hl. set (l := map Some tflat). do 2 eexists. split; [|split].
  - apply (np_split_chunks _ a n Ha). unfold l. now rewrite map_length.
  - apply (np_vstack_uniform _ n).
    + destruct a; [lia | discriminate].
    + intros x Hx. apply in_map_iff in Hx as (i & <- & Hi). apply in_seq in Hi.
      rewrite firstn_length, skipn_length. unfold l. rewrite map_length. nia.
  - unfold arr2_T. cbn [fst snd]. rewrite map_length, seq_length. f_equal.
    unfold unflatten_cols. rewrite map_map. apply map_ext_in. intros j Hj. apply in_seq in Hj.
    unfold column. rewrite !map_map. apply map_ext_in. intros i Hi. apply in_seq in Hi.
    rewrite nth_firstn_lt by lia. rewrite nth_skipn_add. unfold l.
    rewrite (nth_indep _ None (Some 0)) by (rewrite map_length; nia). apply map_nth.
Qed.

Lemma tmap_py_rows_of m b : tmap_py_rows (tmap_py_of m b) = m.
Proof.
  unfold tmap_py_rows, tmap_py_of. cbn [fst snd].
  induction m as [|[[n d] i] m IH]; cbn [map combine fst snd]; [reflexivity | now rewrite IH].
Qed.

Lemma tmap_py_aligned_of m b : tmap_py_aligned (tmap_py_of m b) = true.
Proof. unfold tmap_py_aligned, tmap_py_of. cbn [fst snd]. rewrite !map_length, !Nat.eqb_refl. reflexivity. Qed.

Lemma smap_py_rows_of m b : smap_py_rows (smap_py_of m b) = m.
Proof. unfold smap_py_rows, smap_py_of. cbn [fst snd]. apply combine_fst_snd. Qed.

Lemma smap_py_aligned_of m b : smap_py_aligned (smap_py_of m b) = true.
Proof. unfold smap_py_aligned, smap_py_of. cbn [fst snd]. now rewrite !map_length, Nat.eqb_refl. Qed.

(* the validation of a supplied mapping's id array *)
Lemma src_check_tmap (tm : option (tmapping * bool)) :
  (if is_some (tmap_arg_py tm) then
     dor u <- unwrap (tmap_arg_py tm); dor r <- src_numpy_array_is_0_indexed_integers (snd u);
     if negb r then Err 3 else Ok tt
   else Ok tt) = if tmap_bad tm then Err 3 else Ok tt.
Proof.
  destruct tm as [[m b]|]; cbn [tmap_arg_py option_map is_some unwrap res_bind tmap_bad fst snd]; [|reflexivity].
  unfold tmap_py_of. cbn [snd]. rewrite src_valid_ids_is_model. reflexivity.
Qed.

Lemma src_check_smap (sm : option (nmapping * bool)) :
  (if is_some (smap_arg_py sm) then
     dor u <- unwrap (smap_arg_py sm); dor r <- src_numpy_array_is_0_indexed_integers (snd u);
     if negb r then Err 4 else Ok tt
   else Ok tt) = if smap_bad sm then Err 4 else Ok tt.
Proof.
  destruct sm as [[m b]|]; cbn [smap_arg_py option_map is_some unwrap res_bind smap_bad fst snd]; [|reflexivity].
  unfold smap_py_of. cbn [snd]. rewrite src_valid_ids_is_model. reflexivity.
Qed.

Lemma encode_treatments_length keys c ex ids m : encode_treatments keys c ex = Ok (ids, m) -> length ids = length keys.
Proof.
  unfold encode_treatments. cbv zeta. set (mm := match ex with Some m0 => m0 | None => build_tmapping c keys end).
  destruct (opt_map_all (tlookup mm) keys) as [x|] eqn:E; [|discriminate]. intros H. inversion H. subst.
  now apply opt_map_all_length in E.
Qed.

(* the two encoders on the mapping argument of a constructor call: aligned by construction, its rows are the model's mapping *)
Lemma src_encode_treatments_arg (keys : list tkey) c tm :
  match tm with Some (m, _) => NoDup (map fst m) | None => True end ->
  src_encode_treatment_arrays (map fst keys) (map snd keys) c (tmap_arg_py tm)
  = dor r <- encode_treatments keys c (option_map fst tm);
    Ok (map Some (fst r), map (fun e => fst (fst e)) (snd r), map (fun e => snd (fst e)) (snd r), map snd (snd r)).
Proof.
  intros Hnd. rewrite src_encode_treatments_is_model, !map_length, Nat.eqb_refl, combine_fst_snd; cbn [negb].
  - destruct tm as [[m b]|]; cbn [tmap_arg_py option_map fst snd]; [|reflexivity].
    now rewrite tmap_py_aligned_of, tmap_py_rows_of.
  - destruct tm as [[m b]|]; cbn [tmap_arg_py option_map fst snd]; [now rewrite tmap_py_rows_of | exact I].
Qed.

Lemma src_encode_1d_arg (names : list name) sm :
  match sm with Some (m, _) => NoDup (map fst m) | None => True end ->
  src_encode_1d_array names (smap_arg_py sm)
  = dor r <- encode_names names (option_map fst sm) 6; Ok (map Some (fst r), map fst (snd r), map snd (snd r)).
Proof.
  intros Hnd. rewrite src_encode_1d_is_model.
  - destruct sm as [[m b]|]; cbn [smap_arg_py option_map fst snd]; [|reflexivity].
    now rewrite smap_py_aligned_of, smap_py_rows_of.
  - destruct sm as [[m b]|]; cbn [smap_arg_py option_map fst snd]; [now rewrite smap_py_rows_of | exact I].
Qed.

(* the statement run on the arrays of a constructor call whose observations and mask are given: after the constructor
   model's arity and per-plate checks, it IS the id part of the model, read back by [stored_ids] *)
Theorem src_init_ids_is_model : forall rows a c tm sm,
  (0 < a)%nat ->
  match tm with Some (m, _) => NoDup (map fst m) | None => True end ->
  match sm with Some (m, _) => NoDup (map fst m) | None => True end ->
  (dor s <- mk_screen rows a c tm sm true true; Ok (stored_ids s))
  = if negb (arity_ok a rows) then Err 1
    else if negb (plate_uniform rows) then Err 2
    else src_init_ids (names_arr a rows) (doses_arr a rows) (map r_sample rows) (map r_plate rows)
                      (tmap_arg_py tm) (smap_arg_py sm) c.
Proof.
  intros rows a c tm sm Ha Htm Hsm. rewrite mk_screen_unfold.
  destruct (arity_ok a rows); cbn [negb andb res_bind]; [|reflexivity].
  cbv zeta. change (norm_rows true true rows) with rows.
  destruct (plate_uniform rows); cbn [negb res_bind]; [|reflexivity].
  unfold src_init_ids, names_arr, doses_arr, arr2_shape1. cbn [fst snd]. rewrite zrange_of_nat.
  rewrite <- (map_map r_treats (map fst)), <- (map_map r_treats (map snd)).
  set (N := map (map fst) (map r_treats rows)). set (D := map (map snd) (map r_treats rows)).
  (* the loop, then the two concatenations: the column-major flattening of both arrays *)
  set (cols := fun i : nat => (@column name [] i N, column 0 i D)).
  rewrite (res_fold_range_append _ cols) by (intros acc i Hi; now rewrite !arr2_col_in).
  cbn [res_bind app].
  destruct (np_concat_columns cols a Ha) as [-> ->]. cbn [res_bind].
  replace (concat (map (fun i => fst (cols i)) (seq 0 a))) with (map fst (the_tkeys a rows))
    by (symmetry; apply (flatten_cols_map fst ([], 0))).
  replace (concat (map (fun i => snd (cols i)) (seq 0 a))) with (map snd (the_tkeys a rows))
    by (symmetry; apply (flatten_cols_map snd ([], 0))).
  (* the two validations *)
  rewrite src_check_tmap. destruct (tmap_bad tm); cbn [res_bind]; [reflexivity|].
  rewrite src_check_smap. destruct (smap_bad sm); cbn [res_bind]; [reflexivity|].
  (* the treatment encoder *)
  rewrite (src_encode_treatments_arg _ c tm Htm).
  set (et := encode_treatments (the_tkeys a rows) c (option_map fst tm)). change (encode_treatments _ _ _) with et.
  destruct et as [[tflat tmp]|t] eqn:Et; cbn [res_bind fst snd]; [|reflexivity].
  (* split / vstack / T *)
  destruct (src_unflatten tflat a (length rows) Ha) as (r1 & r2 & -> & E2 & E3).
  { rewrite (encode_treatments_length _ _ _ _ _ Et). unfold the_tkeys. now rewrite flatten_length, map_length. }
  cbn [res_bind]. rewrite E2. cbn [res_bind]. rewrite E3.
  (* samples and plates *)
  rewrite (src_encode_1d_arg _ sm Hsm).
  set (es := encode_names (map r_sample rows) (option_map fst sm) 6). change (encode_names _ (option_map _ sm) _) with es.
  destruct es as [[sids smp]|t]; cbn [res_bind fst snd]; [|reflexivity].
  rewrite (src_encode_1d_is_model _ None I). cbn [option_map].
  destruct (encode_names (map r_plate rows) None 6) as [[pids pmp]|t]; reflexivity.
Qed.
