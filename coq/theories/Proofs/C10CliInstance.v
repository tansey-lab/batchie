(* C10: the two models of evaluate_model.main are ONE.  Props/C10.v proves chain-major labelling of Thetas.evaluate (a hand
   model) and links the translated main() to Cli.cli_evaluate_model for an ABSTRACT record of library functions.  Here the
   record is instantiated with the Thetas model (load = any function of the path, concat = concat_holders, n_thetas = the
   declared size, predict_viability_all = one column per get_theta(k) for k in range(n_thetas), ModelEvaluation = its length
   check pairing chain ids with columns) and the translated main() is proved to BE Thetas.evaluate on the loaded holders. *)
From Coq Require Import ZArith List.
From Batchie Require Import Lib.ListX Lib.Sexp Lib.PyRt Model.Thetas Model.Cli Generated.SrcCli Proofs.C10Thetas Proofs.C10SourceCli.
Import ListNotations.
Open Scope Z_scope.

Section Inst.
Variables P S : Type.

Definition thetas_ev_lib (loadf : path -> result (holder P S))
  : ev_lib unit (holder P S) (list (theta P S)) (list (theta P S)) unit unit (list (Z * theta P S)) :=
  {| ev_load_screen := fun _ => Ok tt;
     ev_load_thetas := loadf;
     ev_concat_thetas := concat_holders P S;
     ev_n_thetas := @h_declared P S;
     (* predict_viability_all: for i in range(thetas.n_thetas): thetas.get_theta(i).predict_viability(screen) - a column is the sample used *)
     ev_predict_all := fun _ h => res_map_all (fun k => get_theta P S h (Z.of_nat k)) (seq 0 (Z.to_nat (h_declared h)));
     ev_transpose := fun x => x;
     ev_observations := fun _ => tt;
     ev_sample_names := fun _ => tt;
     (* ModelEvaluation(...): ValueError unless there is one chain id per prediction column *)
     ev_mk_eval := fun cols _ ids _ => if negb (Nat.eqb (length ids) (length cols)) then Err 5 else Ok (combine ids cols) |}.

Lemma chain_ids_of_is_chain_ids (hs : list (holder P S)) : chain_ids_of (@h_declared P S) hs = chain_ids P S hs.
Proof.
  unfold chain_ids_of, chain_ids, enumerate_z, enumerate. rewrite combine_map_fst, map_map. reflexivity.
Qed.

Theorem cli_evaluate_is_thetas_evaluate (loadf : path -> result (holder P S)) (a : ev_args) :
  cli_evaluate_model (thetas_ev_lib loadf) a
  = dor hs <- res_map_all loadf (ev_thetas a); dor l <- evaluate P S hs; Ok [(ev_output a, l)].
Proof.
  unfold cli_evaluate_model, evaluate.
  cbn [ev_load_screen ev_load_thetas ev_concat_thetas ev_n_thetas ev_predict_all ev_transpose ev_observations ev_sample_names
       ev_mk_eval thetas_ev_lib res_bind].
  destruct (res_map_all loadf (ev_thetas a)) as [hs|t]; cbn [res_bind]; [|reflexivity].
  destruct (concat_holders P S hs) as [h|t]; cbn [res_bind]; [|reflexivity].
  rewrite chain_ids_of_is_chain_ids.
  destruct (res_map_all (fun k : nat => get_theta P S h (Z.of_nat k)) (seq 0 (Z.to_nat (h_declared h)))) as [cols|t]; cbn [res_bind]; [|reflexivity].
  destruct (negb (Nat.eqb (length (chain_ids P S hs)) (length cols))); cbn [res_bind]; reflexivity.
Qed.

(* the TRANSLATED main(), with the Thetas model as its library *)
Theorem src_cli_evaluate_is_thetas_evaluate (loadf : path -> result (holder P S)) (a : ev_args) :
  src_cli_evaluate_model _ _ _ _ _ _ _ (thetas_ev_lib loadf) a
  = dor hs <- res_map_all loadf (ev_thetas a); dor l <- evaluate P S hs; Ok [(ev_output a, l)].
Proof. rewrite src_cli_evaluate_model_is_model. apply cli_evaluate_is_thetas_evaluate. Qed.

(* when the files named by --thetas are what save_h5 wrote for the chains hs, read by load_h5, in argument order *)
Theorem src_cli_evaluate_files (loadf : path -> result (holder P S)) (a : ev_args) (hs : list (holder P S)) :
  res_map_all loadf (ev_thetas a) = res_map_all (save_load P S) hs ->
  src_cli_evaluate_model _ _ _ _ _ _ _ (thetas_ev_lib loadf) a = dor l <- evaluate_files P S hs; Ok [(ev_output a, l)].
Proof.
  intros H. rewrite src_cli_evaluate_is_thetas_evaluate, H. unfold evaluate_files.
  destruct (res_map_all (save_load P S) hs) as [loaded|t]; cbn [res_bind]; reflexivity.
Qed.

(* hence, for complete non-empty chains with one shared table each: the translated main() writes exactly one evaluation, whose
   columns are all of the first chain in step order, then the second, ..., each labelled with its chain's position on the
   command line *)
Theorem src_cli_evaluate_complete (loadf : path -> result (holder P S)) (a : ev_args) (hs : list (holder P S)) :
  res_map_all loadf (ev_thetas a) = res_map_all (save_load P S) hs ->
  hs <> [] ->
  (forall h, In h hs -> Z.of_nat (length (h_thetas h)) = h_declared h /\ h_thetas h <> [] /\
                        forall t u, In t (h_thetas h) -> In u (h_thetas h) -> snd t = snd u) ->
  src_cli_evaluate_model _ _ _ _ _ _ _ (thetas_ev_lib loadf) a
  = Ok [(ev_output a, concat (map (fun ih => map (pair (Z.of_nat (fst ih))) (h_thetas (snd ih))) (enumerate hs)))].
Proof.
  intros H Hne Hc. rewrite (src_cli_evaluate_files loadf a hs H).
  rewrite (evaluate_files_complete_uniform P S hs Hne Hc). reflexivity.
Qed.
End Inst.
