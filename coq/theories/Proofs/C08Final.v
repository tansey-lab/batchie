(* C08: what each Gaussian block stores, decidable versions of the data
   hypotheses (for the examples), summary statements. *)
From Coq Require Import List QArith Qcanon Lia.
From Batchie Require Import Model.Gibbs Model.GibbsSpec.
Import ListNotations.
Open Scope Qc_scope.

(* the drawn value is stored in the block's slot *)
Lemma stored_W0 d s c x : W0 (snd (block_W0 d s c) (VQ x)) = set_nth c x (W0 s).
Proof. unfold block_W0. destruct (positions (Z.of_nat c) (d_cl d)); reflexivity. Qed.
Lemma stored_V0 d s m x : V0 (snd (block_V0 d s m) (VQ x)) = set_nth m x (V0 s).
Proof. unfold block_V0. destruct (positions (Z.of_nat m) (d_dd1 d) ++ positions (Z.of_nat m) (d_dd2 d)); reflexivity. Qed.
Lemma stored_W g d s c x : W (snd (block_W g d s c) (VV x)) = set_nth c x (W s).
Proof. unfold block_W. destruct (positions (Z.of_nat c) (d_cl d)); reflexivity. Qed.
Lemma stored_V2 g d s m x : V2 (snd (block_V2 g d s m) (VV x)) = set_nth m x (V2 s).
Proof. unfold block_V2, block_V. destruct (positions (Z.of_nat m) (d_dd1 d) ++ positions (Z.of_nat m) (d_dd2 d)); reflexivity. Qed.
Lemma stored_V1 g d s m x : V1 (snd (block_V1 g d s m) (VV x)) = set_nth m x (V1 s).
Proof. unfold block_V1, block_V. destruct (positions (Z.of_nat m) (d_dd1 d) ++ positions (Z.of_nat m) (d_dd2 d)); reflexivity. Qed.

Theorem stored_all g d s :
  (forall c x, W0 (snd (block_W0 d s c) (VQ x)) = set_nth c x (W0 s)) /\
  (forall m x, V0 (snd (block_V0 d s m) (VQ x)) = set_nth m x (V0 s)) /\
  (forall c x, W (snd (block_W g d s c) (VV x)) = set_nth c x (W s)) /\
  (forall m x, V2 (snd (block_V2 g d s m) (VV x)) = set_nth m x (V2 s)) /\
  (forall m x, V1 (snd (block_V1 g d s m) (VV x)) = set_nth m x (V1 s)).
Proof.
  repeat split; intros.
  - apply stored_W0. - apply stored_V0. - apply stored_W. - apply stored_V2. - apply stored_V1.
Qed.

(* a scalar block without data draws N(0, 1/prior precision) *)
Theorem prior_draw_scalar d s :
  (forall c, positions (Z.of_nat c) (d_cl d) = [] -> fst (block_W0 d s c) = DNormal 0 (/ tau0 s)) /\
  (forall m, positions (Z.of_nat m) (d_dd1 d) = [] -> positions (Z.of_nat m) (d_dd2 d) = [] ->
             fst (block_V0 d s m) = DNormal 0 (/ (vnth (phi0 s) m * eta0 s))).
Proof.
  split.
  - intros c E. unfold block_W0. now rewrite E.
  - intros m E1 E2. unfold block_V0. now rewrite E1, E2.
Qed.

Definition valid_datab (d : data) : bool :=
  Nat.eqb (length (d_cl d)) (nobs d) && Nat.eqb (length (d_dd1 d)) (nobs d) && Nat.eqb (length (d_dd2 d)) (nobs d)
  && forallb (fun c => (0 <=? c)%Z) (d_cl d) && forallb (fun t => (-1 <=? t)%Z) (d_dd1 d) && forallb (fun t => (-1 <=? t)%Z) (d_dd2 d).

Lemma znth_forallb (p : Z -> bool) l i : p 0%Z = true -> forallb p l = true -> p (znth l i) = true.
Proof.
  intros H0 Hl. unfold znth. destruct (Nat.lt_ge_cases i (length l)) as [Hi|Hi].
  - rewrite forallb_forall in Hl. apply Hl. now apply nth_In.
  - now rewrite nth_overflow.
Qed.

Lemma valid_datab_ok d : valid_datab d = true -> ValidData d.
Proof.
  unfold valid_datab. rewrite !andb_true_iff. intros [[[[[H1 H2] H3] H4] H5] H6].
  apply Nat.eqb_eq in H1, H2, H3. repeat split; try assumption; intros i.
  - apply Z.leb_le. now apply (znth_forallb (fun c => (0 <=? c)%Z)).
  - apply Z.leb_le. now apply (znth_forallb (fun c => (-1 <=? c)%Z)).
  - apply Z.leb_le. now apply (znth_forallb (fun c => (-1 <=? c)%Z)).
Qed.

Definition no_self_combob (d : data) : bool :=
  forallb (fun i => (znth (d_dd1 d) i =? -1)%Z || negb (znth (d_dd1 d) i =? znth (d_dd2 d) i)%Z) (seq 0 (nobs d)).

Lemma no_self_combob_ok d : no_self_combob d = true -> NoSelfCombo d.
Proof.
  unfold no_self_combob, NoSelfCombo. rewrite forallb_forall. intros H i Hi.
  specialize (H i). rewrite in_seq in H. specialize (H ltac:(lia)).
  apply orb_true_iff in H as [H|H]; [left; now apply Z.eqb_eq|right].
  apply negb_true_iff, Z.eqb_neq in H. exact H.
Qed.

Definition qeq_list (a b : list Qc) : bool :=
  Nat.eqb (length a) (length b) && forallb (fun p => Qc_eq_bool (fst p) (snd p)) (combine a b).

Lemma qeq_list_ok a b : qeq_list a b = true -> a = b.
Proof.
  unfold qeq_list. rewrite andb_true_iff. intros [Hl Hf]. apply Nat.eqb_eq in Hl.
  revert b Hl Hf; induction a as [|x a IH]; intros [|y b] Hl Hf; cbn [length] in Hl; try lia; [reflexivity|].
  cbn [combine forallb fst snd] in Hf. apply andb_true_iff in Hf as [H1 H2].
  apply Qc_eq_bool_correct in H1. subst. f_equal. apply IH; [lia|exact H2].
Qed.
