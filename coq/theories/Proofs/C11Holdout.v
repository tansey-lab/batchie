(* C11: the hold-out splits partition their input; per-plate counts under the numpy contract. *)
From Coq Require Import ZArith List Bool Arith Lia Permutation.
From Batchie Require Import Proofs.PyRtLemmas Lib.ListX Lib.Sexp Model.Encode Model.Screen Model.Retro Model.RetroHoldout
  Proofs.C11Lib Proofs.C11Gen Proofs.C11Select.
Import ListNotations.
Open Scope nat_scope.

Definition unobserved_plates (rows : list row) : list name :=
  filter (fun p => negb (plate_observed p rows)) (plate_names_of rows).
Definition plate_count (p : name) (rows : list row) : nat := length (filter (in_plate p) rows).

(* numpy: rng.choice(plate_indices, n, replace=False) answers a duplicate-free sub-list of plate_indices
   (one answer per unobserved plate, in plate order) *)
Definition choice_contract (rows : list row) (ds : list draw) : Prop :=
  Forall2 (fun q d => exists idx, d = DInts idx /\ NoDup idx /\ incl idx (idx_where (in_plate q) rows))
          (unobserved_plates rows) (firstn (length (unobserved_plates rows)) ds).

Lemma ceil_frac_spec : forall size num den,
  let n := ceil_frac size num den in
  (Zpos den * (n - 1) < Z.of_nat size * num <= Zpos den * n)%Z.
Proof.
  intros size num den n. subst n. unfold ceil_frac.
  pose proof (Z.mul_div_le (Z.of_nat size * num + Z.pos den - 1) (Z.pos den) (Pos2Z.is_pos den)).
  pose proof (Z.mul_succ_div_gt (Z.of_nat size * num + Z.pos den - 1) (Z.pos den) (Pos2Z.is_pos den)).
  lia.
Qed.

(* the index lists the plate loop consumed have the lengths it asked for: the exact ceilings, or the oracle's
   values in turn *)
Definition answers_sized (num : Z) (den : positive) (rows : list row) (counts : option (list Z))
           (assoc : list (name * list nat)) : Prop :=
  map (fun qd => Z.of_nat (length (snd qd))) assoc =
  match counts with
  | None => map (fun qd => ceil_frac (vcount (plate_vec (fst qd) rows)) num den) assoc
  | Some cs => firstn (length assoc) cs
  end.

Lemma ho_plates_spec : forall n num den rows plates counts ds K0 sel ds',
  ho_plates n num den rows plates counts ds (vof_idx n K0) = Ok (sel, ds') ->
  exists assoc : list (name * list nat),
    sel = vof_idx n (K0 ++ concat (map snd assoc)) /\
    map fst assoc = filter (fun p => negb (plate_observed p rows)) plates /\
    ds = map (fun qd => DInts (snd qd)) assoc ++ ds' /\
    answers_sized num den rows counts assoc.
Proof.
  intros n num den rows plates. induction plates as [|p plates IH]; intros counts ds K0 sel ds' H;
    cbn [ho_plates] in H.
  - injection H as <- <-. exists []. rewrite app_nil_r. repeat split. now destruct counts.
  - cbn [filter]. destruct (plate_observed p rows) eqn:Eo; cbn [negb].
    + now apply IH in H.
    + apply res_bind_inv in H as ([ns counts'] & En & H).
      apply res_bind_inv in H as ([idx ds1] & ->%take_ints_ok & H).
      destruct (negb (Z.of_nat (length idx) =? ns)%Z) eqn:El; [discriminate|].
      apply negb_false_iff, Z.eqb_eq in El.
      rewrite vor_vof_idx in H. apply IH in H as (assoc & Hs & Hf & Hd & Hc).
      exists ((p, idx) :: assoc). cbn [map fst snd concat app].
      rewrite <- app_assoc in Hs. repeat split.
      * exact Hs.
      * now rewrite Hf.
      * now rewrite Hd.
      * unfold answers_sized in *. destruct counts as [[|c cs]|]; cbn in En; [discriminate| |];
          injection En as <- <-; cbn [map length firstn fst snd]; now rewrite El, Hc.
Qed.

Lemma split_by_ok : forall sel rows k h,
  split_by sel rows = Ok (k, h) ->
  k = vselect (map negb sel) rows /\ h = map (set_mask true) (vselect sel rows).
Proof.
  intros sel rows k h H. unfold split_by in H.
  apply res_bind_inv in H as (k0 & ->%construct_ok & H).
  apply res_bind_inv in H as (h0 & ->%construct_ok & [= <- <-]). auto.
Qed.

Lemma holdout_balanced_ok : forall num den counts rows ds train held ds',
  holdout_balanced num den counts rows ds = Ok (train, held, ds') ->
  exists assoc : list (name * list nat),
    let sel := vof_idx (length rows) (concat (map snd assoc)) in
    train = vselect (map negb sel) rows /\ held = map (set_mask true) (vselect sel rows) /\
    map fst assoc = unobserved_plates rows /\
    ds = map (fun qd => DInts (snd qd)) assoc ++ ds' /\
    answers_sized num den rows counts assoc.
Proof.
  intros num den counts rows ds train held ds' H. unfold holdout_balanced in H.
  destruct ((num <? 0)%Z || (Z.pos den <? num)%Z); [discriminate|].
  rewrite repeat_false_vof_idx in H.
  apply res_bind_inv in H as ([sel ds1] & Eh & H).
  apply res_bind_inv in H as ([k h] & Es & [= <- <- <-]).
  apply ho_plates_spec in Eh as (assoc & -> & Hf & Hd & Hc).
  apply split_by_ok in Es as [Hk Hh]. exists assoc. cbn zeta. auto 10.
Qed.

Theorem holdout_partition : forall num den counts rows ds train held ds',
  holdout_balanced num den counts rows ds = Ok (train, held, ds') ->
  exists held0,
    held = map (set_mask true) held0 /\ Permutation (train ++ held0) rows /\
    Forall (fun r => r_mask r = true) held /\ exists v : bvec, train = vselect v rows.
Proof.
  intros num den counts rows ds train held ds' H.
  apply holdout_balanced_ok in H as (assoc & Ht & Hh & _). cbn zeta in *.
  eexists. split; [exact Hh|]. split; [|split].
  - subst train. apply vselect_partition. now rewrite vof_idx_length.
  - subst held. now apply Forall_map, Forall_forall.
  - eauto.
Qed.

Lemma Forall2_map_assoc {A B C} (P : A -> C -> Prop) (g : A * B -> C) : forall assoc : list (A * B),
  Forall2 P (map fst assoc) (map g assoc) -> forall q d, In (q, d) assoc -> P q (g (q, d)).
Proof.
  induction assoc as [|[k v] assoc IH]; intros H q d Hin; [contradiction|].
  cbn [map fst] in H. inversion H; subst. destruct Hin as [E|Hin]; [now inversion E; subst|now apply IH].
Qed.

Lemma holdout_counts_assoc : forall num den counts rows ds train held ds',
  holdout_balanced num den counts rows ds = Ok (train, held, ds') ->
  choice_contract rows ds ->
  exists assoc : list (name * list nat),
    map fst assoc = unobserved_plates rows /\
    (forall q d, In (q, d) assoc -> plate_count q held = length d) /\
    (forall p, ~ In p (unobserved_plates rows) -> plate_count p held = 0) /\
    answers_sized num den rows counts assoc.
Proof.
  intros num den counts rows ds train held ds' H HC.
  apply holdout_balanced_ok in H as (assoc & Ht & Hh & Hf & Hd & Hc). cbn zeta in *.
  exists assoc. split; [exact Hf|].
  assert (Hok : plate_assoc_ok rows assoc).
  { split.
    - rewrite Hf. unfold unobserved_plates. apply NoDup_filter, NoDup_sort_uniq.
    - unfold choice_contract in HC. rewrite <- Hf, map_length in HC.
      rewrite Hd, firstn_app, map_length, Nat.sub_diag, firstn_O, app_nil_r in HC.
      rewrite firstn_all2 in HC by (rewrite map_length; lia).
      intros q d Hin. destruct (Forall2_map_assoc _ _ _ HC q d Hin) as (idx & E & Hnd & Hincl).
      cbn in E. inversion E; subst. auto. }
  assert (Hcount : forall p, plate_count p held = sel_count (concat (map snd assoc)) (in_plate p) rows).
  { intros p. subst held. unfold plate_count, sel_count. now rewrite filter_length_map. }
  repeat split.
  - intros q d Hin. rewrite Hcount. now apply (sel_count_assoc rows assoc q Hok).
  - intros p Hp. rewrite Hcount. apply (sel_count_assoc rows assoc p Hok). now rewrite Hf.
  - exact Hc.
Qed.

Theorem holdout_counts : forall num den rows ds train held ds',
  holdout_balanced num den None rows ds = Ok (train, held, ds') ->
  choice_contract rows ds ->
  forall p,
    (In p (unobserved_plates rows) ->
       Z.of_nat (plate_count p held) = ceil_frac (plate_count p rows) num den) /\
    (~ In p (unobserved_plates rows) -> plate_count p held = 0).
Proof.
  intros num den rows ds train held ds' H HC p.
  destruct (holdout_counts_assoc _ _ _ _ _ _ _ _ H HC) as (assoc & Hf & Hc & H0 & Hn).
  split; [|apply H0].
  intros Hp. rewrite <- Hf in Hp. apply in_map_iff in Hp as ([q d] & E & Hin). cbn in E. subst q.
  pose proof (ext_in_map Hn _ Hin) as Hd. cbn [fst snd] in Hd.
  rewrite (Hc _ _ Hin), Hd. unfold plate_count, plate_vec. now rewrite vcount_map.
Qed.

Theorem holdout_counts_oracle : forall num den cs rows ds train held ds',
  holdout_balanced num den (Some cs) rows ds = Ok (train, held, ds') ->
  choice_contract rows ds ->
  map (fun q => Z.of_nat (plate_count q held)) (unobserved_plates rows)
    = firstn (length (unobserved_plates rows)) cs /\
  forall p, ~ In p (unobserved_plates rows) -> plate_count p held = 0.
Proof.
  intros num den cs rows ds train held ds' H HC.
  destruct (holdout_counts_assoc _ _ _ _ _ _ _ _ H HC) as (assoc & Hf & Hc & H0 & Ho).
  unfold answers_sized in Ho.
  split; [|exact H0]. rewrite <- Hf, map_map, map_length, <- Ho.
  apply map_ext_in. intros [q d] Hin. cbn [fst snd]. now rewrite (Hc _ _ Hin).
Qed.

Theorem random_holdout_partition : forall num den count rows ds train held ds',
  holdout_random num den count rows ds = Ok (train, held, ds') ->
  exists held0 idx,
    held = map (set_mask true) held0 /\ Permutation (train ++ held0) rows /\
    ds = DInts idx :: ds' /\
    Z.of_nat (length idx) = match count with Some c => c | None => ceil_frac (length rows) num den end /\
    (NoDup idx -> (forall i, In i idx -> i < length rows) -> length held = length idx).
Proof.
  intros num den count rows ds train held ds' H. unfold holdout_random in H.
  destruct ((num <? 0)%Z || (Z.pos den <? num)%Z); [discriminate|].
  apply res_bind_inv in H as ([idx ds1] & ->%take_ints_ok & H).
  destruct (negb (Z.of_nat (length idx) =? _)%Z) eqn:El; [discriminate|].
  apply negb_false_iff, Z.eqb_eq in El.
  apply res_bind_inv in H as ([k h] & [-> ->]%split_by_ok & [= <- <- <-]).
  exists (vselect (vof_idx (length rows) idx) rows), idx. repeat split; auto.
  - apply vselect_partition. now rewrite vof_idx_length.
  - (* the selected rows are those whose number, below length rows, is in idx *)
    intros Hnd Hlt. rewrite map_length, vselect_vof_idx, map_length.
    rewrite <- (filter_length_map (fun i => memb i idx) fst), enum_from_fst.
    apply Permutation_length, NoDup_Permutation; [apply NoDup_filter, seq_NoDup|exact Hnd|].
    intros i. rewrite filter_In, in_seq, memb_In. split; [tauto|].
    intros Hi. specialize (Hlt i Hi). split; [lia|exact Hi].
Qed.
