(* C15 / C05: the use site of the unranking READ ON THE TRANSLATED SOURCE.  The run of statements
   `n_plates, n_thetas, ... = predictions.shape` .. `idx3 = np.array(idx3)` of dbal_fast_gauss_scoring_vectorized is regenerated on
   every run (Generated/SrcDbal.v: src_kernel_triples, linked by Proofs/C05Source_KernelTriples.v).  Here: for every recorded
   rng.choice answer obeying numpy's contract, the three index arrays that run delivers are pairwise distinct triples
   a > b > c inside range(n_thetas), min(C(n,3), max_combos) of them, and ALL triples when the budget covers C(n,3).
   (Binom.dbal_triples, the model function C15_dbal_triples is about, is related to it at the end.) *)
From Coq Require Import ZArith List Lia.
From Batchie Require Import Lib.Sexp Lib.ListX Model.Binom Model.Dbal Generated.SrcDbal Proofs.C15Binom
  Proofs.C15Enum Proofs.C05Kernel Proofs.C05Source_KernelTriples.
Import ListNotations.
Open Scope Z_scope.

(* scipy's comb(n, 3, exact=True) as the C05 link renders it (n(n-1)(n-2)/6, 0 below 3) is the binomial coefficient *)
Lemma comb3_is_Cz n : 0 <= n -> comb3 n = Cz n 3.
Proof.
  intros Hn. unfold comb3. destruct (Z.ltb_spec n 3) as [Hlt|Hge].
  - symmetry. apply Cz_small; [exact Hn|]. cbn. lia.
  - pose proof (Cz_absorb n 2 ltac:(lia)) as H3.
    pose proof (Cz_absorb (n - 1) 1 ltac:(lia)) as H2.
    pose proof (Cz_absorb (n - 1 - 1) 0 ltac:(lia)) as H1.
    rewrite Cz_0_r in H1.
    change (Z.of_nat 3) with 3 in H3. change (Z.of_nat 2) with 2 in H2. change (Z.of_nat 1) with 1 in H1.
    symmetry. apply Z.div_unique_exact; [lia|]. nia.
Qed.

Lemma res_map_all_Forall2 {A B} (f : A -> result B) l : forall bs,
  res_map_all f l = Ok bs -> Forall2 (fun a b => f a = Ok b) l bs.
Proof. exact (ListX.res_map_all_Forall2 f l). Qed.

Definition tup3 (l : list Z) : Z * Z * Z :=
  match l with [a; b; c] => (a, b, c) | _ => (0, 0, 0) end.

Lemma unrank3_map n d : forall zts,
  triples n d = Ok zts -> (forall t, In t zts -> length t = 3%nat) ->
  res_map_all (fun i => unrank3 i n) d = Ok (map tup3 zts).
Proof.
  intros zts H Hl. apply res_map_all_Forall2 in H.
  induction H as [|i t d zts Hit _ IH]; cbn [res_map_all map]; [reflexivity|].
  unfold unrank3 at 1. rewrite Hit, IH by (intros s Hs; apply Hl; now right). cbn [res_bind].
  specialize (Hl t (or_introl eq_refl)). destruct t as [|a [|b [|c [|x t]]]]; try discriminate. reflexivity.
Qed.

(* nat3 after tup3 loses nothing on the unranked triples: [zlist3] undoes it *)
Definition zlist3 (t : triple) : list Z := let '(a, b, c) := t in [Z.of_nat a; Z.of_nat b; Z.of_nat c].

Lemma zlist3_nat3 n t : (exists a b c, t = [a; b; c] /\ 0 <= c < b /\ b < a < n) -> zlist3 (nat3 (tup3 t)) = t.
Proof. intros (a & b & c & -> & H1 & H2). unfold nat3, tup3, zlist3. cbn [fst snd]. now rewrite !Z2Nat.id by lia. Qed.

Lemma nat3_zlist3 t : nat3 (tup3 (zlist3 t)) = t.
Proof. destruct t as [[a b] c]. unfold nat3, tup3, zlist3. cbn [fst snd]. now rewrite !Nat2Z.id. Qed.

Theorem unrank3_all_spec (T : nat) d :
  NoDup d -> (forall i, In i d -> 0 <= i < Cz (Z.of_nat T) 3) ->
  exists zs, res_map_all (fun i => unrank3 i (Z.of_nat T)) d = Ok zs /\ length zs = length d /\
    NoDup (map nat3 zs) /\
    (forall t, In t (map nat3 zs) -> desc T t) /\
    (Z.of_nat (length d) = Cz (Z.of_nat T) 3 -> forall t, desc T t -> In t (map nat3 zs)).
Proof.
  intros Hnd Hr.
  destruct (triples_distinct_complete (Z.of_nat T) d ltac:(lia) Hnd Hr) as (zts & E & Hl & Hnd' & Hin & Hall).
  assert (Hl3 : forall t, In t zts -> length t = 3%nat).
  { intros t Ht. destruct (Hin t Ht) as (a & b & c & -> & _). reflexivity. }
  exists (map tup3 zts). split; [exact (unrank3_map _ d zts E Hl3)|]. split; [now rewrite map_length|].
  rewrite map_map. split; [|split].
  - apply NoDup_map_inj_in; [|exact Hnd']. intros s t Hs Ht Est.
    rewrite <- (zlist3_nat3 _ s (Hin s Hs)), <- (zlist3_nat3 _ t (Hin t Ht)), Est. reflexivity.
  - intros t Ht. apply in_map_iff in Ht as (s & <- & Hs).
    destruct (Hin s Hs) as (a & b & c & -> & H1 & H2). unfold desc, nat3, tup3. cbn [fst snd]. lia.
  - intros Hfull [[a b] c] (H1 & H2 & H3). rewrite <- (nat3_zlist3 (a, b, c)).
    apply (in_map (fun t => nat3 (tup3 t))). apply Hall; [exact Hfull|lia|lia].
Qed.

Theorem src_kernel_triples_distinct_complete (pred : arr3) (mc : Z) (d : list Z) (rest : list (list Z)) np T E :
  shape3 pred = (np, T, E) -> (3 <= T)%nat -> 1 <= mc ->
  choice_ok (comb3 (Z.of_nat T)) (Z.min (comb3 (Z.of_nat T)) mc) d = true ->
  exists t3, src_kernel_triples pred mc (d :: rest) = Ok (t3, rest) /\
    Z.of_nat (length (nat_triples t3)) = Z.min (Cz (Z.of_nat T) 3) mc /\
    NoDup (nat_triples t3) /\
    (forall a b c, In (a, b, c) (nat_triples t3) -> (c < b /\ b < a /\ a < T)%nat) /\
    (Cz (Z.of_nat T) 3 <= mc -> forall a b c, (c < b /\ b < a /\ a < T)%nat -> In (a, b, c) (nat_triples t3)).
Proof.
  intros Es HT Hmc Hok.
  rewrite (src_kernel_triples_spec pred mc d rest np T E Es Hmc Hok).
  destruct (Nat.ltb_spec T 3) as [Hlt|_]; [lia|].
  pose proof (choice_ok_spec _ _ _ Hok) as (Hlen & Hnd & Hr).
  rewrite comb3_is_Cz in Hlen, Hr by lia.
  destruct (unrank3_all_spec T d Hnd Hr) as (zs & -> & Hl & Hnd' & Hin & Hall).
  destruct (unzip3_of_draw T mc d zs HT Hmc Hok Hl) as (t3 & E3 & Et). cbn [res_bind]. rewrite E3.
  exists t3. rewrite Et. split; [reflexivity|].
  split; [rewrite map_length, Hl; exact Hlen|]. split; [exact Hnd'|]. split.
  - intros a b c Hi. exact (Hin (a, b, c) Hi).
  - intros Hb a b c Hd. apply (Hall ltac:(lia) (a, b, c)). exact Hd.
Qed.

(* the same for the model's own draw-to-triples function (what kernel_checked runs) *)
Theorem triples_of_draw_distinct_complete (T : nat) (k : Z) d :
  choice_ok (comb3 (Z.of_nat T)) k d = true ->
  exists ts, triples_of_draw T d = Ok ts /\ Z.of_nat (length ts) = k /\ NoDup ts /\
    (forall a b c, In (a, b, c) ts -> (c < b /\ b < a /\ a < T)%nat) /\
    (k = comb3 (Z.of_nat T) -> forall a b c, (c < b /\ b < a /\ a < T)%nat -> In (a, b, c) ts).
Proof.
  intros Hok. apply choice_ok_spec in Hok as (Hlen & Hnd & Hr).
  rewrite comb3_is_Cz in * by lia.
  destruct (unrank3_all_spec T d Hnd Hr) as (zs & Ez & Hl & Hnd' & Hin & Hall).
  exists (map nat3 zs). rewrite triples_via_unrank3, Ez. cbn [res_bind].
  split; [reflexivity|]. split; [rewrite map_length, Hl; exact Hlen|]. split; [exact Hnd'|]. split.
  - intros a b c Hi. exact (Hin (a, b, c) Hi).
  - intros Hk a b c Hd. apply (Hall ltac:(lia) (a, b, c)). exact Hd.
Qed.

(* Binom.dbal_triples agrees with the translated run: same triples, for the same answer *)
Theorem dbal_triples_is_source (pred : arr3) (mc : Z) (d : list Z) (rest : list (list Z)) np T E :
  shape3 pred = (np, T, E) -> (3 <= T)%nat -> 1 <= mc ->
  choice_ok (comb3 (Z.of_nat T)) (Z.min (comb3 (Z.of_nat T)) mc) d = true ->
  exists zts t3,
    dbal_triples (Z.of_nat T) mc (fun _ _ => d) = Ok (Cz (Z.of_nat T) 3, Z.min (Cz (Z.of_nat T) 3) mc, zts) /\
    src_kernel_triples pred mc (d :: rest) = Ok (t3, rest) /\
    nat_triples t3 = map (fun t => nat3 (tup3 t)) zts /\
    (forall t, In t zts -> exists a b c, t = [a; b; c] /\ 0 <= c < b /\ b < a < Z.of_nat T).
Proof.
  intros Es HT Hmc Hok.
  rewrite (src_kernel_triples_spec pred mc d rest np T E Es Hmc Hok).
  destruct (Nat.ltb_spec T 3) as [Hlt|_]; [lia|].
  pose proof (choice_ok_spec _ _ _ Hok) as (Hlen & Hnd & Hr).
  rewrite comb3_is_Cz in Hlen, Hr by lia.
  pose proof (Cz_pos (Z.of_nat T) 3 ltac:(cbn; lia)) as Hpos.
  destruct (triples_distinct_complete (Z.of_nat T) d ltac:(lia) Hnd Hr) as (zts & Etr & Hl & _ & Hin & _).
  assert (Hl3 : forall t, In t zts -> length t = 3%nat).
  { intros t Ht. destruct (Hin t Ht) as (a & b & c & -> & _). reflexivity. }
  rewrite (unrank3_map _ d zts Etr Hl3). cbn [res_bind].
  destruct (unzip3_of_draw T mc d (map tup3 zts) HT Hmc Hok) as (t3 & -> & Et); [now rewrite map_length|].
  exists zts, t3. rewrite Et, map_map. split; [|repeat split; exact Hin].
  unfold dbal_triples. rewrite init_nck_Cz by lia.
  destruct (Z.eqb_spec (Cz (Z.of_nat T) 3) 0) as [|_]; [lia|].
  destruct d as [|i0 d0]; [cbn [length] in Hlen; lia|].
  rewrite Etr. reflexivity.
Qed.
