(* C20: ModelEvaluation metrics and calculate_mse equal their loop definitions;
   evaluation save / load round trip. *)
From Coq Require Import ZArith List QArith Qcanon Lia Permutation.
From Batchie Require Import Lib.Sexp Lib.Num Lib.ListX Model.Metrics Proofs.C20Spec Proofs.C20Base.
Import ListNotations.
Open Scope Qc_scope.

Lemma mk_eval_ok m P o ch nm e :
  mk_eval m P o ch nm = Ok e ->
  e = {| ev_preds := P; ev_obs := o; ev_chains := ch; ev_names := nm |}
  /\ length P = length o /\ length nm = length o
  /\ Forall (fun r => length r = m) P /\ length ch = m.
Proof.
  unfold mk_eval.
  destruct (Nat.eqb (length P) (length o)) eqn:E1; cbn [negb]; [|discriminate].
  destruct (Nat.eqb (length nm) (length o)) eqn:E2; cbn [negb]; [|discriminate].
  destruct (forallb (fun r => Nat.eqb (length r) m) P) eqn:E3; cbn [negb]; [|discriminate].
  destruct (Nat.eqb (length ch) m) eqn:E4; cbn [negb]; [|discriminate].
  intros H. inversion H; subst. apply Nat.eqb_eq in E1, E2, E4.
  repeat split; try assumption.
  apply Forall_forall. intros r Hr. rewrite forallb_forall in E3. now apply Nat.eqb_eq, E3.
Qed.

Section Chain.
Variables (ch : list Z) (m : nat).
Hypothesis Hch : length ch = m.

Lemma sel_nth c j : (j < m)%nat -> nth j (map (Z.eqb c) ch) false = (c =? nth j ch 0%Z)%Z.
Proof.
  intros Hj. rewrite (nth_indep _ false (Z.eqb c 0%Z)) by (rewrite map_length; lia).
  apply map_nth.
Qed.

Lemma chain_row_sum c g :
  qsum (select (map (Z.eqb c) ch) (map g (seq 0 m)))
  = sum_upto m (fun j => if (c =? nth j ch 0%Z)%Z then g j else 0).
Proof.
  rewrite qsum_select.
  rewrite (combine_seq_nth _ _ m false 0) by (now rewrite map_length, ?seq_length).
  rewrite map_map. unfold sum_upto. f_equal. apply map_ext_in. intros j Hj. apply in_seq in Hj. cbn [fst snd].
  rewrite sel_nth by lia. rewrite nth_map_seq0 by lia. reflexivity.
Qed.

Lemma chain_row_length c (r : list Qc) :
  length r = m -> length (select (map (Z.eqb c) ch) r) = chain_size ch c.
Proof.
  intros Hr. rewrite select_length by (rewrite map_length; lia). apply filter_map_length.
Qed.
End Chain.

Section Eval.
Variables (P : list (list Qc)) (o : list Qc) (m : nat).
Hypothesis Hrect : Forall (fun r => length r = m) P.
Let n := length P.

Lemma row_length i : (i < n)%nat -> length (nth i P []) = m.
Proof. intros Hi. now apply Forall_nth. Qed.

Lemma mean_predictions_index : map qmean P = map (mean_prediction_def P m) (seq 0 n).
Proof.
  rewrite (map_seq_nth qmean P []). fold n. apply map_ext_in. intros i Hi. apply in_seq in Hi.
  rewrite (list_eq_map_nth (nth i P []) 0) at 1. rewrite row_length by lia. apply qmean_map_seq.
Qed.

Hypothesis HPo : length P = length o.

(* (P - o[:, None]) ** 2 in index form *)
Lemma sqerr_index :
  sqerr P o = map (fun i => map (fun j => sq_err P o i j) (seq 0 m)) (seq 0 n).
Proof.
  unfold sqerr. rewrite (combine_seq_nth P o n [] 0) by (reflexivity || exact (eq_sym HPo)).
  rewrite map_map. apply map_ext_in. intros i Hi. apply in_seq in Hi. cbn [fst snd].
  rewrite (map_seq_nth _ (nth i P []) 0), row_length by lia. reflexivity.
Qed.

Lemma sqerr_length : length (sqerr P o) = n.
Proof. rewrite sqerr_index. now rewrite map_length, seq_length. Qed.

Lemma sqerr_rows_length : Forall (fun r => length r = m) (sqerr P o).
Proof.
  rewrite sqerr_index. apply Forall_forall. intros r Hr. apply in_map_iff in Hr as (i & <- & _).
  now rewrite map_length, seq_length.
Qed.

Lemma sqerr_concat_length : length (concat (sqerr P o)) = (n * m)%nat.
Proof. rewrite (concat_length_uniform m), sqerr_length; [reflexivity|apply sqerr_rows_length]. Qed.

Lemma mse_index : qmean (concat (sqerr P o)) = mse_def P o n m.
Proof.
  unfold qmean. rewrite qlen_qnat, sqerr_concat_length, qnat_mul.
  rewrite sqerr_index, qsum_concat, map_map. reflexivity.
Qed.

Lemma exp_mse_index : map qmean (sqerr P o) = map (exp_mse_def P o m) (seq 0 n).
Proof.
  rewrite sqerr_index, map_map. apply map_ext. intros i. apply qmean_map_seq.
Qed.

Lemma mse_variance_index : qvar (map qmean (sqerr P o)) = mse_variance_def P o n m.
Proof. rewrite exp_mse_index. apply qvar_map_seq. Qed.

(* one chain: select the columns, then the same expression *)
Lemma sqerr_select sel :
  sqerr (map (select sel) P) o = map (select sel) (sqerr P o).
Proof.
  unfold sqerr. rewrite combine_map_fst, !map_map. apply map_ext. intros [r x]. cbn [fst snd].
  now rewrite select_map.
Qed.

Variable ch : list Z.
Hypothesis Hch : length ch = m.

Lemma chain_cells_length c :
  length (concat (map (select (map (Z.eqb c) ch)) (sqerr P o))) = (n * chain_size ch c)%nat.
Proof.
  rewrite (concat_length_uniform (chain_size ch c)), map_length, sqerr_length; [reflexivity|].
  apply Forall_map. eapply Forall_impl; [|apply sqerr_rows_length]. intros r. apply chain_row_length, Hch.
Qed.

Lemma chain_mse_index c :
  qmean (concat (sqerr (map (select (map (Z.eqb c) ch)) P) o)) = chain_mse_def P o ch n m c.
Proof.
  rewrite sqerr_select. unfold qmean, chain_mse_def. rewrite qlen_qnat, chain_cells_length, qnat_mul. f_equal.
  rewrite qsum_concat, sqerr_index, !map_map. unfold sum_upto at 1. f_equal.
  apply map_ext. intros i. apply chain_row_sum, Hch.
Qed.
End Eval.

Theorem mse_eq m P o ch nm e :
  mk_eval m P o ch nm = Ok e ->
  ev_mse e = if Nat.eqb (length P) 0 || Nat.eqb m 0 then Err E_NAN
             else Ok (mse_def P o (length P) m).
Proof.
  intros H. apply mk_eval_ok in H as (-> & HPo & _ & Hrect & Hch).
  unfold ev_mse, is_empty, n_exp, n_thetas. cbn [ev_preds ev_obs ev_chains]. rewrite Hch.
  destruct (Nat.eqb (length P) 0 || Nat.eqb m 0); [reflexivity|].
  f_equal. eapply mse_index; eassumption.
Qed.

Theorem mse_variance_eq m P o ch nm e :
  mk_eval m P o ch nm = Ok e ->
  ev_mse_variance e = if Nat.eqb (length P) 0 || Nat.eqb m 0 then Err E_NAN
                      else Ok (mse_variance_def P o (length P) m).
Proof.
  intros H. apply mk_eval_ok in H as (-> & HPo & _ & Hrect & Hch).
  unfold ev_mse_variance, is_empty, n_exp, n_thetas. cbn [ev_preds ev_obs ev_chains]. rewrite Hch.
  destruct (Nat.eqb (length P) 0 || Nat.eqb m 0); [reflexivity|].
  f_equal. eapply mse_variance_index; eassumption.
Qed.

Theorem inter_chain_eq m P o ch nm e :
  mk_eval m P o ch nm = Ok e ->
  ev_inter_chain e = if Nat.eqb (length P) 0 || Nat.eqb m 0 then Err E_NAN
                     else Ok (inter_chain_def P o ch (length P) m).
Proof.
  intros H. apply mk_eval_ok in H as (-> & HPo & _ & Hrect & Hch).
  unfold ev_inter_chain, is_empty, n_exp, n_thetas. cbn [ev_preds ev_obs ev_chains]. rewrite Hch.
  destruct (Nat.eqb (length P) 0 || Nat.eqb m 0); [reflexivity|].
  f_equal. unfold inter_chain_def.
  rewrite (map_ext _ (chain_mse_def P o ch (length P) m)).
  2:{ intros c. unfold chain_mse. cbn [ev_preds ev_obs ev_chains]. eapply chain_mse_index; eassumption. }
  rewrite (qvar_perm _ (map (chain_mse_def P o ch (length P) m) (nodup Z.eq_dec ch))).
  2:{ apply Permutation_map, sorted_unique_perm_nodup. }
  rewrite (map_seq_nth _ (nodup Z.eq_dec ch) 0%Z). apply qvar_map_seq.
Qed.

Lemma sorted_unique_const c l : l <> [] -> Forall (fun x => x = c) l -> sorted_unique l = [c].
Proof.
  intros Hne H. induction H as [|x l Hx Hl IH]; [congruence|]. subst x.
  cbn [sorted_unique fold_right]. fold (sorted_unique l).
  destruct l as [|y l]; [reflexivity|]. rewrite IH by congruence.
  cbn [zinsert]. now rewrite Z.ltb_irrefl, Z.eqb_refl.
Qed.

Lemma qvar_singleton x : qvar [x] = 0.
Proof.
  unfold qvar, qmean. cbn [map qsum fold_right].
  assert (H1 : forall y : Qc, qlen [y] = 1) by (intros y; apply Qc_is_canon; reflexivity).
  rewrite !H1. unfold qsq. field. discriminate.
Qed.

Theorem inter_chain_one_chain m P o ch nm e c :
  mk_eval m P o ch nm = Ok e -> (0 < length P)%nat -> (0 < m)%nat ->
  Forall (fun x => x = c) ch -> ev_inter_chain e = Ok 0.
Proof.
  intros H HP Hm Hc. apply mk_eval_ok in H as (-> & HPo & _ & Hrect & Hch).
  unfold ev_inter_chain, is_empty, n_exp, n_thetas. cbn [ev_preds ev_obs ev_chains]. rewrite Hch.
  destruct (Nat.eqb_spec (length P) 0); [lia|]. destruct (Nat.eqb_spec m 0); [lia|]. cbn [orb].
  assert (Hne : ch <> []) by (destruct ch; [cbn in Hch; lia|congruence]).
  rewrite (sorted_unique_const c ch Hne Hc).
  cbn [map]. now rewrite qvar_singleton.
Qed.

Theorem mean_predictions_eq m P o ch nm e :
  mk_eval m P o ch nm = Ok e ->
  ev_mean_predictions e = if negb (Nat.eqb (length P) 0) && Nat.eqb m 0 then Err E_NAN
                          else Ok (map (mean_prediction_def P m) (seq 0 (length P))).
Proof.
  intros H. apply mk_eval_ok in H as (-> & HPo & _ & Hrect & Hch).
  unfold ev_mean_predictions, n_exp, n_thetas. cbn [ev_preds ev_obs ev_chains]. rewrite Hch.
  destruct (negb (Nat.eqb (length P) 0) && Nat.eqb m 0); [reflexivity|].
  f_equal. eapply mean_predictions_index; eassumption.
Qed.

Theorem eval_save_load m P o ch nm e :
  mk_eval m P o ch nm = Ok e -> ev_load (ev_save e) = Ok e.
Proof.
  intros H. pose proof (mk_eval_ok _ _ _ _ _ _ H) as (-> & HPo & Hnm & Hrect & Hch).
  unfold ev_save, ev_load. cbn [ev_preds ev_obs ev_chains ev_names].
  rewrite Hch. exact H.
Qed.

Lemma vadd_index a b k :
  length a = k -> length b = k -> vadd a b = map (fun i => nth i a 0 + nth i b 0) (seq 0 k).
Proof.
  intros Ha Hb. unfold vadd. rewrite (combine_seq_nth a b k 0 0 Ha Hb), map_map. reflexivity.
Qed.

Lemma fold_vadd_index pt : forall acc k,
  length acc = k -> Forall (fun r => length r = k) pt ->
  fold_left vadd pt acc
  = map (fun i => nth i acc 0 + sum_upto (length pt) (fun th => nth i (nth th pt []) 0)) (seq 0 k).
Proof.
  induction pt as [|r pt IH]; intros acc k Hacc Hpt.
  - cbn [fold_left length]. rewrite (list_eq_map_nth acc 0) at 1. rewrite Hacc.
    apply map_ext. intros i. unfold sum_upto. cbn. ring.
  - inversion Hpt as [|? ? Hr Hpt']; subst. cbn [fold_left].
    rewrite (IH (vadd acc r) (length acc)); [|rewrite (vadd_index acc r (length acc)) by auto; now rewrite map_length, seq_length|exact Hpt'].
    apply map_ext_in. intros i Hi. apply in_seq in Hi.
    rewrite (vadd_index acc r (length acc)) by auto. rewrite nth_map_seq0 by lia.
    cbn [length]. rewrite sum_upto_S_shift. cbn [nth]. ring.
Qed.

Theorem calculate_mse_eq pt o :
  Forall (fun r => length r = length o) pt ->
  calculate_mse pt o = if Nat.eqb (length pt) 0 || Nat.eqb (length o) 0 then Err E_NAN
                       else Ok (calculate_mse_def pt o (length pt) (length o)).
Proof.
  intros Hpt. unfold calculate_mse.
  replace (forallb (fun r => Nat.eqb (length r) (length o)) pt) with true.
  2:{ symmetry. apply forallb_forall. intros r Hr. rewrite Forall_forall in Hpt. now apply Nat.eqb_eq, Hpt. }
  cbn [negb].
  destruct pt as [|r0 pt0] eqn:Ept; [reflexivity|]. rewrite <- Ept in *.
  destruct o as [|x0 o0] eqn:Eo; [subst pt; reflexivity|]. rewrite <- Eo in *.
  replace (Nat.eqb (length pt) 0) with false by (subst pt; reflexivity).
  replace (Nat.eqb (length o) 0) with false by (subst o; reflexivity).
  cbn [orb]. f_equal.
  unfold predict_avg. rewrite (fold_vadd_index pt (repeat 0 (length o)) (length o)); [|apply repeat_length|exact Hpt].
  rewrite map_map.
  rewrite (combine_seq_nth _ o (length o) 0 0); [|now rewrite map_length, seq_length|reflexivity].
  rewrite map_map. rewrite qmean_map_seq. unfold calculate_mse_def. f_equal.
  apply sum_upto_ext. intros i Hi. cbn [fst snd]. rewrite nth_map_seq0 by exact Hi.
  rewrite qlen_qnat. f_equal. f_equal. f_equal.
  rewrite nth_repeat. ring.
Qed.
