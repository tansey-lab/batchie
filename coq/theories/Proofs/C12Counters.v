(* C12: the plate counters of extract_screen_metadata across a reveal; constructor rules; set_observed. *)
From Coq Require Import ZArith List Bool Lia.
From Batchie Require Import Lib.Sexp Model.Encode Model.Screen Model.Reveal Proofs.C03Base Proofs.C03Screen Proofs.C12Reveal.
Import ListNotations.
Open Scope Z_scope.

Lemma filter_split_length {A} (p q : A -> bool) l :
  length (filter p l) = (length (filter (fun x => p x && negb (q x)) l) + length (filter (fun x => p x && q x) l))%nat.
Proof.
  induction l as [|a l IH]; cbn [filter length]; [reflexivity|].
  destruct (p a), (q a); cbn [andb negb length]; lia.
Qed.

Lemma plate_observed_reveal_rows ids pid rows : forall pids,
  forallb (fun rp => negb (snd rp =? pid) || r_mask (fst rp)) (combine (map (reveal_row ids) (combine rows pids)) pids)
  = forallb (fun rp => negb (snd rp =? pid) || r_mask (fst rp)) (combine rows pids) || mem_Z pid ids.
Proof.
  induction rows as [|r rows IH]; intros [|p pids]; cbn [combine map forallb fst snd]; try reflexivity.
  rewrite IH. unfold reveal_row. cbn [fst snd]. rewrite with_mask_mask.
  destruct (Z.eqb_spec p pid) as [->|_]; cbn [negb orb andb]; [|reflexivity].
  now rewrite orb_andb_distrib_l.
Qed.

Lemma plate_observed_reveal v s ids s' pid :
  plates_encoded s -> reveal_plates v s ids = Ok s' ->
  plate_observed s' pid = plate_observed s pid || mem_Z pid ids.
Proof.
  intros Hs H. destruct (reveal_exact v s ids s' Hs H) as (Hrows & _ & Hp & _).
  unfold plate_observed. rewrite Hrows, Hp. apply plate_observed_reveal_rows.
Qed.

Theorem unobserved_drop v s ids s' :
  plates_encoded s -> reveal_plates v s ids = Ok s' ->
  n_unobserved_plates s = (n_unobserved_plates s' + length (newly_revealed s ids))%nat /\
  n_plates s' = n_plates s /\ unique_plate_ids s' = unique_plate_ids s.
Proof.
  intros Hs H. destruct (reveal_exact v s ids s' Hs H) as (_ & _ & Hp & _).
  assert (HU : unique_plate_ids s' = unique_plate_ids s) by (unfold unique_plate_ids; now rewrite Hp).
  unfold n_unobserved_plates, newly_revealed, n_plates. rewrite HU. repeat split.
  rewrite (filter_split_length (fun pid => negb (plate_observed s pid)) (fun pid => mem_Z pid ids)).
  f_equal. f_equal. apply filter_ext. intros pid.
  rewrite (plate_observed_reveal v s ids s' pid Hs H). now rewrite negb_orb.
Qed.

Theorem observed_plus_unobserved s : (n_observed_plates s + n_unobserved_plates s = n_plates s)%nat.
Proof.
  unfold n_observed_plates, n_unobserved_plates, n_plates. induction (unique_plate_ids s) as [|a l IH]; cbn [filter length]; [reflexivity|].
  destruct (plate_observed s a); cbn [negb length]; lia.
Qed.

Lemma mk_screen_err2 rows a c tm sm og mg :
  mk_screen rows a c tm sm og mg = Err 2 -> arity_ok a rows = true /\ plate_uniform (norm_rows og mg rows) = false.
Proof.
  rewrite mk_screen_unfold.
  destruct (arity_ok a rows); cbn [negb]; [|discriminate].
  destruct (negb og && mg); [discriminate|]. cbv zeta.
  destruct (plate_uniform (norm_rows og mg rows)); cbn [negb]; [|auto].
  destruct (tmap_bad tm); [discriminate|]. destruct (smap_bad sm); [discriminate|].
  unfold encode_treatments. destruct (opt_map_all _ _); cbn [res_bind]; [|discriminate].
  unfold encode_names at 1. destruct (opt_map_all _ _); cbn [res_bind]; [|discriminate].
  unfold encode_names. destruct (opt_map_all _ _); cbn [res_bind]; discriminate.
Qed.

Theorem ctor_rejects_mixed rows a c tm sm r1 r2 :
  arity_ok a rows = true -> In r1 rows -> In r2 rows -> r_plate r1 = r_plate r2 -> r_mask r1 <> r_mask r2 ->
  mk_screen rows a c tm sm true true = Err 2.
Proof.
  intros Ha H1 H2 Hp Hm. rewrite mk_screen_unfold, Ha. cbn [negb andb]. cbv zeta. rewrite norm_rows_tt.
  destruct (plate_uniform rows) eqn:E; cbn [negb]; [|reflexivity].
  exfalso. apply Hm. exact (proj1 (plate_uniform_spec rows) E r1 r2 H1 H2 Hp).
Qed.

Lemma uniform_map_const_mask (f : row -> row) b rows : (forall r, r_mask (f r) = b) -> plate_uniform (map f rows) = true.
Proof.
  intros Hf. apply plate_uniform_spec. intros r1 r2 H1 H2 _.
  apply in_map_iff in H1. apply in_map_iff in H2. destruct H1 as (x1 & <- & _). destruct H2 as (x2 & <- & _).
  now rewrite !Hf.
Qed.

Lemma uniform_const_mask b rows : plate_uniform (map (with_mask b) rows) = true.
Proof. now apply (uniform_map_const_mask _ b). Qed.

(* unless both observations and mask are given, the constructor fills in one mask for all rows *)
Lemma norm_rows_uniform og mg rows : og && mg = false -> plate_uniform (norm_rows og mg rows) = true.
Proof.
  unfold norm_rows. destruct og; [destruct mg; [discriminate|]|]; intros _.
  - now apply (uniform_map_const_mask _ true).
  - now apply (uniform_map_const_mask _ false).
Qed.

Theorem ctor_err2_only_if_mixed rows a c tm sm og mg :
  mk_screen rows a c tm sm og mg = Err 2 ->
  og = true /\ mg = true /\
  exists r1 r2, In r1 rows /\ In r2 rows /\ r_plate r1 = r_plate r2 /\ r_mask r1 <> r_mask r2.
Proof.
  intros H. apply mk_screen_err2 in H. destruct H as [_ H].
  destruct (og && mg) eqn:E; [|now rewrite norm_rows_uniform in H].
  apply andb_prop in E. destruct E as [-> ->]. repeat split. now apply plate_uniform_false.
Qed.

Theorem ctor_obs_without_mask rows a c tm sm s :
  mk_screen rows a c tm sm true false = Ok s ->
  s_rows s = map (with_mask true) rows /\
  (forall r, In r (s_rows s) -> r_mask r = true) /\ map r_obs (s_rows s) = map r_obs rows.
Proof.
  intros H. apply mk_screen_inv in H. destruct H as [tflat B]. pose proof (b_rows B) as Hr.
  unfold norm_rows in Hr. change (s_rows s = map (with_mask true) rows) in Hr. rewrite Hr. repeat split.
  - intros r Hin. apply in_map_iff in Hin. now destruct Hin as (x & <- & _).
  - now rewrite map_map.
Qed.

Theorem ctor_no_obs rows a c tm sm mg s :
  mk_screen rows a c tm sm false mg = Ok s ->
  mg = false /\ (forall r, In r (s_rows s) -> r_mask r = false /\ r_obs r = 0) /\
  map (fun r => (r_sample r, r_plate r, r_treats r)) (s_rows s) = map (fun r => (r_sample r, r_plate r, r_treats r)) rows.
Proof.
  intros H. apply mk_screen_inv in H. destruct H as [tflat B]. pose proof (b_rows B) as Hr.
  pose proof (b_flags B) as Hf. cbn [negb andb] in Hf.
  unfold norm_rows in Hr. rewrite Hr. split; [exact Hf|]. split; [|now rewrite map_map].
  intros r Hin. apply in_map_iff in Hin. now destruct Hin as (x & <- & _).
Qed.

Theorem ctor_mask_without_obs rows a c tm sm :
  arity_ok a rows = true -> mk_screen rows a c tm sm false true = Err 7.
Proof. intros Ha. rewrite mk_screen_unfold, Ha. reflexivity. Qed.

(* how many selected positions precede position i *)
Definition rank (sel : list bool) (i : nat) : nat := count_true (firstn i sel).

Lemma assign_spec sel : forall vals rows i,
  length sel = length rows -> length vals = count_true sel ->
  nth_error (assign sel vals rows) i =
  match nth_error sel i with
  | Some true => option_map (with_obs (nth (rank sel i) vals 0)) (nth_error rows i)
  | _ => nth_error rows i
  end.
Proof.
  induction sel as [|b sel IH]; intros vals rows i Hl Hv.
  - destruct rows; [|discriminate]. now destruct i.
  - destruct rows as [|r rows]; [discriminate|]. cbn [length] in Hl. rewrite count_true_cons in Hv.
    destruct b; cbn [assign].
    + destruct vals as [|x vals]; [discriminate|]. cbn [length] in Hv.
      destruct i as [|i]; cbn [nth_error]; [reflexivity|].
      rewrite IH by lia. unfold rank. cbn [firstn]. now rewrite count_true_cons.
    + destruct i as [|i]; cbn [nth_error]; [reflexivity|].
      rewrite IH by lia. unfold rank. cbn [firstn]. now rewrite count_true_cons.
Qed.

Lemma assign_length sel : forall vals rows, length (assign sel vals rows) = length rows.
Proof.
  induction sel as [|b sel IH]; intros vals rows; [now destruct rows|].
  destruct rows as [|r rows]; [reflexivity|]. cbn [assign].
  destruct b; [destruct vals|]; cbn [length]; now rewrite IH.
Qed.

Theorem set_observed_exact s sel vals s' :
  set_observed s sel vals = Ok s' ->
  length sel = length (s_rows s) /\
  (exists vs, (vs = vals \/ exists x, vals = [x] /\ vs = repeat x (count_true sel)) /\
              length vs = count_true sel /\
              forall i, nth_error (s_rows s') i =
                        match nth_error sel i with
                        | Some true => option_map (with_obs (nth (rank sel i) vs 0)) (nth_error (s_rows s) i)
                        | _ => nth_error (s_rows s) i
                        end) /\
  s_arity s' = s_arity s /\ s_ctrl s' = s_ctrl s /\ s_tmap s' = s_tmap s /\ s_smap s' = s_smap s /\ s_pmap s' = s_pmap s /\
  s_tids s' = s_tids s /\ s_sids s' = s_sids s /\ s_pids s' = s_pids s.
Proof.
  unfold set_observed. destruct (Nat.eqb (length sel) (length (s_rows s))) eqn:El; cbn [negb]; [|discriminate].
  apply Nat.eqb_eq in El.
  destruct (Nat.eqb (length vals) (count_true sel)) eqn:Ev; [|destruct vals as [|x [|y vals]]; try discriminate].
  (* as many values as selected, or one value broadcast: either way the screen is s with the rows assigned *)
  all: intros H; inversion H; subst s'; clear H; cbn [s_rows s_arity s_ctrl s_tmap s_smap s_pmap s_tids s_sids s_pids].
  all: split; [exact El|]; split; [|repeat split].
  - apply Nat.eqb_eq in Ev. exists vals. split; [now left|]. split; [exact Ev|]. intros i. now apply assign_spec.
  - exists (repeat x (count_true sel)). split; [right; now exists x|]. split; [apply repeat_length|].
    intros i. apply assign_spec; [exact El|apply repeat_length].
Qed.

Theorem set_observed_refuses s sel vals :
  (length sel <> length (s_rows s) -> set_observed s sel vals = Err 10) /\
  (length sel = length (s_rows s) -> length vals <> count_true sel -> length vals <> 1%nat -> set_observed s sel vals = Err 11).
Proof.
  unfold set_observed. split.
  - intros H. apply Nat.eqb_neq in H. now rewrite H.
  - intros H1 H2 H3. apply Nat.eqb_eq in H1. rewrite H1. cbn [negb]. apply Nat.eqb_neq in H2. rewrite H2.
    destruct vals as [|x [|y vals]]; try reflexivity. now cbn [length] in H3.
Qed.

Theorem unique_plate_ids_spec s :
  NoDup (unique_plate_ids s) /\ forall pid, In pid (unique_plate_ids s) <-> In pid (s_pids s).
Proof.
  split; [apply sort_uniq_NoDup, Zcmp_spec|].
  intros pid. apply sort_uniq_In, Zcmp_spec.
Qed.

Theorem newly_revealed_spec s ids :
  NoDup (newly_revealed s ids) /\
  forall pid, In pid (newly_revealed s ids) <-> (In pid (s_pids s) /\ In pid ids /\ plate_observed s pid = false).
Proof.
  unfold newly_revealed. split; [apply NoDup_filter, unique_plate_ids_spec|].
  intros pid. rewrite filter_In, (proj2 (unique_plate_ids_spec s) pid), andb_true_iff, negb_true_iff, mem_Z_iff. tauto.
Qed.

Theorem plate_observed_spec s pid :
  plate_observed s pid = true <->
  (forall r, In (r, pid) (combine (s_rows s) (s_pids s)) -> r_mask r = true).
Proof.
  unfold plate_observed. rewrite forallb_forall. split.
  - intros H r Hin. specialize (H (r, pid) Hin). cbn [fst snd] in H. rewrite Z.eqb_refl in H. exact H.
  - intros H [r p] Hin. cbn [fst snd]. destruct (p =? pid) eqn:E; [|reflexivity].
    apply Z.eqb_eq in E. subst p. cbn [negb orb]. now apply H.
Qed.
