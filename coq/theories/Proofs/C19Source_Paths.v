(* C19: the five path helpers of nextflow/scripts/batchie.py, re-translated from /repo on every run (Generated/SrcOrchPaths.v,
   configurations C19_PATH_* of harness/src_functions.py), are the model's script_location / nextflow_dir / base_config /
   repository_root / main_nf_file for EVERY value of __file__; and for a script that lies where the repository keeps it
   (root/nextflow/scripts/batchie.py, a path as realpath returns it) they are root/nextflow/scripts, root/nextflow,
   root/nextflow.config, root and root/main.nf. *)
From Coq Require Import ZArith List Bool.
From Batchie Require Import Model.Orchestrate Generated.SrcOrchPaths Proofs.C19Base.
Import ListNotations.
Open Scope Z_scope.

Theorem src_get_script_location_is_model : forall f : pyfile, src_get_script_location f = SOk (script_location f).
Proof. reflexivity. Qed.

Theorem src_get_nextflow_dir_is_model : forall f : pyfile, src_get_nextflow_dir f = SOk (nextflow_dir f).
Proof. reflexivity. Qed.

Theorem src_get_base_config_is_model : forall f : pyfile, src_get_base_config f = SOk (base_config f).
Proof. reflexivity. Qed.

Theorem src_get_repository_root_is_model : forall f : pyfile, src_get_repository_root f = SOk (repository_root f).
Proof. reflexivity. Qed.

Theorem src_get_main_nf_file_is_model : forall f : pyfile, src_get_main_nf_file f = SOk (main_nf_file f).
Proof. reflexivity. Qed.

Lemma norm_rev_app p q acc : norm_rev (p ++ q) acc = norm_rev q (norm_rev p acc).
Proof.
  revert acc; induction p as [|c p IH]; intros acc; cbn [app norm_rev]; [reflexivity|].
  destruct (zlist_eqb c S_dotdot); [apply IH|]. destruct (zlist_eqb c S_dot || Orchestrate.is_nil c); apply IH.
Qed.

Lemma norm_rev_clean p : clean_path p -> forall acc, norm_rev p acc = rev p ++ acc.
Proof.
  induction 1 as [|c p (H1 & H2 & H3) _ IH]; intros acc; cbn [norm_rev rev app]; [reflexivity|].
  destruct (zlist_eqb c S_dotdot) eqn:E1; [apply zlist_eqb_eq in E1; contradiction|].
  destruct (zlist_eqb c S_dot) eqn:E2; [apply zlist_eqb_eq in E2; contradiction|].
  destruct c as [|x c]; [contradiction|]. cbn [Orchestrate.is_nil orb].
  rewrite IH, <- app_assoc. reflexivity.
Qed.

Lemma abspath_clean p : clean_path p -> abspath p = p.
Proof. intros H. unfold abspath. rewrite (norm_rev_clean p H), app_nil_r. apply rev_involutive. Qed.

Lemma clean_app p q : clean_path (p ++ q) <-> clean_path p /\ clean_path q.
Proof. unfold clean_path. apply Forall_app. Qed.

Lemma clean_lit c : c <> S_dotdot -> c <> S_dot -> c <> [] -> clean_path [c].
Proof. intros. repeat constructor; assumption. Qed.

Lemma norm_rev_ups k acc : norm_rev (repeat S_dotdot k) acc = skipn k acc.
Proof.
  revert acc; induction k as [|k IH]; intros acc; [reflexivity|].
  change (norm_rev (repeat S_dotdot (S k)) acc) with (norm_rev (repeat S_dotdot k) (tl acc)).
  rewrite IH. now destruct acc; [destruct k|].
Qed.

(* a clean path followed by as many ".." as its last components q, then clean components: q goes *)
Lemma abspath_up p q more :
  clean_path (p ++ q) -> clean_path more ->
  abspath (path_join (p ++ q) (repeat S_dotdot (length q) ++ more)) = p ++ more.
Proof.
  intros H Hm. unfold abspath, path_join. rewrite (norm_rev_app (p ++ q)), (norm_rev_app (repeat _ _)), (norm_rev_clean _ H), app_nil_r, norm_rev_ups.
  rewrite rev_app_distr, skipn_app, <- rev_length, skipn_all, Nat.sub_diag. cbn [app skipn].
  now rewrite (norm_rev_clean _ Hm), rev_app_distr, !rev_involutive.
Qed.

Section Layout.
Variable root : fspath.
Hypothesis Hroot : clean_path root.

(* below the root: literal components of the repository's layout *)
Lemma clean_below q : clean_path q -> clean_path (root ++ q).
Proof. intros H. apply clean_app. now split. Qed.

Lemma clean_script_in : clean_path (script_in root).
Proof. apply clean_below. repeat constructor; discriminate. Qed.

Lemma script_location_in : script_location (script_in root) = root ++ [S_nextflow; S_scripts].
Proof.
  unfold script_location, realpath_of, dirname, script_in.
  change (root ++ [S_nextflow; S_scripts; S_batchie_py]) with (root ++ [S_nextflow; S_scripts] ++ [S_batchie_py]).
  rewrite app_assoc, removelast_last. apply abspath_clean, clean_below. repeat constructor; discriminate.
Qed.

Lemma nextflow_dir_in : nextflow_dir (script_in root) = root ++ [S_nextflow].
Proof.
  unfold nextflow_dir. rewrite script_location_in.
  change (root ++ [S_nextflow; S_scripts]) with (root ++ [S_nextflow] ++ [S_scripts]). rewrite app_assoc.
  change [S_dotdot] with (repeat S_dotdot (length [S_scripts]) ++ []).
  rewrite abspath_up, app_nil_r; [reflexivity| |constructor].
  rewrite <- app_assoc. apply clean_below. repeat constructor; discriminate.
Qed.

Lemma repository_root_in : repository_root (script_in root) = root.
Proof.
  unfold repository_root. rewrite script_location_in.
  change [S_dotdot; S_dotdot] with (repeat S_dotdot (length [S_nextflow; S_scripts]) ++ []).
  rewrite abspath_up, app_nil_r; [reflexivity| |constructor].
  apply clean_below. repeat constructor; discriminate.
Qed.

Lemma main_nf_file_in : main_nf_file (script_in root) = root ++ [S_main_nf].
Proof.
  unfold main_nf_file. rewrite repository_root_in. unfold path_join. apply abspath_clean, clean_below.
  repeat constructor; discriminate.
Qed.

Lemma base_config_in : base_config (script_in root) = root ++ [S_nextflow_config].
Proof.
  unfold base_config. rewrite nextflow_dir_in.
  apply (abspath_up root [S_nextflow] [S_nextflow_config]); [apply clean_below|]; repeat constructor; discriminate.
Qed.

(* the translated helpers on the repository's layout *)
Theorem src_paths_in_checkout :
  src_get_script_location (script_in root) = SOk (root ++ [S_nextflow; S_scripts]) /\
  src_get_nextflow_dir (script_in root) = SOk (root ++ [S_nextflow]) /\
  src_get_base_config (script_in root) = SOk (root ++ [S_nextflow_config]) /\
  src_get_repository_root (script_in root) = SOk root /\
  src_get_main_nf_file (script_in root) = SOk (root ++ [S_main_nf]).
Proof.
  rewrite src_get_script_location_is_model, src_get_nextflow_dir_is_model, src_get_base_config_is_model,
    src_get_repository_root_is_model, src_get_main_nf_file_is_model.
  rewrite script_location_in, nextflow_dir_in, base_config_in, repository_root_in, main_nf_file_in. repeat split.
Qed.

(* the script itself lies under the root the helper finds, at nextflow/scripts/<file> *)
Theorem src_repository_root_contains_script :
  (dos r <- src_get_repository_root (script_in root); SOk (r ++ [S_nextflow; S_scripts; S_batchie_py])) = SOk (script_in root).
Proof. rewrite src_get_repository_root_is_model, repository_root_in. reflexivity. Qed.

End Layout.
