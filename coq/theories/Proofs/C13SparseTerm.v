(* C13: termination of SparseCoverPlateGenerator._generate_and_unmask_initial_plate.
   The model's while loop ([sc_loop]) recurses on the recorded rng.choice answers, one per iteration;
   here: every iteration strictly shrinks the set of remaining treatment ids (control sentinel
   included), the array offered to rng.choice is never empty, hence the loop runs at most
   (number of distinct remaining ids) times and never needs more answers than that. *)
From Coq Require Import List Bool Lia.
From Batchie Require Import Lib.Sexp Proofs.PyRtLemmas Model.Encode Model.Screen Model.Retro Model.RetroInit Proofs.C11Lib Proofs.C11Select Proofs.C13Filter.
Import ListNotations.
Open Scope nat_scope.

Fixpoint tid_dedup (l : list tid) : list tid :=
  match l with
  | [] => []
  | x :: r => if tid_mem x r then tid_dedup r else x :: tid_dedup r
  end.
(* number of distinct treatment ids (len(np.unique(.))) *)
Definition ndistinct (l : list tid) : nat := length (tid_dedup l).

Lemma In_tid_dedup : forall l x, In x (tid_dedup l) <-> In x l.
Proof.
  induction l as [|a l IH]; intros x; cbn [tid_dedup In]; [tauto|].
  destruct (tid_mem a l) eqn:E.
  - apply tid_mem_In in E. rewrite IH. split; [auto|intros [<-|H]; auto].
  - cbn [In]. rewrite IH. tauto.
Qed.

Lemma NoDup_tid_dedup : forall l, NoDup (tid_dedup l).
Proof.
  induction l as [|a l IH]; cbn [tid_dedup]; [constructor|].
  destruct (tid_mem a l) eqn:E; [exact IH|]. constructor; [|exact IH].
  rewrite In_tid_dedup. intros H. apply tid_mem_In in H. congruence.
Qed.

Lemma ndistinct_incl : forall a b, incl a b -> ndistinct a <= ndistinct b.
Proof.
  intros a b H. unfold ndistinct. apply NoDup_incl_length; [apply NoDup_tid_dedup|].
  intros x Hx. apply In_tid_dedup. apply H. now apply In_tid_dedup.
Qed.

Lemma ndistinct_lt : forall a b x, incl a b -> In x b -> ~ In x a -> ndistinct a < ndistinct b.
Proof.
  intros a b x H Hb Ha. unfold ndistinct.
  assert (H1 : NoDup (x :: tid_dedup a)).
  { constructor; [rewrite In_tid_dedup; exact Ha|apply NoDup_tid_dedup]. }
  assert (H2 : incl (x :: tid_dedup a) (tid_dedup b)).
  { intros y [<-|Hy]; apply In_tid_dedup; [exact Hb|]. apply H. now apply In_tid_dedup. }
  pose proof (NoDup_incl_length H1 H2) as Hl. cbn [length] in Hl. lia.
Qed.

Lemma ndistinct_0 : forall l, ndistinct l = 0 -> l = [].
Proof.
  intros [|a l] H; [reflexivity|]. exfalso.
  assert (Hin : In a (tid_dedup (a :: l))) by (apply In_tid_dedup; now left).
  unfold ndistinct in H. destruct (tid_dedup (a :: l)); [contradiction|discriminate].
Qed.

Lemma tids_at_app : forall ctrl rows a b,
  tids_at ctrl rows (a ++ b) = tids_at ctrl rows a ++ tids_at ctrl rows b.
Proof. intros. unfold tids_at. now rewrite map_app, concat_app. Qed.

Lemma tids_at_one : forall ctrl rows i r, nth_error rows i = Some r -> tids_at ctrl rows [i] = row_tids ctrl r.
Proof. intros ctrl rows i r H. unfold tids_at. cbn [map concat]. rewrite H. apply app_nil_r. Qed.

Lemma In_remaining : forall ctrl rows chosen t,
  In t (sc_remaining ctrl rows chosen) <-> In t (all_tids ctrl rows) /\ ~ In t (tids_at ctrl rows chosen).
Proof.
  intros ctrl rows chosen t. unfold sc_remaining. rewrite filter_In, negb_true_iff. split; intros [H1 H2]; (split; [exact H1|]).
  - intros Hin. apply tid_mem_In in Hin. congruence.
  - destruct (tid_mem t (tids_at ctrl rows chosen)) eqn:E; [|reflexivity]. apply tid_mem_In in E. contradiction.
Qed.

Lemma remaining_incl_all : forall ctrl rows chosen, incl (sc_remaining ctrl rows chosen) (all_tids ctrl rows).
Proof. intros ctrl rows chosen t H. now apply In_remaining in H. Qed.

Lemma In_offer_loop : forall ctrl rows chosen i,
  In i (sc_offer_loop ctrl rows chosen) <->
  exists r t, nth_error rows i = Some r /\ In t (row_tids ctrl r) /\ In t (sc_remaining ctrl rows chosen).
Proof.
  intros ctrl rows chosen i. unfold sc_offer_loop. cbv zeta. rewrite In_idx_where. split.
  - intros (r & Hn & Hf). apply existsb_exists in Hf as (t & Ht & Hm). apply tid_mem_In in Hm. exists r, t. auto.
  - intros (r & t & Hn & Ht & Hm). exists r. split; [exact Hn|]. apply existsb_exists. exists t.
    split; [exact Ht|now apply tid_mem_In].
Qed.

(* rng.choice is never handed an empty array in the while loop *)
Lemma offer_loop_nonempty : forall ctrl rows chosen,
  sc_remaining ctrl rows chosen <> [] -> sc_offer_loop ctrl rows chosen <> [].
Proof.
  intros ctrl rows chosen Hne. destruct (sc_remaining ctrl rows chosen) as [|t l] eqn:E; [congruence|].
  assert (Ht : In t (sc_remaining ctrl rows chosen)) by (rewrite E; now left).
  pose proof (remaining_incl_all _ _ _ _ Ht) as Hall. apply In_all_tids in Hall as (r & Hr & Htr).
  apply In_nth_error in Hr as (i & Hi).
  assert (Hin : In i (sc_offer_loop ctrl rows chosen)) by (apply In_offer_loop; exists r, t; auto).
  intros Hnil. rewrite Hnil in Hin. contradiction.
Qed.

(* ... nor in the per-sample phase *)
Lemma offer_sample_nonempty : forall ctrl rows s chosen,
  In s (sample_names rows) -> sc_offer_sample ctrl rows s chosen <> [].
Proof.
  intros ctrl rows s chosen Hs. unfold sc_offer_sample. cbv zeta.
  match goal with |- (if is_nil ?x then _ else _) <> [] => destruct (is_nil x) eqn:E end.
  - apply In_sample_names in Hs as (r & Hr & Hsr). apply In_nth_error in Hr as (i & Hi).
    assert (Hin : In i (idx_where (in_sample s) rows)).
    { apply In_idx_where. exists r. split; [exact Hi|now apply in_sample_true]. }
    intros Hnil. rewrite Hnil in Hin. contradiction.
  - intros Hnil. rewrite Hnil in E. discriminate.
Qed.

(* one iteration: the set of remaining ids strictly shrinks *)
Lemma loop_step_decreases : forall ctrl rows chosen i,
  In i (sc_offer_loop ctrl rows chosen) ->
  ndistinct (sc_remaining ctrl rows (chosen ++ [i])) < ndistinct (sc_remaining ctrl rows chosen).
Proof.
  intros ctrl rows chosen i Hi. apply In_offer_loop in Hi as (r & t & Hn & Ht & Hrem).
  apply (ndistinct_lt _ _ t).
  - intros y Hy. apply In_remaining in Hy as [H1 H2]. apply In_remaining. split; [exact H1|].
    intros H. apply H2. rewrite tids_at_app. apply in_or_app. now left.
  - exact Hrem.
  - intros H. apply In_remaining in H as [_ H]. apply H. rewrite tids_at_app. apply in_or_app. right.
    now rewrite (tids_at_one _ _ _ _ Hn).
Qed.

Lemma sc_samples_used : forall ctrl rows samples chosen ds chosen' ds',
  sc_samples ctrl rows samples chosen ds = Ok (chosen', ds') ->
  exists used, ds = used ++ ds' /\ length used = length samples.
Proof.
  intros ctrl rows samples. induction samples as [|s samples IH]; intros chosen ds chosen' ds' H;
    cbn [sc_samples] in H.
  - inversion H; subst. now exists [].
  - destruct ds as [|[[|i [|j l]]|l] ds1]; try discriminate.
    destruct (memb i (sc_offer_sample ctrl rows s chosen)); [|discriminate].
    apply IH in H as (used & -> & Hl). exists (DInts [i] :: used). cbn [length]. now rewrite Hl.
Qed.

Lemma sc_loop_bound : forall ctrl rows ds chosen chosen' ds',
  sc_loop ctrl rows chosen ds = Ok (chosen', ds') ->
  exists used picks, ds = used ++ ds' /\ chosen' = chosen ++ picks /\ length used = length picks /\
                     length picks <= ndistinct (sc_remaining ctrl rows chosen).
Proof.
  intros ctrl rows ds. induction ds as [|d ds IH]; intros chosen chosen' ds' H; cbn [sc_loop] in H.
  - destruct (is_nil (sc_remaining ctrl rows chosen)); [|discriminate]. inversion H; subst.
    exists [], []. rewrite !app_nil_r. cbn [length app]. repeat split; lia.
  - destruct (is_nil (sc_remaining ctrl rows chosen)).
    + inversion H; subst. exists [], []. rewrite !app_nil_r. cbn [length app]. repeat split; lia.
    + destruct d as [[|i [|j l]]|l]; try discriminate.
      destruct (memb i (sc_offer_loop ctrl rows chosen)) eqn:Em; [|discriminate]. apply memb_In in Em.
      apply IH in H as (used & picks & -> & -> & Hl & Hb). exists (DInts [i] :: used), (i :: picks).
      split; [reflexivity|]. split; [now rewrite <- app_assoc|].
      pose proof (loop_step_decreases _ _ _ _ Em) as Hd. cbn [length]. lia.
Qed.

(* the numpy contract of rng.choice(array, 1), answer by answer:
   every answer the function asks for is a single element of the array offered at that moment
   ([samples] = samples still to be served; [] = the while loop); answers the function does not
   ask for are unconstrained *)
Fixpoint sc_contract (ctrl : name) (rows : list row) (samples : list name) (chosen : list nat)
         (ds : list draw) : Prop :=
  match ds with
  | [] => True
  | DInts [i] :: ds1 =>
      match samples with
      | s :: rest =>
          In i (sc_offer_sample ctrl rows s chosen) /\ sc_contract ctrl rows rest (chosen ++ [i]) ds1
      | [] =>
          sc_remaining ctrl rows chosen = [] \/
          (In i (sc_offer_loop ctrl rows chosen) /\ sc_contract ctrl rows [] (chosen ++ [i]) ds1)
      end
  | _ :: _ => False
  end.

Lemma sc_samples_total : forall ctrl rows samples chosen ds,
  sc_contract ctrl rows samples chosen ds -> length samples <= length ds ->
  exists chosen' ds', sc_samples ctrl rows samples chosen ds = Ok (chosen', ds') /\
                      sc_contract ctrl rows [] chosen' ds'.
Proof.
  intros ctrl rows samples. induction samples as [|s samples IH]; intros chosen ds HC Hl.
  - exists chosen, ds. split; [reflexivity|exact HC].
  - destruct ds as [|d ds1]; [cbn [length] in Hl; lia|].
    destruct d as [[|i [|j l]]|l]; cbn [sc_contract] in HC; try contradiction.
    destruct HC as [Hin HC]. cbn [sc_samples]. apply memb_In in Hin. rewrite Hin.
    apply IH; [exact HC|cbn [length] in Hl; lia].
Qed.

Lemma sc_loop_total : forall ctrl rows ds chosen,
  sc_contract ctrl rows [] chosen ds -> ndistinct (sc_remaining ctrl rows chosen) <= length ds ->
  exists chosen' ds', sc_loop ctrl rows chosen ds = Ok (chosen', ds').
Proof.
  intros ctrl rows ds. induction ds as [|d ds IH]; intros chosen HC Hl; cbn [sc_loop].
  - cbn [length] in Hl. rewrite (ndistinct_0 (sc_remaining ctrl rows chosen)) by lia. cbn [is_nil]. eauto.
  - destruct (is_nil (sc_remaining ctrl rows chosen)) eqn:En; [eauto|].
    destruct d as [[|i [|j l]]|l]; cbn [sc_contract] in HC; try contradiction.
    destruct HC as [Hnil|[Hin HC]]; [rewrite Hnil in En; discriminate|].
    pose proof (loop_step_decreases _ _ _ _ Hin) as Hd. apply memb_In in Hin. rewrite Hin.
    apply IH; [exact HC|cbn [length] in Hl; lia].
Qed.

(* the Screen(...) call at the end cannot fail *)
Lemma first_mask_in : forall p rows r, In r rows -> r_plate r = p ->
  exists r0, In r0 rows /\ r_plate r0 = p /\ first_mask p rows = Some (r_mask r0).
Proof.
  intros p rows. induction rows as [|x rows IH]; intros r H Hp; [contradiction|]. cbn [first_mask].
  destruct (name_eqb (r_plate x) p) eqn:E.
  - apply name_eqb_eq in E. exists x. split; [now left|auto].
  - destruct H as [->|H]; [rewrite Hp, name_eqb_refl in E; discriminate|].
    destruct (IH r H Hp) as (r0 & H0 & H1 & H2). exists r0. split; [now right|auto].
Qed.

Lemma plate_uniform_of_agree : forall rows,
  (forall r1 r2, In r1 rows -> In r2 rows -> r_plate r1 = r_plate r2 -> r_mask r1 = r_mask r2) ->
  plate_uniform rows = true.
Proof.
  intros rows H. unfold plate_uniform. apply forallb_forall. intros r Hr.
  destruct (first_mask_in (r_plate r) rows r Hr eq_refl) as (r0 & H0 & H1 & ->).
  rewrite (H r0 r H0 Hr H1). apply eqb_reflx.
Qed.

Lemma initial_labels_uniform : forall (final : bvec) rows,
  plate_uniform (map (fun br => set_mask (fst br)
                                  (set_plate (if fst br then initial_plate else unobserved_plate) (snd br)))
                     (combine final rows)) = true.
Proof.
  intros final rows. apply plate_uniform_of_agree. intros r1 r2 H1 H2 Hp.
  apply in_map_iff in H1 as ([b1 x1] & <- & _). apply in_map_iff in H2 as ([b2 x2] & <- & _).
  cbn [fst snd set_mask set_plate r_plate r_mask] in *.
  destruct b1, b2; try reflexivity; unfold initial_plate, unobserved_plate in Hp; discriminate.
Qed.

(* whenever it returns: it asked for exactly #samples answers in the per-sample phase, then for at most
   as many as there were distinct treatment ids left uncovered by that phase *)
Theorem sparse_cover_iterations : forall ctrl reveal rows ds out ds',
  sparse_cover ctrl reveal rows ds = Ok (out, ds') ->
  exists chosen1 used1 used2,
    ds = used1 ++ used2 ++ ds' /\
    sc_samples ctrl rows (sample_names rows) [] ds = Ok (chosen1, used2 ++ ds') /\
    length used1 = length (sample_names rows) /\
    length used2 <= ndistinct (sc_remaining ctrl rows chosen1) /\
    ndistinct (sc_remaining ctrl rows chosen1) <= ndistinct (all_tids ctrl rows).
Proof.
  intros ctrl reveal rows ds out ds' H. unfold sparse_cover in H.
  destruct (negb (forallb r_mask rows)); [discriminate|].
  apply res_bind_inv in H as ([c1 ds1] & E1 & H); cbn beta iota in H.
  apply res_bind_inv in H as ([ch ds2] & E2 & H); cbn beta iota in H.
  apply res_bind_inv in H as (c & _ & H); cbn beta iota in H. inversion H; subst c ds2. clear H.
  pose proof (sc_samples_used _ _ _ _ _ _ _ E1) as (used1 & Hd1 & Hl1).
  apply sc_loop_bound in E2 as (used2 & picks2 & Hd2 & _ & Hl2 & Hb2).
  exists c1, used1, used2. subst ds1. split; [exact Hd1|]. split; [exact E1|]. split; [exact Hl1|].
  split; [lia|]. apply ndistinct_incl, remaining_incl_all.
Qed.

Theorem sparse_cover_consumes : forall ctrl reveal rows ds out ds',
  sparse_cover ctrl reveal rows ds = Ok (out, ds') ->
  exists used, ds = used ++ ds' /\
    length (sample_names rows) <= length used <= length (sample_names rows) + ndistinct (all_tids ctrl rows).
Proof.
  intros ctrl reveal rows ds out ds' H.
  apply sparse_cover_iterations in H as (c1 & u1 & u2 & Hd & _ & H1 & H2 & H3).
  exists (u1 ++ u2). split; [now rewrite <- app_assoc|]. rewrite app_length. lia.
Qed.

(* it returns for every fully observed screen and every contract-obeying answer stream that is long enough *)
Theorem sparse_cover_terminates : forall ctrl reveal rows ds,
  forallb r_mask rows = true ->
  sc_contract ctrl rows (sample_names rows) [] ds ->
  length (sample_names rows) + ndistinct (all_tids ctrl rows) <= length ds ->
  exists out ds', sparse_cover ctrl reveal rows ds = Ok (out, ds').
Proof.
  intros ctrl reveal rows ds Hm HC Hl. unfold sparse_cover. rewrite Hm. cbn [negb].
  destruct (sc_samples_total _ _ _ _ _ HC ltac:(lia)) as (c1 & ds1 & E1 & HC1). rewrite E1. cbn [res_bind].
  pose proof (sc_samples_used _ _ _ _ _ _ _ E1) as (used1 & Hd1 & Hl1).
  assert (Hlen : ndistinct (sc_remaining ctrl rows c1) <= length ds1).
  { pose proof (ndistinct_incl _ _ (remaining_incl_all ctrl rows c1)) as Hi.
    rewrite Hd1, app_length in Hl. lia. }
  destruct (sc_loop_total _ _ _ _ HC1 Hlen) as (ch & ds2 & E2). rewrite E2. cbn [res_bind].
  unfold construct. rewrite initial_labels_uniform. cbn [res_bind]. eauto.
Qed.

(* progress, state by state: while ids remain the offered array is not empty (rng.choice cannot raise), every
   possible answer strictly shrinks the set of remaining ids, and the per-sample arrays are not empty either *)
Theorem sc_loop_progress : forall ctrl rows chosen,
  (sc_remaining ctrl rows chosen <> [] -> sc_offer_loop ctrl rows chosen <> []) /\
  (forall i, In i (sc_offer_loop ctrl rows chosen) ->
     ndistinct (sc_remaining ctrl rows (chosen ++ [i])) < ndistinct (sc_remaining ctrl rows chosen)) /\
  (forall s, In s (sample_names rows) -> sc_offer_sample ctrl rows s chosen <> []).
Proof.
  intros ctrl rows chosen. split; [apply offer_loop_nonempty|]. split; [apply loop_step_decreases|].
  intros s Hs. now apply offer_sample_nonempty.
Qed.
