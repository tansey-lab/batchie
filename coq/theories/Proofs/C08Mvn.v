(* C08: sample_mvn_from_precision.  For lower-triangular L with non-zero diagonal
   and L L^T = Q, the result x of the two triangular solves satisfies L^T (x - m) = z with
   Q m = b: at z = 0 the result is the mean Q^-1 b, and z |-> x - m is L^-T, so the covariance of
   x for standard-normal z is L^-T L^-1 = Q^-1. *)
From Coq Require Import List QArith Qcanon Lia.
From Batchie Require Import Model.Gibbs Model.Mvn Proofs.C08Sums.
Import ListNotations.
Open Scope Qc_scope.

Lemma vnth_app1 a b k : (k < length a)%nat -> vnth (a ++ b) k = vnth a k.
Proof. intros H. unfold vnth. now apply app_nth1. Qed.
Lemma vnth_middle a x : vnth (a ++ [x]) (length a) = x.
Proof. unfold vnth. apply nth_middle. Qed.

Section Mvn.
Variable D : nat.
Variable L : list (list Qc).
Notation Lx j k := (vnth (rnth L j) k).
Hypothesis L_lower : forall j k, (j < k)%nat -> (k < D)%nat -> Lx j k = 0.
Hypothesis L_diag : forall j, (j < D)%nat -> Lx j j <> 0.

Lemma back_go_spec z : forall j acc,
  (j <= D)%nat -> length acc = (D - j)%nat ->
  let X := back_go D L z j acc in
  length X = D /\
  (forall t, (t < D - j)%nat -> vnth X (j + t) = vnth acc t) /\
  (forall i, (i < j)%nat ->
     Lx i i * vnth X i + sumn (D - S i) (fun t => Lx (S i + t) i * vnth X (S i + t)) = vnth z i).
Proof.
  induction j as [|j IH]; intros acc Hj Hl X; subst X; cbn [back_go].
  - split; [lia|split; [intros t Ht; reflexivity|intros i Hi; lia]].
  - set (xj := (vnth z j - sumn (D - S j) (fun t => Lx (S j + t) j * vnth acc t)) / Lx j j).
    destruct (IH (xj :: acc)) as (H1 & H2 & H3); [lia|cbn [length]; lia|].
    split; [exact H1|split].
    + intros t Ht. replace (S j + t)%nat with (j + S t)%nat by lia. rewrite H2 by lia. reflexivity.
    + intros i Hi. destruct (Nat.eq_dec i j) as [->|Hne]; [|apply H3; lia].
      replace (vnth (back_go D L z j (xj :: acc)) j) with xj.
      2:{ replace j with (j + 0)%nat at 2 by lia. rewrite H2 by lia. reflexivity. }
      rewrite (sumn_ext (D - S j) (fun t => Lx (S j + t) j * vnth (back_go D L z j (xj :: acc)) (S j + t))
                                  (fun t => Lx (S j + t) j * vnth acc t)).
      * unfold xj. field. apply L_diag. lia.
      * intros t Ht. replace (S j + t)%nat with (j + S t)%nat by lia. rewrite H2 by lia. reflexivity.
Qed.

Theorem back_subst_correct z j :
  (j < D)%nat -> sumn D (fun k => Lx k j * vnth (back_subst D L z) k) = vnth z j.
Proof.
  intros Hj. unfold back_subst.
  destruct (back_go_spec z D []) as (_ & _ & H3); [lia|cbn [length]; lia|].
  rewrite <- (H3 j Hj).
  rewrite (sumn_split D j) by lia. rewrite (sumn_zero' j) by (intros k Hk; rewrite L_lower by lia; ring).
  replace (D - j)%nat with (S (D - S j)) by lia.
  generalize (back_go D L z D []) as X. intros X.
  rewrite sumn_shift, Nat.add_0_r.
  rewrite (sumn_ext (D - S j) (fun t => Lx (j + S t) j * vnth X (j + S t)) (fun t => Lx (S j + t) j * vnth X (S j + t)))
    by (intros t _; replace (j + S t)%nat with (S j + t)%nat by lia; reflexivity).
  ring.
Qed.

Lemma fwd_go_spec : forall rows bs acc,
  length rows = length bs ->
  (forall i, (i < length rows)%nat -> vnth (nth i rows []) (length acc + i) <> 0) ->
  let X := fwd_go rows bs acc in
  length X = (length acc + length rows)%nat /\
  (forall t, (t < length acc)%nat -> vnth X t = vnth acc t) /\
  (forall i, (i < length rows)%nat ->
     vdot (length acc + i) (nth i rows []) X + vnth (nth i rows []) (length acc + i) * vnth X (length acc + i) = vnth bs i).
Proof.
  induction rows as [|r rows IH]; intros bs acc Hl Hd X; subst X.
  - cbn [fwd_go length]. split; [lia|split; [intros; reflexivity|intros i Hi; lia]].
  - destruct bs as [|bj bs]; [cbn in Hl; lia|]. cbn [fwd_go].
    set (wj := (bj - vdot (length acc) r acc) / vnth r (length acc)).
    destruct (IH bs (acc ++ [wj])) as (H1 & H2 & H3).
    + cbn [length] in Hl. lia.
    + intros i Hi. rewrite app_length. cbn [length]. replace (length acc + 1 + i)%nat with (length acc + S i)%nat by lia.
      apply (Hd (S i)). cbn [length]. lia.
    + rewrite app_length in *. cbn [length] in *. split; [|split].
      * lia.
      * intros t Ht. rewrite H2 by lia. now apply vnth_app1.
      * intros i Hi. destruct i as [|i].
        -- cbn [nth]. rewrite Nat.add_0_r.
           assert (Hw : vnth (fwd_go rows bs (acc ++ [wj])) (length acc) = wj).
           { rewrite H2 by lia. apply vnth_middle. }
           rewrite Hw.
           assert (Hv : vdot (length acc) r (fwd_go rows bs (acc ++ [wj])) = vdot (length acc) r acc).
           { unfold vdot. apply sumn_ext; intros k Hk. rewrite H2 by lia. now rewrite vnth_app1 by exact Hk. }
           rewrite Hv. change (vnth (bj :: bs) 0) with bj. unfold wj. field.
           specialize (Hd 0%nat). cbn [nth length] in Hd. rewrite Nat.add_0_r in Hd. apply Hd. lia.
        -- cbn [nth]. replace (length acc + S i)%nat with (length acc + 1 + i)%nat by lia. change (vnth (bj :: bs) (S i)) with (vnth bs i).
           apply H3. lia.
Qed.

Hypothesis L_len : length L = D.

Theorem fwd_subst_correct b j :
  length b = D -> (j < D)%nat -> sumn D (fun k => Lx j k * vnth (fwd_subst L b) k) = vnth b j.
Proof.
  intros Hb Hj. unfold fwd_subst.
  destruct (fwd_go_spec L b []) as (_ & _ & H3); [lia|cbn [length]; intros i Hi; apply L_diag; lia|].
  cbn [length Nat.add] in H3. rewrite <- (H3 j) by lia. fold (rnth L j).
  generalize (fwd_go L b []) as X. intros X.
  rewrite (sumn_split D j) by lia. replace (D - j)%nat with (S (D - S j)) by lia.
  rewrite sumn_shift, Nat.add_0_r. rewrite (sumn_zero' (D - S j)) by (intros t Ht; rewrite L_lower by lia; ring).
  unfold vdot. ring.
Qed.

Variable Q : list (list Qc).
Hypothesis Q_chol : forall j k, (j < D)%nat -> (k < D)%nat -> vnth (rnth Q j) k = sumn D (fun t => Lx j t * Lx k t).

Theorem mvn_mean_solves b j :
  length b = D -> (j < D)%nat -> sumn D (fun k => vnth (rnth Q j) k * vnth (mvn_mean D L b) k) = vnth b j.
Proof.
  intros Hb Hj. rewrite <- (fwd_subst_correct b j Hb Hj).
  rewrite (sumn_ext D _ (fun k => sumn D (fun t => Lx j t * (Lx k t * vnth (mvn_mean D L b) k)))).
  - rewrite sumn_swap. apply sumn_ext; intros t Ht. rewrite sumn_scale. f_equal.
    unfold mvn_mean. now apply back_subst_correct.
  - intros k Hk. rewrite Q_chol by assumption.
    transitivity (vnth (mvn_mean D L b) k * sumn D (fun t => Lx j t * Lx k t)); [ring|].
    rewrite <- sumn_scale. apply sumn_ext; intros t _. ring.
Qed.

Theorem mvn_sample_law z b j :
  (j < D)%nat ->
  sumn D (fun k => Lx k j * (vnth (sample_mvn D L z b) k - vnth (mvn_mean D L b) k)) = vnth z j.
Proof.
  intros Hj. rewrite <- (back_subst_correct z j Hj). apply sumn_ext; intros k Hk.
  unfold sample_mvn, vadd. rewrite vnth_tab by exact Hk. f_equal. ring.
Qed.
End Mvn.
