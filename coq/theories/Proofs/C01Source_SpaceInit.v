(* C01, one piece of Proofs/C01Source.v (which see): ExperimentSpace.__init__ *)
From Coq Require Import List.
From Batchie Require Import Proofs.C02Persist Lib.Sexp Model.Encode Model.Persist Generated.SrcSpaceMethods.
Import ListNotations.
Open Scope Z_scope.

(* the constructor stores its three arguments, whatever the instance held before: the object is exactly (the treatment-mapping
   tuple, the sample-mapping tuple, the control name) it was called with *)
Theorem src_space_init_stores : forall (o : pyspace) (tm : tmap_arrays) (sm : smap_arrays) (c : name),
  src_space_init o tm sm c = Ok (tm, sm, c).
Proof. intros [[t s] c0] tm sm c. reflexivity. Qed.

Lemma zip_tmap_Some a b c m : zip_tmap a b c = Some m -> tmap_cols m = (a, b, c).
Proof.
  revert b c m. induction a as [|x a IH]; intros [|y b] [|z c] m H; cbn [zip_tmap] in H; try discriminate.
  - now inversion H.
  - destruct (zip_tmap a b c) as [r|] eqn:E; cbn in H; [|discriminate]. inversion H; subst m.
    apply IH in E. unfold tmap_cols in *. cbn [map fst snd]. now inversion E.
Qed.
Lemma zip_nmap_Some a b m : zip_nmap a b = Some m -> smap_cols m = (a, b).
Proof.
  revert b m. induction a as [|x a IH]; intros [|y b] m H; cbn [zip_nmap] in H; try discriminate.
  - now inversion H.
  - destruct (zip_nmap a b) as [r|] eqn:E; cbn in H; [|discriminate]. inversion H; subst m.
    apply IH in E. unfold smap_cols in *. cbn [map fst snd]. now inversion E.
Qed.

(* the constructor-call primitive [arrays_space] that the links of from_screen / load_h5 use (C02) is this constructor: whenever it
   answers a model space, the translated __init__ on a fresh instance builds exactly that space's object *)
Theorem arrays_space_is_src_init : forall (tm : tmap_arrays) (sm : smap_arrays) (c : name) (sp : space),
  arrays_space tm sm c = Ok sp -> src_space_init blank_pyspace tm sm c = Ok (pyspace_of sp).
Proof.
  intros [[a b] d] [e f] c sp H. rewrite src_space_init_stores. unfold arrays_space in H. cbn [fst snd] in H.
  destruct (zip_tmap a b d) as [t|] eqn:Et; [|discriminate]. destruct (zip_nmap e f) as [s|] eqn:Es; [|discriminate].
  inversion H; subst sp. unfold pyspace_of. cbn [sp_tmap sp_smap sp_ctrl].
  now rewrite (zip_tmap_Some _ _ _ _ Et), (zip_nmap_Some _ _ _ Es).
Qed.

(* and on the object of a model space the primitive gives that space back *)
Theorem arrays_space_of_pyspace : forall sp : space,
  arrays_space (pysp_tmap (pyspace_of sp)) (pysp_smap (pyspace_of sp)) (pysp_ctrl (pyspace_of sp)) = Ok sp.
Proof.
  intros [t s c]. unfold arrays_space, pyspace_of, pysp_tmap, pysp_smap, pysp_ctrl, tmap_cols, smap_cols.
  cbn [fst snd sp_tmap sp_smap sp_ctrl]. now rewrite zip_tmap_save, zip_nmap_save.
Qed.
