(* C14, one piece of Proofs/C14Source.v (conventions and objects: see there): ScreenSubset.subset *)
From Coq Require Import List.
From Batchie Require Import Lib.Sexp Lib.ListX Model.Views Generated.SrcViews
  Proofs.PyRtLemmas Proofs.C14Source_ViewInit Proofs.C14Source_ViewSize.
Open Scope Z_scope.

Theorem src_view_subset_is_model : forall (v : view) (sv : anyarray),
  src_view_subset v sv = view_subset v (fst sv) (snd sv).
Proof.
  intros v sv. unfold src_view_subset, view_subset. destruct (negb (fst sv)); [reflexivity|].
  rewrite src_view_size_is_model. cbn [res_bind]. rewrite of_nat_eqb.
  destruct (negb (Nat.eqb (length (snd sv)) (view_size v))); [reflexivity|].
  rewrite src_view_init_is_model, res_bind_ret. reflexivity.
Qed.
