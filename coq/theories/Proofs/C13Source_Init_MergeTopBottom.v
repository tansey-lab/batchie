(* C13: MergeTopBottomPlateSmoother.__init__ (Generated/SrcInits.v) stores what it is constructed with - n_iterations *)
From Coq Require Import ZArith.
From Batchie Require Import Lib.Sexp Generated.SrcInits.
Open Scope Z_scope.

Theorem src_merge_tb_init_stores : forall n_iterations : Z, src_merge_tb_init n_iterations = Ok n_iterations.
Proof. reflexivity. Qed.
