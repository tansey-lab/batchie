(* C13: the smoother clauses stated on the unobserved plates of what smooth_plates returns. *)
From Coq Require Import ZArith List.
From Batchie Require Import Lib.Sexp Model.Retro Proofs.C11Lib Proofs.C11Smooth Proofs.C11Holdout Proofs.C13Wrap Proofs.C13Size Proofs.C13NPlate.
Import ListNotations.
Open Scope nat_scope.

Lemma no_plates_nil : forall p, ~ In p (plate_names_of []).
Proof. intros p H. apply In_plate_names_of in H as (r & [] & _). Qed.

Theorem fixed_size_common_w : forall t rows ds out ds',
  smooth_plates (SFixed t) rows ds = Ok (out, ds') -> size_contract t (unobserved rows) ds ->
  forall p, In p (plate_names_of (unobserved out)) -> Z.of_nat (plate_count p (unobserved out)) = t.
Proof.
  intros t rows ds out ds' H HC p Hp. apply smooth_wrap_unobs in H as [[_ E]|H].
  - rewrite E in Hp. now apply no_plates_nil in Hp.
  - cbn [smooth_inner] in H. eapply fixed_size_common; eassumption.
Qed.

Theorem optimal_size_common_w : forall rows ds out ds',
  smooth_plates SOptimal rows ds = Ok (out, ds') ->
  size_contract (Z.of_nat (optimal_size (plate_sizes (unobserved rows)))) (unobserved rows) ds ->
  forall p, In p (plate_names_of (unobserved out)) ->
    plate_count p (unobserved out) = optimal_size (plate_sizes (unobserved rows)).
Proof.
  intros rows ds out ds' H HC p Hp. apply smooth_wrap_unobs in H as [[_ E]|H].
  - rewrite E in Hp. now apply no_plates_nil in Hp.
  - cbn [smooth_inner] in H. now apply (proj1 (optimal_size_common _ _ _ _ H HC)).
Qed.

Theorem nplate_minimum_w : forall m rows ds out ds',
  smooth_plates (SNPlate true m) rows ds = Ok (out, ds') ->
  forall s, In s (sample_names (unobserved out)) ->
    (m <= Z.of_nat (length (sample_plates s (unobserved out))))%Z.
Proof.
  intros m rows ds out ds' H s Hs. apply smooth_wrap_unobs in H as [[_ E]|H].
  - rewrite E in Hs. apply In_sample_names in Hs as (r & [] & _).
  - cbn [smooth_inner] in H. apply pure_sm_ok in H. eapply nplate_minimum; eassumption.
Qed.
