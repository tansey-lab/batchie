(* C05: the dtype of the dense array of pad_ragged_arrays_to_dense_array (Model/Dbal.v, pad_dtype_of).
   Repaired code (np.result_type over all arrays and the pad value): the dense dtype holds every plate's dtype, is one
   of the plates' dtypes, and does not depend on the order of the plates.  The code before the repair (the dtype of the
   first plate) is refuted on [F32; F64]. *)
From Coq Require Import ZArith List Permutation Lia.
From Batchie Require Import Lib.Sexp Model.Dbal.
Import ListNotations.

Lemma dt_rank_inj : forall a b, dt_rank a = dt_rank b -> a = b.
Proof. intros [] []; cbn; intros H; try reflexivity; discriminate H. Qed.

Lemma dt_le_iff : forall a b, dt_le a b = true <-> (dt_rank a <= dt_rank b)%nat.
Proof. intros a b. unfold dt_le. apply Nat.leb_le. Qed.

Lemma dt_join_rank : forall a b, dt_rank (dt_join a b) = Nat.max (dt_rank a) (dt_rank b).
Proof.
  intros a b. unfold dt_join. destruct (dt_le a b) eqn:E.
  - apply dt_le_iff in E. lia.
  - assert (H : ~ (dt_rank a <= dt_rank b)%nat) by (intro H; apply dt_le_iff in H; congruence). lia.
Qed.

Lemma fold_join_rank : forall r d,
  dt_rank (fold_left dt_join r d) = fold_left Nat.max (map dt_rank r) (dt_rank d).
Proof.
  induction r as [|x r IH]; intros d; cbn [fold_left map]; [reflexivity|].
  rewrite IH, dt_join_rank. reflexivity.
Qed.

(* a fold of max from n is the larger of n and the maximum of the list *)
Lemma fold_max_list_max : forall l n, fold_left Nat.max l n = Nat.max n (list_max l).
Proof.
  induction l as [|x l IH]; intros n; cbn [fold_left]; [cbn; lia|].
  rewrite IH. change (list_max (x :: l)) with (Nat.max x (list_max l)). lia.
Qed.

Lemma list_max_in : forall l, l <> [] -> In (list_max l) l.
Proof.
  induction l as [|x l IH]; intros Hne; [congruence|].
  change (list_max (x :: l)) with (Nat.max x (list_max l)).
  destruct l as [|y l]; [left; cbn; lia|].
  destruct (Nat.max_spec x (list_max (y :: l))) as [[_ ->]|[_ ->]]; [right; apply IH; discriminate | left; reflexivity].
Qed.

(* rank of the repaired dense dtype = the maximum of the ranks *)
Lemma pad_dtype_rank : forall d r dense,
  pad_dtype (d :: r) = Ok dense -> dt_rank dense = list_max (map dt_rank (d :: r)).
Proof.
  intros d r dense H. unfold pad_dtype, pad_dtype_of in H. injection H as <-.
  rewrite fold_join_rank. apply fold_max_list_max.
Qed.

(* 1. no plate is rounded: the dense array holds the dtype of EVERY plate *)
Lemma pad_dtype_holds_every_plate : forall ds dense,
  pad_dtype ds = Ok dense -> forall d, In d ds -> dt_le d dense = true.
Proof.
  intros [|d0 r] dense H d Hin; [discriminate H|].
  apply dt_le_iff. rewrite (pad_dtype_rank _ _ _ H).
  pose proof (proj1 (list_max_le (map dt_rank (d0 :: r)) _) (le_n _)) as F.
  rewrite Forall_forall in F. apply F, in_map, Hin.
Qed.

Lemma pad_dtype_stored_exactly : forall ds dense k,
  pad_dtype ds = Ok dense -> stored_exactly dense ds k = true.
Proof.
  intros ds dense k H. unfold stored_exactly. destruct (nth_error ds k) as [d|] eqn:E; [|reflexivity].
  apply (pad_dtype_holds_every_plate _ _ H). eapply nth_error_In. exact E.
Qed.

(* 2. nothing is widened beyond need: the dense dtype is the dtype of one of the plates (an all-float32 call stays float32) *)
Lemma pad_dtype_is_a_plate_dtype : forall ds dense, pad_dtype ds = Ok dense -> In dense ds.
Proof.
  intros [|d0 r] dense H; [discriminate H|].
  pose proof (list_max_in (map dt_rank (d0 :: r)) ltac:(discriminate)) as E.
  rewrite <- (pad_dtype_rank _ _ _ H) in E. apply in_map_iff in E as (x & Ex & Hx).
  apply dt_rank_inj in Ex. now subst x.
Qed.

(* 3. the order of the plates does not matter *)
Lemma pad_dtype_perm : forall ds ds', Permutation ds ds' -> pad_dtype ds = pad_dtype ds'.
Proof.
  intros ds ds' HP.
  destruct ds as [|d r].
  - apply Permutation_nil in HP. subst ds'. reflexivity.
  - destruct ds' as [|d' r']; [apply Permutation_sym, Permutation_nil in HP; discriminate HP|].
    unfold pad_dtype, pad_dtype_of. f_equal. apply dt_rank_inj.
    rewrite (pad_dtype_rank d r _ eq_refl), (pad_dtype_rank d' r' _ eq_refl).
    apply Permutation_list_max, Permutation_map, HP.
Qed.

(* errors: exactly on no arrays *)
Lemma pad_dtype_error_iff : forall ds, (exists e, pad_dtype ds = Err e) <-> ds = [].
Proof.
  intros [|d r]; split; intros H.
  - reflexivity.
  - exists 27%Z. reflexivity.
  - destruct H as [e H]. discriminate H.
  - discriminate H.
Qed.

(* the code before the repair: a float32 first plate makes the dense array float32, the float64 plate behind it is rounded;
   and the two orders of the same two plates get different dense dtypes *)
Lemma pad_dtype_first_only_rounds : exists ds dense k,
  pad_dtype_of true ds = Ok dense /\ stored_exactly dense ds k = false.
Proof. exists [F32; F64], F32, 1%nat. split; reflexivity. Qed.

Lemma pad_dtype_first_only_order : exists ds ds',
  Permutation ds ds' /\ pad_dtype_of true ds <> pad_dtype_of true ds'.
Proof.
  exists [F32; F64], [F64; F32]. split.
  - apply perm_swap.
  - cbn. intro H. discriminate H.
Qed.
