(* C06: the three primitives of the score_chunk link that carry the clause "the union of its own and the
   batch plates' experiments reduced to one experiment per distinct condition" -
       ScreenSubset.concat(l)  ->  Scores.subset_concat,   a.combine(b)  ->  Scores.subset_union,
       filter_dataset_to_unique_treatments(x)  ->  Scores.uniq_first [] x
   - are theorems: the helpers are translated themselves and linked to Model/Views.v (Props/C14.v: view_combine, view_concat,
   filter_unique_view); read through the representation of Proofs/C06SourceHelpers.v ([sc_rows p] = the Scores rows of a Views
   screen, [sc_subset v] = the (position, row) pairs the view selects), each is the meaning the configuration gave it.
   A "condition" is (sample id, treatment ids in column order) on both sides. *)
From Coq Require Import List Bool.
From Batchie Require Import Lib.ListX Lib.Sexp Model.Encode Model.Views Generated.SrcViews Generated.SrcPlates Proofs.C01Sort
  Proofs.C14Defs Proofs.C14Views Proofs.C14Closure Proofs.C06SourceHelpers.
From Batchie Require Import Proofs.C14Source_ViewCombine Proofs.C14Source_ViewConcat
  Proofs.C14SourceHelpers_FilterView.
From Batchie Require Model.Scores Proofs.C06Rows.
Import ListNotations.
Open Scope nat_scope.

(* a view selects the position of an indexed row of its parent iff its selection vector says so *)
Lemma selects_sc_subset (v : view) (ir : Scores.irow) :
  In ir (Scores.indexed (sc_rows (v_parent v))) ->
  Scores.selects (sc_subset v) ir = nth (fst ir) (v_sel v) false.
Proof.
  intros Hin. unfold sc_subset. now rewrite C06Rows.selects_filter.
Qed.

(* a.combine(b) *)
Theorem view_combine_is_subset_union a b c :
  view_ok a -> view_ok b -> v_parent b = v_parent a -> view_combine a b = Ok c ->
  sc_subset c = Scores.subset_union (sc_rows (v_parent a)) (sc_subset a) (sc_subset b).
Proof.
  intros Ha Hb Hp E. destruct (combine_union a b c Ha Hb Hp E) as (_ & Hpc & _ & Hsel).
  unfold sc_subset at 1, Scores.subset_union. rewrite Hpc. apply filter_ext_in. intros ir Hin.
  rewrite Hsel, (selects_sc_subset a ir Hin). rewrite <- Hp in Hin. now rewrite (selects_sc_subset b ir Hin).
Qed.

(* ScreenSubset.concat(l) *)
Theorem view_concat_is_subset_concat p vs c :
  Forall (fun v => v_parent v = p /\ view_ok v) vs -> view_concat vs = Ok c ->
  Scores.subset_concat (sc_rows p) (map sc_subset vs) = Ok (sc_subset c).
Proof.
  intros Hall E. destruct (concat_union p vs c Hall E) as (Hpc & _ & _ & Hsel).
  destruct vs as [|v0 [|v1 r]].
  - unfold view_concat in E. discriminate.
  - unfold view_concat in E. injection E as <-. reflexivity.
  - cbn [map Scores.subset_concat]. f_equal.
    transitivity (filter (fun ir : Scores.irow => nth (fst ir) (v_sel c) false) (Scores.indexed (sc_rows p)));
      [|unfold sc_subset; now rewrite Hpc].
    apply filter_ext_in. intros ir Hin. rewrite Hsel.
    change (sc_subset v0 :: sc_subset v1 :: map sc_subset r) with (map sc_subset (v0 :: v1 :: r)).
    rewrite existsb_map. apply existsb_ext_in. intros v Hv.
    rewrite Forall_forall in Hall. destruct (Hall v Hv) as [Hvp _]. rewrite <- Hvp in Hin.
    apply (selects_sc_subset v ir Hin).
Qed.

(* filter_dataset_to_unique_treatments(x): first occurrence per (sample id, treatment ids) *)
Lemma key_tests_agree p i j :
  Scores.key_eqb (Scores.row_key (i, sc_row p i)) (Scores.row_key (j, sc_row p j)) = name_eqb (row_key p i) (row_key p j).
Proof.
  apply eq_true_iff_eq. rewrite C06Rows.key_eqb_eq, name_eqb_eq.
  unfold Scores.row_key, row_key, sc_row. cbn [snd Scores.r_sample Scores.r_treat].
  split; intros [= -> ->]; reflexivity.
Qed.

Lemma uniq_first_keep_first p (W : list nat) : forall js : list nat,
  Scores.uniq_first (map (fun j => Scores.row_key (j, sc_row p j)) js) (map (fun i => (i, sc_row p i)) W)
  = map (fun i => (i, sc_row p i)) (keep_first (row_key p) (map (row_key p) js) W).
Proof.
  induction W as [|i r IH]; intros js; cbn [map Scores.uniq_first keep_first]; [reflexivity|].
  assert (Hm : Scores.key_mem (Scores.row_key (i, sc_row p i)) (map (fun j => Scores.row_key (j, sc_row p j)) js)
               = existsb (name_eqb (row_key p i)) (map (row_key p) js)).
  { unfold Scores.key_mem. rewrite !existsb_map. apply existsb_ext_in. intros j _. apply key_tests_agree. }
  rewrite Hm. destruct (existsb (name_eqb (row_key p i)) (map (row_key p) js)).
  - apply IH.
  - cbn [map]. f_equal. apply (IH (i :: js)).
Qed.

Theorem filter_unique_view_is_uniq_first v v' :
  view_ok v -> screen_wf (v_parent v) -> filter_unique_view v = Ok v' ->
  sc_subset v' = Scores.uniq_first [] (sc_subset v).
Proof.
  intros Hok Hwf E. destruct (filter_unique_view_inv v v' Hok Hwf E) as (_ & Hp & Hok' & Hw).
  rewrite (sc_subset_positions v Hwf Hok). rewrite (sc_subset_positions v') by (rewrite ?Hp; assumption).
  rewrite Hp, Hw. symmetry. apply (uniq_first_keep_first (v_parent v) (np_where (v_sel v)) []).
Qed.

(* the whole conditioning step of score_chunk: filter_dataset_to_unique_treatments(plate.combine(concat(batch plates))) *)
Theorem conditioning_is_scores p (plate : view) (batch_plates : list view) u c f :
  screen_wf p -> v_parent plate = p -> view_ok plate ->
  Forall (fun v => v_parent v = p /\ view_ok v) batch_plates ->
  view_concat batch_plates = Ok u -> view_combine plate u = Ok c -> filter_unique_view c = Ok f ->
  exists su, Scores.subset_concat (sc_rows p) (map sc_subset batch_plates) = Ok su /\
    sc_subset f = Scores.uniq_first [] (Scores.subset_union (sc_rows p) (sc_subset plate) su).
Proof.
  intros Hwf Hpp Hpo Hall Eu Ec Ef.
  destruct (concat_union p batch_plates u Hall Eu) as (Hpu & Hou & _ & _).
  exists (sc_subset u). split; [now apply view_concat_is_subset_concat|].
  assert (Hpu' : v_parent u = v_parent plate) by congruence.
  destruct (combine_union plate u c Hpo Hou Hpu' Ec) as (_ & Hpc & Hoc & _).
  rewrite (filter_unique_view_is_uniq_first c f Hoc) by (try rewrite Hpc, Hpp; assumption).
  rewrite (view_combine_is_subset_union plate u c Hpo Hou Hpu' Ec). now rewrite Hpp.
Qed.

(* the same about the TRANSLATED helpers (Generated/SrcViews.v, SrcPlates.v) *)

Theorem src_combine_is_subset_union a b c :
  view_ok a -> view_ok b -> v_parent b = v_parent a -> src_view_combine a b = Ok c ->
  sc_subset c = Scores.subset_union (sc_rows (v_parent a)) (sc_subset a) (sc_subset b).
Proof. rewrite src_view_combine_is_model. apply view_combine_is_subset_union. Qed.

Theorem src_concat_is_subset_concat p vs c :
  Forall (fun v => v_parent v = p /\ view_ok v) vs -> src_view_concat vs = Ok c ->
  Scores.subset_concat (sc_rows p) (map sc_subset vs) = Ok (sc_subset c).
Proof. rewrite src_view_concat_is_model. apply view_concat_is_subset_concat. Qed.

Theorem src_filter_unique_is_uniq_first v v' :
  view_ok v -> screen_wf (v_parent v) -> src_filter_unique_view v = Ok v' ->
  sc_subset v' = Scores.uniq_first [] (sc_subset v).
Proof. rewrite src_filter_unique_view_is_model. apply filter_unique_view_is_uniq_first. Qed.

Theorem src_conditioning_is_scores p (plate : view) (batch_plates : list view) u c f :
  screen_wf p -> v_parent plate = p -> view_ok plate ->
  Forall (fun v => v_parent v = p /\ view_ok v) batch_plates ->
  src_view_concat batch_plates = Ok u -> src_view_combine plate u = Ok c -> src_filter_unique_view c = Ok f ->
  exists su, Scores.subset_concat (sc_rows p) (map sc_subset batch_plates) = Ok su /\
    sc_subset f = Scores.uniq_first [] (Scores.subset_union (sc_rows p) (sc_subset plate) su).
Proof.
  rewrite src_view_concat_is_model, src_view_combine_is_model, src_filter_unique_view_is_model. apply conditioning_is_scores.
Qed.
