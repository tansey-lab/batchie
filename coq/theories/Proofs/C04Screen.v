(* C04: the shared Screen constructor does not let masked values into the ids. *)
From Coq Require Import ZArith List Qcanon.
From Batchie Require Import Lib.Sexp Lib.Num Model.Encode Model.Screen Model.Train Model.TrainScreen Proofs.C04Train.
Open Scope Z_scope.

Lemma agree_first_mask (rows1 rows2 : list row) (p : name) :
  Forall2 name_row_agree rows1 rows2 -> first_mask p rows1 = first_mask p rows2.
Proof.
  induction 1 as [|a b l1 l2 (_ & Hp & _ & Hm & _) _ IH]; [reflexivity|].
  cbn [first_mask]. now rewrite Hp, Hm, IH.
Qed.

Lemma agree_plate_uniform (rows1 rows2 : list row) :
  Forall2 name_row_agree rows1 rows2 -> plate_uniform rows1 = plate_uniform rows2.
Proof.
  intros Hag. unfold plate_uniform. apply (Forall2_forallb_eq _ _ _ _ _ Hag).
  intros a b (_ & Hp & _ & Hm & _). now rewrite Hp, Hm, (agree_first_mask _ _ _ Hag).
Qed.

Lemma zip_rows_agree (rows1 rows2 : list row) :
  Forall2 name_row_agree rows1 rows2 ->
  forall T S P, same_except_masked (zip_rows rows1 T S P) (zip_rows rows2 T S P).
Proof.
  induction 1 as [|a b l1 l2 (_ & _ & _ & Hm & Ho) _ IH]; intros T S P.
  - constructor.
  - cbn [zip_rows]. destruct T as [|t T]; [constructor|]. destruct S as [|s S]; [constructor|].
    destruct P as [|p P]; [constructor|].
    constructor; [|apply IH].
    unfold row_agree; cbn. repeat split; try assumption.
    intros Ha. now rewrite (Ho Ha).
Qed.

(* acceptance, ids and mappings of the constructed screen do not depend on masked values *)
Lemma mk_screen_masked_blind (rows1 rows2 : list row) arity ctrl tm sm :
  Forall2 name_row_agree rows1 rows2 ->
  match mk_screen rows1 arity ctrl tm sm true true, mk_screen rows2 arity ctrl tm sm true true with
  | Ok s1, Ok s2 =>
      s_tids s1 = s_tids s2 /\ s_sids s1 = s_sids s2 /\ s_pids s1 = s_pids s2 /\
      s_tmap s1 = s_tmap s2 /\ s_smap s1 = s_smap s2 /\ s_pmap s1 = s_pmap s2 /\
      s_rows s1 = rows1 /\ s_rows s2 = rows2
  | Err t1, Err t2 => t1 = t2
  | _, _ => False
  end.
Proof.
  intros Hag. unfold mk_screen. cbn [negb andb].
  (* everything the constructor reads is the same in both lists: the names per row, the masks, the number of rows *)
  rewrite (Forall2_forallb_eq _ _ (fun r => Nat.eqb (length (r_treats r)) arity) _ _ Hag)
    by (intros a b (_ & _ & Ht & _); now rewrite Ht).
  destruct (negb (forallb _ rows2)); [reflexivity|].
  rewrite (agree_plate_uniform _ _ Hag).
  destruct (negb (plate_uniform rows2)); [reflexivity|].
  destruct (match tm with Some (m, isint) => negb (zero_indexed isint (map snd m)) | None => false end); [reflexivity|].
  destruct (match sm with Some (m, isint) => negb (zero_indexed isint (map snd m)) | None => false end); [reflexivity|].
  rewrite (Forall2_map_eq _ r_treats r_treats _ _ Hag) by (now intros a b (_ & _ & Ht & _)).
  rewrite (Forall2_map_eq _ r_sample r_sample _ _ Hag) by (now intros a b (Hs & _)).
  rewrite (Forall2_map_eq _ r_plate r_plate _ _ Hag) by (now intros a b (_ & Hp & _)).
  rewrite (Forall2_same_length _ _ _ Hag).
  destruct (encode_treatments _ ctrl (option_map fst tm)) as [[tflat tmm]|t]; cbn [res_bind]; [|reflexivity].
  destruct (encode_names (map r_sample rows2) (option_map fst sm) 6) as [[sids smm]|t]; cbn [res_bind]; [|reflexivity].
  destruct (encode_names (map r_plate rows2) None 6) as [[pids pmm]|t]; cbn [res_bind]; [|reflexivity].
  cbn. repeat split; reflexivity.
Qed.

(* end to end over the shared Screen model: name-level rows -> constructor -> training data *)
Lemma screen_noninterference (orc : oracle) (r32 : Qc -> oval) (fm gneg gnan : bool)
      (rows1 rows2 : list row) arity ctrl tm sm s1 :
  Forall2 name_row_agree rows1 rows2 ->
  mk_screen rows1 arity ctrl tm sm true true = Ok s1 ->
  exists s2, mk_screen rows2 arity ctrl tm sm true true = Ok s2 /\
    train_sdc orc r32 (trows_of_screen s1) = train_sdc orc r32 (trows_of_screen s2) /\
    train_int orc r32 fm gneg gnan arity (trows_of_screen s1)
      = train_int orc r32 fm gneg gnan arity (trows_of_screen s2) /\
    downstream_input (trows_of_screen s1) = downstream_input (trows_of_screen s2).
Proof.
  intros Hag E1. pose proof (mk_screen_masked_blind rows1 rows2 arity ctrl tm sm Hag) as H. rewrite E1 in H.
  destruct (mk_screen rows2 arity ctrl tm sm true true) as [s2|t2]; [|destruct H].
  destruct H as (Ht & Hs & Hp & _ & _ & _ & Hr1 & Hr2).
  assert (Hsame : same_except_masked (trows_of_screen s1) (trows_of_screen s2)).
  { unfold trows_of_screen. rewrite Ht, Hs, Hp, Hr1, Hr2. now apply zip_rows_agree. }
  exists s2. split; [reflexivity|].
  split; [now apply train_sdc_noninterference|].
  split; [now apply train_int_noninterference | now apply downstream_frame].
Qed.
