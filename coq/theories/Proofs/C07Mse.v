(* C07: the MSE metric is symmetric, non-negative and zero on identical
   predictions, for every expit oracle. *)
From Coq Require Import List Qcanon Arith.
From Batchie Require Import Lib.Sexp Lib.Num Lib.NumP Model.Mse.
Import ListNotations.
Open Scope Qc_scope.

Lemma sqdiffs_sym a : forall b, sqdiffs a b = sqdiffs b a.
Proof.
  induction a as [|x a IH]; intros [|y b]; cbn [sqdiffs combine map]; try reflexivity.
  unfold sqdiffs in IH. rewrite IH. f_equal. unfold qsq; cbn [fst snd]. ring.
Qed.

Lemma sqdiffs_length a b : length (sqdiffs a b) = Nat.min (length a) (length b).
Proof. unfold sqdiffs. now rewrite map_length, combine_length. Qed.

Theorem mse_symmetric orc sg a b : mse_distance orc sg a b = mse_distance orc sg b a.
Proof.
  unfold mse_distance. rewrite (Nat.eqb_sym (length b)).
  destruct (Nat.eqb (length a) (length b)) eqn:E; cbn [negb]; [|reflexivity].
  apply Nat.eqb_eq in E.
  destruct a as [|x a], b as [|y b]; try discriminate; [reflexivity|].
  now rewrite sqdiffs_sym.
Qed.

Lemma sqdiffs_nonneg a b : Forall (fun x => 0 <= x) (sqdiffs a b).
Proof.
  unfold sqdiffs. apply Forall_forall. intros x Hx. apply in_map_iff in Hx as (p & <- & _).
  apply Qc_sq_nonneg.
Qed.

Theorem mse_nonneg orc sg a b v : mse_distance orc sg a b = Ok v -> 0 <= v.
Proof.
  unfold mse_distance. destruct (negb _); [discriminate|].
  destruct a as [|x a]; [discriminate|]. intros H. inversion H; subst. unfold qmean, Qcdiv.
  apply Qc_mul_nonneg; [apply qsum_nonneg, sqdiffs_nonneg|apply Qc_inv_nonneg, qlen_nonneg].
Qed.

Lemma sqdiffs_self a : Forall (fun x => x = 0) (sqdiffs a a).
Proof.
  induction a as [|x a IH]; cbn [sqdiffs combine map]; constructor; [|exact IH].
  unfold qsq; cbn [fst snd]. ring.
Qed.

Theorem mse_zero_on_identical orc sg a : a <> [] -> mse_distance orc sg a a = Ok 0.
Proof.
  intros Hne. unfold mse_distance. rewrite Nat.eqb_refl. cbn [negb].
  destruct a as [|x a]; [congruence|]. f_equal. unfold qmean.
  rewrite qsum_zero by apply sqdiffs_self. unfold Qcdiv. ring.
Qed.
