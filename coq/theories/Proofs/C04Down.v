(* C04 downstream non-interference, model level: every stage input is a function of Train.downstream_input, and the whole
   loop iteration of Model/Downstream.v (training, sampler sweeps, distance pipeline, chunked scores, selection with or
   without a KPerSample policy) answers alike on two screens that differ only behind the mask. *)
From Coq Require Import ZArith List Qcanon.
From Batchie Require Import Lib.Sexp Lib.Num Lib.ListX Model.Train Model.Downstream Proofs.C04Train.
Import ListNotations.
Open Scope Z_scope.

Lemma scores_screen_factors (rows : list trow) : scores_screen_of rows = dn_scores_screen (downstream_input rows).
Proof. unfold scores_screen_of, dn_scores_screen, downstream_input. rewrite map_map. reflexivity. Qed.

Lemma pred_rows_factors (rows : list trow) : pred_rows_of rows = dn_pred_rows (downstream_input rows).
Proof. unfold pred_rows_of, dn_pred_rows, downstream_input. rewrite map_map. reflexivity. Qed.

Lemma policy_plates_factors (rows : list trow) : policy_plates_of rows = dn_policy_plates (downstream_input rows).
Proof.
  unfold policy_plates_of, dn_policy_plates, downstream_input. rewrite map_map. cbn [downstream_row d_plate].
  apply map_ext. intros pid. rewrite filter_map_comm. cbn [downstream_row d_plate].
  rewrite !map_map, forallb_map. reflexivity.
Qed.

Lemma views_factor_full (rows : list trow) :
  scores_screen_of rows = dn_scores_screen (downstream_input rows) /\
  policy_plates_of rows = dn_policy_plates (downstream_input rows) /\
  pred_rows_of rows = dn_pred_rows (downstream_input rows) /\
  train_input rows = dn_train (downstream_input rows).
Proof.
  exact (conj (scores_screen_factors rows) (conj (policy_plates_factors rows)
        (conj (pred_rows_factors rows) (train_input_factors rows)))).
Qed.

Lemma views_noninterference (s1 s2 : list trow) : same_except_masked s1 s2 ->
  scores_screen_of s1 = scores_screen_of s2 /\ policy_plates_of s1 = policy_plates_of s2 /\
  pred_rows_of s1 = pred_rows_of s2 /\ train_input s1 = train_input s2.
Proof.
  intros H. apply downstream_frame in H.
  rewrite !scores_screen_factors, !policy_plates_factors, !pred_rows_factors, !train_input_factors, H. repeat split.
Qed.

Section Loop.
Variables (V : Type) (vzero : V).
Variable predict : Gibbs.st -> list (Z * list Z) -> list Qc.
Variable metric : list Qc -> list Qc -> V.
Variable scorer : list Gibbs.st -> list (list V) -> Scores.scorer_fn.
Variable orc : oracle.
Variable r32 : Qc -> oval.

Lemma loop_thetas_noninterference (c : loop_cfg) (s1 s2 : list trow) : same_except_masked s1 s2 ->
  loop_thetas orc r32 c s1 = loop_thetas orc r32 c s2.
Proof. intros H. unfold loop_thetas. now rewrite (train_sdc_noninterference orc r32 s1 s2 H). Qed.

(* the sampler's data are the training trips of the OBSERVED rows: what the posterior samples are computed from *)
Lemma loop_thetas_data (c : loop_cfg) (rows : list trow) (th : list Gibbs.st) :
  loop_thetas orc r32 c rows = Ok th ->
  exists t d, train_sdc orc r32 rows = Ok t /\ gibbs_data t = Some d /\
    t = map (fun r => {| tr_y := ologit orc (oclip (cast32 r32 (t_obs r))); tr_cl := t_sample r;
                         tr_d1 := nth 0 (t_treats r) 0; tr_d2 := nth 1 (t_treats r) 0 |}) (filter t_mask rows) /\
    Gibbs.d_cl d = map t_sample (filter t_mask rows) /\
    run_sweeps (lc_g c) d orc (lc_s0 c) (lc_vals c) = Some th.
Proof.
  unfold loop_thetas. intros H.
  destruct (train_sdc orc r32 rows) as [t|e] eqn:Ht; [|discriminate]. cbn [res_bind] in H.
  destruct (gibbs_data t) as [d|] eqn:Hd; [|discriminate].
  destruct (run_sweeps (lc_g c) d orc (lc_s0 c) (lc_vals c)) as [th'|] eqn:Hr; [|discriminate].
  inversion H; subst th'. exists t, d.
  pose proof (proj1 (sdc_exactly_once_full orc r32 rows) t Ht) as Hdoc.
  repeat split; try assumption.
  unfold gibbs_data in Hd. destruct (all_some _); [|discriminate]. inversion Hd; subst d. cbn [Gibbs.d_cl].
  rewrite Hdoc, map_map. reflexivity.
Qed.

Lemma loop_iteration_noninterference (c : loop_cfg) (s1 s2 : list trow) : same_except_masked s1 s2 ->
  loop_iteration V vzero predict metric scorer orc r32 c s1 = loop_iteration V vzero predict metric scorer orc r32 c s2.
Proof.
  intros H. unfold loop_iteration.
  rewrite (loop_thetas_noninterference c s1 s2 H), (downstream_frame s1 s2 H). reflexivity.
Qed.

(* every stage after training reads the projection only: stated as the equation that defines the iteration *)
Lemma loop_iteration_factors (c : loop_cfg) (rows : list trow) :
  loop_iteration V vzero predict metric scorer orc r32 c rows =
  (dor th <- (match dn_train (downstream_input rows) with
              | Some o => dor t <- sdc_add orc r32 [] o;
                          match gibbs_data t with
                          | None => Err 3
                          | Some d => match run_sweeps (lc_g c) d orc (lc_s0 c) (lc_vals c) with
                                      | Some th => Ok th | None => Err 9 end
                          end
              | None => match run_sweeps (lc_g c) {| Gibbs.d_y := []; Gibbs.d_cl := []; Gibbs.d_dd1 := []; Gibbs.d_dd2 := [] |}
                                orc (lc_s0 c) (lc_vals c) with
                        | Some th => Ok th | None => Err 9 end
              end);
   dor dm <- loop_dist V vzero predict metric c th (downstream_input rows);
   dor h <- loop_scores V scorer c th dm (downstream_input rows);
   dor sel <- loop_select c h (downstream_input rows);
   Ok (th, dm, h, sel)).
Proof.
  unfold loop_iteration, loop_thetas, train_sdc, dn_train. rewrite <- train_input_factors.
  destruct (train_input rows) as [o|]; reflexivity.
Qed.
End Loop.
