(* C14, one piece of Proofs/C14SourceHelpers.v (which see): Plate.merge *)
From Coq Require Import ZArith List.
From Batchie Require Import Lib.Sexp Model.Encode Model.Screen Model.Views Generated.SrcPlates Proofs.C14Lists
  Proofs.C01Source_Encode1d Proofs.C14SourceHelpers_Base Proofs.C14SourceHelpers_PlateName.
Import ListNotations.
Open Scope Z_scope.

Theorem src_plate_merge_is_model : forall self other : view, src_plate_merge self other = view_merge self other.
Proof.
  intros self other. unfold src_plate_merge, view_merge, same_object, view_screen. cbn [fst snd].
  destruct (negb (v_tag other =? v_tag self)); [reflexivity|].
  rewrite src_plate_name_is_model. unfold view_plate_name, view_plate_names, set_view_sel. cbn [v_sel v_parent v_tag].
  set (sel := bor_vec (v_sel self) (v_sel other)). set (p := v_parent self).
  rewrite select_map. destruct (select sel (s_rows p)) as [|r0 rest]; cbn [map res_bind]; [reflexivity|].
  unfold mask_fill. rewrite map_length.
  destruct (negb (Nat.eqb (length sel) (length (s_rows p)))); cbn [res_bind]; [reflexivity|].
  unfold set_screen_plate_names, set_view_screen, with_rows_pids. cbn [fst snd s_rows s_pids v_parent v_tag v_sel].
  rewrite relabel_column.
  rewrite (src_encode_1d_is_model _ None I). cbn [option_map].
  destruct (encode_names (map r_plate (relabel sel (r_plate r0) (s_rows p))) None 6) as [[ids m]|t]; cbn [res_bind fst snd];
    [|reflexivity].
  unfold store_plate_ids. cbn [fst snd s_rows]. rewrite ids_of_column_some. cbn [res_bind]. reflexivity.
Qed.
