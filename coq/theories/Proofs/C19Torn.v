(* C19 — torn (present but unreadable) completion markers: Model/Orchestrate.v, section "torn completion markers".
   - the torn model is a conservative extension of the model (no torn marker, no tearing entry: the same run)
   - examine on a well-formed torn tree is examine on its tree component, except that the "invalid structure" answer for a
     torn directory is an exception that names nothing (tfix = false) / stays that answer (tfix = true, the repair)
   - a raising examine strands the script: every further call raises again and changes nothing
   - the witness (retrospective, batch size 1, 3 plates, marker last in every order) *)
From Coq Require Import ZArith List Bool.
From Batchie Require Import Model.Orchestrate Proofs.C19Base Proofs.C19Main.
Import ListNotations.
Open Scope Z_scope.

Lemma in_insert_key {A} (p q : Z * A) l : In q (insert_key p l) <-> q = p \/ In q l.
Proof.
  induction l as [|x l IH]; cbn [insert_key In]; [intuition congruence|].
  destruct (fst p <? fst x); cbn [In]; [intuition congruence|]. rewrite IH. intuition congruence.
Qed.
Lemma in_sort_dirs {A} (q : Z * A) l : In q (sort_dirs l) <-> In q l.
Proof.
  induction l as [|x l IH]; cbn [sort_dirs In]; [tauto|]. rewrite in_insert_key, IH. intuition congruence.
Qed.

(* examine_t is the plain examine until it meets a directory holding a torn marker, where it stops: either it met none, and
   then the directory the plain examine names (if any) holds none; or it stopped at (it, pidx) - which the plain examine names
   too when the tree records no metadata under the torn marker *)
Definition untorn {A} (torn : torn_set) (rt : tres A) (rx : xres A) : Prop :=
  rt = tres_of_xres rx /\ forall w s, rx = XNamed w s -> is_torn torn s = false.
Definition stops_at {A} (tfix : bool) (torn : torn_set) (s : step) (d : pdir) (rt : tres A) (rx : xres A) : Prop :=
  is_torn torn s = true /\ rt = (if tfix then TNamed 1 s else TRaised 70) /\ (f_meta d = None -> rx = XNamed 1 s).

Lemma examine_plates_t_cases tfix torn it : forall pl st idx,
  let rt := examine_plates_t tfix torn it st idx pl in
  let rx := examine_plates it st idx pl in
  untorn torn rt rx \/ exists pidx d, In (pidx, d) pl /\ stops_at tfix torn (it, pidx) d rt rx.
Proof.
  induction pl as [|[pidx d] r IH]; intros st idx; cbn [examine_plates_t examine_plates].
  - left. split; [reflexivity|discriminate].
  - destruct (is_torn torn (it, pidx)) eqn:Et.
    { right. exists pidx, d. split; [now left|]. split; [exact Et|]. split; [reflexivity|]. now intros ->. }
    destruct (f_meta d) as [m|]; [|left; split; [reflexivity|congruence]].
    destruct (negb (pidx =? idx)); [left; split; [reflexivity|congruence]|].
    destruct (IH (mkx (Some m) it pidx (Some ((it, pidx), d))) (idx + 1)) as [H|(p' & d' & Hin & H)]; [now left|].
    right. exists p', d'. split; [now right|exact H].
Qed.

(* a stop passes through the rest of the computation *)
Lemma stops_at_bind {A B} tfix torn s d (rt : tres A) (rx : xres A) (kt : A -> tres B) (kx : A -> xres B) :
  stops_at tfix torn s d rt rx -> stops_at tfix torn s d (tbind rt kt) (xbind rx kx).
Proof.
  intros (Ht & -> & Hx). split; [exact Ht|]. split; [now destruct tfix|]. intros Hd. now rewrite (Hx Hd).
Qed.

Lemma untorn_named {A} torn w s : is_torn torn s = false -> untorn torn (@TNamed A w s) (XNamed w s).
Proof. intros H. split; [reflexivity|]. intros w' s' E. now injection E as <- <-. Qed.

Lemma examine_iters_t_cases tfix torn fixed : forall l st,
  let rt := examine_iters_t tfix torn fixed st l in
  let rx := examine_iters fixed st l in
  untorn torn rt rx
  \/ exists it pl pidx d, In (it, pl) l /\ In (pidx, d) pl /\ stops_at tfix torn (it, pidx) d rt rx.
Proof.
  induction l as [|[it pl] r IH]; intros st; cbn [examine_iters_t examine_iters].
  - left. split; [reflexivity|discriminate].
  - unfold examine_iter_t, examine_iter. cbn [fst snd].
    match goal with |- context [examine_plates_t tfix torn it ?s0 0 ?p] =>
      destruct (examine_plates_t_cases tfix torn it p s0 0) as [H|(pidx & d & Hin & H)] end.
    + destruct H as [-> Hn]. destruct (examine_plates it _ 0 (sort_dirs pl)) as [st'|w s]; cbn [tres_of_xres tbind xbind].
      * destruct (IH st') as [H'|(it' & pl' & p' & d' & Hi & H')]; [now left|].
        right. exists it', pl', p', d'. split; [now right|exact H'].
      * left. apply untorn_named, (Hn w s eq_refl).
    + right. exists it, pl, pidx, d. split; [now left|]. split; [now apply in_sort_dirs|]. now apply stops_at_bind.
Qed.

Theorem examine_t_cases tfix fixed bs tf :
  let rt := examine_t tfix fixed bs tf in
  let rx := examine fixed bs (fst tf) in
  untorn (snd tf) rt rx
  \/ exists it pl pidx d, In (it, pl) (fst tf) /\ In (pidx, d) pl /\ stops_at tfix (snd tf) (it, pidx) d rt rx.
Proof.
  unfold examine_t, examine.
  destruct (examine_iters_t_cases tfix (snd tf) fixed (sort_dirs (fst tf)) exst0) as [H|(it & pl & pidx & d & Hi & Hp & H)].
  - left. destruct H as [-> Hn]. destruct (examine_iters fixed exst0 _) as [st|w s]; cbn [tres_of_xres tbind xbind].
    + destruct (x_meta st); [destruct (x_plate st >=? bs - 1)|]; (split; [reflexivity|discriminate]).
    + apply untorn_named, (Hn w s eq_refl).
  - right. exists it, pl, pidx, d. split; [now apply in_sort_dirs|]. split; [exact Hp|]. now apply stops_at_bind.
Qed.

Lemma examine_t_nil tfix fixed bs f : examine_t tfix fixed bs (f, []) = tres_of_xres (examine fixed bs f).
Proof.
  destruct (examine_t_cases tfix fixed bs (f, [])) as [[E _]|(it & pl & pidx & d & _ & _ & Ht & _)]; [exact E|discriminate Ht].
Qed.

Lemma attempt_examine md fixed bs n f e :
  match examine fixed bs f with
  | XNamed w s => attempt md fixed bs n f e = (rmtree s f, GNamed w s)
  | XOk _ => True
  end.
Proof. unfold attempt, plan_of. destruct (examine fixed bs f) as [[[[i j] m] sc]|w s]; auto. Qed.

Lemma untear_nil s : untear s [] = []. Proof. reflexivity. Qed.

Theorem attempt_t_conservative tfix md fixed bs n f e :
  attempt_t tfix md fixed bs n (f, []) (whole e) =
  let r := attempt md fixed bs n f e in ((fst r, []), snd r).
Proof.
  unfold attempt_t. rewrite examine_t_nil. cbn [fst snd whole te_e te_torn andb].
  pose proof (attempt_examine md fixed bs n f e) as H.
  destruct (examine fixed bs f) as [[[[i j] m] sc]|w s]; cbn [tres_of_xres].
  - destruct (attempt md fixed bs n f e) as [f1 g]. cbn [fst snd].
    destruct g as [w s| |k|w|s l ps ok]; try reflexivity.
    destruct k; reflexivity.
  - rewrite H. reflexivity.
Qed.

Theorem script_run_t_conservative tfix md fixed bs n : forall sched f,
  script_run_t tfix md fixed bs n (f, []) (map whole sched) =
  let r := script_run md fixed bs n f sched in ((fst r, []), snd r).
Proof.
  induction sched as [|e r IH]; intros f; [reflexivity|].
  cbn [map script_run_t script_run]. rewrite attempt_t_conservative. cbn zeta.
  destruct (attempt md fixed bs n f e) as [f1 g]. cbn [fst snd]. rewrite IH. cbn zeta.
  destruct (script_run md fixed bs n f1 r) as [f2 gs]. reflexivity.
Qed.

(* examine_t answers TOk only when no directory it looked at holds a torn marker: then it is the plain examine's answer
   (whatever the tree records under a torn marker: no well-formedness needed) *)
Theorem examine_t_ok tfix fixed bs tf a :
  examine_t tfix fixed bs tf = TOk a -> examine fixed bs (fst tf) = XOk a.
Proof.
  destruct (examine_t_cases tfix fixed bs tf) as [[-> _]|(it & pl & pidx & d & _ & _ & _ & -> & _)].
  - destruct (examine fixed bs (fst tf)); [intros E; injection E as ->; reflexivity|discriminate].
  - destruct tfix; discriminate.
Qed.

(* under the repair examine_t either answers as the plain examine on the tree component, or names a directory holding a torn
   marker as "invalid structure" (again without well-formedness) *)
Definition torn_named {A} (torn : torn_set) (r : tres A) : Prop := exists s, r = TNamed 1 s /\ is_torn torn s = true.

Theorem examine_t_repaired_cases fixed bs tf :
  examine_t true fixed bs tf = tres_of_xres (examine fixed bs (fst tf)) \/ torn_named (snd tf) (examine_t true fixed bs tf).
Proof.
  destruct (examine_t_cases true fixed bs tf) as [[E _]|(it & pl & pidx & d & _ & _ & Ht & E & _)]; [now left|].
  right. exists (it, pidx). auto.
Qed.

(* nothing raises under the repair *)
Theorem examine_t_repaired_never_raises fixed bs tf w : examine_t true fixed bs tf <> TRaised w.
Proof.
  destruct (examine_t_repaired_cases fixed bs tf) as [->|(s & -> & _)]; [|discriminate].
  destruct (examine fixed bs (fst tf)); discriminate.
Qed.

Lemma script_run_t_app tfix md fixed bs n : forall s1 s2 tf,
  script_run_t tfix md fixed bs n tf (s1 ++ s2)
  = let r1 := script_run_t tfix md fixed bs n tf s1 in
    let r2 := script_run_t tfix md fixed bs n (fst r1) s2 in (fst r2, snd r1 ++ snd r2).
Proof.
  induction s1 as [|e s1 IH]; intros s2 tf; cbn [app script_run_t].
  - cbn zeta. cbn [fst snd]. now destruct (script_run_t tfix md fixed bs n tf s2).
  - destruct (attempt_t tfix md fixed bs n tf e) as [tf1 g]. rewrite IH. cbn zeta.
    destruct (script_run_t tfix md fixed bs n tf1 s1) as [tf2 gs]. cbn [fst snd].
    now destruct (script_run_t tfix md fixed bs n tf2 s2).
Qed.

Theorem torn_stuck tfix md fixed bs n tf w :
  examine_t tfix fixed bs tf = TRaised w ->
  forall sched, script_run_t tfix md fixed bs n tf sched = (tf, repeat (GFail w) (length sched)).
Proof.
  intros H. induction sched as [|e r IH]; [reflexivity|].
  cbn [script_run_t length repeat]. unfold attempt_t at 1. rewrite H, IH. reflexivity.
Qed.

(* what the torn examine makes of the plain examine's answer *)
Definition tear_answer {A} (tfix : bool) (torn : torn_set) (r : xres A) : tres A :=
  match r with
  | XNamed 1 s => if is_torn torn s && negb tfix then TRaised 70 else TNamed 1 s
  | r => tres_of_xres r
  end.

Theorem examine_t_char tfix fixed bs tf : torn_wf tf ->
  examine_t tfix fixed bs tf = tear_answer tfix (snd tf) (examine fixed bs (fst tf)).
Proof.
  intros Hwf.
  destruct (examine_t_cases tfix fixed bs tf) as [[-> Hn]|(it & pl & pidx & d & Hi & Hp & Ht & -> & Hx)].
  - destruct (examine fixed bs (fst tf)) as [a|w s]; [reflexivity|]. cbn [tear_answer].
    rewrite (Hn w s eq_refl). now destruct w as [|[p|p|]|p].
  - rewrite (Hx (Hwf it pl pidx d Hi Hp Ht)). cbn [tear_answer]. rewrite Ht. now destruct tfix.
Qed.

(* the repair: a torn marker is a missing marker *)
Theorem examine_t_repaired_is_missing fixed bs tf : torn_wf tf ->
  examine_t true fixed bs tf = tres_of_xres (examine fixed bs (fst tf)).
Proof.
  intros Hwf. rewrite (examine_t_char true fixed bs tf Hwf).
  destruct (examine fixed bs (fst tf)) as [a|w s]; cbn [tear_answer tres_of_xres]; [reflexivity|].
  destruct w as [|[p|p|]|p]; try reflexivity. now rewrite andb_false_r.
Qed.

(* without the repair (tfix = false) the script raises exactly when the directory the plain examine would name as "invalid structure" holds a torn marker *)
Theorem examine_t_raises_iff fixed bs tf w : torn_wf tf ->
  (examine_t false fixed bs tf = TRaised w <->
   w = 70 /\ exists s, examine fixed bs (fst tf) = XNamed 1 s /\ is_torn (snd tf) s = true).
Proof.
  intros Hwf. rewrite (examine_t_char false fixed bs tf Hwf).
  destruct (examine fixed bs (fst tf)) as [a|w' s]; cbn [tear_answer tres_of_xres].
  - split; [discriminate|]. intros (_ & s & E & _). discriminate.
  - destruct w' as [|[p|p|]|p]; cbn [tres_of_xres];
      try (split; [discriminate|intros (_ & s' & E & _); discriminate]).
    rewrite andb_true_r. destruct (is_torn (snd tf) s) eqn:Et.
    + split; [intros E; injection E as <-; split; [reflexivity|exists s; auto]|intros (-> & _); reflexivity].
    + split; [discriminate|]. intros (_ & s' & E & Ht). injection E as <-. congruence.
Qed.

(* retrospective, batch size 1, 3 plates, the script with the empty-directory repair (as /repo is), every order marker-last:
   step (0,0) completes; the run of step (1,0) is interrupted while its last file - the marker - is being published *)
Definition full_t : tentry := whole full.
Definition witness_torn : list tentry := [full_t; mkte (mke 9 canon_order) true].

Theorem torn_marker_strands :
  Forall (fun te => entry_ok (te_e te) = true) witness_torn /\
  forall k,
    let r := script_run_t false Retro true 1 3 ([], []) (witness_torn ++ repeat full_t k) in
    snd (fst r) = [(1, 0)] /\
    completed (fst (fst r)) = ideal Retro 1 3 1 /\
    skipn 2 (snd r) = repeat (GFail 70) k /\
    (forall w s, ~ In (GNamed w s) (snd r)).
Proof.
  split; [repeat constructor|].
  intros k. cbn zeta. rewrite script_run_t_app. cbn zeta.
  set (r1 := script_run_t false Retro true 1 3 ([], []) witness_torn).
  (* the world the two calls of the witness leave behind: examine raises on it; neither call named a directory *)
  assert (Hraise : examine_t false true 1 (fst r1) = TRaised 70) by (vm_compute; reflexivity).
  assert (Hlog : exists g1 g2, snd r1 = [g1; g2] /\ forall w s, g1 <> GNamed w s /\ g2 <> GNamed w s)
    by (vm_compute; do 2 eexists; split; [reflexivity|split; discriminate]).
  rewrite (torn_stuck false Retro true 1 3 _ 70 Hraise), repeat_length. cbn [fst snd].
  destruct Hlog as (g1 & g2 & -> & Hg).
  split; [vm_compute; reflexivity|]. split; [vm_compute; reflexivity|]. split; [reflexivity|].
  intros w s [H|[H|H]]; [now apply (Hg w s) in H|now apply (Hg w s) in H|].
  apply repeat_spec in H. discriminate.
Qed.

(* the same schedule under the repair: the torn directory is named, removed, and the run completes *)
Lemma torn_witness_repaired :
  let r := script_run_t true Retro true 1 3 ([], []) (witness_torn ++ [full_t; full_t; full_t; full_t]) in
  snd (fst r) = [] /\ completed (fst (fst r)) = crash_free Retro 1 3 /\
  nth 2 (snd r) GDone = GNamed 1 (1, 0).
Proof. vm_compute. repeat split; reflexivity. Qed.

(* prospective variant of the witness: batch size 2, the marker of (0,1) torn *)
Lemma torn_witness_prospective :
  let r := script_run_t false Prosp true 2 3 ([], []) ([full_t; mkte (mke 7 canon_order) true] ++ repeat full_t 3) in
  snd (fst r) = [(0, 1)] /\ skipn 2 (snd r) = repeat (GFail 70) 3.
Proof. vm_compute. split; reflexivity. Qed.
