(* C14: to_screen never fails on a view of a screen the constructor accepted. *)
From Coq Require Import ZArith List.
From Batchie Require Import Lib.Sexp Model.Encode Model.Screen Model.Views Proofs.C14Lists.
From Batchie Require Proofs.C01Encode Proofs.C01Screen Proofs.C03Screen.
Import ListNotations.
Open Scope nat_scope.

(* what the constructor checked of the rows it stored *)
Definition rows_valid (arity : nat) (rows : list row) : Prop :=
  forallb (fun r => Nat.eqb (length (r_treats r)) arity) rows = true /\ plate_uniform rows = true.
Definition screen_valid (s : screen) : Prop := rows_valid (s_arity s) (s_rows s).

(* plate uniformity is a pairwise property (C03Screen.plate_uniform_spec), hence inherited by sub-lists *)
Lemma rows_valid_select arity rows sel : rows_valid arity rows -> rows_valid arity (select sel rows).
Proof.
  intros [H1 H2]. split.
  - rewrite forallb_forall in *. intros r Hr. apply H1. eapply In_select; eassumption.
  - rewrite C03Screen.plate_uniform_spec in *. intros r1 r2 A1 A2. apply H2; eapply In_select; eassumption.
Qed.

(* mappings built from the data cover the data (C01Encode.built_encode_ok, nbuilt_encode_ok) *)
Lemma mk_screen_total rows ar ctrl : rows_valid ar rows -> exists s, mk_screen rows ar ctrl None None true true = Ok s.
Proof.
  intros [H1 H2].
  destruct (C01Encode.built_encode_ok ctrl (C01Screen.the_tkeys ar rows)) as [tflat Et].
  destruct (C01Encode.nbuilt_encode_ok (map r_sample rows) 6%Z) as [sids Es].
  destruct (C01Encode.nbuilt_encode_ok (map r_plate rows) 6%Z) as [pids Ep].
  eexists. exact (C03Screen.mk_screen_ok rows ar ctrl None None true true _ _ _ _ _ _ H1 eq_refl H2 eq_refl eq_refl Et Es Ep).
Qed.

(* every screen returned by the constructor is valid *)
Lemma mk_screen_valid rows ar ctrl tm sm og mg s : mk_screen rows ar ctrl tm sm og mg = Ok s -> screen_valid s.
Proof.
  intros H. destruct (C03Screen.mk_screen_inv H) as [tflat B]. unfold screen_valid.
  rewrite (C03Screen.b_rows B), (C03Screen.b_ar B). split; [|exact (C03Screen.b_uniform B)].
  exact (eq_trans (C03Screen.arity_ok_treats _ _ _ (C03Screen.norm_rows_treats og mg rows)) (C03Screen.b_arity_ok B)).
Qed.

Lemma to_screen_total v : screen_valid (v_parent v) -> exists s, to_screen v = Ok s.
Proof. intros H. unfold to_screen, view_rows. apply mk_screen_total. now apply rows_valid_select. Qed.
