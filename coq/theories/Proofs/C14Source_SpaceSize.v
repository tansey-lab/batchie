(* C14, one piece of Proofs/C14Source.v (conventions and objects: see there): ScreenBase.sample_space_size / treatment_space_size
   on a Screen object and on a ScreenSubset / Plate object (Generated/SrcScreenAttrs.v) *)
From Coq Require Import ZArith List.
From Batchie Require Import Lib.Sexp Model.Screen Model.Views Generated.SrcViews Generated.SrcScreenAttrs.
Import ListNotations.
Open Scope Z_scope.

(* the sizes of the universe: the number of rows of the screen's sample / treatment mapping; a view reports its parent's *)
Theorem src_space_sizes_are_model : forall (s : pyscreen) (v : view),
  src_screen_sample_space_size s = Ok (Z.of_nat (length (s_smap (snd s)))) /\
  src_screen_treatment_space_size s = Ok (Z.of_nat (length (s_tmap (snd s)))) /\
  src_view_sample_space_size v = Ok (Z.of_nat (length (s_smap (v_parent v)))) /\
  src_view_treatment_space_size v = Ok (Z.of_nat (length (s_tmap (v_parent v)))).
Proof.
  intros s v. unfold src_screen_sample_space_size, src_screen_treatment_space_size, src_view_sample_space_size,
    src_view_treatment_space_size, src_screen_sample_mapping, src_screen_treatment_mapping, src_view_sample_mapping,
    src_view_treatment_mapping.
  cbn [res_bind view_screen snd]. now rewrite !map_length.
Qed.
