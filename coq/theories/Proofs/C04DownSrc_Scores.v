(* C04 downstream, source level: the scores stage and selection without a policy / with any policy function (C06's translations).
   See Proofs/C04DownSrc.v. *)
From Coq Require Import ZArith List.
From Batchie Require Import Lib.Sexp Lib.ListX Model.Train Model.Downstream Proofs.C04Train Proofs.C04Down.
From Batchie Require Model.Scores Model.Gibbs Generated.SrcScoring Proofs.C06Source.
Open Scope Z_scope.

Definition src_stage_scores (scorer : Scores.scorer_fn) (rows : list trow) (rng : option Scores.rng_t) (batch : list Z)
    (n : Z) (order : list Z) : result Scores.holder :=
  dor hs <- res_map_all (fun k =>
              dor h <- SrcScoring.src_score_chunk scorer (scores_screen_of rows) rng n k (Some batch);
              Ok (Scores.h_load (Scores.h_save h))) order;
  SrcScoring.src_concat hs.

Lemma src_stage_scores_noninterference scorer s1 s2 rng batch n order : same_except_masked s1 s2 ->
  src_stage_scores scorer s1 rng batch n order = src_stage_scores scorer s2 rng batch n order.
Proof. intros H. unfold src_stage_scores. now rewrite !scores_screen_factors, (downstream_frame s1 s2 H). Qed.

Lemma src_stage_scores_is_model (V : Type) (scorer : list Gibbs.st -> list (list V) -> Scores.scorer_fn) c th dm rows rng :
  src_stage_scores (scorer th dm) rows rng (lc_batch c) (lc_schunks c) (lc_sorder c)
  = loop_scores V scorer c th dm (downstream_input rows).
Proof.
  unfold src_stage_scores, loop_scores. rewrite scores_screen_factors.
  erewrite res_map_all_ext.
  2: { intros k. rewrite C06Source.src_score_chunk_is_model.
       instantiate (1 := fun k => dor ps <- Scores.score_chunk (dn_scores_screen (downstream_input rows)) (lc_batch c) (lc_schunks c) k;
                                  dor h <- Scores.chunk_holder_of_answer ps (scorer th dm ps);
                                  Ok (Scores.h_load (Scores.h_save h))).
       cbv beta. destruct (Scores.score_chunk _ _ _ _) as [ps|e]; cbn [res_bind]; reflexivity. }
  destruct (res_map_all _ (lc_sorder c)) as [hs|e]; cbn [res_bind]; [apply C06Source.src_concat_is_model|reflexivity].
Qed.

Definition src_stage_select (policy : option Scores.policy_t) (h : Scores.holder) (rows : list trow) (batch : list Z)
    (rng : option Scores.rng_t) : result (option Z) :=
  dor r <- SrcScoring.src_select_next_plate h (scores_screen_of rows) policy (Some batch) rng;
  Ok (option_map Scores.p_id r).

Lemma src_stage_select_is_model policy h rows batch rng :
  src_stage_select policy h rows batch rng = Scores.select_next policy (dn_scores_screen (downstream_input rows)) batch h.
Proof.
  unfold src_stage_select. rewrite C06Source.src_select_next_plate_is_model, scores_screen_factors.
  destruct (Scores.select_next _ _ _ _) as [[i|]|e]; reflexivity.
Qed.

Lemma src_stage_select_noninterference policy h s1 s2 batch rng : same_except_masked s1 s2 ->
  src_stage_select policy h s1 batch rng = src_stage_select policy h s2 batch rng.
Proof. intros H. unfold src_stage_select. now rewrite !scores_screen_factors, (downstream_frame s1 s2 H). Qed.

