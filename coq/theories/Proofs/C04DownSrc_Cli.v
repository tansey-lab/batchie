(* C04 downstream, source level: the four translated main() functions over file systems that differ only behind the mask.
   See Proofs/C04DownSrc.v. *)
From Coq Require Import ZArith List Qcanon.
From Batchie Require Import Lib.Sexp Model.Train Model.Downstream Proofs.C04Train Proofs.C04Down.
From Batchie Require Model.Scores Model.DistMat Model.Cli Generated.SrcTrain Generated.SrcDistMat Generated.SrcCli.
From Batchie Require Import Proofs.PyRtLemmas.
From Batchie Require Proofs.C06SourceCliScores Proofs.C07SourceCli Proofs.C04Source Proofs.C04SourceCli.
Import ListNotations.
Open Scope Z_scope.

(* a file system: what Screen.load_h5 yields at a path, as id-level rows *)
Definition screen_fs : Type := Cli.path -> result (list trow).
Definition fs_agree (fs1 fs2 : screen_fs) : Prop :=
  forall p, match fs1 p, fs2 p with
            | Ok s1, Ok s2 => same_except_masked s1 s2
            | Err a, Err b => a = b
            | _, _ => False
            end.

(* whatever a command computes from the loaded screen alike on two screens that agree, it computes alike on two such file systems *)
Lemma fs_agree_bind {A} (k : list trow -> result A) (fs1 fs2 : screen_fs) :
  (forall s1 s2, same_except_masked s1 s2 -> k s1 = k s2) -> fs_agree fs1 fs2 ->
  forall p, (dor s <- fs1 p; k s) = (dor s <- fs2 p; k s).
Proof.
  intros Hk H p. specialize (H p). destruct (fs1 p) as [a|a], (fs2 p) as [b|b]; cbn [res_bind]; try contradiction.
  - exact (Hk a b H).
  - now subst.
Qed.

(* train_model.main: the translated wrapper over ANY library whose screen loader is the file system, whose
   subset_observed is Train.train_input and whose ExperimentSpace.from_screen reads the rows' ids; model class, sampler,
   holder arbitrary *)
Definition tm_lib_fs (Sp Pa Mo Th : Type) (fs : screen_fs) (from_ids : list (Z * list Z) -> result Sp)
    (set_space : Pa -> Sp -> Pa) (construct : Pa -> result Mo) (new_holder : Z -> result Th)
    (add_observations : Mo -> list trow -> result Mo)
    (sample : Mo -> Th -> Z -> option Z -> option Z -> option Z -> option Z -> bool -> result Th)
  : Cli.tm_lib (list trow) (list trow) Sp Pa Mo Th :=
  Cli.mk_tm_lib fs (fun s => from_ids (pred_rows_of s)) set_space construct new_holder train_input add_observations sample.

Lemma src_cli_train_model_noninterference Sp Pa Mo Th fs1 fs2 from_ids set_space construct new_holder add_obs sample params a :
  fs_agree fs1 fs2 ->
  SrcCli.src_cli_train_model _ _ Sp Pa Mo Th (tm_lib_fs Sp Pa Mo Th fs1 from_ids set_space construct new_holder add_obs sample) params a
  = SrcCli.src_cli_train_model _ _ Sp Pa Mo Th (tm_lib_fs Sp Pa Mo Th fs2 from_ids set_space construct new_holder add_obs sample) params a.
Proof.
  intros H. rewrite !C04SourceCli.src_cli_train_model_is_model. unfold Cli.cli_train_model, tm_lib_fs.
  cbn [Cli.tm_load_screen Cli.tm_from_screen Cli.tm_set_space Cli.tm_construct Cli.tm_new_holder Cli.tm_subset_observed
       Cli.tm_add_observations Cli.tm_sample].
  apply fs_agree_bind; [|exact H]. intros s1 s2 Hs.
  destruct (views_noninterference s1 s2 Hs) as (_ & _ & Hp & Ht). now rewrite Hp, Ht.
Qed.

(* with SparseDrugCombo: the model object is (anything the constructor made, the wrapped legacy object), trained by the
   translated add_observations; what sample(...) is handed holds the model's training trips of the observed rows *)
Lemma src_cli_train_model_sdc_trains Sp Pa X Th fs from_ids set_space (construct : Pa -> result X) new_holder sample orc r32 params a :
  SrcCli.src_cli_train_model _ _ Sp Pa (X * legacy) Th
    (tm_lib_fs Sp Pa (X * legacy) Th fs from_ids set_space (fun pa => dor x <- construct pa; Ok (x, legacy_of [])) new_holder
       (fun m d => dor w <- SrcTrain.src_add_observations legacy (SrcTrain.src_sdc_add_observations orc r32) (snd m) d; Ok (fst m, w))
       sample) params a
  = dor s <- fs (Cli.tm_data a);
    dor sp <- from_ids (pred_rows_of s);
    dor x <- construct (set_space params sp);
    dor holder <- new_holder (Cli.tm_n_samples a);
    dor t <- train_sdc orc r32 s;
    dor results <- sample (x, legacy_of t) holder (Cli.tm_seed a) (Some (Cli.tm_n_chains a)) (Some (Cli.tm_chain_index a))
                     (Some (Cli.tm_n_burnin a)) (Some (Cli.tm_thin a)) (Cli.tm_progress a);
    Ok [(Cli.tm_output a, results)].
Proof.
  rewrite C04SourceCli.src_cli_train_model_is_model. unfold Cli.cli_train_model, tm_lib_fs.
  cbn [Cli.tm_load_screen Cli.tm_from_screen Cli.tm_set_space Cli.tm_construct Cli.tm_new_holder Cli.tm_subset_observed
       Cli.tm_add_observations Cli.tm_sample].
  unfold train_sdc. do 4 cli_step.
  destruct (train_input _) as [o|]; cbn [res_bind fst snd]; [|reflexivity].
  rewrite C04Source.src_sdc_add_is_model. destruct (sdc_add orc r32 [] o); reflexivity.
Qed.

(* calculate_distance_matrix.main: the library's calculate_... is the TRANSLATED function, a holder the list of its
   samples, the prediction of a sample ANY function of it and the rows' ids *)
Section CliDist.
Variables (V : Type) (vzero : V) (visz : V -> bool) (T : Type) (dflt : T).
Variable predict : T -> list (Z * list Z) -> list Qc.

Definition cd_lib_fs (fs : screen_fs) (load_thetas : Cli.path -> result (list T)) (mk_metric : result (list Qc -> list Qc -> V))
  : Cli.cd_lib (list trow) (list T) (list Qc -> list Qc -> V) (DistMat.cdm V) :=
  Cli.mk_cd_lib fs load_thetas (fun l => match l with [] => Err 5 | _ => Ok (concat l) end) mk_metric
    (fun th me data k n _ =>
       SrcDistMat.src_calculate_pairwise V vzero visz T (list Qc) (Z.of_nat (length th))
         (fun i => nth (Z.to_nat i) th dflt) (fun t => predict t (pred_rows_of data)) me k n).

Lemma src_cli_calculate_distance_matrix_noninterference fs1 fs2 load_thetas mk_metric a : fs_agree fs1 fs2 ->
  SrcCli.src_cli_calculate_distance_matrix _ _ _ _ (cd_lib_fs fs1 load_thetas mk_metric) a
  = SrcCli.src_cli_calculate_distance_matrix _ _ _ _ (cd_lib_fs fs2 load_thetas mk_metric) a.
Proof.
  intros H. rewrite !C07SourceCli.src_cli_calculate_distance_matrix_is_model.
  unfold Cli.cli_calculate_distance_matrix, cd_lib_fs.
  cbn [Cli.cd_load_screen Cli.cd_load_thetas Cli.cd_concat_thetas Cli.cd_mk_metric Cli.cd_calculate].
  apply fs_agree_bind; [|exact H]. intros s1 s2 Hs.
  now rewrite !pred_rows_factors, (downstream_frame s1 s2 Hs).
Qed.
End CliDist.

(* calculate_scores.main and select_next_plate.main over C06's library records (score_chunk, select_next_plate,
   ChunkedScoresHolder.concat = the translated functions) *)
Definition scores_fs (fs : screen_fs) : Cli.path -> result Scores.screen :=
  fun p => dor s <- fs p; Ok (scores_screen_of s).

Lemma scores_fs_agree fs1 fs2 : fs_agree fs1 fs2 -> forall p, scores_fs fs1 p = scores_fs fs2 p.
Proof.
  intros H p. unfold scores_fs. apply fs_agree_bind; [|exact H].
  intros s1 s2 Hs. now rewrite !scores_screen_factors, (downstream_frame s1 s2 Hs).
Qed.

Lemma src_cli_calculate_scores_noninterference (Th Dm : Type) fs1 fs2 mk_scorer load_thetas concat_thetas load_dist concat_dist mix a :
  fs_agree fs1 fs2 ->
  SrcCli.src_cli_calculate_scores _ _ _ _ _ _
    (C06SourceCliScores.cs_scores_lib Th Dm (scores_fs fs1) mk_scorer load_thetas concat_thetas load_dist concat_dist) mix a
  = SrcCli.src_cli_calculate_scores _ _ _ _ _ _
    (C06SourceCliScores.cs_scores_lib Th Dm (scores_fs fs2) mk_scorer load_thetas concat_thetas load_dist concat_dist) mix a.
Proof.
  intros H. rewrite !C06SourceCliScores.src_cli_calculate_scores_scores. now rewrite (scores_fs_agree fs1 fs2 H). Qed.

Lemma src_cli_select_next_plate_noninterference fs1 fs2 mk_policy load_scores mix a :
  fs_agree fs1 fs2 ->
  SrcCli.src_cli_select_next_plate _ _ _ _ (C06SourceCliScores.sn_scores_lib (scores_fs fs1) mk_policy load_scores) mix a
  = SrcCli.src_cli_select_next_plate _ _ _ _ (C06SourceCliScores.sn_scores_lib (scores_fs fs2) mk_policy load_scores) mix a.
Proof.
  intros H. rewrite !C06SourceCliScores.src_cli_select_next_plate_scores. now rewrite (scores_fs_agree fs1 fs2 H). Qed.
