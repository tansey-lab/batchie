(* C14, one piece of Proofs/C14SourceHelpers.v (which see): ScreenBase.treatment_arity on a ScreenSubset / Plate object *)
From Coq Require Import ZArith.
From Batchie Require Import Lib.Sexp Model.Screen Model.Views Generated.SrcPlates.
Open Scope Z_scope.

Theorem src_view_treatment_arity_is_model : forall v : view, src_view_treatment_arity v = Ok (Z.of_nat (s_arity (v_parent v))).
Proof. reflexivity. Qed.
