(* C12, clause "revealing refuses plates whose stored values are all zero or contain NaN", read PER PLATE: one named
   plate of the screen that is all zero, or holds a NaN, refuses the whole reveal (the zero guard comes first).  /repo tests
   the zero guard on every selected plate by itself since fix fx5; the code before it (Model/Reveal.reveal_plates_joint)
   revealed an all-zero plate named beside a plate holding a non-zero value: reveal_zero_guard_was_joint, the witness the
   harness keeps as corpus/C12/zero-plate-beside-nonzero.json. *)
From Coq Require Import ZArith List Bool.
From Batchie Require Import Lib.Sexp Model.Screen Model.Reveal Proofs.C03Base Proofs.C03Screen Proofs.C12Reveal Proofs.C03Witness Generated.SrcReveal Proofs.C12Source_Reveal.
Import ListNotations.
Open Scope Z_scope.

Lemma plate_values_incl s ids pid : In pid ids -> incl (plate_values s pid) (revealed_values s ids).
Proof.
  intros Hin x. unfold plate_values, revealed_values, reveal_sel. rewrite !in_map_iff. intros (r & <- & Hr).
  exists r. split; [reflexivity|]. apply In_select_map in Hr. destruct Hr as (p & Hp & E).
  apply Z.eqb_eq in E. subst p. apply In_select_map. exists pid. split; [exact Hp|now apply mem_Z_iff].
Qed.

Lemma revealed_value_named s ids x :
  In x (revealed_values s ids) -> exists pid, In pid ids /\ In x (plate_values s pid).
Proof. intros H. destruct (revealed_value_plate s ids x H) as (pid & Hid & _ & Hx). now exists pid. Qed.

Lemma combine_diag {A} (l : list A) : combine l l = map (fun x => (x, x)) l.
Proof. induction l as [|a l IH]; cbn [combine map]; [reflexivity | now rewrite IH]. Qed.

(* the plates the loop of the repaired code visits: the plates of the screen that the ids name *)
Lemma revealed_plate_ids_spec s ids pid :
  In pid (revealed_plate_ids s ids) <-> In pid (s_pids s) /\ In pid ids.
Proof.
  unfold revealed_plate_ids, reveal_sel. rewrite (sort_uniq_In _ Zcmp_spec), In_select_map, combine_diag. split.
  - intros (p & Hp & Hm). apply in_map_iff in Hp. destruct Hp as (q & E & Hq). apply mem_Z_iff in Hm.
    inversion E; subst. now split.
  - intros [Hp Hi]. exists pid. split; [now apply (in_map (fun x => (x, x)))|now apply mem_Z_iff].
Qed.

(* exactly when the zero guard of the repaired code fires *)
Theorem reveal_zero_guard_spec s ids :
  reveal_zero_guard s ids = true <->
  forallb obs_is_zero (revealed_values s ids) = true \/
  exists pid, In pid ids /\ In pid (s_pids s) /\ forallb obs_is_zero (plate_values s pid) = true.
Proof.
  unfold reveal_zero_guard. rewrite orb_true_iff, existsb_exists. split.
  - intros [H|(pid & Hp & Hz)]; [now left|right]. apply revealed_plate_ids_spec in Hp. exists pid. tauto.
  - intros [H|(pid & H1 & H2 & Hz)]; [now left|right]. exists pid. split; [apply revealed_plate_ids_spec; tauto|exact Hz].
Qed.

(* zero half, per plate, at full strength: ONE named plate of the screen whose stored values are all zero refuses the
   whole reveal, whatever else is named *)
Theorem reveal_refuses_zero_per_plate v s ids pid :
  In pid ids -> In pid (s_pids s) -> forallb obs_is_zero (plate_values s pid) = true -> reveal_plates v s ids = Err 8.
Proof.
  intros H1 H2 Hz. apply reveal_refuses_guard. apply reveal_zero_guard_spec. right. exists pid. tauto.
Qed.

(* NaN half, per plate: ONE named plate containing a NaN refuses the whole reveal (tag 9, or tag 8 when the zero guard,
   which comes first, fires for another named plate) *)
Theorem reveal_refuses_nan_per_plate v s ids pid :
  In pid ids -> existsb obs_is_nan (plate_values s pid) = true ->
  reveal_plates v s ids = Err (if reveal_zero_guard s ids then 8 else 9).
Proof.
  intros Hin H. apply reveal_refuses_nan. apply existsb_exists in H. destruct H as (x & Hx & Hn).
  apply existsb_exists. exists x. split; [now apply (plate_values_incl s ids pid Hin)|exact Hn].
Qed.

(* an accepted reveal: every named plate of the screen holds a non-zero value, and no selected value is a NaN *)
Theorem reveal_ok_per_plate v s ids s' pid :
  reveal_plates v s ids = Ok s' -> In pid ids -> In pid (s_pids s) ->
  forallb obs_is_zero (plate_values s pid) = false /\ existsb obs_is_nan (plate_values s pid) = false.
Proof.
  intros H H1 H2. split.
  - destruct (forallb obs_is_zero (plate_values s pid)) eqn:E; [|reflexivity].
    rewrite (reveal_refuses_zero_per_plate v s ids pid H1 H2 E) in H. discriminate.
  - destruct (existsb obs_is_nan (plate_values s pid)) eqn:E; [|reflexivity].
    rewrite (reveal_refuses_nan_per_plate v s ids pid H1 E) in H. discriminate.
Qed.

(* the code BEFORE fix fx5 (reveal_plates_joint): plate "0" (id 0) holds +0.0 and -0.0, plate "1" holds 0.5 and 0.25, both
   unobserved; the old reveal [0; 1] returned a screen in which the all-zero plate 0 is observed.  The repaired model and
   the translated source refuse it. *)
Definition z_rows : list row :=
  [ {| r_sample := [97]; r_plate := [48]; r_treats := [([120], 1)]; r_obs := 0; r_mask := false |};
    {| r_sample := [97]; r_plate := [48]; r_treats := [([120], 1)]; r_obs := two63; r_mask := false |};
    {| r_sample := [97]; r_plate := [49]; r_treats := [([120], 1)]; r_obs := 4602678819172646912; r_mask := false |};
    {| r_sample := [97]; r_plate := [49]; r_treats := [([120], 1)]; r_obs := 4598175219545276416; r_mask := false |} ].
Definition z_screen : screen := Eval vm_compute in get (mk_screen z_rows 1 [] None None true true).
Definition z_revealed : screen := Eval vm_compute in get (reveal_plates_joint (carry_mappings true) z_screen [0; 1]).

Lemma z_screen_ok : mk_screen z_rows 1 [] None None true true = Ok z_screen.
Proof. vm_compute. reflexivity. Qed.

Theorem reveal_zero_guard_was_joint :
  exists s ids pid s',
    constructed s /\ In pid ids /\ In pid (s_pids s) /\ plate_observed s pid = false /\
    plate_values s pid <> [] /\ forallb obs_is_zero (plate_values s pid) = true /\
    reveal_plates_joint (carry_mappings true) s [pid] = Err 8 /\
    reveal_plates_joint (carry_mappings true) s ids = Ok s' /\ plate_observed s' pid = true /\
    reveal_plates (carry_mappings true) s ids = Err 8 /\ src_reveal_plates s ids = Err 8.
Proof.
  exists z_screen, [0; 1], 0, z_revealed.
  split; [exists z_rows, 1%nat, [], None, None, true, true; exact z_screen_ok|].
  rewrite src_reveal_plates_is_model.
  vm_compute. repeat split; try reflexivity; try (now left); discriminate.
Qed.
