(* C13 / C11, one of the pieces Proofs/C13SourceHelpers.v collects (its header describes the representation and the side conditions): plate.size = plate_size; Plate.__lt__ = the order of pop *)
From Coq Require Import List Arith.
From Batchie Require Import Lib.ListX Lib.Sexp Model.Views Model.Retro Generated.SrcViews Generated.SrcPlates Proofs.C14Defs Proofs.C14Source_ViewSize Proofs.C14SourceHelpers_Base Proofs.C14SourceHelpers_PlateLt Proofs.C13SourceHelpers_Base.
Import ListNotations.
Open Scope nat_scope.

Theorem src_view_size_is_plate_size : forall v : view, screen_wf (v_parent v) -> view_ok v ->
  src_view_size v = Ok (plate_size (v_sel v)).
Proof. intros v Hwf Hok. rewrite src_view_size_is_model. f_equal. now apply view_size_vcount. Qed.

Theorem src_plate_lt_is_vcount_lt : forall a b : view, view_ok a -> view_ok b ->
  src_plate_lt a b = Ok (vcount (v_sel a) <? vcount (v_sel b)).
Proof.
  intros a b Ha Hb. rewrite src_plate_lt_is_model. unfold view_lt, view_size, view_tids.
  now rewrite !vcount_select by assumption.
Qed.

(* what [pop] demands of heapq's answer - `forallb (fun w => vcount v <=? vcount w) heap` - is that no plate of the heap is
   smaller than it in the order Plate.__lt__ defines *)
Theorem pop_minimality_is_plate_lt : forall (v : view) (heap : list view), view_ok v -> Forall view_ok heap ->
  forallb (fun w => vcount (v_sel v) <=? vcount w) (map v_sel heap) = true <->
  (forall w, In w heap -> src_plate_lt w v = Ok false).
Proof.
  intros v heap Hv Hh. rewrite forallb_map, forallb_forall. rewrite Forall_forall in Hh. split.
  - intros H w Hw. rewrite src_plate_lt_is_vcount_lt by auto. specialize (H w Hw). f_equal.
    apply Nat.ltb_ge. now apply Nat.leb_le.
  - intros H w Hw. specialize (H w Hw). rewrite src_plate_lt_is_vcount_lt in H by auto. injection H as H.
    apply Nat.leb_le. now apply Nat.ltb_ge.
Qed.
