(* C14, one piece of Proofs/C14Source.v (conventions and objects: see there): the attribute properties of ScreenSubset *)
From Coq Require Import List.
From Batchie Require Import Lib.Sexp Model.Screen Model.Views Generated.SrcViews Proofs.C14Lists.
Import ListNotations.
Open Scope Z_scope.

(* attribute properties: parent.attr[self.selection_vector] *)
Theorem src_view_attrs_are_model : forall v : view,
  src_view_plate_ids v = Ok (view_pids v) /\
  src_view_sample_ids v = Ok (view_sids v) /\
  src_view_treatment_ids v = Ok (view_tids v) /\
  src_view_sample_names v = Ok (view_sample_names v) /\
  src_view_observations v = Ok (view_obs v) /\
  src_view_observation_mask v = Ok (view_mask v) /\
  (* the two 2-d arrays: the view's (name, dose) pairs, split, with the parent's number of columns *)
  src_view_treatment_names v = Ok (s_arity (v_parent v), map (map fst) (view_treats v)) /\
  src_view_treatment_doses v = Ok (s_arity (v_parent v), map (map snd) (view_treats v)) /\
  (* not row-wise: handed through from the parent *)
  src_view_control_treatment_name v = Ok (s_ctrl (v_parent v)) /\
  src_view_treatment_mapping v = Ok (s_tmap (v_parent v)) /\
  src_view_sample_mapping v = Ok (s_smap (v_parent v)) /\
  src_view_plate_mapping v = Ok (s_pmap (v_parent v)).
Proof.
  intros v. repeat split; try reflexivity.
  - unfold src_view_treatment_names, select2, screen_treatment_names, view_treats. cbn [fst snd view_screen].
    now rewrite <- select_map, map_map.
  - unfold src_view_treatment_doses, select2, screen_treatment_doses, view_treats. cbn [fst snd view_screen].
    now rewrite <- select_map, map_map.
Qed.
