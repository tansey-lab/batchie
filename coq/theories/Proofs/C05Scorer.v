(* C05: np.array_split partitions in order; the scorer's sub-grouping, per-group
   padding, per-group draw and zip-back give every key the direct estimator of its own plate. *)
From Coq Require Import List Qcanon Lia Arith Permutation.
From Batchie Require Import Lib.ListX Model.Dbal Proofs.C05Lse Proofs.C05Kernel.
Import ListNotations.

Lemma concat_take_sizes {A} sizes : forall (l : list A),
  concat (take_sizes l sizes) = firstn (list_sum sizes) l.
Proof.
  induction sizes as [|s r IH]; intros l; cbn [take_sizes concat list_sum]; [reflexivity|].
  rewrite IH. apply firstn_skipn_app.
Qed.

Lemma length_take_sizes {A} sizes : forall (l : list A), length (take_sizes l sizes) = length sizes.
Proof. induction sizes as [|s r IH]; intros l; cbn [take_sizes length]; [reflexivity|now rewrite IH]. Qed.

Lemma list_sum_repeat a n : list_sum (repeat a n) = (n * a)%nat.
Proof.
  induction n as [|n IH]; cbn [repeat]; [reflexivity|].
  change (list_sum (a :: repeat a n)) with (a + list_sum (repeat a n))%nat. rewrite IH. lia.
Qed.

Lemma split_sizes_sum n k : (0 < k)%nat ->
  list_sum (repeat (S (n / k)) (n mod k) ++ repeat (n / k)%nat (k - n mod k)) = n.
Proof.
  intros Hk. rewrite list_sum_app, !list_sum_repeat.
  pose proof (Nat.div_mod n k ltac:(lia)) as Hdm.
  pose proof (Nat.mod_upper_bound n k ltac:(lia)) as Hr.
  set (q := (n / k)%nat) in *. set (r := (n mod k)%nat) in *.
  rewrite Nat.mul_sub_distr_r.
  assert (r * q <= k * q)%nat by (apply Nat.mul_le_mono_r; lia).
  lia.
Qed.

Lemma concat_array_split {A} (l : list A) k : (0 < k)%nat \/ l = [] -> concat (array_split l k) = l.
Proof.
  intros [Hk| ->]; unfold array_split; rewrite concat_take_sizes.
  - rewrite split_sizes_sum by exact Hk. apply firstn_all.
  - apply firstn_nil.
Qed.

Lemma length_array_split {A} (l : list A) k : (0 < k)%nat \/ l = [] -> length (array_split l k) = k.
Proof.
  intros H. unfold array_split. rewrite length_take_sizes, app_length, !repeat_length.
  destruct H as [Hk| ->].
  - pose proof (Nat.mod_upper_bound (length l) k ltac:(lia)). lia.
  - cbn [length]. destruct k as [|k]; [reflexivity|]. rewrite Nat.mod_0_l by lia. lia.
Qed.

Lemma ceil_div_pos n m : (0 < n)%nat -> (0 < m)%nat -> (0 < ceil_div n m)%nat.
Proof.
  intros Hn Hm. unfold ceil_div. apply Nat.div_str_pos. lia.
Qed.

Lemma flat_map_groups {A B C} (f : list A * B -> list C) (F : A -> C) groups : forall draws,
  length draws = length groups ->
  (forall g d, In (g, d) (combine groups draws) -> f (g, d) = map F g) ->
  flat_map f (combine groups draws) = map F (concat groups).
Proof.
  induction groups as [|g groups IH]; intros [|d draws] Hlen Hf; cbn [length] in Hlen; try discriminate.
  - reflexivity.
  - cbn [combine flat_map concat]. rewrite map_app. f_equal.
    + apply Hf. now left.
    + apply IH; [lia|]. intros g' d' Hin. apply Hf. now right.
Qed.

Lemma combine_map_fst_snd {A B C} (g : B -> C) (l : list (A * B)) :
  combine (map fst l) (map g (map snd l)) = map (fun kp => (fst kp, g (snd kp))) l.
Proof. induction l as [|[a b] l IH]; cbn [map combine fst snd]; [reflexivity|now rewrite IH]. Qed.

Theorem direct_perm_triples orc D df ts ts' pl :
  Permutation ts ts' -> direct orc D df ts pl = direct orc D df ts' pl.
Proof. intros HP. unfold direct. apply logsumexp_perm. now apply Permutation_map. Qed.

Theorem scorer_eq_direct orc T mc plates D draws ts0 :
  (0 < T)%nat -> (0 < mc)%nat ->
  Forall (fun kp => plate_wf T (snd kp)) plates ->
  Forall (triple_valid T) ts0 ->
  length draws = ceil_div (length plates) mc ->
  Forall (Permutation ts0) draws ->
  scorer orc mc plates D draws = map (fun kp => (fst kp, direct orc D 1%Qc ts0 (snd kp))) plates.
Proof.
  intros HT Hmc Hwf Hts Hlen Hdraws. unfold scorer.
  set (k := ceil_div (length plates) mc) in *.
  assert (Hk : (0 < k)%nat \/ plates = []).
  { destruct plates as [|kp rest]; [now right|left]. apply ceil_div_pos; cbn [length]; lia. }
  rewrite (flat_map_groups _ (fun kp => (fst kp, direct orc D 1%Qc ts0 (snd kp)))).
  - now rewrite concat_array_split.
  - now rewrite length_array_split.
  - intros g ts Hin. cbn [fst snd].
    assert (Hg : In g (array_split plates k)) by (eapply in_combine_l; eassumption).
    assert (Hd : In ts draws) by (eapply in_combine_r; eassumption).
    rewrite Forall_forall in Hdraws. specialize (Hdraws _ Hd).
    rewrite (hetero_eq_direct orc T).
    + rewrite combine_map_fst_snd. apply map_ext. intros kp. f_equal.
      apply direct_perm_triples. now apply Permutation_sym.
    + exact HT.
    + apply Forall_forall. intros pl Hpl. apply in_map_iff in Hpl as (kp & <- & Hkp).
      rewrite Forall_forall in Hwf. apply Hwf.
      rewrite <- (concat_array_split plates k Hk). apply in_concat. now exists g.
    + apply Forall_forall. intros t Ht. rewrite Forall_forall in Hts. apply Hts.
      eapply Permutation_in; [apply Permutation_sym|]; eassumption.
Qed.

Lemma assoc_unique {A B} (l : list (A * B)) k a b :
  NoDup (map fst l) -> In (k, a) l -> In (k, b) l -> a = b.
Proof.
  induction l as [|[k' c] l IH]; cbn [map fst]; intros Hnd Ha Hb; [contradiction|].
  inversion Hnd as [|? ? Hnot Hnd']; subst.
  destruct Ha as [Ha|Ha], Hb as [Hb|Hb].
  - congruence.
  - inversion Ha; subst. exfalso. apply Hnot. apply in_map_iff. now exists (k, b).
  - inversion Hb; subst. exfalso. apply Hnot. apply in_map_iff. now exists (k, a).
  - now apply IH.
Qed.

(* the same plate under the same key in two different scorer calls gets the same score *)
Theorem scorer_alone orc T D ts0 mc1 plates1 draws1 mc2 plates2 draws2 k pl s1 s2 :
  (0 < T)%nat -> Forall (triple_valid T) ts0 ->
  (0 < mc1)%nat -> Forall (fun kp => plate_wf T (snd kp)) plates1 ->
  length draws1 = ceil_div (length plates1) mc1 -> Forall (Permutation ts0) draws1 ->
  (0 < mc2)%nat -> Forall (fun kp => plate_wf T (snd kp)) plates2 ->
  length draws2 = ceil_div (length plates2) mc2 -> Forall (Permutation ts0) draws2 ->
  NoDup (map fst plates1) -> NoDup (map fst plates2) ->
  In (k, pl) plates1 -> In (k, pl) plates2 ->
  In (k, s1) (scorer orc mc1 plates1 D draws1) -> In (k, s2) (scorer orc mc2 plates2 D draws2) ->
  s1 = s2.
Proof.
  intros HT Hts Hmc1 Hwf1 Hl1 Hd1 Hmc2 Hwf2 Hl2 Hd2 Hnd1 Hnd2 Hin1 Hin2 Hs1 Hs2.
  rewrite (scorer_eq_direct orc T mc1 plates1 D draws1 ts0) in Hs1 by assumption.
  rewrite (scorer_eq_direct orc T mc2 plates2 D draws2 ts0) in Hs2 by assumption.
  apply in_map_iff in Hs1 as ([k1 p1] & Heq1 & Hp1). apply in_map_iff in Hs2 as ([k2 p2] & Heq2 & Hp2).
  cbn [fst snd] in Heq1, Heq2. inversion Heq1; subst. inversion Heq2; subst.
  rewrite (assoc_unique _ _ _ _ Hnd1 Hp1 Hin1), (assoc_unique _ _ _ _ Hnd2 Hp2 Hin2). reflexivity.
Qed.
