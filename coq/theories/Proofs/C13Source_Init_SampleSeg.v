(* C13: SampleSegregatingPermutationPlateGenerator.__init__ (Generated/SrcInits.v) stores what it is constructed with - max_plate_size *)
From Coq Require Import ZArith.
From Batchie Require Import Lib.Sexp Generated.SrcInits.
Open Scope Z_scope.

Theorem src_sample_seg_init_stores : forall max_plate_size : Z, src_sample_seg_init max_plate_size = Ok max_plate_size.
Proof. reflexivity. Qed.
