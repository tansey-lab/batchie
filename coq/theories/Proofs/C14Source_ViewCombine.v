(* C14, one piece of Proofs/C14Source.v (conventions and objects: see there): ScreenSubset.combine *)
From Coq Require Import ZArith List.
From Batchie Require Import Model.Views Generated.SrcViews
  Proofs.PyRtLemmas Proofs.C14Source_ViewInit.
Import ListNotations.
Open Scope Z_scope.

(* `other.screen is not self.screen` is the comparison of the parents' identity tags *)
Theorem src_view_combine_is_model : forall a b : view, src_view_combine a b = view_combine a b.
Proof.
  intros a b. unfold src_view_combine, view_combine, same_object, view_screen. cbn [fst].
  destruct (negb (v_tag b =? v_tag a)); [reflexivity|].
  rewrite src_view_init_is_model, res_bind_ret. reflexivity.
Qed.
