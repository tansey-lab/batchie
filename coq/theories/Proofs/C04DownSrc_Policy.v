(* C04 downstream, source level: selection with KPerSamplePlatePolicy (C16's translation of select_next_plate).
   See Proofs/C04DownSrc.v. *)
From Coq Require Import ZArith List.
From Batchie Require Import Lib.Sexp Model.Train Model.Downstream Proofs.C04Train Proofs.C04Down.
From Batchie Require Model.Scores Model.Policy Generated.SrcScoringPolicy Proofs.C16SourceSelect.
Open Scope Z_scope.

(* a Plate is (id, sample ids of its rows), is_observed the conjunction of its rows' mask bits; the policy's method is
   C16's filter_eligible = the translated filter_eligible_plates *)
Definition observed_in (sp : list Policy.splate) (p : Policy.plate) : bool :=
  match find (fun q => Policy.plate_id (fst q) =? Policy.plate_id p) sp with
  | Some q => snd q
  | None => false
  end.

Definition src_stage_select_k (k : Z) (h : Scores.holder) (rows : list trow) (batch : list Z) (rng : option Policy.rng_t)
  : result (option Z) :=
  let sp := policy_plates_of rows in
  dor r <- SrcScoringPolicy.src_select_next_plate_k (observed_in sp) (Scores.h_slots h) (map fst sp) (Some k) (Some batch) rng;
  Ok (option_map Policy.plate_id r).

Lemma src_stage_select_k_noninterference k h s1 s2 batch rng : same_except_masked s1 s2 ->
  src_stage_select_k k h s1 batch rng = src_stage_select_k k h s2 batch rng.
Proof. intros H. unfold src_stage_select_k. now rewrite !policy_plates_factors, (downstream_frame s1 s2 H). Qed.

