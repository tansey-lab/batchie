(* C13: NPlatePerCellLineSmoother.__init__ (Generated/SrcInits.v) stores what it is constructed with - min_n_cell_line_plates *)
From Coq Require Import ZArith.
From Batchie Require Import Lib.Sexp Generated.SrcInits.
Open Scope Z_scope.

Theorem src_nplate_init_stores : forall m : Z, src_nplate_init m = Ok m.
Proof. reflexivity. Qed.
