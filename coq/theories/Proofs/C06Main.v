(* C06: the results of C06Split / C06Rows / C06Select with their predicates unfolded, as Props/C06.v states them. *)
From Coq Require Import ZArith List Sorted Permutation.
From Batchie Require Import Lib.Sexp Model.Scores Proofs.C06Split Proofs.C06Rows Proofs.C06Select.
Import ListNotations.
Open Scope Z_scope.

Lemma array_split_sizes_all {A} (l : list A) (n : nat) : (0 < n)%nat ->
  length (array_split l n) = n /\
  forall k, (k < n)%nat ->
    length (nth k (array_split l n) []) = (length l / n + (if k <? length l mod n then 1 else 0))%nat.
Proof. intros Hn. split; [apply array_split_length|]. intros k Hk. now apply array_split_sizes. Qed.

Definition is_candidate (s : screen) (batch : list Z) (pid : Z) : Prop :=
  In pid (map r_plate s) /\ (exists r, In r s /\ r_plate r = pid /\ r_obs r = false) /\ ~ In pid batch.

Lemma chunks_cover_once s batch (n : nat) :
  (0 < n)%nat -> batch_valid s batch ->
  exists pss,
    res_map_all (score_chunk s batch (Z.of_nat n)) (map Z.of_nat (seq 0 n)) = Ok pss /\
    NoDup (map fst (concat pss)) /\
    forall pid, In pid (map fst (concat pss)) <-> is_candidate s batch pid.
Proof.
  intros Hn Hb. destruct (chunks_partition s batch n Hn Hb) as (pss & E & _ & Hids).
  exists pss. split; [exact E|]. rewrite Hids.
  split; [apply candidates_NoDup_ids|apply candidates_spec].
Qed.

Lemma unconditioned_rows s n k ps pid rows :
  score_chunk s [] n k = Ok ps -> In (pid, rows) ps ->
  rows = sub_rows s (Z.eqb pid) /\
  (forall i r, In (i, r) rows <-> nth_error s i = Some r /\ r_plate r = pid) /\
  StronglySorted lt (map fst rows).
Proof.
  intros E Hin. destruct (handed_rows _ _ _ _ _ _ _ E Hin) as [_ ->].
  split; [reflexivity|]. split; [|apply sub_rows_positions_ascending].
  intros i r. rewrite sub_rows_In, Z.eqb_eq. intuition congruence.
Qed.

Lemma conditioned_rows s batch n k ps pid rows :
  batch <> [] -> score_chunk s batch n k = Ok ps -> In (pid, rows) ps ->
  let union := union_rows s batch pid in
  rows = uniq_first [] union /\
  (forall i r, In (i, r) union <-> nth_error s i = Some r /\ (r_plate r = pid \/ In (r_plate r) batch)) /\
  StronglySorted lt (map fst union) /\
  NoDup (map row_key rows) /\
  (forall key, In key (map row_key rows) <-> In key (map row_key union)) /\
  (forall x, In x rows -> In x union).
Proof.
  intros Hne E Hin. destruct (handed_rows _ _ _ _ _ _ _ E Hin) as [_ Hrows].
  destruct batch as [|b0 b']; [congruence|]. subst rows. cbv zeta. unfold conditioned.
  split; [reflexivity|]. split; [apply union_rows_In|]. split; [apply sub_rows_positions_ascending|].
  split; [apply uniq_first_NoDup|]. split; [apply uniq_first_keys|apply uniq_first_incl].
Qed.

Lemma conditioned_first_occurrence s batch pid pre x post :
  union_rows s batch pid = pre ++ x :: post ->
  (In x (conditioned s batch pid) <-> ~ In (row_key x) (map row_key pre)).
Proof.
  intros E. unfold conditioned. rewrite E. apply uniq_first_first_occurrence. rewrite <- E. apply sub_rows_NoDup.
Qed.

(* what [select_post] says of the answer, with "is a candidate" spelled out *)
Definition selected_ok (scorer : scorer_t) (policy : option policy_t) (s : screen) (batch : list Z) (r : option Z) : Prop :=
  match r with
  | None => eligible_plates policy s batch = []
  | Some pid =>
      is_candidate s batch pid /\
      In pid (map p_id (eligible_plates policy s batch)) /\
      forall q, In q (eligible_plates policy s batch) ->
        plate_score scorer s batch pid <= plate_score scorer s batch (p_id q)
  end.

Lemma selected_ok_of_post scorer policy s batch (x : result (option Z)) :
  (exists r, x = Ok r /\ select_post scorer policy s batch r) ->
  exists r, x = Ok r /\ selected_ok scorer policy s batch r.
Proof.
  intros (r & E & Hp). exists r. split; [exact E|]. destruct r as [pid|]; [|exact Hp].
  destruct Hp as (Hc & He & Hmin). split; [|now split]. now apply candidates_spec.
Qed.

Lemma select_sound_rows scorer policy s batch n order :
  (forall f, policy = Some f -> forall b c, incl (f b c) c) ->
  1 <= n -> batch_valid s batch ->
  (forall k, 0 <= k < n -> In k order) -> (forall k, In k order -> 0 <= k < n) ->
  exists r, pipeline scorer policy s batch n order = Ok r /\ selected_ok scorer policy s batch r.
Proof. intros H1 H2 H3 H4 H5. now apply selected_ok_of_post, select_sound. Qed.

Lemma select_sound_perm_rows scorer policy s batch (n : nat) order :
  (forall f, policy = Some f -> forall b c, incl (f b c) c) ->
  (0 < n)%nat -> batch_valid s batch ->
  Permutation order (map Z.of_nat (seq 0 n)) ->
  exists r, pipeline scorer policy s batch (Z.of_nat n) order = Ok r /\ selected_ok scorer policy s batch r.
Proof. intros Hpol Hn Hb Hperm. now apply selected_ok_of_post, select_sound_perm. Qed.

(* no policy: None iff there is no candidate at all *)
Lemma none_iff_no_policy scorer s batch n order :
  1 <= n -> batch_valid s batch ->
  (forall k, 0 <= k < n -> In k order) -> (forall k, In k order -> 0 <= k < n) ->
  (pipeline scorer None s batch n order = Ok None <-> forall pid, ~ is_candidate s batch pid).
Proof.
  intros H2 H3 H4 H5.
  rewrite (none_iff scorer None s batch n order ltac:(discriminate) H2 H3 H4 H5).
  unfold eligible_plates. split.
  - intros E pid Hc. apply candidates_spec in Hc. rewrite E in Hc. contradiction.
  - intros H. destruct (candidates s batch) as [|p l] eqn:E; [reflexivity|].
    exfalso. apply (H (p_id p)). apply candidates_spec. rewrite E. now left.
Qed.
