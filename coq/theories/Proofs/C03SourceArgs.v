(* The argument-handling glue of prepare_retrospective_simulation: the statements of get_args() after parser.parse_args()
   (three class-valued options, each cast with the annotations of ITS OWN class), and main() as a whole command.  The
   hand-written models Cli.pr_get_args / cli_prepare_cmd equal the translations of the functions of /repo, regenerated on
   every run (Generated/SrcCliArgs.v, configurations ARGS_GET_ARGS_PR / ARGS_CMD_PR of harness/src_functions.py), for every
   introspection record, every record of string primitives, all constructors and library records, and all raw namespaces. *)
From Coq Require Import ZArith List.
From Batchie Require Import Lib.Sexp Lib.PyRt Model.Cli Generated.SrcCliArgs Proofs.PyRtLemmas
  Proofs.C03SourceCli Proofs.C18SourceArgs_Cast Proofs.C18SourceIntrospect.
Import ListNotations.
Open Scope Z_scope.

(* One class-valued option of get_args(), for whichever of the three fields [get] / [set] address: the translated
   statements are the model's [pr_resolve_opt] on that field, stored back. *)
Lemma pr_opt_block {Cls F O : Type} (I : introspect Cls) (P : pyprims F O) (base : base_class) (name : option cname)
    (get : pr_ns Cls F O -> pr_opt Cls F O) (set : pr_ns Cls F O -> pr_opt Cls F O -> pr_ns Cls F O) (a : pr_ns Cls F O) :
  (forall b, set b (get b) = b) -> (forall b o, get (set b o) = o) -> (forall b o o', set (set b o) o' = set b o') ->
  (if is_some name then
     dor u <- unwrap name;
     dor r <- i_get_class I s_batchie u base;
     dor req <- i_required I (po_cls (get (set a (po_set_cls (get a) r))));
     dor a' <- (if negb (opt_list_truthy (po_param (get (set a (po_set_cls (get a) r)))))
                then Ok (set (set a (po_set_cls (get a) r)) (po_set_params (get (set a (po_set_cls (get a) r))) []))
                else dor u' <- unwrap (po_param (get (set a (po_set_cls (get a) r))));
                     dor r' <- src_cast_dict_to_type F O P u' req;
                     Ok (set (set a (po_set_cls (get a) r)) (po_set_params (get (set a (po_set_cls (get a) r))) r')));
     Ok a'
   else Ok a)
  = dor o <- pr_resolve_opt I P base name (get a); Ok (set a o).
Proof.
  intros Hid Hget Hset. destruct name as [n|]; cbn [is_some unwrap res_bind pr_resolve_opt]; [|now rewrite Hid].
  unfold resolve.
  destruct (i_get_class I s_batchie n base) as [c|e]; cbn [res_bind]; [|reflexivity].
  rewrite !Hget, !Hset. cbn [po_set_cls po_cls po_param].
  destruct (i_required I c) as [req|e]; cbn [res_bind]; [|reflexivity].
  rewrite res_bind_ret.
  destruct (po_param (get a)) as [[|x l]|]; cbn [opt_list_truthy negb unwrap res_bind cast_params]; try reflexivity.
  rewrite src_cast_dict_is_model. destruct (cast_dict P (x :: l) req); cbn [res_bind fst snd]; [|reflexivity].
  now rewrite Hset.
Qed.

Theorem src_pr_get_args_is_model : forall (Cls F O : Type) (I : introspect Cls) (P : pyprims F O) (raw : pr_ns Cls F O),
  src_pr_get_args Cls F O I P raw = pr_get_args I P raw.
Proof.
  intros. unfold src_pr_get_args, pr_get_args. cbv zeta.
  rewrite (pr_opt_block I P BPlateGenerator _ (@pr_pg _ _ _) (@pr_set_pg _ _ _) raw) by (try intros []; reflexivity).
  destruct (pr_resolve_opt I P BPlateGenerator _ (pr_pg raw)) as [g|e]; cbn [res_bind]; [|reflexivity].
  rewrite (pr_opt_block I P BInitialPlateGenerator _ (@pr_ig _ _ _) (@pr_set_ig _ _ _)) by (try intros []; reflexivity).
  cbn [pr_set_pg pr_ig pr_plain].
  destruct (pr_resolve_opt I P BInitialPlateGenerator _ (pr_ig raw)) as [i|e]; cbn [res_bind]; [|reflexivity].
  rewrite (pr_opt_block I P BPlateSmoother _ (@pr_ps _ _ _) (@pr_set_ps _ _ _)) by (try intros []; reflexivity).
  cbn [pr_set_pg pr_set_ig pr_ps pr_plain].
  destruct (pr_resolve_opt I P BPlateSmoother _ (pr_ps raw)) as [s|e]; reflexivity.
Qed.

Theorem src_cli_prepare_cmd_is_model :
  forall (Cls F O : Type) (I : introspect Cls) (P : pyprims F O) (Scr Pl Ig Pg Ps : Type)
         (construct_ig : Cls -> list (str * pval F O) -> result Ig) (construct_pg : Cls -> list (str * pval F O) -> result Pg)
         (construct_ps : Cls -> list (str * pval F O) -> result Ps) (L : pr_lib Scr Pl Ig Pg Ps) (mix : Z -> Z)
         (raw : pr_ns Cls F O),
  src_cli_prepare_cmd Cls F O I P Scr Pl Ig Pg Ps construct_ig construct_pg construct_ps L mix raw
  = cli_prepare_cmd I P construct_ig construct_pg construct_ps L mix raw.
Proof.
  intros. unfold src_cli_prepare_cmd, cli_prepare_cmd. cbv zeta.
  rewrite src_pr_get_args_is_model.
  destruct (pr_get_args I P raw) as [a|e]; cbn [res_bind]; [|reflexivity].
  rewrite <- C03SourceCli.src_cli_prepare_is_model. reflexivity.
Qed.

Theorem src_cli_prepare_cmd_world :
  forall (Mod Obj F O : Type) (W : pyworld Mod Obj) (P : pyprims F O) (Scr Pl Ig Pg Ps : Type)
         (construct_ig : Obj -> list (str * pval F O) -> result Ig) (construct_pg : Obj -> list (str * pval F O) -> result Pg)
         (construct_ps : Obj -> list (str * pval F O) -> result Ps) (L : pr_lib Scr Pl Ig Pg Ps) (mix : Z -> Z)
         (raw : pr_ns Obj F O),
  src_cli_prepare_cmd Obj F O (introspect_src W) P Scr Pl Ig Pg Ps construct_ig construct_pg construct_ps L mix raw
  = cli_prepare_cmd (introspect_of W) P construct_ig construct_pg construct_ps L mix raw.
Proof.
  intros. rewrite src_cli_prepare_cmd_is_model.
  unfold cli_prepare_cmd, pr_get_args, pr_resolve_opt.
  destruct (pr_plate_generator (pr_plain raw)), (pr_initial_plate_generator (pr_plain raw)), (pr_plate_smoother (pr_plain raw));
    now rewrite ?resolve_src.
Qed.

(* the translated get_args() leaves every plain argument as parse_args produced it: in particular --holdout-fraction reaches
   the hold-out split unchanged (it is not rescaled, clipped or re-read as a percentage) *)
Theorem src_pr_get_args_plain : forall (Cls F O : Type) (I : introspect Cls) (P : pyprims F O) (raw a : pr_ns Cls F O),
  src_pr_get_args Cls F O I P raw = Ok a -> pr_plain a = pr_plain raw.
Proof.
  intros Cls F O I P raw a. rewrite src_pr_get_args_is_model. unfold pr_get_args.
  destruct (pr_resolve_opt I P BPlateGenerator _ _); cbn [res_bind]; [|discriminate].
  destruct (pr_resolve_opt I P BInitialPlateGenerator _ _); cbn [res_bind]; [|discriminate].
  destruct (pr_resolve_opt I P BPlateSmoother _ _); cbn [res_bind]; [|discriminate].
  intros H. injection H as <-. reflexivity.
Qed.

Theorem src_pr_get_args_holdout : forall (Cls F O : Type) (I : introspect Cls) (P : pyprims F O) (raw a : pr_ns Cls F O),
  src_pr_get_args Cls F O I P raw = Ok a ->
  pr_holdout_fraction (pr_plain a) = pr_holdout_fraction (pr_plain raw).
Proof. intros Cls F O I P raw a H. now rewrite (src_pr_get_args_plain Cls F O I P raw a H). Qed.
