(* C13: MergeMin - merges stay within a sample and the loop stops exactly when the two smallest
   plates of the sample together exceed min_size. *)
From Coq Require Import ZArith List Lia Permutation.
From Batchie Require Import Lib.Sexp Proofs.PyRtLemmas Model.Encode Model.Screen Model.Retro Proofs.C11Lib Proofs.C11Smooth Proofs.C11Select Proofs.C11Holdout Proofs.C13NPlate Proofs.C13MergeLib.
Import ListNotations.
Open Scope nat_scope.

(* the stop condition for sample s: any two distinct plates of s together exceed min_size
   (equivalently: the two smallest do) *)
Definition stop_rule (s : name) (ms : Z) (rows : list row) : Prop :=
  forall p q, In p (sample_plates s rows) -> In q (sample_plates s rows) -> p <> q ->
    (ms < Z.of_nat (plate_count p rows + plate_count q rows))%Z.

(* the plates of sample s are untouched between rows and rows' *)
Definition keeps_sample (s : name) (rows rows' : list row) : Prop :=
  sample_plates s rows' = sample_plates s rows /\
  forall c, In c (sample_plates s rows) -> plate_vec c rows' = plate_vec c rows.

Lemma vcount_plate_vec : forall p rows, vcount (plate_vec p rows) = plate_count p rows.
Proof. intros. unfold plate_vec, plate_count. apply vcount_map. Qed.

Lemma keeps_refl : forall s rows, keeps_sample s rows rows.
Proof. intros. split; auto. Qed.
Lemma keeps_trans : forall s r1 r2 r3, keeps_sample s r1 r2 -> keeps_sample s r2 r3 -> keeps_sample s r1 r3.
Proof.
  intros s r1 r2 r3 [A1 A2] [B1 B2]. split; [congruence|].
  intros c Hc. rewrite B2 by (rewrite A1; exact Hc). now apply A2.
Qed.
Lemma keeps_stop : forall s ms rows rows', keeps_sample s rows rows' -> stop_rule s ms rows -> stop_rule s ms rows'.
Proof.
  intros s ms rows rows' [K1 K2] H p q Hp Hq Hne. rewrite K1 in Hp, Hq.
  rewrite <- !vcount_plate_vec, (K2 p Hp), (K2 q Hq), !vcount_plate_vec. now apply H.
Qed.

Lemma plates_disjoint : forall rows s s' c, one_sample rows -> s' <> s ->
  In c (sample_plates s' rows) -> ~ In c (sample_plates s rows).
Proof.
  intros rows s s' c Hone Hne H1 H2. apply In_sample_plates in H1 as (r1 & Hr1 & Hs1 & Hp1).
  apply In_sample_plates in H2 as (r2 & Hr2 & Hs2 & Hp2). apply Hne.
  rewrite <- Hs1, <- Hs2. apply Hone; congruence.
Qed.

Lemma remove_nth_NoDup : forall i (l : list name) x, NoDup l -> nth_error l i = Some x ->
  NoDup (remove_nth i l) /\ forall q, In q (remove_nth i l) <-> In q l /\ q <> x.
Proof.
  intros i l. revert i. induction l as [|y l IH]; intros [|i] x Hnd H; cbn in H; try discriminate;
    inversion Hnd as [|? ? Hn Hd]; subst; cbn [remove_nth].
  - inversion H; subst. split; [exact Hd|]. intros q. cbn [In]. split.
    + intros Hq. split; [now right|]. intros ->. contradiction.
    + intros [[->|Hq] Hne]; [congruence|exact Hq].
  - destruct (IH i x Hd H) as [I1 I2]. split.
    + constructor; [|exact I1]. intros Hin. apply I2 in Hin. tauto.
    + intros q. cbn [In]. rewrite I2. split.
      * intros [->|[Hq Hne]]; [|tauto]. split; [now left|]. intros ->. apply Hn. eapply nth_error_In; exact H.
      * intros [[->|Hq] Hne]; tauto.
Qed.

Lemma pop_names (f : name -> bvec) : forall names ds v h ds',
  pop (map f names) ds = Ok (v, h, ds') ->
  exists i p, nth_error names i = Some p /\ v = f p /\ h = map f (remove_nth i names) /\
              forall q, In q names -> vcount (f p) <= vcount (f q).
Proof.
  intros names ds v h ds' H. apply pop_ok in H as (i & _ & Hn & -> & Hall).
  rewrite nth_error_map in Hn. destruct (nth_error names i) as [p|] eqn:E; [|discriminate].
  cbn in Hn. inversion Hn; subst v. exists i, p. repeat split; auto using remove_nth_map.
  intros q Hq. rewrite forallb_forall in Hall. apply Nat.leb_le. apply Hall. now apply in_map.
Qed.

(* two pops take out two distinct plates that together are no bigger than any other two *)
Lemma pop2_names (f : name -> bvec) : forall names ds a h1 ds1 b h2 ds2,
  NoDup names -> pop (map f names) ds = Ok (a, h1, ds1) -> pop h1 ds1 = Ok (b, h2, ds2) ->
  exists pa pb names2, a = f pa /\ b = f pb /\ h2 = map f names2 /\ In pa names /\ In pb names /\ pa <> pb /\
    NoDup names2 /\ (forall c, In c names2 <-> In c names /\ c <> pa /\ c <> pb) /\
    length names = S (S (length names2)) /\
    forall p q, In p names -> In q names -> p <> q -> vcount (f pa) + vcount (f pb) <= vcount (f p) + vcount (f q).
Proof.
  intros names ds a h1 ds1 b h2 ds2 Hnd P1 P2.
  apply pop_names in P1 as (i & pa & Hi & -> & -> & Hmin1). apply pop_names in P2 as (j & pb & Hj & -> & -> & Hmin2).
  destruct (remove_nth_NoDup i names pa Hnd Hi) as [Hnd1 Hmem1]. destruct (remove_nth_NoDup j _ pb Hnd1 Hj) as [Hnd2 Hmem2].
  assert (Hpb : In pb names /\ pb <> pa) by (apply Hmem1; eapply nth_error_In; exact Hj).
  exists pa, pb, (remove_nth j (remove_nth i names)).
  split; [reflexivity|]. split; [reflexivity|]. split; [reflexivity|].
  split; [eapply nth_error_In; exact Hi|]. split; [tauto|]. split; [intros E; symmetry in E; tauto|].
  split; [exact Hnd2|]. split; [intros c; rewrite Hmem2, Hmem1; tauto|]. split.
  - rewrite (remove_nth_length i names pa Hi), (remove_nth_length j _ pb Hj). reflexivity.
  - intros p q Hp Hq Hpq. destruct (list_eq_dec Z.eq_dec q pa) as [->|Hq'].
    + pose proof (Hmin2 p (proj2 (Hmem1 p) (conj Hp Hpq))). pose proof (Hmin1 pa Hq). lia.
    + pose proof (Hmin2 q (proj2 (Hmem1 q) (conj Hq Hq'))). pose proof (Hmin1 p Hp). lia.
Qed.

Section Loop.
Variables (s : name) (ms : Z).

Definition heap_inv (names : list name) (heap : list bvec) (rows : list row) : Prop :=
  heap = map (fun p => plate_vec p rows) names /\ NoDup names /\
  (forall p, In p names <-> In p (sample_plates s rows)) /\ one_sample rows.

Lemma stop_rule_few : forall (names : list name) rows, length names <= 1 ->
  (forall p, In p (sample_plates s rows) -> In p names) -> stop_rule s ms rows.
Proof.
  intros names rows Hl Hmem p q Hp Hq Hne. apply Hmem in Hp, Hq. exfalso.
  destruct names as [|x [|y l]]; cbn [length In] in *; [contradiction|intuition congruence|lia].
Qed.

Lemma mm_loop_spec : forall fuel names heap rows ds rows' ds',
  mm_loop fuel ms heap rows ds = Ok (rows', ds') ->
  heap_inv names heap rows -> length heap <= fuel ->
  stop_rule s ms rows' /\ one_sample rows' /\
  (forall s', s' <> s -> keeps_sample s' rows rows') /\
  (stop_rule s ms rows -> rows' = rows).
Proof.
  induction fuel as [|f IH]; intros names heap rows ds rows' ds' H (Hh & Hnd & Hmem & Hone) Hlen;
    cbn [mm_loop] in H.
  - inversion H; subst rows' ds'. repeat split; auto using keeps_refl.
    apply (stop_rule_few names); [rewrite Hh, map_length in Hlen; lia|apply Hmem].
  - destruct (length heap <=? 1) eqn:El.
    + apply Nat.leb_le in El. inversion H; subst rows' ds'. repeat split; auto using keeps_refl.
      apply (stop_rule_few names); [rewrite Hh, map_length in El; exact El|apply Hmem].
    + subst heap. set (fr := fun p => plate_vec p rows) in *.
      apply res_bind_inv in H as ([[a h1] ds1] & P1 & H); cbn beta iota in H.
      apply res_bind_inv in H as ([[b h2] ds2] & P2 & H); cbn beta iota in H.
      destruct (pop2_names fr _ _ _ _ _ _ _ _ Hnd P1 P2)
        as (pa & pb & names2 & -> & -> & -> & Hpa & Hpb & Hne & Hnd2 & Hn2 & Hlen2 & Hmin).
      unfold fr in H, Hmin. rewrite !vcount_plate_vec in H.
      assert (Sa : In pa (sample_plates s rows)) by now apply Hmem.
      assert (Sb : In pb (sample_plates s rows)) by now apply Hmem.
      destruct (Z.of_nat (plate_count pa rows + plate_count pb rows) >? ms)%Z eqn:Eg.
      * apply Z.gtb_lt in Eg. inversion H; subst rows' ds'. repeat split; auto using keeps_refl.
        intros p q Hp Hq Hpq. apply Hmem in Hp, Hq. specialize (Hmin p q Hp Hq Hpq).
        rewrite !vcount_plate_vec in Hmin. lia.
      * rewrite merge_exact in H.
        pose proof (eff_nm s pb pa rows Sb) as Hnm.
        pose proof (eff_plates s pb pa rows Hone Sb Sa) as Hpl.
        pose proof (eff_other_vec s pb pa rows Sb) as Hov.
        pose proof (eff_merged_vec s pb pa rows Sb) as Hmv.
        set (rows1 := merge_names pb pa rows) in *. set (nm := first_plate pb pa rows) in *.
        assert (Hinv : heap_inv (names2 ++ [nm]) (map fr names2 ++ [map (in_ab pb pa) rows]) rows1).
        { split; [|split; [|split]].
          - rewrite map_app. cbn [map]. rewrite Hmv. f_equal. apply map_ext_in. intros c Hc.
            apply Hn2 in Hc. symmetry. apply Hov; tauto.
          - eapply Permutation_NoDup; [apply Permutation_cons_append|]. constructor; [|exact Hnd2].
            intros Hin. apply Hn2 in Hin. destruct Hnm as [E|E]; rewrite E in Hin; tauto.
          - intros p. rewrite in_app_iff, Hn2, Hpl, <- Hmem. cbn [In].
            assert (Hnm' : In nm names) by (destruct Hnm as [->| ->]; assumption). split.
            + intros [(H1 & H2 & H3)|[<-|[]]]; [split; [exact H1|right; split; assumption]|split; [exact Hnm'|now left]].
            + intros [H1 [->|[H2 H3]]]; [right; now left|left; repeat split; assumption].
          - exact (eff_one_sample s pb pa rows Hone Sb Sa). }
        apply (IH (names2 ++ [nm])) in H; [|exact Hinv|].
        -- destruct H as (R1 & R2 & R3 & R4). split; [exact R1|]. split; [exact R2|]. split.
           ++ intros s' Hs'. eapply keeps_trans; [|apply R3; exact Hs'].
              split; [now apply (eff_other_samples s pb pa rows Hone Sb Sa)|].
              intros c Hc. apply Hov; intros ->; eapply (plates_disjoint rows s s'); eauto.
           ++ intros Hstop. exfalso. specialize (Hstop pa pb Sa Sb Hne).
              rewrite Z.gtb_ltb in Eg. apply Z.ltb_ge in Eg. lia.
        -- rewrite app_length, !map_length in *. cbn [length]. lia.
Qed.
End Loop.

Lemma mm_samples_spec : forall ms samples rows ds out ds',
  mm_samples ms samples rows ds = Ok (out, ds') -> NoDup samples ->
  (forall s, In s samples -> stop_rule s ms out) /\
  (forall s', ~ In s' samples \/ stop_rule s' ms rows -> keeps_sample s' rows out) /\
  ((forall s, In s samples -> stop_rule s ms rows) -> out = rows) /\
  (samples <> [] -> one_sample out).
Proof.
  intros ms samples. induction samples as [|s samples IH]; intros rows ds out ds' H Hnd; cbn [mm_samples] in H.
  - inversion H; subst. split; [intros s []|]. split; [intros; apply keeps_refl|]. split; [reflexivity|congruence].
  - inversion Hnd as [|? ? Hn Hd]; subst.
    apply res_bind_inv in H as (ps & Ep & H); cbn beta iota in H.
    destruct (plates_of_sample_spec _ _ _ Ep) as (Hone & Hndp & Hmem).
    apply res_bind_inv in H as ([rows1 ds1] & El & H); cbn beta iota in H.
    apply (mm_loop_spec s ms _ ps) in El as (L1 & L2 & L3 & L4); [|repeat split; auto; apply Hmem|lia].
    destruct (IH _ _ _ _ H Hd) as (I1 & I2 & I3 & I4). split; [|split; [|split]].
    + intros s0 [<-|Hs0]; [|now apply I1]. eapply keeps_stop; [apply I2; now left|exact L1].
    + intros s' Hs'. destruct (list_eq_dec Z.eq_dec s' s) as [->|Hne].
      * destruct Hs' as [Hs'|Hs']; [exfalso; apply Hs'; now left|].
        rewrite (L4 Hs') in *. apply I2. now right.
      * eapply keeps_trans; [apply L3; exact Hne|]. apply I2.
        destruct Hs' as [Hs'|Hs']; [left; intros Hin; apply Hs'; now right|right].
        eapply keeps_stop; [apply L3; exact Hne|exact Hs'].
    + intros Hall. assert (rows1 = rows) by (apply L4, Hall; now left). subst rows1.
      apply I3. intros s0 Hs0. apply Hall. now right.
    + intros _. destruct samples as [|s2 l]; [|apply I4; discriminate].
      cbn [mm_samples] in H. inversion H; subst. exact L2.
Qed.

Lemma sample_names_of_strip : forall a b, map strip a = map strip b -> sample_names a = sample_names b.
Proof.
  intros a b H. unfold sample_names. f_equal.
  transitivity (map (fun x => fst (fst (fst x))) (map strip a)); [now rewrite map_map|].
  rewrite H. now rewrite map_map.
Qed.

Theorem merge_min_stop : forall ms rows ds out ds',
  merge_min ms rows ds = Ok (out, ds') ->
  one_sample out /\ (forall s, stop_rule s ms out) /\ ((forall s, stop_rule s ms rows) -> out = rows).
Proof.
  intros ms rows ds out ds' H. pose proof (merge_min_strip _ _ _ _ _ H) as Hstrip.
  unfold merge_min in H. destruct (mm_samples_spec _ _ _ _ _ _ H (NoDup_sort_uniq _)) as (S1 & S2 & S3 & S4).
  split; [|split].
  - destruct (sample_names rows) as [|s l] eqn:Es; [|apply S4; discriminate].
    apply sample_names_nil in Es. subst rows. inversion H; subst. intros r1 r2 [].
  - intros s. destruct (in_dec (list_eq_dec Z.eq_dec) s (sample_names rows)) as [Hin|Hnot]; [now apply S1|].
    intros p q Hp. exfalso. apply Hnot. rewrite <- (sample_names_of_strip _ _ Hstrip).
    apply In_sample_plates in Hp as (r & Hr & Hs & _). apply In_sample_names. eauto.
  - intros Hall. apply S3. intros s _. apply Hall.
Qed.

(* a sample that satisfies the stop rule is left untouched, whatever merging the other samples need *)
Theorem merge_min_keeps_satisfied : forall ms rows ds out ds',
  merge_min ms rows ds = Ok (out, ds') -> forall s, stop_rule s ms rows -> keeps_sample s rows out.
Proof.
  intros ms rows ds out ds' H s Hs. unfold merge_min in H.
  apply (mm_samples_spec _ _ _ _ _ _ H (NoDup_sort_uniq _)). now right.
Qed.
