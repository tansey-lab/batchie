(* The command-line wrapper train_model.main: the hand-written model Cli.cli_train_model equals the translation of
   the WHOLE function of /repo, regenerated on every run (Generated/SrcCli.v, configuration CLI_TRAIN_MODEL of
   harness/src_functions.py), for every record of library functions, all model parameters and parsed arguments. *)
From Coq Require Import ZArith List.
From Batchie Require Import Model.Cli Generated.SrcCli Proofs.PyRtLemmas.
Open Scope Z_scope.

Theorem src_cli_train_model_is_model :
  forall (Scr Sub Sp Pa Mo Th : Type) (L : tm_lib Scr Sub Sp Pa Mo Th) (params : Pa) (a : tm_args),
  src_cli_train_model Scr Sub Sp Pa Mo Th L params a = cli_train_model L params a.
Proof.
  intros. unfold src_cli_train_model, cli_train_model. cbv zeta.
  repeat cli_step. all: reflexivity.
Qed.
