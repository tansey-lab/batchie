(* C14, one piece of Proofs/C14Source.v (conventions and objects: see there): Screen.plates *)
From Coq Require Import List.
From Batchie Require Import Lib.Sexp Lib.ListX Model.Views Generated.SrcViews
  Proofs.PyRtLemmas Proofs.C14Source_GetPlate Proofs.C14Source_UniquePlateIds.
Open Scope Z_scope.

Theorem src_plates_is_model : forall s : pyscreen, src_plates s = plates (fst s) (snd s).
Proof.
  intros s. unfold src_plates, plates. rewrite src_unique_plate_ids_is_model. cbn [res_bind].
  rewrite res_bind_ret, res_map_all_ret. apply res_map_all_ext, src_get_plate_is_model.
Qed.
