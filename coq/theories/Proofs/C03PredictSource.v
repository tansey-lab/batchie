(* C03 prediction clause stated of the TRANSLATED source on both sides: the stages are produced by the translated
   reveal_plates / mask_screen / unmask_screen (Generated/SrcReveal.v, C12's links), the predictions by the translated
   predict_* methods of both shipped sample types (Generated/SrcPredict.v, C09's links) reading the stage's own
   sample_ids / treatment_ids arrays. *)
From Coq Require Import ZArith List Qcanon.
From Batchie Require Import Lib.Sexp Model.Screen Proofs.C03Screen Proofs.C03Frozen Proofs.C03Predict Proofs.C12Source_Variant.
From Batchie Require Model.Predict Proofs.C09Source.
Import ListNotations.
Open Scope Z_scope.

(* the object handed to theta.predict_*(screen): its .sample_ids and .treatment_ids *)
Definition ids_object (s : screen) : Predict.pydata :=
  {| Predict.pd_sample_ids := s_sids s;
     Predict.pd_treatment_ids := {| Predict.im_arity := s_arity s; Predict.im_rows := s_tids s |} |}.

Lemma pred_view_ok s : (s_arity s = 1 \/ s_arity s = 2)%nat -> Predict.scr_okb (pred_view s) = true.
Proof. intros [H|H]; unfold pred_view; rewrite H; reflexivity. Qed.

Lemma py_predict_ids_object orc k th s : constructed s -> (s_arity s = 1 \/ s_arity s = 2)%nat ->
  C09Source.py_theta_predict orc k th (ids_object s) = Predict.theta_predict orc k th (pred_view s).
Proof.
  intros C P. unfold ids_object. rewrite <- (pred_view_pydata s C P).
  apply C09Source.py_theta_predict_is_model, pred_view_ok, P.
Qed.

Theorem predict_stable_of_source orc k th p sel t1 ops1 t2 ops2 s1 s2 i j v1 v2 :
  src_lifecycle p sel t1 ops1 = Ok s1 ->
  src_lifecycle p sel t2 ops2 = Ok s2 ->
  (s_arity p = 1 \/ s_arity p = 2)%nat ->
  (i < length (s_rows s1))%nat -> (j < length (s_rows s2))%nat ->
  sample_at s1 i = sample_at s2 j ->
  (forall c, (c < s_arity p)%nat -> treat_at s1 i c = treat_at s2 j c) ->
  C09Source.py_theta_predict orc k th (ids_object s1) = Ok v1 ->
  C09Source.py_theta_predict orc k th (ids_object s2) = Ok v2 ->
  nth i v1 0%Qc = nth j v2 0%Qc.
Proof.
  intros L1 L2 Hp Hi Hj Hs Ht H1 H2.
  rewrite src_lifecycle_is_model in L1, L2.
  destruct (lifecycle_constructed_arity _ _ _ _ _ _ L1) as [C1 A1].
  destruct (lifecycle_constructed_arity _ _ _ _ _ _ L2) as [C2 A2].
  rewrite (py_predict_ids_object orc k th s1 C1) in H1 by now rewrite A1.
  rewrite (py_predict_ids_object orc k th s2 C2) in H2 by now rewrite A2.
  exact (predict_stable_lifecycle orc k th p sel t1 ops1 t2 ops2 s1 s2 i j v1 v2 L1 L2 Hi Hj Hs Ht H1 H2).
Qed.
