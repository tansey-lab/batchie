(* One piece of Proofs/C18SourceParser.v (which see): the option table of prepare_retrospective_simulation.get_parser(), read from /repo on every run
   (Generated/SrcParser_prepare_retrospective_simulation.v), provides what the argument record of that command assumes. *)
From Coq Require Import List.
From Batchie Require Import Model.Cli Proofs.C18Parser Generated.SrcParser_prepare_retrospective_simulation.

Theorem parser_prepare_retrospective_simulation_fields : forall f, In f (pr_fields ++ logging_fields) -> declares src_parser_prepare_retrospective_simulation f.
Proof. apply declares_all. vm_compute. reflexivity. Qed.

Theorem parser_prepare_retrospective_simulation_dests_derived : dests_derived src_parser_prepare_retrospective_simulation.
Proof. apply dests_derived_sound. vm_compute. reflexivity. Qed.

Theorem parser_prepare_retrospective_simulation_dests_distinct : dests_distinct src_parser_prepare_retrospective_simulation.
Proof. apply dests_distinct_sound. vm_compute. reflexivity. Qed.

Theorem parser_prepare_retrospective_simulation_seed : seed_declared src_parser_prepare_retrospective_simulation.
Proof. apply seed_declaredb_sound. vm_compute. reflexivity. Qed.

Theorem parser_prepare_retrospective_simulation_params : params_kv src_parser_prepare_retrospective_simulation.
Proof. apply params_kvb_sound. vm_compute. reflexivity. Qed.

Theorem parser_prepare_retrospective_simulation_fraction : fraction_declared src_parser_prepare_retrospective_simulation.
Proof. apply fraction_declaredb_sound. vm_compute. reflexivity. Qed.
