(* C20: generic list / rational-sum lemmas (index form of zipped and mapped
   lists, sums over selections, np.unique as sorted insertion). *)
From Coq Require Import ZArith List QArith Qcanon Lia Permutation Sorted.
From Batchie Require Import Lib.Num Lib.NumP Lib.ListX Model.Metrics Proofs.C20Spec.
Import ListNotations.
Open Scope Qc_scope.

Lemma map_seq_shift {A} (g : nat -> A) k : map g (seq 1 k) = map (fun i => g (S i)) (seq 0 k).
Proof. now rewrite <- seq_shift, map_map. Qed.

Lemma map_seq_nth {A B} (f : A -> B) (l : list A) d :
  map f l = map (fun i => f (nth i l d)) (seq 0 (length l)).
Proof.
  induction l as [|a l IH]; [reflexivity|].
  cbn [length seq map nth]. f_equal. rewrite map_seq_shift. exact IH.
Qed.

Lemma combine_seq_nth {A B} (a : list A) (b : list B) k da db :
  length a = k -> length b = k ->
  combine a b = map (fun i => (nth i a da, nth i b db)) (seq 0 k).
Proof.
  revert b k; induction a as [|x a IH]; intros [|y b] k Ha Hb; cbn [length] in *; subst k; try discriminate.
  - reflexivity.
  - cbn [combine seq map nth]. f_equal. rewrite map_seq_shift. apply IH; [reflexivity|lia].
Qed.

Lemma combine_map_map {A B A' B'} (f : A -> A') (g : B -> B') a b :
  combine (map f a) (map g b) = map (fun p => (f (fst p), g (snd p))) (combine a b).
Proof.
  revert b; induction a as [|x a IH]; intros [|y b]; cbn [map combine fst snd]; try reflexivity.
  now rewrite IH.
Qed.

Lemma qeqb_spec a b : reflect (a = b) (qeqb a b).
Proof. unfold qeqb. destruct (Qc_eq_dec a b); now constructor. Qed.

Lemma qeqb_refl x : qeqb x x = true.
Proof. now destruct (qeqb_spec x x). Qed.

Lemma qeqb_false x y : x <> y -> qeqb x y = false.
Proof. now destruct (qeqb_spec x y). Qed.

Lemma qsum_concat ll : qsum (concat ll) = qsum (map qsum ll).
Proof.
  induction ll as [|l ll IH]; [reflexivity|]. cbn [concat map]. now rewrite qsum_app, qsum_cons, IH.
Qed.

Lemma sum_upto_ext k g h : (forall i, (i < k)%nat -> g i = h i) -> sum_upto k g = sum_upto k h.
Proof.
  intros H. unfold sum_upto. f_equal. apply map_ext_in. intros i Hi. apply in_seq in Hi. apply H. lia.
Qed.

Lemma sum_upto_S_shift k g : sum_upto (S k) g = g 0%nat + sum_upto k (fun i => g (S i)).
Proof. unfold sum_upto. cbn [seq map]. now rewrite qsum_cons, map_seq_shift. Qed.

Lemma sum_upto_plus k g h : sum_upto k (fun i => g i + h i) = sum_upto k g + sum_upto k h.
Proof.
  unfold sum_upto. induction (seq 0 k) as [|i l IH]; cbn [map]; rewrite ?qsum_cons; [cbn; ring|].
  rewrite IH. ring.
Qed.

Lemma sum_upto_scale k g c : sum_upto k (fun i => g i * c) = sum_upto k g * c.
Proof.
  unfold sum_upto. induction (seq 0 k) as [|i l IH]; cbn [map]; rewrite ?qsum_cons; [cbn; ring|].
  rewrite IH. ring.
Qed.

Lemma qnat_mul a b : qnat (a * b) = qnat a * qnat b.
Proof.
  unfold qnat, qofZ. apply Qc_is_canon. unfold Qcmult. cbn [this Q2Qc].
  rewrite !Qred_correct. rewrite Nat2Z.inj_mul, inject_Z_mult. reflexivity.
Qed.

Lemma qlen_qnat {A} (l : list A) : qlen l = qnat (length l).
Proof. reflexivity. Qed.

Lemma qmean_map_seq g k : qmean (map g (seq 0 k)) = sum_upto k g / qnat k.
Proof. unfold qmean. now rewrite qlen_qnat, map_length, seq_length. Qed.

Lemma qvar_map_seq g k : qvar (map g (seq 0 k)) = var_upto k g.
Proof.
  unfold qvar, var_upto. rewrite qmean_map_seq, map_map.
  exact (qmean_map_seq (fun i => qsq (g i - sum_upto k g / qnat k)) k).
Qed.

Lemma qvar_perm a b : Permutation a b -> qvar a = qvar b.
Proof.
  intros H. unfold qvar, qmean. rewrite !qlen_qnat.
  rewrite (Permutation_length H), (qsum_perm _ _ H).
  f_equal; [apply qsum_perm; now apply Permutation_map|].
  now rewrite !map_length, (Permutation_length H).
Qed.

Lemma select_cons {A} (b : bool) mask (x : A) l :
  select (b :: mask) (x :: l) = if b then x :: select mask l else select mask l.
Proof. unfold select. cbn [combine filter fst]. now destruct b. Qed.

Lemma select_nil_l {A} (l : list A) : select [] l = @nil A.
Proof. reflexivity. Qed.

Lemma select_nil_r {A} (mask : list bool) : select mask (@nil A) = @nil A.
Proof. unfold select. now destruct mask. Qed.

Lemma select_map {A B} (f : A -> B) mask l : select mask (map f l) = map f (select mask l).
Proof.
  revert l; induction mask as [|b mask IH]; intros [|x l]; cbn [map]; rewrite ?select_nil_l, ?select_nil_r; try reflexivity.
  rewrite !select_cons, IH. now destruct b.
Qed.

Lemma qsum_select mask l :
  qsum (select mask l) = qsum (map (fun p : bool * Qc => if fst p then snd p else 0) (combine mask l)).
Proof.
  revert l; induction mask as [|b mask IH]; intros [|x l]; rewrite ?select_nil_l, ?select_nil_r; try reflexivity.
  rewrite select_cons. cbn [combine map fst snd]. rewrite qsum_cons, <- IH.
  destruct b; rewrite ?qsum_cons; ring.
Qed.

Lemma select_length {A} mask (l : list A) :
  length mask = length l -> length (select mask l) = length (filter (fun b => b) mask).
Proof.
  revert l; induction mask as [|b mask IH]; intros [|x l] H; try discriminate; [reflexivity|].
  rewrite select_cons. cbn [filter]. injection H as H. destruct b; cbn [length]; now rewrite IH.
Qed.

Lemma filter_map_length {A} (f : A -> bool) l :
  length (filter (fun b => b) (map f l)) = length (filter f l).
Proof.
  induction l as [|x l IH]; [reflexivity|]. cbn [map filter]. destruct (f x); cbn [length]; now rewrite IH.
Qed.

(* np.unique is sorted insertion: a strictly increasing list with the same elements *)
Lemma zinsert_In x y l : In x (zinsert y l) <-> x = y \/ In x l.
Proof.
  induction l as [|a l IH]; cbn [zinsert].
  - cbn [In]. intuition congruence.
  - destruct (y <? a)%Z eqn:E1; [cbn [In]; intuition congruence|].
    destruct (y =? a)%Z eqn:E2.
    + apply Z.eqb_eq in E2. subst. cbn [In]. intuition congruence.
    + cbn [In]. rewrite IH. intuition congruence.
Qed.

Lemma sorted_unique_In x l : In x (sorted_unique l) <-> In x l.
Proof.
  induction l as [|a l IH]; [reflexivity|].
  cbn [sorted_unique fold_right]. fold (sorted_unique l). rewrite zinsert_In, IH. cbn [In]. intuition congruence.
Qed.

Lemma zinsert_sorted y l : StronglySorted Z.lt l -> StronglySorted Z.lt (zinsert y l).
Proof.
  induction 1 as [|a l Hs IH Ha]; cbn [zinsert].
  - repeat constructor.
  - destruct (y <? a)%Z eqn:E1.
    + apply Z.ltb_lt in E1. constructor; [now constructor|].
      constructor; [exact E1|]. eapply Forall_impl; [|exact Ha]. intros z Hz. lia.
    + destruct (y =? a)%Z eqn:E2; [now constructor|].
      apply Z.ltb_ge in E1. apply Z.eqb_neq in E2.
      constructor; [exact IH|]. apply Forall_forall. intros z Hz. apply zinsert_In in Hz as [->|Hz]; [lia|].
      rewrite Forall_forall in Ha. now apply Ha.
Qed.

Lemma sorted_unique_sorted l : StronglySorted Z.lt (sorted_unique l).
Proof.
  induction l as [|a l IH]; [constructor|]. cbn [sorted_unique fold_right]. now apply zinsert_sorted.
Qed.

Lemma sorted_unique_perm_nodup l : Permutation (sorted_unique l) (nodup Z.eq_dec l).
Proof.
  apply NoDup_Permutation.
  - apply StronglySorted_lt_NoDup, sorted_unique_sorted.
  - apply NoDup_nodup.
  - intros x. now rewrite sorted_unique_In, nodup_In.
Qed.

