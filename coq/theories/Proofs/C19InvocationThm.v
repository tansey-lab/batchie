(* C19 — closed statements about invocations of main() and about the operator's screens. *)
From Coq Require Import ZArith List Lia.
From Batchie Require Import Model.Orchestrate Proofs.C19Base Proofs.C19Canon Proofs.C19Step Proofs.C19Main
  Proofs.C19Invocation.
Import ListNotations.
Open Scope Z_scope.

(* a session is nothing but the script_run of its schedule, cut at the points where main() returns or dies:
   every theorem about script_run (C19_resume_correct, C19_step_safe, ...) speaks about sessions *)
Theorem session_is_script_run md fixed bs n f sched :
  fst (script_session md fixed bs n f sched) = fst (script_run md fixed bs n f sched) /\
  concat (map i_calls (snd (script_session md fixed bs n f sched))) = snd (script_run md fixed bs n f sched).
Proof. unfold script_session. apply session_flat. lia. Qed.

Section Thm.
Variables (bs n : nat) (fixed : bool).
Hypothesis Hbs : (1 <= bs)%nat.
Hypothesis Hn : (1 <= n)%nat.
Hypothesis Hfix : fixed = true \/ bs = 1%nat.
Local Notation B := (Z.of_nat bs).

Theorem invocation_stays_in_batch md sched : sched_ok sched ->
  let recs := snd (script_session md fixed B n [] sched) in
  (forall s r l, In (s, r, l) (launches_of recs) -> exists c, (s, r, l) = ideal_stamped md bs c) /\
  (md = Prosp ->
   Forall (fun rc => forall s l ps ok, In (GLaunch s l ps ok) (i_calls rc) -> fst s = i_screen rc) recs).
Proof.
  intros Hs. cbn zeta. unfold script_session. rewrite <- (canon_0 md bs n Hbs Hn).
  destruct (session_canon md bs n fixed Hbs Hn Hfix (length sched) sched 0%nat XNone Hs (state_ok_init md n))
    as (c' & x' & _ & _ & Hrecs).
  set (recs := snd (session (length sched) md fixed B n (canon md bs n 0 XNone) sched)) in *. split.
  - intros s r l Hin. unfold launches_of in Hin. apply in_flat_map in Hin as (rc & Hrc & Hin).
    rewrite Forall_forall in Hrecs. exact (rec_ok_launches md bs rc (Hrecs rc Hrc) s r l Hin).
  - intros Emd. eapply Forall_impl; [|exact Hrecs]. intros rc (c0 & Escr & Hl) s l ps ok Hin.
    rewrite Forall_forall in Hl. specialize (Hl _ Hin). cbn [launch_in] in Hl.
    destruct Hl as (k & _ & -> & _ & Hp). rewrite Escr. unfold ideal_screen, step_of. rewrite Emd. cbn [fst].
    now rewrite (Hp Emd).
Qed.

Theorem operator_screen_is_current_iteration md sched : sched_ok sched ->
  let f := fst (script_run md fixed B n [] sched) in
  match examine fixed B f with
  | XOk (i, _, _, _) => op_screen Prosp B f = i
  | XNamed _ s => op_screen Prosp B f = fst s
  end.
Proof.
  intros Hs. cbn zeta. destruct (reach_from_empty md bs n fixed Hbs Hn Hfix sched Hs) as (c & x & -> & Hx & _).
  exact (op_screen_examine md bs n fixed Hbs Hn Hfix c x Hx).
Qed.

(* the never-interrupted prospective execution: q invocations, invocation k is given screen k, makes exactly
   bs calls and returns; launch number c (step (c / bs, c mod bs)) reads screen c / bs *)
Theorem uninterrupted_session_prosp e q :
  entry_ok e = true -> full_entry e -> (bs <= n)%nat ->
  let sr := script_session Prosp fixed B n [] (repeat e (q * bs)) in
  completed (fst sr) = ideal Prosp bs n (q * bs)
  /\ launches_of (snd sr) = map (ideal_stamped Prosp bs) (seq 0 (q * bs))
  /\ map i_screen (snd sr) = map Z.of_nat (seq 0 q)
  /\ Forall (fun rc => length (i_calls rc) = bs /\ i_end rc = IReturned) (snd sr).
Proof.
  intros He Hf Hbn. cbn zeta. unfold script_session. rewrite repeat_length.
  pose proof (session_full_prosp bs n fixed Hbs Hn Hfix e He Hf Hbn q (q * bs)%nat 0%nat ltac:(nia)) as H.
  cbn zeta in H. cbn [Nat.mul Nat.add] in H. rewrite (canon_0 Prosp bs n Hbs Hn) in H.
  destruct H as (H1 & H2 & H3 & H4). rewrite H1. split; [|auto].
  now rewrite (completed_canon Prosp bs n Hbs Hn) by exact I.
Qed.

Theorem invocation_finishes_batch sched0 e rest :
  sched_ok sched0 -> entry_ok e = true -> full_entry e -> (bs <= n)%nat ->
  let f := fst (script_run Prosp fixed B n [] sched0) in
  let c := length (completed f) in
  let m := (bs - c mod bs)%nat in
  (forall w s, plan_of Prosp fixed B f <> PNamed w s) ->
  let r := invocation Prosp fixed B n f (repeat e m ++ rest) in
  r_end r = IReturned /\ r_rest r = rest
  /\ map launch_key (r_calls r) = map (ideal_key Prosp bs) (seq c m)
  /\ completed (r_fs r) = ideal Prosp bs n (c + m).
Proof.
  intros Hs He Hf Hbn. cbn zeta. destruct (reach_from_empty Prosp bs n fixed Hbs Hn Hfix sched0 Hs) as (c & x & -> & Hx & _).
  rewrite (completed_canon Prosp bs n Hbs Hn c x Hx), (ideal_length Prosp bs n). intros Hplan.
  assert (Hi : is_inc x = false).
  { destruct x as [| |d]; try reflexivity. exfalso.
    rewrite (plan_canon Prosp bs n Hbs Hn fixed c _ Hx Hfix) in Hplan by discriminate. now eapply Hplan. }
  pose proof (Nat.mod_upper_bound c bs ltac:(lia)) as Hlt.
  pose proof (invocation_full_prosp bs n fixed Hbs Hn Hfix e He Hf Hbn (bs - c mod bs)%nat c x rest
                Hx Hi ltac:(lia) ltac:(lia)) as H.
  cbn zeta in H. destruct H as (H1 & H2 & H3 & H4). rewrite H1, H2, H3, H4.
  repeat split. now rewrite (completed_canon Prosp bs n Hbs Hn) by exact I.
Qed.

Theorem retro_invocation_stops sched0 sched :
  sched_ok sched0 -> sched_ok sched ->
  let f := fst (script_run Retro fixed B n [] sched0) in
  let r := invocation Retro fixed B n f sched in
  (r_end r = IReturned ->
     completed (r_fs r) = crash_free Retro bs n /\
     exists pre, r_calls r = pre ++ [GDone] /\ Forall (fun g => exists s l ps, g = GLaunch s l ps true) pre) /\
  (completed f = crash_free Retro bs n -> sched <> [] ->
     r_calls r = [GDone] /\ r_end r = IReturned /\ r_fs r = f).
Proof.
  intros Hs0 Hs. cbn zeta. destruct (reach_from_empty Retro bs n fixed Hbs Hn Hfix sched0 Hs0) as (c & x & -> & Hi).
  split.
  - intros Hend.
    destruct (invocation_canon Retro bs n fixed Hbs Hn Hfix sched c x Hs Hi) as (c' & x' & E & [Hx' _] & _ & _ & _ & Hret).
    cbn zeta in *. rewrite E, (completed_canon Retro bs n Hbs Hn c' x' Hx'), (Hret eq_refl Hend). split; [reflexivity|].
    pose proof (invocation_calls Retro fixed B n sched (canon Retro bs n c x)) as Hc. cbn zeta in Hc. rewrite Hend in Hc.
    destruct Hc as (pre & g & Ec & Hpre & Hg). exists pre.
    rewrite (call_false_retro Retro bs g eq_refl Hg) in Ec. split; [exact Ec|].
    eapply Forall_impl; [|exact Hpre]. intros g' Hg'.
    destruct (call_true_inv Retro bs g' Hg') as (s & l & ps & -> & _). eauto.
  - destruct Hi as [Hx Hr]. rewrite (completed_canon Retro bs n Hbs Hn c x Hx). unfold crash_free. intros Ec Hne.
    apply (f_equal (@length _)) in Ec. rewrite !(ideal_length Retro bs n) in Ec.
    destruct (Hr eq_refl) as [_ Hni]. specialize (Hni Ec).
    destruct sched as [|e rest]; [congruence|]. cbn [invocation].
    rewrite (attempt_done Retro bs n Hbs Hn fixed c x e Hx Hfix) by (lia || exact Hni || (apply Nat.leb_le; lia)). cbn. auto.
Qed.

(* the never-interrupted retrospective invocation: n launches, then one call that returns False *)
Theorem uninterrupted_invocation_retro e e' rest :
  entry_ok e = true -> full_entry e ->
  let r := invocation Retro fixed B n [] (repeat e n ++ e' :: rest) in
  completed (r_fs r) = crash_free Retro bs n /\ r_end r = IReturned /\ r_rest r = rest
  /\ map launch_key (r_calls r) = map (ideal_key Retro bs) (seq 0 n) ++ [None].
Proof.
  intros He Hf. cbn zeta. rewrite <- (canon_0 Retro bs n Hbs Hn).
  exact (invocation_full_retro bs n fixed Hbs Hn Hfix e He Hf e' n 0%nat XNone rest I eq_refl eq_refl).
Qed.

End Thm.
