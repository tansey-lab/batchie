(* Index-vector selection: np.isin(arange(n), idx), OR of such vectors, and how many rows of a
   plate a selection built from per-plate index lists keeps. *)
From Coq Require Import List Bool Arith Lia Permutation.
From Batchie Require Import Lib.ListX Lib.Sexp Model.Encode Model.Screen Model.Retro Proofs.C11Lib.
Import ListNotations.
Open Scope nat_scope.

Lemma memb_In : forall i l, memb i l = true <-> In i l.
Proof. exact (existsb_eqb_In Nat.eqb Nat.eqb_eq). Qed.
Lemma memb_app : forall i a b, memb i (a ++ b) = memb i a || memb i b.
Proof. intros. unfold memb. apply existsb_app. Qed.

Definition vof_from (k n : nat) (idx : list nat) : bvec := map (fun i => memb i idx) (seq k n).
Lemma vof_idx_from : forall n idx, vof_idx n idx = vof_from 0 n idx.
Proof. reflexivity. Qed.

Lemma vor_vof_from : forall n k a b, vor (vof_from k n a) (vof_from k n b) = vof_from k n (a ++ b).
Proof.
  induction n as [|n IH]; intros k a b; cbn [vof_from seq map vor]; [reflexivity|].
  rewrite memb_app. f_equal. apply IH.
Qed.
Lemma vor_vof_idx : forall n a b, vor (vof_idx n a) (vof_idx n b) = vof_idx n (a ++ b).
Proof. intros. apply vor_vof_from. Qed.

Lemma repeat_false_vof : forall n k, repeat false n = vof_from k n [].
Proof. induction n as [|n IH]; intros k; cbn [repeat vof_from seq map]; [reflexivity|]. f_equal. apply IH. Qed.
Lemma repeat_false_vof_idx : forall n, repeat false n = vof_idx n [].
Proof. intros. apply repeat_false_vof. Qed.

Lemma vof_idx_length : forall n idx, length (vof_idx n idx) = n.
Proof. intros. unfold vof_idx. now rewrite map_length, seq_length. Qed.

(* selection by an index vector = filter on the enumerated rows *)
Lemma vselect_vof_from {A} : forall (l : list A) k K,
  vselect (vof_from k (length l) K) l = map snd (filter (fun ir => memb (fst ir) K) (enum_from k l)).
Proof.
  induction l as [|a l IH]; intros k K; cbn [length vof_from seq map vselect enum_from filter fst]; [reflexivity|].
  destruct (memb k K); cbn [map snd]; [f_equal|]; apply IH.
Qed.
Lemma vselect_vof_idx {A} : forall (l : list A) K,
  vselect (vof_idx (length l) K) l = map snd (filter (fun ir => memb (fst ir) K) (enum_from 0 l)).
Proof. intros. apply vselect_vof_from. Qed.

Lemma In_idx_where : forall f rows i,
  In i (idx_where f rows) <-> exists r, nth_error rows i = Some r /\ f r = true.
Proof.
  intros f rows i. unfold idx_where. rewrite in_map_iff. split.
  - intros ([j r] & E & Hin). cbn in E. subst j. apply filter_In in Hin as [Hin Hf]. cbn in Hf.
    apply In_enum_from in Hin as [_ Hn]. rewrite Nat.sub_0_r in Hn. eauto.
  - intros (r & Hn & Hf). exists (i, r). split; [reflexivity|]. apply filter_In. split; [|exact Hf].
    apply In_enum_from. rewrite Nat.sub_0_r. split; [lia|exact Hn].
Qed.

Lemma NoDup_map_fst_filter {A B} (g : A * B -> bool) : forall l : list (A * B),
  NoDup (map fst l) -> NoDup (map fst (filter g l)).
Proof.
  induction l as [|x l IH]; intros H; cbn [filter map]; [constructor|].
  cbn [map] in H. inversion H as [|? ? Hn Hd]; subst.
  destruct (g x); cbn [map]; [|now apply IH]. constructor; [|now apply IH].
  intros Hin. apply Hn. apply in_map_iff in Hin as (y & E & Hy). apply filter_In in Hy as [Hy _].
  apply in_map_iff. eauto.
Qed.

Lemma NoDup_enum_fst {A} : forall (l : list A) k, NoDup (map fst (enum_from k l)).
Proof. intros. rewrite enum_from_fst. apply seq_NoDup. Qed.

Lemma NoDup_idx_where : forall f rows, NoDup (idx_where f rows).
Proof. intros. unfold idx_where. apply NoDup_map_fst_filter, NoDup_enum_fst. Qed.

Lemma idx_where_length : forall f rows, length (idx_where f rows) = length (filter f rows).
Proof.
  intros f rows. unfold idx_where.
  now rewrite map_length, <- (map_length snd), <- filter_map_comm, enum_from_snd.
Qed.

Lemma vcount_map : forall (f : row -> bool) rows, vcount (map f rows) = length (filter f rows).
Proof.
  induction rows as [|r rows IH]; cbn [map vcount filter]; [reflexivity|].
  destruct (f r); cbn [length]; now rewrite IH.
Qed.

Lemma map_vof_idx : forall (f : row -> bool) rows, map f rows = vof_idx (length rows) (idx_where f rows).
Proof.
  intros f rows. unfold vof_idx.
  rewrite <- (enum_from_snd rows 0) at 1. rewrite <- (enum_from_fst rows 0), !map_map.
  apply map_ext_in. intros [i r] [_ Hn]%In_enum_from. rewrite Nat.sub_0_r in Hn. cbn [fst snd].
  apply eq_true_iff_eq. rewrite memb_In, In_idx_where. split.
  - eauto.
  - intros (r' & Hr & Hf). congruence.
Qed.

Lemma plate_vec_vof : forall p rows, plate_vec p rows = vof_idx (length rows) (idx_where (in_plate p) rows).
Proof. intros. apply map_vof_idx. Qed.

(* how many selected rows satisfy P *)
Definition sel_count (K : list nat) (P : row -> bool) (rows : list row) : nat :=
  length (filter P (vselect (vof_idx (length rows) K) rows)).

Lemma sel_count_idx : forall K P rows,
  sel_count K P rows = length (filter (fun i => memb i K) (idx_where P rows)).
Proof.
  intros K P rows. unfold sel_count, idx_where.
  rewrite vselect_vof_idx, !filter_map_comm, !map_length, !filter_filter.
  f_equal. apply filter_ext. intros ir. apply andb_comm.
Qed.

Lemma sel_count_spec : forall K P rows c,
  NoDup c -> (forall i, In i c <-> In i K /\ In i (idx_where P rows)) -> sel_count K P rows = length c.
Proof.
  intros K P rows c Hnd Hc. rewrite sel_count_idx.
  apply Permutation_length, NoDup_Permutation; [apply NoDup_filter, NoDup_idx_where|exact Hnd|].
  intros i. rewrite Hc, filter_In, memb_In. tauto.
Qed.

Definition plate_assoc_ok (rows : list row) (assoc : list (name * list nat)) : Prop :=
  NoDup (map fst assoc) /\
  forall q d, In (q, d) assoc -> NoDup d /\ incl d (idx_where (in_plate q) rows).

Lemma assoc_functional {A} : forall (assoc : list (name * A)) p c d,
  NoDup (map fst assoc) -> In (p, d) assoc -> In (p, c) assoc -> d = c.
Proof.
  induction assoc as [|[k v] assoc IH]; intros p c d Hnd Hq Hc; [contradiction|].
  cbn [map fst] in Hnd. inversion Hnd as [|? ? Hn Hd]; subst.
  destruct Hq as [Hq|Hq]; destruct Hc as [Hc|Hc].
  - congruence.
  - injection Hq as -> ->. elim Hn. exact (in_map fst _ _ Hc).
  - injection Hc as -> ->. elim Hn. exact (in_map fst _ _ Hq).
  - eapply IH; eassumption.
Qed.

(* a selected index that is a row of plate p comes from the index list of p *)
Lemma assoc_of_index : forall rows assoc p i,
  plate_assoc_ok rows assoc -> In i (concat (map snd assoc)) -> In i (idx_where (in_plate p) rows) ->
  exists d, In (p, d) assoc /\ In i d.
Proof.
  intros rows assoc p i [_ Hok] HK Hp.
  apply in_concat in HK as (d & Hd & Hid). apply in_map_iff in Hd as ([q d'] & E & Hq). cbn in E. subst d'.
  exists d. split; [|exact Hid].
  apply (Hok _ _ Hq), In_idx_where in Hid as (r & Hn & Hq').
  apply In_idx_where in Hp as (r' & Hn' & Hp).
  apply in_plate_true in Hp, Hq'. replace p with q by congruence. exact Hq.
Qed.

Lemma sel_count_assoc : forall rows assoc p,
  plate_assoc_ok rows assoc ->
  (forall c, In (p, c) assoc -> sel_count (concat (map snd assoc)) (in_plate p) rows = length c) /\
  (~ In p (map fst assoc) -> sel_count (concat (map snd assoc)) (in_plate p) rows = 0).
Proof.
  intros rows assoc p Hok. split.
  - intros c Hc. destruct (proj2 Hok _ _ Hc) as [Hndc Hincl]. apply sel_count_spec; [exact Hndc|].
    intros i. split.
    + intros Hi. split; [|exact (Hincl _ Hi)].
      apply in_concat. exists c. split; [exact (in_map snd _ _ Hc)|exact Hi].
    + intros [HK Hp]. destruct (assoc_of_index _ _ _ _ Hok HK Hp) as (d & Hd & Hid).
      now rewrite <- (assoc_functional _ _ _ _ (proj1 Hok) Hd Hc).
  - intros Hnot. apply (sel_count_spec _ _ _ []); [constructor|].
    intros i. split; [intros []|]. intros [HK Hp].
    destruct (assoc_of_index _ _ _ _ Hok HK Hp) as (d & Hd & _). exact (Hnot (in_map fst _ _ Hd)).
Qed.
