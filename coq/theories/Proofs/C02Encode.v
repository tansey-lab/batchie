(* C02: constructing again from a constructed screen's rows with its own mappings returns that screen
   ([mk_screen_idem]).  A statement about C01's model (Model/Encode.v, Model/Screen.v), on which the persistence
   theorems stand: load . save IS that second construction. *)
From Coq Require Import ZArith List Bool.
From Batchie Require Import Lib.Sexp Model.Encode Model.Screen Proofs.C03Base Proofs.C03Screen Proofs.C01Props.
Import ListNotations.
Open Scope Z_scope.

(* re-encoding with the mapping an encoding returned gives the same ids and the same mapping *)
Lemma encode_treatments_reuse keys ctrl ex ids m :
  encode_treatments keys ctrl ex = Ok (ids, m) -> encode_treatments keys ctrl (Some m) = Ok (ids, m).
Proof.
  intros H. apply encode_treatments_inv in H as [_ E]. unfold encode_treatments. now rewrite E.
Qed.

Lemma encode_names_reuse names ex tag ids m :
  encode_names names ex tag = Ok (ids, m) -> encode_names names (Some m) tag = Ok (ids, m).
Proof.
  intros H. apply encode_names_inv in H as [_ E]. unfold encode_names. now rewrite E.
Qed.

(* the mapping the constructor goes on with - the supplied one, which has passed its check, or else the built one -
   passes the check of a supplied mapping with an integer dtype *)
Lemma checked_or_built_valid {A} (supplied : option (list (A * Z) * bool)) (built : list (A * Z)) :
  match supplied with Some (m, isint) => negb (zero_indexed isint (map snd m)) | None => false end = false ->
  zero_indexed true (map snd built) = true ->
  zero_indexed true (map snd match option_map fst supplied with Some m => m | None => built end) = true.
Proof.
  destruct supplied as [[m isint]|]; cbn [option_map fst]; [|trivial].
  intros H _. apply negb_false_iff in H. destruct isint; [exact H | discriminate H].
Qed.

(* every check and encoder call of the first construction is answered the same way in the second: the mappings pass
   the checks because they did, or were built, and both encoders find what they found *)
Lemma mk_screen_idem rows arity ctrl tmap smap og mg s :
  mk_screen rows arity ctrl tmap smap og mg = Ok s ->
  mk_screen (s_rows s) (s_arity s) (s_ctrl s) (Some (s_tmap s, true)) (Some (s_smap s, true)) true true = Ok s.
Proof.
  intros H. destruct (mk_screen_inv H) as [tflat [E1 _ E3 E4 E5 E6 E7 E8 Hr Ha Hc Ht]].
  destruct (encode_treatments_inv _ _ _ _ _ E6) as [Mt _]. destruct (encode_names_inv _ _ _ _ _ E7) as [Ms _].
  destruct s as [rows' a' c' tm sm pm tids sids pids]; cbn [s_rows s_arity s_ctrl s_tmap s_smap s_pmap s_tids s_sids s_pids] in *.
  subst rows' a' c' tids.
  apply (mk_screen_ok (norm_rows og mg rows) arity ctrl (Some (tm, true)) (Some (sm, true)) true true tflat tm sids sm pids pm).
  - now rewrite (arity_ok_treats _ _ _ (norm_rows_treats og mg rows)).
  - reflexivity.
  - exact E3.
  - cbn [tmap_bad]. rewrite Mt. now rewrite (checked_or_built_valid _ _ E4 (built_tmapping_valid _ _)).
  - cbn [smap_bad]. rewrite Ms. now rewrite (checked_or_built_valid _ _ E5 (built_nmapping_valid _)).
  - exact (encode_treatments_reuse _ _ _ _ _ E6).
  - exact (encode_names_reuse _ _ _ _ _ E7).
  - exact E8.
Qed.
