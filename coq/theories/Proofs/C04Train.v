(* C04 proofs about Model/Train.v, after the list facts they and Proofs/C04Screen.v use.  A lemma named *_full is the
   conjunction Props/C04.v states, put together from the lemmas before it. *)
From Coq Require Import ZArith List Bool QArith Qcanon.
From Batchie Require Import Lib.Sexp Lib.Num Lib.ListX Generated.Consts Model.Train.
Import ListNotations.
Open Scope Z_scope.

Lemma filter_idem {A} (f : A -> bool) (l : list A) : filter f (filter f l) = filter f l.
Proof.
  rewrite filter_filter. apply filter_ext. intros a. now destruct (f a).
Qed.

Lemma existsb_false_filter_nil {A} (f : A -> bool) (l : list A) :
  existsb f l = false -> filter f l = [].
Proof.
  induction l as [|a l IH]; [reflexivity|].
  cbn [existsb filter]. intros H. apply orb_false_iff in H as [Ha Hl]. rewrite Ha. now apply IH.
Qed.

Lemma forallb_false_of_In {A} (f : A -> bool) (l : list A) x : In x l -> f x = false -> forallb f l = false.
Proof.
  intros Hin Hf. destruct (forallb f l) eqn:E; [|reflexivity].
  rewrite forallb_forall in E. rewrite (E x Hin) in Hf. discriminate.
Qed.

Lemma Forall2_map_eq {A B C} (R : A -> B -> Prop) (f : A -> C) (g : B -> C) (l1 : list A) (l2 : list B) :
  Forall2 R l1 l2 -> (forall a b, R a b -> f a = g b) -> map f l1 = map g l2.
Proof.
  intros H Hfg. induction H as [|a b l1 l2 Hab _ IH]; [reflexivity|].
  cbn [map]. now rewrite (Hfg a b Hab), IH.
Qed.

Lemma Forall2_forallb_eq {A B} (R : A -> B -> Prop) (p : A -> bool) (q : B -> bool) (l1 : list A) (l2 : list B) :
  Forall2 R l1 l2 -> (forall a b, R a b -> p a = q b) -> forallb p l1 = forallb q l2.
Proof.
  intros H Hpq. induction H as [|a b l1 l2 Hab _ IH]; [reflexivity|].
  cbn [forallb]. now rewrite (Hpq a b Hab), IH.
Qed.

Lemma Forall2_same_length {A B} (R : A -> B -> Prop) (l1 : list A) (l2 : list B) : Forall2 R l1 l2 -> length l1 = length l2.
Proof. induction 1; cbn [length]; congruence. Qed.

Lemma map_eq_Forall2 {A B} (R : A -> A -> Prop) (f : A -> B) :
  (forall a b, f a = f b -> R a b) -> forall l1 l2, map f l1 = map f l2 -> Forall2 R l1 l2.
Proof.
  intros HR l1. induction l1 as [|a l1 IH]; intros [|b l2] H; try discriminate; [constructor|].
  injection H as Hab Hl. constructor; [exact (HR a b Hab) | exact (IH l2 Hl)].
Qed.

(* a comprehension whose element is computed by [g] and raises [t] where [p] fails *)
Lemma res_map_all_guard {A B} (f : A -> result B) (p : A -> bool) (g : A -> B) (t : Z) :
  (forall a, f a = if p a then Ok (g a) else Err t) ->
  forall l, res_map_all f l = if forallb p l then Ok (map g l) else Err t.
Proof.
  intros Hf l. induction l as [|a l IH]; [reflexivity|].
  cbn [res_map_all forallb map]. rewrite Hf, IH.
  destruct (p a); [|reflexivity]. destruct (forallb p l); reflexivity.
Qed.

Lemma row_agree_observed_eq (a b : trow) : row_agree a b -> t_mask a = true -> a = b.
Proof.
  intros (Hs & Hp & Ht & Hm & Ho) Ha. specialize (Ho Ha).
  destruct a, b; cbn in *. now subst.
Qed.

Lemma same_except_masked_refl (s : list trow) : same_except_masked s s.
Proof. induction s; constructor; [repeat split|assumption]. Qed.

Lemma downstream_row_agree (a b : trow) : row_agree a b <-> downstream_row a = downstream_row b.
Proof.
  unfold row_agree, downstream_row. destruct a as [sa pa ta oa ma], b as [sb pb tb ob mb]; cbn.
  split.
  - intros (Hs & Hp & Ht & Hm & Ho). subst sb pb tb mb.
    destruct ma; [now rewrite Ho|reflexivity].
  - intros H. injection H as Hs Hp Ht Hm Ho. subst sb pb tb mb.
    repeat split. intros Ha. subst ma. now inversion Ho.
Qed.

Lemma downstream_frame_iff (s1 s2 : list trow) :
  same_except_masked s1 s2 <-> downstream_input s1 = downstream_input s2.
Proof.
  unfold downstream_input, same_except_masked. split.
  - intros H. apply (Forall2_map_eq _ _ _ _ _ H). intros a b. apply downstream_row_agree.
  - apply map_eq_Forall2. intros a b. apply downstream_row_agree.
Qed.

Lemma downstream_frame (s1 s2 : list trow) :
  same_except_masked s1 s2 -> downstream_input s1 = downstream_input s2.
Proof. apply downstream_frame_iff. Qed.

Lemma train_input_factors (s : list trow) : train_input s = view_train_input (downstream_input s).
Proof.
  unfold train_input, view_train_input, downstream_input.
  rewrite existsb_map. cbn [downstream_row d_mask].
  destruct (existsb t_mask s); [|reflexivity]. f_equal.
  induction s as [|a l IH]; [reflexivity|].
  cbn [map flat_map filter]. rewrite <- IH.
  unfold downstream_row at 1 2. cbn [d_mask d_obs d_sample d_plate d_treats].
  destruct (t_mask a) eqn:Ha; [|reflexivity].
  cbn [app]. f_equal. destruct a; cbn in *. now subst.
Qed.

Lemma train_input_noninterference (s1 s2 : list trow) :
  same_except_masked s1 s2 -> train_input s1 = train_input s2.
Proof. intros H. now rewrite !train_input_factors, (downstream_frame s1 s2 H). Qed.

Lemma add_observations_refuses_masked (S : Type) (inner : list trow -> result S) (rows : list trow) r :
  In r rows -> t_mask r = false -> add_observations inner rows = Err 1.
Proof.
  intros Hin Hm. unfold add_observations. now rewrite (forallb_false_of_In _ _ _ Hin Hm).
Qed.

Lemma add_observations_observed (S : Type) (inner : list trow -> result S) (rows : list trow) :
  add_observations inner (filter t_mask rows) = inner (filter t_mask rows).
Proof.
  unfold add_observations. rewrite (proj2 (forallb_forall _ _)); [reflexivity|].
  intros r Hr. now apply filter_In in Hr.
Qed.

(* train_model.main on a fresh model [s0]: _add_observations sees exactly the observed rows, and is not called when there
   are none *)
Lemma train_on_observed (S : Type) (inner : list trow -> result S) (s0 : S) (rows : list trow) :
  match train_input rows with Some o => add_observations inner o | None => Ok s0 end
  = if existsb t_mask rows then inner (filter t_mask rows) else Ok s0.
Proof.
  unfold train_input. destruct (existsb t_mask rows); [apply add_observations_observed | reflexivity].
Qed.

(* ... which makes no difference for a class whose _add_observations leaves a fresh model as it is on no rows *)
Lemma train_on_observed_total (S : Type) (inner : list trow -> result S) (s0 : S) (rows : list trow) :
  inner [] = Ok s0 ->
  match train_input rows with Some o => add_observations inner o | None => Ok s0 end = inner (filter t_mask rows).
Proof.
  intros H0. rewrite train_on_observed. destruct (existsb t_mask rows) eqn:E; [reflexivity|].
  now rewrite (existsb_false_filter_nil _ _ E).
Qed.

(* a model class whose _add_observations raises whenever it is handed row [r]: so does the guarded entry point, and so does
   training when [r] is observed *)
Lemma refusal_lifts (S : Type) (inner : S -> list trow -> result S) (s0 : S) (rows : list trow) r :
  (forall st rows', In r rows' -> exists t, inner st rows' = Err t) ->
  In r rows ->
  (forall st, exists t, add_observations (inner st) rows = Err t) /\
  (t_mask r = true ->
   exists t, match train_input rows with Some o => add_observations (inner s0) o | None => Ok s0 end = Err t).
Proof.
  intros Hinner Hin. split.
  - intros st. unfold add_observations. destruct (forallb t_mask rows); [now apply Hinner | now eexists].
  - intros Hm. rewrite train_on_observed, (proj2 (existsb_exists _ _)) by (now exists r).
    apply Hinner, filter_In. now split.
Qed.

Definition bad_obs (v : oval) : Prop := o_negative v = true \/ v = ONaN.

Lemma bad_obs_not_nonneg (v : oval) : bad_obs v -> o_nonneg v = false.
Proof.
  intros [H | ->]; [|reflexivity].
  destruct v as [q| |neg]; cbn in *; try discriminate.
  - unfold qltb in H. unfold qleb. destruct (Qclt_le_dec q 0) as [Hlt|Hle]; [reflexivity | discriminate].
  - now rewrite H.
Qed.

Section WithOracles.
Variable orc : oracle.
Variable r32 : Qc -> oval.

Definition sdc_doc_trip (r : trow) : trip :=
  {| tr_y := sdc_transform orc r32 (t_obs r); tr_cl := t_sample r;
     tr_d1 := nth 0 (t_treats r) 0; tr_d2 := nth 1 (t_treats r) 0 |}.

Lemma sdc_trip_eq (r : trow) :
  sdc_trip orc r32 r = if (2 <=? length (t_treats r))%nat then Ok (sdc_doc_trip r) else Err 4.
Proof. unfold sdc_trip, sdc_doc_trip. destruct (t_treats r) as [|d1 [|d2 rest]]; reflexivity. Qed.

(* _add_observations: the two value checks, then one trip per row with mask (IndexError on a row with fewer than two ids) *)
Lemma sdc_inner_eq (st : list trip) (rows : list trow) :
  sdc_inner orc r32 st rows =
  if negb (forallb (fun r => o_nonneg (t_obs r)) rows) then Err 2
  else if existsb (fun r => o_isnan (sdc_transform orc r32 (t_obs r))) rows then Err 3
  else if forallb (fun r => (2 <=? length (t_treats r))%nat) (filter t_mask rows)
       then Ok (st ++ map sdc_doc_trip (filter t_mask rows)) else Err 4.
Proof.
  unfold sdc_inner. rewrite (res_map_all_guard _ _ _ _ sdc_trip_eq).
  destruct (negb _); [reflexivity|]. destruct (existsb _ rows); [reflexivity|].
  destruct (forallb _ (filter t_mask rows)); reflexivity.
Qed.

Lemma train_sdc_noninterference (s1 s2 : list trow) :
  same_except_masked s1 s2 -> train_sdc orc r32 s1 = train_sdc orc r32 s2.
Proof. intros H. unfold train_sdc. now rewrite (train_input_noninterference _ _ H). Qed.

Lemma train_sdc_exactly_once (rows : list trow) (tr : list trip) :
  train_sdc orc r32 rows = Ok tr -> tr = map sdc_doc_trip (filter t_mask rows).
Proof.
  unfold train_sdc, sdc_add. rewrite (train_on_observed_total _ (sdc_inner orc r32 []) [] rows eq_refl), sdc_inner_eq, filter_idem.
  destruct (negb _); [discriminate|]. destruct (existsb _ (filter t_mask rows)); [discriminate|].
  destruct (forallb _ (filter t_mask rows)); [|discriminate].
  intros H. now inversion H.
Qed.

Lemma train_sdc_accepts_valid (rows : list trow) :
  (forall r, In r rows -> t_mask r = true ->
     o_nonneg (t_obs r) = true /\ o_isnan (sdc_transform orc r32 (t_obs r)) = false /\
     (2 <= length (t_treats r))%nat) ->
  exists tr, train_sdc orc r32 rows = Ok tr.
Proof.
  intros H.
  assert (Hobs : forall r, In r (filter t_mask rows) ->
            o_nonneg (t_obs r) = true /\ o_isnan (sdc_transform orc r32 (t_obs r)) = false /\ (2 <= length (t_treats r))%nat).
  { intros r Hr. apply filter_In in Hr as [Hin Hm]. now apply H. }
  unfold train_sdc, sdc_add. rewrite (train_on_observed_total _ (sdc_inner orc r32 []) [] rows eq_refl), sdc_inner_eq, filter_idem.
  rewrite (proj2 (forallb_forall _ _)) by (intros r Hr; apply Hobs, Hr). cbn [negb].
  destruct (existsb _ _) eqn:E.
  { apply existsb_exists in E as (r & Hr & Hn). destruct (Hobs r Hr) as (_ & Hnn & _). congruence. }
  rewrite (proj2 (forallb_forall _ _)) by (intros r Hr; apply Nat.leb_le, Hobs, Hr). now eexists.
Qed.

Lemma sdc_inner_refuses (st : list trip) (rows : list trow) r :
  In r rows -> bad_obs (t_obs r) -> sdc_inner orc r32 st rows = Err 2.
Proof.
  intros Hin Hbad. unfold sdc_inner.
  rewrite (forallb_false_of_In (fun r => o_nonneg (t_obs r)) rows r Hin (bad_obs_not_nonneg _ Hbad)).
  reflexivity.
Qed.

Lemma clip_lo_pos : (0 < clip_lo)%Qc. Proof. now vm_compute. Qed.
Lemma clip_lo_le_hi : (clip_lo <= clip_hi)%Qc. Proof. now vm_compute. Qed.
Lemma clip_hi_lt_1 : (clip_hi < 1)%Qc. Proof. now vm_compute. Qed.

Lemma qclip_bounds (lo hi x : Qc) : (lo <= hi)%Qc -> (lo <= qclip lo hi x)%Qc /\ (qclip lo hi x <= hi)%Qc.
Proof.
  intros Hlh. unfold qclip, qltb.
  destruct (Qclt_le_dec x lo) as [H1|H1].
  - split; [apply Qcle_refl | exact Hlh].
  - destruct (Qclt_le_dec hi x) as [H2|H2].
    + split; [exact Hlh | apply Qcle_refl].
    + split; assumption.
Qed.

Lemma ologit_interior (p : Qc) : (0 < p)%Qc -> (p < 1)%Qc -> ologit orc (OFin p) = OFin (orc ORC_LOGIT p).
Proof.
  intros H0 H1. unfold ologit, qltb, qeqb.
  destruct (Qclt_le_dec p 0) as [H|H]; [exfalso; exact (Qclt_not_le _ _ H (Qclt_le_weak _ _ H0))|].
  destruct (Qc_eq_dec p 0) as [E|E]; [subst p; exfalso; exact (Qclt_not_eq _ _ H0 eq_refl)|].
  destruct (Qclt_le_dec 1 p) as [H2|H2]; [exfalso; exact (Qclt_not_le _ _ H2 (Qclt_le_weak _ _ H1))|].
  destruct (Qc_eq_dec p 1) as [E1|E1]; [subst p; exfalso; exact (Qclt_not_eq _ _ H1 eq_refl)|].
  reflexivity.
Qed.

(* every value between the clip bounds lies in (0, 1), where logit is the oracle *)
Lemma ologit_clipped (q : Qc) : (clip_lo <= q)%Qc -> (q <= clip_hi)%Qc -> ologit orc (OFin q) = OFin (orc ORC_LOGIT q).
Proof.
  intros Hl Hh. apply ologit_interior.
  - exact (Qclt_le_trans _ _ _ clip_lo_pos Hl).
  - exact (Qcle_lt_trans _ _ _ Hh clip_hi_lt_1).
Qed.

Lemma sdc_transform_documented (v : oval) :
  (forall q, cast32 r32 v = OFin q ->
     sdc_transform orc r32 v = OFin (orc ORC_LOGIT (qclip clip_lo clip_hi q))) /\
  (cast32 r32 v = OInf false -> sdc_transform orc r32 v = OFin (orc ORC_LOGIT clip_hi)) /\
  (cast32 r32 v = OInf true -> sdc_transform orc r32 v = OFin (orc ORC_LOGIT clip_lo)) /\
  (cast32 r32 v = ONaN -> sdc_transform orc r32 v = ONaN).
Proof.
  unfold sdc_transform. repeat split.
  - intros q ->. cbn [oclip]. now apply ologit_clipped; apply qclip_bounds, clip_lo_le_hi.
  - intros ->. cbn [oclip]. exact (ologit_clipped _ clip_lo_le_hi (Qcle_refl _)).
  - intros ->. cbn [oclip]. exact (ologit_clipped _ (Qcle_refl _) clip_lo_le_hi).
  - now intros ->.
Qed.

Section Flags.
Variables fm gneg gnan : bool.

Lemma train_int_noninterference (arity : nat) (s1 s2 : list trow) :
  same_except_masked s1 s2 ->
  train_int orc r32 fm gneg gnan arity s1 = train_int orc r32 fm gneg gnan arity s2.
Proof. intros H. unfold train_int. now rewrite (train_input_noninterference _ _ H). Qed.

Lemma int_inner_ok (st st' : istate) (arity : nat) (rows : list trow) :
  int_inner orc r32 fm gneg gnan st arity rows = Ok st' ->
  arity = 2%nat /\
  i_lookup st' = lk_update (i_lookup st) (single_effect_map arity rows) /\
  i_train st' = i_train st ++ map (int_trip orc r32) (filter (fun r => combo_sel fm arity r && t_mask r) rows).
Proof.
  unfold int_inner.
  destruct (Nat.eqb arity 2) eqn:Ea; cbn [negb]; [|discriminate].
  destruct (gneg && negb (forallb (fun r => o_nonneg (t_obs r)) rows)); [discriminate|].
  destruct (gnan && existsb _ _); [discriminate|].
  intros H. inversion H. cbn [i_lookup i_train]. rewrite filter_filter.
  apply Nat.eqb_eq in Ea. now repeat split.
Qed.

Lemma train_int_ok (arity : nat) (rows : list trow) (st : istate) :
  train_int orc r32 fm gneg gnan arity rows = Ok st ->
  i_lookup st = lk_update [] (single_effect_map arity (filter t_mask rows)) \/ (existsb t_mask rows = false /\ i_lookup st = []).
Proof.
  unfold train_int, int_add. rewrite train_on_observed. destruct (existsb t_mask rows); intros H.
  - apply int_inner_ok in H as (_ & Hl & _). now left.
  - inversion H. now right.
Qed.

Lemma train_int_training_rows (arity : nat) (rows : list trow) (st : istate) :
  train_int orc r32 fm gneg gnan arity rows = Ok st ->
  i_train st = map (int_trip orc r32) (filter (fun r => t_mask r && combo_sel fm arity r) rows).
Proof.
  unfold train_int, int_add. rewrite train_on_observed. destruct (existsb t_mask rows) eqn:E; intros H.
  - apply int_inner_ok in H as (_ & _ & ->). cbn [i_train istate0 app].
    rewrite filter_filter. f_equal. apply filter_ext. intros r.
    destruct (t_mask r), (combo_sel fm arity r); reflexivity.
  - inversion H. now rewrite <- filter_filter, (existsb_false_filter_nil _ _ E).
Qed.

Lemma int_inner_refuses (st : istate) (arity : nat) (rows : list trow) r :
  gneg = true -> In r rows -> bad_obs (t_obs r) ->
  exists t, int_inner orc r32 fm gneg gnan st arity rows = Err t.
Proof.
  intros Hg Hin Hbad. unfold int_inner. subst gneg.
  destruct (negb (Nat.eqb arity 2)); [now eexists|].
  rewrite (forallb_false_of_In (fun r => o_nonneg (t_obs r)) rows r Hin (bad_obs_not_nonneg _ Hbad)).
  cbn [negb andb]. now eexists.
Qed.
End Flags.

(* with the repaired mask the selected rows are the rows without a control id *)
Lemma train_int_exactly_once (gneg gnan : bool) (arity : nat) (rows : list trow) (st : istate) :
  train_int orc r32 true gneg gnan arity rows = Ok st ->
  i_train st = map (int_trip orc r32) (filter (fun r => t_mask r && Nat.eqb (count_ctrl (t_treats r)) 0) rows).
Proof. exact (train_int_training_rows true gneg gnan arity rows st). Qed.

End WithOracles.

Lemma single_effect_map_value (arity : nat) (rows : list trow) (s t : Z) (v : oval) :
  In ((s, t), v) (single_effect_map arity rows) ->
  (t = CONTROL_SENTINEL_VALUE /\ v = OFin 1%Qc) \/
  (t <> CONTROL_SENTINEL_VALUE /\
   filter (fun r => is_single arity r && single_matches s t r) rows <> [] /\
   v = omean (map t_obs (filter (fun r => is_single arity r && single_matches s t r) rows))).
Proof.
  unfold single_effect_map. intros H.
  apply in_flat_map in H as (s' & _ & H).
  apply in_flat_map in H as (t' & _ & H).
  destruct (t' =? CONTROL_SENTINEL_VALUE) eqn:Et.
  - destruct H as [H|[]]. inversion H; subst. left. split; [now apply Z.eqb_eq|reflexivity].
  - rewrite filter_filter in H.
    destruct (filter (fun x => is_single arity x && single_matches s' t' x) rows) as [|m0 ms] eqn:Ef; [destruct H|].
    destruct H as [H|[]]. inversion H; subst. right. rewrite Ef.
    split; [now apply Z.eqb_neq|]. split; [discriminate|reflexivity].
Qed.

Lemma sdc_exactly_once_full (orc : oracle) (r32 : Qc -> oval) (rows : list trow) :
  (forall tr, train_sdc orc r32 rows = Ok tr -> tr = map (sdc_doc_trip orc r32) (filter t_mask rows)) /\
  ((forall r, In r rows -> t_mask r = true ->
      o_nonneg (t_obs r) = true /\ o_isnan (sdc_transform orc r32 (t_obs r)) = false /\
      (2 <= length (t_treats r))%nat) ->
   exists tr, train_sdc orc r32 rows = Ok tr).
Proof. split; [exact (train_sdc_exactly_once orc r32 rows) | exact (train_sdc_accepts_valid orc r32 rows)]. Qed.

Lemma single_effect_documented_full (orc : oracle) (r32 : Qc -> oval) (fm gneg gnan : bool) (arity : nat)
      (rows : list trow) (st : istate) :
  train_int orc r32 fm gneg gnan arity rows = Ok st ->
  (i_lookup st = lk_update [] (single_effect_map arity (filter t_mask rows))
   \/ (existsb t_mask rows = false /\ i_lookup st = [])) /\
  forall obs s t v, In ((s, t), v) (single_effect_map arity obs) ->
    (t = CONTROL_SENTINEL_VALUE /\ v = OFin 1%Qc) \/
    (t <> CONTROL_SENTINEL_VALUE /\
     filter (fun r => is_single arity r && single_matches s t r) obs <> [] /\
     v = omean (map t_obs (filter (fun r => is_single arity r && single_matches s t r) obs))).
Proof.
  intros H. split.
  - exact (train_int_ok orc r32 fm gneg gnan arity rows st H).
  - intros obs. exact (single_effect_map_value arity obs).
Qed.

Lemma refuses_negative_nan_sdc_full (orc : oracle) (r32 : Qc -> oval) (rows : list trow) r :
  In r rows -> (o_negative (t_obs r) = true \/ t_obs r = ONaN) ->
  (forall st, exists t, sdc_add orc r32 st rows = Err t) /\
  (t_mask r = true -> exists t, train_sdc orc r32 rows = Err t).
Proof.
  intros Hin Hbad. apply (refusal_lifts _ (sdc_inner orc r32) [] rows r); [|exact Hin].
  intros st rows' Hin'. eexists. exact (sdc_inner_refuses orc r32 st rows' r Hin' Hbad).
Qed.

Lemma refuses_negative_nan_int_full (orc : oracle) (r32 : Qc -> oval) (fm gnan : bool) (arity : nat)
      (rows : list trow) r :
  In r rows -> (o_negative (t_obs r) = true \/ t_obs r = ONaN) ->
  (forall st, exists t, int_add orc r32 fm true gnan st arity rows = Err t) /\
  (t_mask r = true -> exists t, train_int orc r32 fm true gnan arity rows = Err t).
Proof.
  intros Hin Hbad. apply (refusal_lifts _ (fun st => int_inner orc r32 fm true gnan st arity) istate0 rows r); [|exact Hin].
  intros st rows' Hin'. exact (int_inner_refuses orc r32 fm true gnan st arity rows' r eq_refl Hin' Hbad).
Qed.

Lemma downstream_frame_full (s1 s2 : list trow) :
  (same_except_masked s1 s2 <-> downstream_input s1 = downstream_input s2) /\
  (same_except_masked s1 s2 ->
     forall (A : Type) (f : list drow -> A), f (downstream_input s1) = f (downstream_input s2)) /\
  train_input s1 = view_train_input (downstream_input s1).
Proof.
  split; [exact (downstream_frame_iff s1 s2)|]. split; [|exact (train_input_factors s1)].
  intros H A f. now rewrite (downstream_frame s1 s2 H).
Qed.
