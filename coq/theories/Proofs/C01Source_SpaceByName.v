(* C01, one piece of Proofs/C01Source.v (which see): ExperimentSpace.doses_for_treatment / treatment_ids_from_treatment_name *)
From Coq Require Import ZArith List Bool Lia.
From Batchie Require Import Lib.Sexp Generated.Consts Model.Encode Model.Screen Model.Persist
  Generated.SrcSpaceMethods Proofs.C01Sort Proofs.C01Encode Proofs.C01Props Proofs.C01Source_SpaceBase.
Import ListNotations.
Open Scope Z_scope.

Lemma arr_eq_name_col {A} (f : A -> name) (l : list A) nm : arr_eq_name (map f l) nm = map (fun e => name_eqb (f e) nm) l.
Proof. unfold arr_eq_name. now rewrite map_map. Qed.

Theorem src_space_doses_for_treatment_is_model : forall (sp : space) (nm : name),
  src_space_doses_for_treatment (pyspace_of sp) nm = Ok (space_doses_for_treatment sp nm).
Proof.
  intros sp nm. unfold src_space_doses_for_treatment, space_doses_for_treatment, space_rows_named, pyspace_of, pysp_tmap, tmap_cols.
  cbn [fst snd]. rewrite arr_eq_name_col, arr_mask_columns. cbn [res_bind].
  now rewrite setdiff1d_one, (sort_uniq_idem _ Zcmp_spec), np_sort_sort_uniq.
Qed.

Theorem src_space_treatment_ids_from_name_is_model : forall (sp : space) (nm : name),
  src_space_treatment_ids_from_treatment_name (pyspace_of sp) nm = Ok (space_treatment_ids_of_name sp nm).
Proof.
  intros sp nm. unfold src_space_treatment_ids_from_treatment_name, space_treatment_ids_of_name, space_rows_named, pyspace_of,
    pysp_tmap, tmap_cols.
  cbn [fst snd]. rewrite arr_eq_name_col, arr_mask_columns. cbn [res_bind]. now rewrite np_sort_sort_uniq.
Qed.

(* every id the method returns for a name is the sentinel or lies below n_unique_treatments (the mapping built by the constructor, or a
   supplied one with an integer id array) *)
Theorem space_treatment_ids_of_name_bounded : forall rows a ctrl tm sm og mg s nm i,
  mk_screen rows a ctrl tm sm og mg = Ok s ->
  match tm with Some (_, b) => b = true | None => True end ->
  In i (space_treatment_ids_of_name (space_of_screen s) nm) ->
  i = CONTROL_SENTINEL_VALUE \/ 0 <= i < space_n_treatments s.
Proof.
  intros rows a ctrl tm sm og mg s nm i H Hb Hin.
  unfold space_treatment_ids_of_name, space_rows_named, space_of_screen in Hin. cbn [sp_tmap] in Hin.
  rewrite (sort_uniq_In _ Zcmp_spec) in Hin. apply in_map_iff in Hin as (e & <- & He). apply filter_In in He as [He _].
  pose proof (screen_tmap_valid H Hb) as V.
  assert (Hi : In (snd e) (map snd (s_tmap s))) by now apply in_map.
  pose proof (valid_ids_bound (s_tmap s) (snd e) V Hi) as Hlt. fold (space_n_treatments s) in Hlt.
  apply zero_indexed_spec in V as (u & Hu). apply Hu in Hi. rewrite sentinel_is_minus_one. lia.
Qed.

(* the doses the method returns for a name are doses of mapping rows of that name, none of them 0.0 *)
Theorem space_doses_for_treatment_spec : forall (sp : space) (nm : name) (d : Z),
  In d (space_doses_for_treatment sp nm) <-> (d <> 0 /\ In (nm, d) (map fst (sp_tmap sp))).
Proof.
  intros sp nm d. unfold space_doses_for_treatment, space_rows_named.
  rewrite (sort_uniq_In _ Zcmp_spec), filter_In, in_map_iff, negb_true_iff, Z.eqb_neq. split.
  - intros [(e & <- & He) Hd]. apply filter_In in He as [He En]. apply name_eqb_eq in En. split; [exact Hd|].
    apply in_map_iff. exists e. split; [|exact He]. destruct e as [[n x] i]. cbn [fst snd] in *. now subst.
  - intros [Hd Hin]. apply in_map_iff in Hin as ([[n x] i] & Ee & He). cbn [fst] in Ee. inversion Ee; subst n x.
    split; [|exact Hd]. exists (nm, d, i). split; [reflexivity|]. apply filter_In. split; [exact He|]. now apply name_eqb_eq.
Qed.
