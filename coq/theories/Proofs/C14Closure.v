(* C14: the unique filter on views, and closure of the view algebra under any finite composition. *)
From Coq Require Import ZArith List Lia Sorted.
From Batchie Require Import Proofs.PyRtLemmas Lib.Sexp Model.Screen Model.Views
  Proofs.C14Defs Proofs.C14Lists Proofs.C14Unique Proofs.C14Views.
Import ListNotations.
Open Scope nat_scope.

(* np.unique is handed one key row per row: the sample id followed by the treatment ids *)
Lemma zip_unique_cols arity sids tids :
  length sids = length tids -> Forall (fun t => length t = arity) tids ->
  zip_cols (unique_cols arity sids tids) = map (fun j => nth j sids 0%Z :: nth j tids []) (seq 0 (length sids)).
Proof.
  intros HL HF. unfold zip_cols, unique_cols. cbn [hd].
  apply map_ext_in. intros j Hj. apply in_seq in Hj. cbn [map]. f_equal. rewrite map_map.
  destruct (nth_error tids j) as [t|] eqn:E; [|apply nth_error_None in E; lia].
  rewrite (nth_error_nth _ _ _ E).
  rewrite Forall_forall in HF.
  assert (Ht : length t = arity) by (apply HF; eapply nth_error_In; eassumption).
  transitivity (map (fun i => nth i t 0%Z) (seq 0 (length t))); [|apply map_nth_seq]. rewrite Ht.
  apply map_ext. intros i. unfold column. rewrite (nth_map_error (fun r => nth i r 0%Z)), E. reflexivity.
Qed.

Lemma unique_cols_lengths arity sids tids :
  length sids = length tids ->
  Forall (fun c => length c = length (hd [] (unique_cols arity sids tids))) (unique_cols arity sids tids).
Proof.
  intros HL. unfold unique_cols. cbn [hd]. constructor; [reflexivity|].
  apply Forall_forall. intros c Hc. apply in_map_iff in Hc. destruct Hc as (i & <- & _).
  unfold column. now rewrite map_length.
Qed.

Lemma map_nth_maps (f : nat -> Z) (g : nat -> list Z) d1 d2 (W : list nat) :
  map (fun j => nth j (map f W) d1 :: nth j (map g W) d2) (seq 0 (length W)) = map (fun i => f i :: g i) W.
Proof.
  induction W as [|w W IH]; cbn [length seq map nth]; [reflexivity|].
  f_equal. rewrite <- seq_shift, map_map. exact IH.
Qed.

Lemma select_unique_cols arity sids tids :
  length sids = length tids -> Forall (fun t => length t = arity) tids ->
  select_unique (unique_cols arity sids tids)
  = Ok (first_mask_rec [] (map (fun j => nth j sids 0%Z :: nth j tids []) (seq 0 (length sids)))).
Proof.
  intros HL HF. rewrite select_unique_ok by now apply unique_cols_lengths.
  now rewrite zip_unique_cols, unique_mask_rec.
Qed.

(* the unique filter is a subset by the first-occurrence mask of the row keys *)
Lemma filter_unique_screen_eq tag p : screen_wf p ->
  filter_unique_screen tag p = mk_view tag p true (first_mask_rec [] (map (row_key p) (seq 0 (screen_size p)))).
Proof.
  intros (HS & _ & _ & HT). unfold filter_unique_screen.
  rewrite select_unique_cols by assumption. cbn [res_bind]. rewrite HS. apply screen_subset_mk_view.
Qed.

Lemma filter_unique_view_eq v : view_ok v -> screen_wf (v_parent v) ->
  filter_unique_view v = view_subset v true (first_mask_rec [] (map (row_key (v_parent v)) (np_where (v_sel v)))).
Proof.
  intros Hok (HS & _ & _ & HT). unfold view_ok, screen_size in *. unfold filter_unique_view.
  assert (Es : view_sids v = map (fun i => nth i (s_sids (v_parent v)) 0%Z) (np_where (v_sel v)))
    by (apply select_nth; congruence).
  assert (Et : view_tids v = map (fun i => nth i (s_tids (v_parent v)) []) (np_where (v_sel v)))
    by now apply select_nth.
  rewrite select_unique_cols.
  - cbn [res_bind]. rewrite Es, Et, map_length. unfold row_key. now rewrite map_nth_maps.
  - now rewrite Es, Et, !map_length.
  - now apply Forall_select.
Qed.

Lemma filter_unique_screen_inv tag p v : screen_wf p -> filter_unique_screen tag p = Ok v ->
  v_tag v = tag /\ v_parent v = p /\ view_ok v /\
  np_where (v_sel v) = keep_first (row_key p) [] (seq 0 (screen_size p)).
Proof.
  intros Hwf. rewrite filter_unique_screen_eq by exact Hwf. intros H.
  apply mk_view_inv in H. destruct H as (_ & HL & ->). cbn [v_tag v_parent v_sel].
  repeat split; [exact HL|]. rewrite where_select, HL. apply select_first_mask_keep.
Qed.

Lemma filter_unique_view_inv v v' : view_ok v -> screen_wf (v_parent v) -> filter_unique_view v = Ok v' ->
  v_tag v' = v_tag v /\ v_parent v' = v_parent v /\ view_ok v' /\
  np_where (v_sel v') = keep_first (row_key (v_parent v)) [] (np_where (v_sel v)).
Proof.
  intros Hok Hwf. rewrite filter_unique_view_eq by assumption. intros H.
  destruct (subset_compose _ _ _ _ Hok H) as (Ht & Hp & Hok' & Hw & _).
  repeat split; try assumption. rewrite Hw. apply select_first_mask_keep.
Qed.

Lemma filter_unique_view_total v : view_ok v -> screen_wf (v_parent v) -> exists v', filter_unique_view v = Ok v'.
Proof.
  intros Hok Hwf. rewrite filter_unique_view_eq by assumption. eexists. apply view_subset_ok; [exact Hok|].
  rewrite first_mask_rec_length, map_length. symmetry. now apply view_size_where.
Qed.

(* induction over op trees, with the hypothesis for every element of a Concat *)
Lemma vexpr_ind' (P : vexpr -> Prop)
  (HB : forall k b s, P (Base k b s)) (HO : forall k, P (Observed k)) (HU : forall k, P (Unobserved k))
  (HG : forall k pid, P (GetPlate k pid)) (HUS : forall k, P (UniqueS k))
  (HS : forall e b i, P e -> P (Subset e b i)) (HC : forall a b, P a -> P b -> P (Combine a b))
  (HI : forall e, P e -> P (Invert e)) (HCc : forall es, Forall P es -> P (Concat es))
  (HUq : forall e, P e -> P (Unique e)) : forall e, P e.
Proof.
  fix IH 1. intros [k b s|k|k|k pid|k|e b i|a b|e|es|e].
  - apply HB. - apply HO. - apply HU. - apply HG. - apply HUS.
  - apply HS, IH. - apply HC; apply IH. - apply HI, IH.
  - apply HCc. revert es. fix IHes 1. intros [|x r]; constructor; [apply IH|apply IHes].
  - apply HUq, IH.
Qed.

(* the inner loop of [eval] on Concat *)
Definition eval_list (ps : list screen) : list vexpr -> result (list view) :=
  fix go (l : list vexpr) : result (list view) :=
    match l with
    | [] => Ok []
    | x :: r => dor a <- eval ps x; dor b <- go r; Ok (a :: b)
    end.

(* what holds of every successfully evaluated element holds of the evaluated list *)
Lemma eval_list_ok ps (P : vexpr -> view -> Prop) es vs :
  Forall (fun e => forall v, eval ps e = Ok v -> P e v) es -> eval_list ps es = Ok vs -> Forall2 P es vs.
Proof.
  intros HF. revert vs; induction HF as [|e r He _ IH]; intros vs; cbn [eval_list].
  - intros [= <-]. constructor.
  - destruct (eval ps e) as [a|] eqn:E; cbn [res_bind]; [|discriminate].
    fold (eval_list ps). destruct (eval_list ps r) as [b|]; cbn [res_bind]; [|discriminate].
    intros [= <-]. constructor; [now apply He|now apply IH].
Qed.

Lemma parent_at ps k p : nth_error ps k = Some p ->
  nth k ps empty_screen = p /\ (Forall screen_wf ps -> screen_wf p).
Proof.
  intros E. split; [now apply nth_error_nth|].
  intros H. rewrite Forall_forall in H. apply H. eapply nth_error_In; eassumption.
Qed.

(* a leaf of the tree: the parent it names exists and is what [ref] looks up *)
Lemma get_parent_bind ps k (f : screen -> result view) v : (dor p <- get_parent ps k; f p) = Ok v ->
  let p := nth k ps empty_screen in
  nth_error ps k = Some p /\ (Forall screen_wf ps -> screen_wf p) /\ f p = Ok v.
Proof.
  unfold get_parent. destruct (nth_error ps k) as [p|] eqn:E; [|discriminate]. cbn [res_bind].
  destruct (parent_at _ _ _ E) as [<- Hwf]. auto.
Qed.

Lemma view_in_same ps a b ka kb : view_in ps a ka -> view_in ps b kb -> v_tag b = v_tag a ->
  kb = ka /\ v_parent b = v_parent a /\ length (v_sel b) = length (v_sel a).
Proof.
  intros (Ha & Ta & Oa) (Hb & Tb & Ob) E. assert (kb = ka) by lia. subst kb.
  assert (v_parent b = v_parent a) by congruence. unfold view_ok in *. repeat split; congruence.
Qed.

Definition tree_ok (ps : list screen) (e : vexpr) (v : view) : Prop :=
  view_in ps v (parent_of e) /\ np_where (v_sel v) = ref ps e.

(* a view of the tree's parent whose selection vector is, position by position, the predicate the reference filters by
   (at the uses [reflexivity] reads that predicate off [ref]; where it mentions [ref] again, [cbn [ref]] first keeps it folded) *)
Lemma tree_ok_pointwise ps e v f : view_in ps v (parent_of e) ->
  ref ps e = filter f (seq 0 (screen_size (nth (parent_of e) ps empty_screen))) ->
  (forall i, i < screen_size (nth (parent_of e) ps empty_screen) -> nth i (v_sel v) false = f i) ->
  tree_ok ps e v.
Proof.
  intros Hin Href Hf. split; [exact Hin|]. destruct Hin as (Hn & _ & Hok).
  destruct (parent_at _ _ _ Hn) as [E _]. rewrite Href, E in *. now apply where_of_pointwise.
Qed.

Lemma Forall2_existsb ps es vs i : Forall2 (tree_ok ps) es vs ->
  existsb (fun v => nth i (v_sel v) false) vs = existsb (mem_nat i) (map (ref ps) es).
Proof.
  induction 1 as [|e v es vs [_ Hw] _ IH]; cbn [existsb map]; [reflexivity|].
  now rewrite IH, <- Hw, mem_where.
Qed.

Theorem closure ps : Forall screen_wf ps -> forall e v, eval ps e = Ok v -> tree_ok ps e v.
Proof.
  intros Hps. induction e as [k b s|k|k|k pid|k|e b inner IH|ea eb IHa IHb|e IH|es IH|e IH] using vexpr_ind';
    intros v H; cbn [eval] in H.
  - (* Base *)
    apply get_parent_bind in H. destruct H as (EP & _ & H).
    rewrite screen_subset_mk_view in H. apply mk_view_inv in H. destruct H as (_ & HL & ->).
    eapply tree_ok_pointwise; [now repeat split|reflexivity|reflexivity].
  - (* Observed *)
    apply get_parent_bind in H. destruct H as (EP & Hwf & H).
    destruct (subset_observed _ _) as [r|] eqn:ES; cbn [unopt] in H; [|discriminate]. subst r.
    destruct (observed_split (Z.of_nat k) _ (Hwf Hps)) as (_ & _ & Ho & _).
    destruct (Ho _ ES) as (v' & [= <-] & Ht & Hp & Hok & Hnth & _).
    eapply tree_ok_pointwise; [cbn [parent_of]; repeat split; congruence|reflexivity|]. intros i _. apply Hnth.
  - (* Unobserved *)
    apply get_parent_bind in H. destruct H as (EP & Hwf & H).
    destruct (subset_unobserved _ _) as [r|] eqn:ES; cbn [unopt] in H; [|discriminate]. subst r.
    destruct (observed_split (Z.of_nat k) _ (Hwf Hps)) as (_ & _ & _ & Hu).
    destruct (Hu _ ES) as (v' & [= <-] & Ht & Hp & Hok & Hnth & _).
    eapply tree_ok_pointwise; [cbn [parent_of]; repeat split; congruence|reflexivity|exact Hnth].
  - (* GetPlate *)
    apply get_parent_bind in H. destruct H as (EP & Hwf & H).
    destruct (get_plate_spec (Z.of_nat k) _ pid (Hwf Hps)) as (v' & E & Ht & Hp & Hok & Hnth).
    rewrite E in H. injection H as <-.
    eapply tree_ok_pointwise; [cbn [parent_of]; repeat split; congruence|reflexivity|]. intros i _. apply Hnth.
  - (* UniqueS *)
    apply get_parent_bind in H. destruct H as (EP & Hwf & H).
    destruct (filter_unique_screen_inv _ _ _ (Hwf Hps) H) as (Ht & Hp & Hok & Hw).
    split; [cbn [parent_of]; repeat split; congruence|exact Hw].
  - (* Subset *)
    apply res_bind_inv in H. destruct H as (v0 & E0 & H). destruct (IH _ E0) as [(Hn & Ht & Hok) Hw].
    destruct (subset_compose _ _ _ _ Hok H) as (Ht' & Hp' & Hok' & Hw' & _).
    split; [cbn [parent_of]; repeat split; congruence|]. cbn [ref]. now rewrite Hw', Hw.
  - (* Combine *)
    apply res_bind_inv in H. destruct H as (va & Ea & H). apply res_bind_inv in H. destruct H as (vb & Eb & H).
    destruct (IHa _ Ea) as [Hia Hwa]. destruct (IHb _ Eb) as [Hib Hwb].
    apply view_combine_inv in H. destruct H as (Etag & HL & ->).
    destruct (view_in_same _ _ _ _ _ Hia Hib Etag) as (_ & _ & HLab).
    eapply tree_ok_pointwise; [|cbn [ref]; reflexivity|].
    + destruct Hia as (Hn & Ht & Hok). now repeat split.
    + intros i _. cbn [v_sel]. rewrite nth_bor_vec by now symmetry. now rewrite <- Hwa, <- Hwb, !mem_where.
  - (* Invert *)
    apply res_bind_inv in H. destruct H as (v0 & E0 & H). destruct (IH _ E0) as [(Hn & Ht & Hok) Hw].
    destruct (invert_complement v0 Hok) as (v' & E & Ht' & Hp' & Hok' & Hnth).
    rewrite E in H. injection H as <-.
    eapply tree_ok_pointwise; [cbn [parent_of]; repeat split; congruence|cbn [ref]; reflexivity|].
    intros i Hi. destruct (parent_at _ _ _ Hn) as [Ep _]. cbn [parent_of] in Hi. rewrite Ep, <- Hok in Hi.
    rewrite Hnth by exact Hi. now rewrite <- Hw, mem_where.
  - (* Concat *)
    apply res_bind_inv in H. destruct H as (vs & EL & H).
    pose proof (eval_list_ok _ _ _ _ IH EL) as HQ. clear IH EL.
    destruct HQ as [|e0 v0 es vs [Hi0 Hw0] HQ]; [discriminate|].
    apply concat_union_gen in H.
    + destruct H as (Ht & Hp & HL & _ & Hex). destruct Hi0 as (Hn & Ht0 & Hok0). unfold view_ok in Hok0.
      eapply tree_ok_pointwise; [cbn [parent_of]; repeat split; unfold view_ok; congruence|cbn [ref]; reflexivity|].
      intros i _. rewrite Hex. cbn [existsb map]. now rewrite (Forall2_existsb ps es vs i HQ), <- Hw0, mem_where.
    + clear H. induction HQ as [|e v' es vs [Hi _] _ IHF]; constructor; [|exact IHF].
      intros Etag. now destruct (view_in_same _ _ _ _ _ Hi0 Hi Etag) as (_ & _ & HLen).
  - (* Unique *)
    apply res_bind_inv in H. destruct H as (v0 & E0 & H). destruct (IH _ E0) as [(Hn & Ht & Hok) Hw].
    destruct (parent_at _ _ _ Hn) as [Hnth Hwf].
    destruct (filter_unique_view_inv _ _ Hok (Hwf Hps) H) as (Ht' & Hp' & Hok' & Hw').
    split; [cbn [parent_of]; repeat split; congruence|]. cbn [ref parent_of]. now rewrite Hnth, Hw', Hw.
Qed.

(* consequences: the selection vector itself, and every attribute *)
Lemma closure_mask ps e v : Forall screen_wf ps -> eval ps e = Ok v ->
  v_sel v = mask_of (screen_size (v_parent v)) (ref ps e).
Proof.
  intros Hps H. destruct (closure ps Hps e v H) as [(_ & _ & Hok) Hw]. rewrite <- Hw, <- Hok. apply sel_mask_of.
Qed.

Lemma closure_attr ps e v : Forall screen_wf ps -> eval ps e = Ok v ->
  forall A (d : A) (col : list A), length col = screen_size (v_parent v) ->
    select (v_sel v) col = map (fun i => nth i col d) (ref ps e).
Proof.
  intros Hps H A d col Hc. destruct (closure ps Hps e v H) as [(_ & _ & Hok) Hw].
  rewrite <- Hw. apply select_nth. unfold view_ok in Hok. congruence.
Qed.

Lemma ref_sorted ps e v : Forall screen_wf ps -> eval ps e = Ok v ->
  StronglySorted lt (ref ps e) /\ forall i, In i (ref ps e) -> i < screen_size (v_parent v).
Proof.
  intros Hps H. destruct (closure ps Hps e v H) as [(_ & _ & Hok) Hw]. rewrite <- Hw.
  split; [apply where_sorted|]. intros i Hi. apply where_lt in Hi. unfold view_ok in Hok. lia.
Qed.

(* the unique filter on a view: exactly one row per key, the first *)
Lemma unique_exactly_one v v' : view_ok v -> screen_wf (v_parent v) -> filter_unique_view v = Ok v' ->
  let key := row_key (v_parent v) in
  let W := np_where (v_sel v) in
  let W' := np_where (v_sel v') in
  v_tag v' = v_tag v /\ v_parent v' = v_parent v /\ view_ok v' /\
  (forall i, In i W' <-> In i W /\ forall j, In j W -> j < i -> key j <> key i) /\
  NoDup (map key W') /\
  (forall i, In i W -> exists i', In i' W' /\ key i' = key i).
Proof.
  intros Hok Hwf H key W W'. destruct (filter_unique_view_inv _ _ Hok Hwf H) as (Ht & Hp & Hok' & Hw).
  fold key W W' in Hw. split; [exact Ht|]. split; [exact Hp|]. split; [exact Hok'|]. split; [|split].
  - intros i. rewrite Hw, In_keep_first by apply where_sorted. cbn [In]. tauto.
  - rewrite Hw. apply keep_first_NoDup.
  - intros i Hi. rewrite Hw. destruct (keep_first_covers key [] W i Hi) as [[]|Hex]. exact Hex.
Qed.

Lemma view_attrs v (dr : row) : view_ok v -> screen_wf (v_parent v) ->
  let p := v_parent v in
  let idx := np_where (v_sel v) in
  view_pids v = map (fun i => nth i (s_pids p) 0%Z) idx /\
  view_sids v = map (fun i => nth i (s_sids p) 0%Z) idx /\
  view_tids v = map (fun i => nth i (s_tids p) []) idx /\
  view_rows v = map (fun i => nth i (s_rows p) dr) idx /\
  view_sample_names v = map r_sample (view_rows v) /\
  view_plate_names v = map r_plate (view_rows v) /\
  view_treats v = map r_treats (view_rows v) /\
  view_obs v = map r_obs (view_rows v) /\
  view_mask v = map r_mask (view_rows v) /\
  view_size v = length idx.
Proof.
  intros Hok (HS & HP & HR & _) p idx. unfold view_ok in Hok. fold p in Hok, HS, HP, HR.
  unfold view_pids, view_sids, view_tids, view_rows, view_sample_names, view_plate_names, view_treats, view_obs, view_mask.
  fold p. rewrite !select_map.
  repeat split; try (apply select_nth; unfold screen_size in *; congruence).
  apply view_size_where. exact Hok.
Qed.
