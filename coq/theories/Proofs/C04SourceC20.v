(* The translation of batchie.data.create_single_treatment_effect_map (Generated/SrcTrain.v, generic in the type of an
   observation value) at exact rationals equals C20's column-level model Synergy.effect_map on every n x arity id
   array with two 1-d arrays of n entries.  (C20's model also covers misaligned arrays - numpy's IndexError - which
   the translation's mask primitive `select` does not represent; and it tags the arity ValueError 1, the C04 models 4.) *)
From Coq Require Import ZArith List Lia QArith Qcanon.
From Batchie Require Import Lib.Sexp Lib.Num Generated.Consts Model.Encode Model.Train Generated.SrcTrain Proofs.C04Source.
From Batchie Require Model.Metrics Model.Synergy.
Import ListNotations.
Open Scope Z_scope.

Lemma zinsert_insert_uniq x l : Metrics.zinsert x l = insert_uniq Z.compare x l.
Proof.
  induction l as [|y l IH]; cbn [Metrics.zinsert insert_uniq]; [reflexivity|].
  destruct (Z.compare_spec x y) as [E|L|G].
  - subst. rewrite Z.ltb_irrefl, Z.eqb_refl. reflexivity.
  - apply Z.ltb_lt in L. now rewrite L.
  - destruct (Z.ltb_spec x y); [lia|]. destruct (Z.eqb_spec x y); [lia|]. now rewrite IH.
Qed.

Lemma sorted_unique_sort_uniq l : Metrics.sorted_unique l = sort_uniq Z.compare l.
Proof.
  unfold Metrics.sorted_unique, sort_uniq. induction l as [|x l IH]; cbn [fold_right]; [reflexivity|].
  now rewrite IH, zinsert_insert_uniq.
Qed.

Lemma metrics_select {A} (m : list bool) : forall l : list A, Metrics.select m l = select m l.
Proof.
  unfold Metrics.select. induction m as [|b m IH]; intros [|a l]; cbn [combine filter map select]; try reflexivity.
  destruct b; cbn [fst map snd]; now rewrite IH.
Qed.

Lemma max_fold_shift r : forall b c, Z.max c (fold_right Z.max b r) = fold_right Z.max (Z.max c b) r.
Proof. induction r as [|y r IH]; intros b c; cbn [fold_right]; [reflexivity|]. rewrite <- IH. lia. Qed.

Lemma fold_left_max r : forall a, fold_left Z.max r a = Z.max a (fold_right Z.max a r).
Proof.
  induction r as [|y r IH]; intros a; cbn [fold_left fold_right]; [lia|].
  rewrite IH, !max_fold_shift. f_equal. lia.
Qed.

Lemma row_max_zmax row : row <> [] -> Synergy.row_max row = zmax_list row.
Proof.
  destruct row as [|x r]; [congruence|]. intros _. unfold Synergy.row_max, zmax_list. cbn [hd fold_right].
  apply fold_left_max.
Qed.

Lemma single_mask_cols arity tids : (2 <= arity)%nat ->
  eq_vec (ctrl_counts tids) (Z.of_nat arity - 1) = Synergy.single_mask arity tids.
Proof.
  intros Ha. unfold eq_vec, ctrl_counts, Synergy.single_mask. rewrite map_map. apply map_ext. intros row.
  assert (E : count_ctrl row = Synergy.n_control row).
  { unfold count_ctrl, Synergy.n_control. f_equal. apply filter_ext. intros t. unfold Synergy.is_control. apply Z.eqb_sym. }
  rewrite E. destruct (Nat.eqb_spec (Synergy.n_control row) (arity - 1)); [apply Z.eqb_eq | apply Z.eqb_neq]; lia.
Qed.

Lemma and_vec_combine (a b : list Z) s t :
  and_vec (eq_vec a t) (eq_vec b s) = map (fun ts => (fst ts =? t) && (snd ts =? s)) (combine a b).
Proof.
  unfold eq_vec. revert b. induction a as [|x a IH]; intros [|y b]; cbn [map and_vec combine fst snd]; try reflexivity.
  now rewrite IH.
Qed.

Lemma select_In {A} (m : list bool) : forall (l : list A) x, In x (select m l) -> In x l.
Proof.
  induction m as [|b m IH]; intros [|a l] x H; cbn [select] in H; try contradiction.
  destruct b; [destruct H as [<-|H]; [now left|]|]; right; now apply IH.
Qed.

Theorem src_single_effect_map_is_c20_model : forall (arity : nat) (sids : list Z) (tids : list (list Z)) (obs : list Qc),
  Forall (fun row => length row = arity) tids -> length sids = length tids -> length obs = length tids ->
  src_create_single_treatment_effect_map Qc 1%Qc qmean arity sids tids obs
  = if Nat.ltb arity 2 then Err 4 else Synergy.effect_map arity sids tids obs.
Proof.
  intros arity sids tids obs Hrect Hs Ho. rewrite src_single_effect_map_cols. unfold Synergy.effect_map.
  destruct (Nat.ltb_spec arity 2) as [Ha|Ha].
  - destruct (Z.ltb_spec (Z.of_nat arity) 2); [reflexivity | lia].
  - destruct (Z.ltb_spec (Z.of_nat arity) 2); [lia|].
    rewrite Ho, Hs, Nat.eqb_refl. cbn [negb orb]. unfold sem_cols. cbv zeta. f_equal.
    rewrite single_mask_cols by exact Ha. rewrite !metrics_select, !sorted_unique_sort_uniq.
    set (mask := Synergy.single_mask arity tids).
    assert (Hmax : row_maxima (select mask tids) = map Synergy.row_max (select mask tids)).
    { unfold row_maxima. apply map_ext_in. intros row Hrow. symmetry. apply row_max_zmax.
      apply select_In in Hrow. rewrite Forall_forall in Hrect. specialize (Hrect _ Hrow). intros ->. cbn in Hrect. lia. }
    rewrite Hmax. apply flat_map_ext. intros s. apply flat_map_ext. intros t.
    unfold Synergy.is_control, Synergy.CONTROL. change (t =? CONTROL_SENTINEL_VALUE) with (t =? -1).
    destruct (t =? -1); [reflexivity|]. cbv zeta. rewrite and_vec_combine, metrics_select. unfold any_true.
    destruct (existsb (fun b => b) _); reflexivity.
Qed.
