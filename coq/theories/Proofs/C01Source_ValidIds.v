(* C01, one piece of Proofs/C01Source.v (which see): numpy_array_is_0_indexed_integers *)
From Coq Require Import ZArith List Lia.
From Batchie Require Import Lib.Sexp Lib.PyRt Generated.Consts Model.Encode Generated.SrcEncode Proofs.PyRtLemmas
  Proofs.C01Sort Proofs.C01Source_Base.
Import ListNotations.
Open Scope Z_scope.

Lemma all_true_eq_Z a : forall b, length a = length b -> all_true (np_eq_Z a b) = Zlist_eqb a b.
Proof.
  unfold all_true, np_eq_Z.
  induction a as [|x a IH]; intros [|y b] Hl; cbn [length] in Hl; try discriminate; [reflexivity|].
  cbn [combine map forallb Zlist_eqb fst snd]. rewrite IH by lia. reflexivity.
Qed.

Lemma zrange_pred n : zrange (Z.of_nat n - 1) = map Z.of_nat (seq 0 (n - 1)).
Proof. unfold zrange. f_equal. f_equal. lia. Qed.

Theorem src_valid_ids_is_model : forall (isint : bool) (ids : list Z),
  src_numpy_array_is_0_indexed_integers (isint, ids) = Ok (zero_indexed isint ids).
Proof.
  intros isint ids. unfold src_numpy_array_is_0_indexed_integers, zero_indexed, arr_is_int, np_contains, np_unique_ids, np_sort_Z.
  cbn [fst snd]. destruct isint; cbn [negb]; [|reflexivity].
  rewrite (sort_by_of_sorted Z.compare Zcmp_spec) by apply (sort_uniq_sorted Z.compare Zcmp_spec).
  set (u := sort_uniq Z.compare ids).
  destruct (existsb (Z.eqb CONTROL_SENTINEL_VALUE) ids) eqn:E.
  - rewrite zrange_pred. cbn [app]. rewrite all_true_eq_Z; [reflexivity|].
    cbn [length]. rewrite map_length, seq_length.
    apply existsb_exists in E as (z & Hz & _). apply (sort_uniq_In Z.compare Zcmp_spec) in Hz. fold u in Hz.
    destruct u; [contradiction | cbn [length]; lia].
  - rewrite zrange_of_nat, all_true_eq_Z; [reflexivity|]. now rewrite map_length, seq_length.
Qed.
