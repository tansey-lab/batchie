(* C14, one piece of Proofs/C14Source.v (conventions and objects: see there): ScreenSubset.concat *)
From Coq Require Import ZArith List Lia ZifyBool.
From Batchie Require Import Lib.Sexp Lib.PyRt Model.Views Generated.SrcViews
  Proofs.PyRtLemmas Proofs.C14Source_ViewInit.
Import ListNotations.
Open Scope Z_scope.

(* the loop of concat: [vs0] is the whole argument list (whose first element the body re-reads) *)
Lemma concat_loop_src (vs0 : list view) (v0 : view)
      (f : option (list bool) -> view -> result (option (list bool))) :
  list_get vs0 0 = Ok v0 ->
  (forall acc v, f acc v =
     dor r <- list_get vs0 0;
     if negb (same_object (view_screen v) (view_screen r)) then Err 23
     else dor acc' <- (if is_none acc then Ok (Some (v_sel v))
                       else dor u <- unwrap acc; Ok (Some (bor_vec u (v_sel v))));
          Ok acc') ->
  forall vs acc, res_fold f vs acc = concat_loop (v_tag v0) acc vs.
Proof.
  intros Hget Hf. induction vs as [|v vs IH]; intros acc; cbn [res_fold concat_loop]; [reflexivity|].
  rewrite Hf, Hget. cbn [res_bind]. unfold same_object, view_screen. cbn [fst].
  destruct (negb (v_tag v =? v_tag v0)); [reflexivity|].
  destruct acc as [s|]; cbn [is_none unwrap res_bind]; apply IH.
Qed.

(* the loop hands back None only if it never ran *)
Lemma concat_loop_none tag : forall vs acc, concat_loop tag acc vs = Ok None -> acc = None /\ vs = [].
Proof.
  induction vs as [|v vs IH]; intros acc; cbn [concat_loop]; [now intros [= ->]|].
  destruct (negb (v_tag v =? tag)); [discriminate|]. intros H. apply IH in H. now destruct H as [[=] _].
Qed.

Theorem src_view_concat_is_model : forall vs : list view, src_view_concat vs = view_concat vs.
Proof.
  intros [|v0 [|v1 r]]; [reflexivity | reflexivity |].
  unfold src_view_concat, view_concat.
  replace (Z.of_nat (length (v0 :: v1 :: r)) =? 1) with false by (cbn [length]; lia).
  replace (Z.of_nat (length (v0 :: v1 :: r)) =? 0) with false by (cbn [length]; lia).
  rewrite (concat_loop_src (v0 :: v1 :: r) v0) by (reflexivity || (intros; reflexivity)).
  destruct (concat_loop (v_tag v0) None (v0 :: v1 :: r)) as [[s|]|e] eqn:E; cbn [res_bind].
  - change (list_get (v0 :: v1 :: r) 0) with (Ok v0). cbn [res_bind unwrap].
    rewrite src_view_init_is_model, res_bind_ret. reflexivity.
  - now destruct (concat_loop_none _ _ _ E) as [_ [=]].
  - reflexivity.
Qed.
