(* C20: the single-effect dict / array and calculate_synergy equal their
   row-by-row definitions (Proofs/C20Spec.v). *)
From Coq Require Import ZArith List Qcanon Lia Bool.
From Batchie Require Import Lib.ListX Lib.Sexp Lib.Num Model.Metrics Model.Synergy
  Proofs.C20Spec Proofs.C20Base.
Import ListNotations.
Open Scope Qc_scope.

Definition valid_id (t : Z) : Prop := (-1 <= t)%Z.

Lemma is_control_spec t : is_control t = true <-> t = CONTROL.
Proof. unfold is_control. apply Z.eqb_eq. Qed.

Lemma n_control_cons x r : n_control (x :: r) = if is_control x then S (n_control r) else n_control r.
Proof. unfold n_control. cbn [filter]. now destruct (is_control x). Qed.

Lemma n_control_le r : (n_control r <= length r)%nat.
Proof.
  induction r as [|x r IH]; [cbn; lia|]. rewrite n_control_cons. cbn [length]. destruct (is_control x); lia.
Qed.

Lemma all_control_count r : forallb is_control r = Nat.eqb (n_control r) (length r).
Proof.
  induction r as [|x r IH]; [reflexivity|].
  cbn [forallb length]. rewrite n_control_cons, IH. pose proof (n_control_le r).
  destruct (is_control x); cbn [andb].
  - reflexivity.
  - symmetry. apply Nat.eqb_neq. lia.
Qed.

Lemma fold_max_assoc l a b : fold_left Z.max l (Z.max a b) = Z.max a (fold_left Z.max l b).
Proof.
  revert b; induction l as [|c l IH]; intros b; [reflexivity|].
  cbn [fold_left]. rewrite <- Z.max_assoc. apply IH.
Qed.

Lemma row_max_ge r : Forall valid_id r -> (-1 <= row_max r)%Z.
Proof.
  destruct r as [|x r]; [unfold row_max, CONTROL; lia|]. cbn [row_max]. intros H. inversion H as [|? ? Hx Hr]; subst.
  clear H. revert x Hx. induction Hr as [|y r Hy Hr IH]; intros x Hx; [exact Hx|].
  cbn [fold_left]. apply IH. unfold valid_id in *. lia.
Qed.

Lemma row_max_cons x r : Forall valid_id (x :: r) -> row_max (x :: r) = Z.max x (row_max r).
Proof.
  intros H. inversion H as [|? ? Hx Hr]; subst. destruct r as [|y r].
  - cbn. unfold valid_id, CONTROL in *. lia.
  - cbn [row_max fold_left]. apply fold_max_assoc.
Qed.

Lemma all_control_max r : forallb is_control r = true -> row_max r = CONTROL.
Proof.
  destruct r as [|x r]; [reflexivity|]. cbn [forallb row_max]. intros H. apply andb_true_iff in H as [Hx Hr].
  apply is_control_spec in Hx. subst x. induction r as [|y r IH]; [reflexivity|].
  cbn [forallb] in Hr. apply andb_true_iff in Hr as [Hy Hr]. apply is_control_spec in Hy. subst y.
  cbn [fold_left]. rewrite Z.max_id. now apply IH.
Qed.

Lemma len_cons_pred {A} (x : A) r : (length (x :: r) - 1)%nat = length r.
Proof. cbn [length]. lia. Qed.

(* a row with one non-control entry is a single-agent row of its largest id *)
Lemma single_of_max t row :
  t <> CONTROL -> Forall valid_id row ->
  one_noncontrol row && (row_max row =? t)%Z = single_of t row.
Proof.
  intros Ht. induction row as [|x r IH]; intros Hv; [reflexivity|].
  rewrite (row_max_cons x r Hv). inversion Hv as [|? ? Hx Hr]; subst.
  pose proof (row_max_ge r Hr) as Hge. cbn [one_noncontrol single_of].
  unfold valid_id in Hx. destruct (is_control x) eqn:Ex; cbn [andb orb].
  - apply is_control_spec in Ex. subst x. rewrite Z.max_r by exact Hge.
    destruct (Z.eqb_spec CONTROL t); [congruence|]. exact (IH Hr).
  - rewrite orb_false_r. destruct (forallb is_control r) eqn:Hall; cbn [andb]; [|now rewrite andb_false_r].
    rewrite (all_control_max r Hall), andb_true_r. unfold CONTROL. now rewrite Z.max_l by exact Hx.
Qed.

Lemma mask_one_noncontrol row :
  row <> [] -> Nat.eqb (n_control row) (length row - 1) = one_noncontrol row.
Proof.
  induction row as [|x r IH]; intros Hne; [congruence|].
  rewrite n_control_cons, len_cons_pred. cbn [one_noncontrol].
  pose proof (n_control_le r) as Hle.
  destruct (is_control x).
  - destruct r as [|y r']; [reflexivity|]. rewrite <- IH by congruence. now rewrite len_cons_pred.
  - symmetry. apply all_control_count.
Qed.

Lemma find_app {A} (p : A -> bool) a b :
  find p (a ++ b) = match find p a with Some x => Some x | None => find p b end.
Proof. induction a as [|x a IH]; [reflexivity|]. cbn [app find]. now destruct (p x). Qed.

Lemma map_lookup_app a b s t :
  map_lookup (a ++ b) s t = match map_lookup a s t with Some v => Some v | None => map_lookup b s t end.
Proof. unfold map_lookup. rewrite find_app. now destruct (find _ a). Qed.

Definition entry (ent : Z -> Z -> option Qc) (s t : Z) : effect_map_t :=
  match ent s t with Some v => [((s, t), v)] | None => [] end.
Definition entries (ent : Z -> Z -> option Qc) (s : Z) (T : list Z) : effect_map_t :=
  flat_map (entry ent s) T.

Lemma lookup_entry ent s' t' s t :
  map_lookup (entry ent s' t') s t = if (s' =? s)%Z && (t' =? t)%Z then ent s t else None.
Proof.
  unfold entry, map_lookup. destruct (ent s' t') as [v|] eqn:E; cbn [find fst snd].
  all: destruct (Z.eqb_spec s' s) as [<-|]; destruct (Z.eqb_spec t' t) as [<-|]; cbn [andb snd]; congruence.
Qed.

Lemma lookup_entries ent s' T s t :
  map_lookup (entries ent s' T) s t
  = if (s' =? s)%Z && existsb (Z.eqb t) T then ent s t else None.
Proof.
  unfold entries. induction T as [|t' T IH]; cbn [flat_map existsb].
  - now rewrite andb_false_r.
  - rewrite map_lookup_app, lookup_entry, IH, (Z.eqb_sym t' t).
    now destruct (s' =? s)%Z, (t =? t')%Z, (existsb (Z.eqb t) T), (ent s t).
Qed.

Lemma lookup_all_entries ent S T s t :
  map_lookup (flat_map (fun s' => entries ent s' T) S) s t
  = if existsb (Z.eqb s) S && existsb (Z.eqb t) T then ent s t else None.
Proof.
  induction S as [|s' S IH]; [reflexivity|].
  cbn [flat_map existsb]. rewrite map_lookup_app, lookup_entries, IH, (Z.eqb_sym s' s).
  now destruct (s =? s')%Z, (existsb (Z.eqb s) S), (existsb (Z.eqb t) T), (ent s t).
Qed.

Lemma existsb_sorted_unique x l : existsb (Z.eqb x) (sorted_unique l) = existsb (Z.eqb x) l.
Proof.
  apply eq_iff_eq_true. rewrite !existsb_exists. split; intros (y & Hy & E); exists y; split; try assumption.
  all: now apply sorted_unique_In.
Qed.

Lemma In_existsb_eqb x l : In x l -> existsb (Z.eqb x) l = true.
Proof. apply (existsb_eqb_In Z.eqb Z.eqb_eq). Qed.

Lemma flat_map_ext_in {A B} (f g : A -> list B) l :
  (forall a, In a l -> f a = g a) -> flat_map f l = flat_map g l.
Proof.
  induction l as [|a l IH]; intros H; [reflexivity|]. cbn [flat_map].
  rewrite (H a) by now left. rewrite IH; [reflexivity|]. intros b Hb. apply H. now right.
Qed.

Lemma existsb_select (m : list bool) (l : list Qc) :
  length m = length l ->
  existsb (fun b => b) m = match select m l with [] => false | _ => true end.
Proof.
  revert l; induction m as [|b m IH]; intros [|x l] H; try discriminate; [reflexivity|].
  rewrite select_cons. cbn [existsb]. injection H as H. destruct b; [reflexivity|]. cbn [orb]. now apply IH.
Qed.

Section Sel.
Variable pm : list Z -> bool.
Variables s t : Z.

Definition inner_mask (tids : list (list Z)) (sids : list Z) : list bool :=
  let mask := map pm tids in
  map (fun ts : Z * Z => (fst ts =? t)%Z && (snd ts =? s)%Z)
      (combine (map row_max (select mask tids)) (select mask sids)).

Lemma sel_sel tids : forall sids obs,
  length sids = length tids -> length obs = length tids ->
  select (inner_mask tids sids) (select (map pm tids) obs)
  = flat_map (fun r : Z * list Z * Qc =>
                if pm (snd (fst r)) && (row_max (snd (fst r)) =? t)%Z && (fst (fst r) =? s)%Z
                then [snd r] else [])
             (rows3 sids tids obs)
  /\ length (inner_mask tids sids) = length (select (map pm tids) obs).
Proof.
  unfold inner_mask, rows3.
  induction tids as [|row tids IH]; intros [|sid sids] [|ob obs] Hs Ho; try discriminate.
  - split; reflexivity.
  - injection Hs as Hs. injection Ho as Ho. destruct (IH sids obs Hs Ho) as [IH1 IH2].
    cbn [map combine flat_map fst snd]. rewrite !select_cons.
    destruct (pm row); cbn [andb map combine fst snd].
    + rewrite select_cons. cbn [length]. rewrite IH2. split; [|reflexivity].
      destruct ((row_max row =? t)%Z && (sid =? s)%Z); cbn [app]; now rewrite IH1.
    + split; assumption.
Qed.
End Sel.

Section Map.
Variable arity : nat.
Variable sids : list Z.
Variable tids : list (list Z).
Variable obs : list Qc.
Hypothesis Har : (2 <= arity)%nat.
Hypothesis Hs : length sids = length tids.
Hypothesis Ho : length obs = length tids.
Hypothesis Hrect : Forall (fun r => length r = arity) tids.
Hypothesis Hvalid : Forall (Forall valid_id) tids.

Let pm (row : list Z) : bool := Nat.eqb (n_control row) (arity - 1).

Definition code_entry (s t : Z) : option Qc :=
  if is_control t then Some 1
  else
    let m := inner_mask pm s t tids sids in
    if existsb (fun b => b) m then Some (qmean (select m (select (map pm tids) obs))) else None.

Lemma effect_map_entries :
  effect_map arity sids tids obs
  = Ok (flat_map (fun s => entries code_entry s (sorted_unique (concat tids))) (sorted_unique sids)).
Proof.
  unfold effect_map. destruct (Nat.ltb_spec arity 2); [lia|].
  rewrite Hs, Ho, !Nat.eqb_refl. cbn [negb orb]. f_equal.
  apply flat_map_ext_in. intros s _. unfold entries. apply flat_map_ext_in. intros t _.
  unfold entry, code_entry, inner_mask, single_mask. fold pm.
  destruct (is_control t); [reflexivity|].
  now destruct (existsb _ _).
Qed.

Lemma row_in_rows3 r : In r (rows3 sids tids obs) -> In (snd (fst r)) tids /\ In (fst (fst r)) sids.
Proof.
  unfold rows3. destruct r as [[s row] ob]. intros H. apply in_combine_l in H.
  split; [eapply in_combine_r|eapply in_combine_l]; exact H.
Qed.

Lemma row_nonempty r : In r tids -> r <> [].
Proof.
  intros Hr E. rewrite Forall_forall in Hrect. specialize (Hrect _ Hr). subst r. cbn [length] in Hrect. lia.
Qed.

Lemma code_entry_def s t : code_entry s t = single_effect_def sids tids obs s t.
Proof.
  unfold code_entry, single_effect_def. destruct (is_control t) eqn:Et; [reflexivity|].
  assert (Ht : t <> CONTROL) by (intros E; apply is_control_spec in E; congruence).
  destruct (sel_sel pm s t tids sids obs Hs Ho) as [H1 H2].
  rewrite (existsb_select _ _ H2), H1.
  replace (flat_map _ (rows3 sids tids obs)) with (single_obs sids tids obs s t).
  - unfold qmean. rewrite qlen_qnat. now destruct (single_obs sids tids obs s t).
  - unfold single_obs. apply flat_map_ext_in. intros r Hr. apply row_in_rows3 in Hr as [Hr _].
    pose proof (row_nonempty _ Hr). rewrite Forall_forall in Hrect, Hvalid. unfold pm. rewrite <- (Hrect _ Hr).
    rewrite mask_one_noncontrol, (single_of_max t _ Ht (Hvalid _ Hr)) by assumption. now rewrite andb_comm.
Qed.

Theorem effect_map_eq :
  exists m, effect_map arity sids tids obs = Ok m /\
    forall s t, map_lookup m s t
                = if existsb (Z.eqb s) sids && existsb (Z.eqb t) (concat tids)
                  then single_effect_def sids tids obs s t else None.
Proof.
  eexists. split; [apply effect_map_entries|]. intros s t.
  rewrite lookup_all_entries, !existsb_sorted_unique, code_entry_def. reflexivity.
Qed.

Theorem effect_array_eq :
  effect_array arity sids tids obs = effect_array_def sids tids obs.
Proof.
  unfold effect_array, effect_array_def. destruct effect_map_eq as (m & -> & Hm). cbn [res_bind].
  apply res_map_all_ext_in. intros [s row] Hin. cbn [fst snd].
  apply res_map_all_ext_in. intros t Ht. rewrite Hm.
  rewrite (In_existsb_eqb s sids) by (eapply in_combine_l; exact Hin).
  rewrite (In_existsb_eqb t (concat tids)); [reflexivity|].
  apply in_concat. exists row. split; [eapply in_combine_r; exact Hin|exact Ht].
Qed.

Lemma rows_select (p : list Z -> bool) : forall (ss : list Z) (tt : list (list Z)) (oo : list Qc),
  length ss = length tt -> length oo = length tt ->
  combine (combine (select (map p tt) ss) (select (map p tt) tt)) (select (map p tt) oo)
  = filter (fun r => p (snd (fst r))) (rows3 ss tt oo).
Proof.
  unfold rows3. intros ss tt; revert ss; induction tt as [|row tt IH]; intros [|s ss] [|ob oo] H1 H2; try discriminate; [reflexivity|].
  injection H1 as H1. injection H2 as H2. cbn [map combine filter fst snd]. rewrite !select_cons.
  destruct (p row); cbn [combine]; now rewrite IH.
Qed.

Lemma control_effect s t : is_control t = true -> single_effect_def sids tids obs s t = Some 1.
Proof. intros H. unfold single_effect_def. now rewrite H. Qed.

Lemma somes_cons {A} (o : option A) l : somes (o :: l) = match o with Some a => a :: somes l | None => somes l end.
Proof. destruct o; reflexivity. Qed.

Lemma qprod_cons x l : qprod (x :: l) = x * qprod l.
Proof. reflexivity. Qed.

(* control columns have effect 1: dropping them changes neither which effects exist nor their product *)
Lemma noncontrol_effects (g : Z -> option Qc) row :
  (forall t, is_control t = true -> g t = Some 1) ->
  forallb is_some (map g (filter (fun t => negb (is_control t)) row)) = forallb is_some (map g row)
  /\ qprod (somes (map g (filter (fun t => negb (is_control t)) row))) = qprod (somes (map g row)).
Proof.
  intros Hg. induction row as [|x r [IH1 IH2]]; [split; reflexivity|].
  cbn [filter map]. destruct (is_control x) eqn:Ex; cbn [negb map forallb]; rewrite !somes_cons.
  - rewrite (Hg x Ex). cbn [is_some andb]. rewrite qprod_cons, IH2. split; [exact IH1|ring].
  - rewrite IH1. split; [reflexivity|]. destruct (g x); [|exact IH2]. now rewrite !qprod_cons, IH2.
Qed.

Lemma synergy_loop_def strict m rows :
  (forall r, In r rows -> snd (fst r) <> [] /\
     forall t, In t (snd (fst r)) -> map_lookup m (fst (fst r)) t = single_effect_def sids tids obs (fst (fst r)) t) ->
  synergy_loop strict m (filter (fun r => negb (Nat.eqb (n_control (snd (fst r))) (length (snd (fst r)) - 1))) rows)
  = synergy_rows_def sids tids obs strict rows.
Proof.
  induction rows as [|[[s row] ob] rows IH]; intros H; [reflexivity|].
  assert (IH' := IH (fun r Hr => H r (or_intror Hr))). clear IH.
  destruct (H _ (or_introl eq_refl)) as [Hne Hl]. cbn [fst snd] in Hne, Hl.
  cbn [filter fst snd synergy_rows_def]. rewrite (mask_one_noncontrol row Hne).
  destruct (one_noncontrol row); cbn [negb]; [exact IH'|].
  cbn [synergy_loop].
  rewrite (map_ext_in (map_lookup m s) (single_effect_def sids tids obs s)).
  2:{ intros t Ht. apply Hl. apply filter_In in Ht. tauto. }
  destruct (noncontrol_effects (single_effect_def sids tids obs s) row (control_effect s)) as [E1 E2].
  rewrite E1, E2, IH'. reflexivity.
Qed.

Theorem synergy_eq strict :
  calculate_synergy strict arity sids tids obs = synergy_def sids tids obs strict.
Proof.
  unfold calculate_synergy, synergy_def. destruct (Nat.ltb_spec arity 2); [lia|].
  rewrite Hs, Ho, !Nat.eqb_refl. cbn [negb].
  destruct effect_map_eq as (m & -> & Hm). cbn [res_bind].
  unfold single_mask. rewrite map_map.
  rewrite (rows_select (fun row => negb (Nat.eqb (n_control row) (arity - 1))) sids tids obs Hs Ho).
  rewrite (filter_ext_in _ (fun r => negb (Nat.eqb (n_control (snd (fst r))) (length (snd (fst r)) - 1)))).
  2:{ intros r Hr. apply row_in_rows3 in Hr as [Hr _]. rewrite Forall_forall in Hrect. now rewrite (Hrect _ Hr). }
  rewrite synergy_loop_def; [reflexivity|].
  intros r Hr. apply row_in_rows3 in Hr as [Hr1 Hr2]. split.
  - now apply row_nonempty.
  - intros t Ht. rewrite Hm, (In_existsb_eqb _ _ Hr2).
    rewrite (In_existsb_eqb t (concat tids)); [reflexivity|]. apply in_concat. now exists (snd (fst r)).
Qed.
End Map.

Theorem effect_map_rejects arity sids tids obs :
  ((arity < 2)%nat -> effect_map arity sids tids obs = Err E_VALUE) /\
  ((2 <= arity)%nat -> (length obs <> length tids \/ length sids <> length tids) ->
   effect_map arity sids tids obs = Err E_INDEX).
Proof.
  unfold effect_map. split.
  - intros H. destruct (Nat.ltb_spec arity 2); [reflexivity|lia].
  - intros H Hl. destruct (Nat.ltb_spec arity 2); [lia|].
    destruct (Nat.eqb_spec (length obs) (length tids)), (Nat.eqb_spec (length sids) (length tids)); cbn [negb orb]; try reflexivity.
    tauto.
Qed.
