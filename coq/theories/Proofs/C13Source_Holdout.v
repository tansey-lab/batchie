(* C11, the piece of Proofs/C13Source.v (which see) that only C11 states: create_random_holdout *)
From Coq Require Import ZArith List Bool.
From Batchie Require Import Lib.Sexp Model.Retro Model.RetroHoldout Generated.SrcRetroGen Proofs.C11Select.
Import ListNotations.
Open Scope nat_scope.

Theorem src_random_holdout_is_model : forall num den count rows ds,
  src_random_holdout num den count rows ds = holdout_random num den count rows ds.
Proof.
  intros num den count rows ds. unfold src_random_holdout, holdout_random.
  destruct ((num <? 0)%Z || (Z.pos den <? num)%Z); [reflexivity|].
  unfold choose, ceil_size. destruct (take_ints ds) as [[idx ds']|t]; cbn [res_bind]; [|reflexivity].
  destruct (negb (Z.of_nat (length idx) =? match count with Some c => c | None => ceil_frac (length rows) num den end)%Z);
    cbn [res_bind]; [reflexivity|].
  unfold set_true. rewrite repeat_false_vof_idx, vor_vof_idx. cbn [app].
  unfold split_by, screen_without, screen_observed_of.
  destruct (construct (vselect (map negb (vof_idx (length rows) idx)) rows)) as [k|t]; cbn [res_bind]; [|reflexivity].
  destruct (construct (map (set_mask true) (vselect (vof_idx (length rows) idx) rows))) as [h|t]; reflexivity.
Qed.
