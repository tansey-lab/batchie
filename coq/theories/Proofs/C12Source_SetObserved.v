(* C12 / C03, one piece of the links of Proofs/C12Source.v (which see): Screen.set_observed *)
From Coq Require Import ZArith List.
From Batchie Require Import Lib.Sexp Model.Screen Model.Reveal Generated.SrcReveal Proofs.C12Source_Base.
Import ListNotations.
Open Scope Z_scope.

(* the model's set_observed is the translated method run on the screen's two arrays, put back into the screen *)
Theorem set_observed_is_src : forall (s : screen) (sel : list bool) (vals : list Z),
  set_observed s sel vals
  = dor p <- src_set_observed (col_obs s) (col_mask s) sel vals; Ok (set_cols s (fst p) (snd p)).
Proof.
  intros s sel vals. unfold set_observed, src_set_observed, np_mask_assign, np_mask_fill, col_obs, col_mask.
  cbn [negb]. rewrite !map_length.
  destruct (Nat.eqb (length sel) (length (s_rows s))) eqn:El; cbn [negb res_bind]; [|reflexivity].
  apply Nat.eqb_eq in El. cbv zeta.
  destruct (Nat.eqb (length vals) (count_true sel)) eqn:Ek.
  - apply Nat.eqb_eq in Ek. cbn [res_bind fst snd]. unfold set_cols. now rewrite put_cols_assign.
  - destruct vals as [|x [|y vals]]; cbn [res_bind]; try reflexivity.
    cbn [fst snd]. unfold set_cols. rewrite put_cols_assign; [reflexivity|exact El|apply repeat_length].
Qed.
