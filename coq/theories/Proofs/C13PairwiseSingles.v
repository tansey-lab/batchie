(* C13: Pairwise generator - where the single-agent experiments go: each one is put on a generated
   plate that holds a combination experiment of its own sample (never on a plate of its own, never
   on a plate of another sample); every output plate is a generated_plate_k holding a combination row. *)
From Coq Require Import List.
From Batchie Require Import Lib.Sexp Model.Encode Model.Screen Model.Retro Model.Pairwise Proofs.C13Wrap Proofs.C13Pairwise.
Import ListNotations.
Open Scope nat_scope.

Definition joins_combo (ctrl : name) (nu : list row) (r : row) : Prop :=
  exists c k, In c nu /\ is_combo ctrl c = true /\ r_plate c = r_plate r /\ r_sample c = r_sample r /\
              r_plate r = gen_name k.

Theorem pairwise_joins_combo : forall ctrl subset anchor u ds nu ds',
  pairwise ctrl subset anchor u ds = Ok (nu, ds') -> forall r, In r nu -> joins_combo ctrl nu r.
Proof.
  intros ctrl subset anchor u ds nu ds' H r Hr. apply pairwise_ok in H as (co & so & -> & _ & Hco & Hso).
  assert (Hc : exists c, In c co /\ r_plate c = r_plate r /\ r_sample c = r_sample r).
  { apply in_app_or in Hr as [Hr|Hr]; [exists r; auto|exact (Hso r Hr)]. }
  destruct Hc as (c & Hc & Hp & Hs). destruct (Hco c Hc) as [Hcombo [k Hk]].
  exists c, k. split; [apply in_or_app; now left|]. repeat split; congruence.
Qed.

Theorem pairwise_joins_combo_w : forall ctrl subset anchor rows ds out ds',
  generate_plates (GPairwise ctrl subset anchor) rows ds = Ok (out, ds') ->
  forall r, In r (unobserved out) -> joins_combo ctrl (unobserved out) r.
Proof.
  intros ctrl subset anchor rows ds out ds' H. apply generate_wrap_unobs in H as [[_ E]|H].
  - rewrite E. intros r [].
  - cbn [generate_inner] in H. eapply pairwise_joins_combo; exact H.
Qed.
