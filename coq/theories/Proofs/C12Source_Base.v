(* C12 / C03, one piece of the links of Proofs/C12Source.v (which see): auxiliary facts that mention no translated function *)
From Coq Require Import List Lia Arith.
From Batchie Require Import Lib.ListX Model.Screen Model.Reveal Proofs.C12Reveal.
Import ListNotations.
Open Scope Z_scope.

Lemma select_map {A B} (f : A -> B) sel : forall l, select sel (map f l) = map f (select sel l).
Proof.
  induction sel as [|b sel IH]; intros [|a l]; cbn [select map]; try reflexivity.
  destruct b; cbn [map]; now rewrite IH.
Qed.

(* the rows of a screen with the mask column replaced *)
Definition remask (rows : list row) (mk : list bool) : list row :=
  map (fun rb => with_mask (snd rb) (fst rb)) (combine rows mk).

Lemma zip_rows_cols rows : forall mk,
  zip_rows (map (fun r => map fst (r_treats r)) rows) (map (fun r => map snd (r_treats r)) rows)
           (map r_sample rows) (map r_plate rows) (map r_obs rows) mk
  = remask rows mk.
Proof.
  unfold remask. induction rows as [|r rows IH]; intros [|b mk]; cbn [map zip_rows combine fst snd]; try reflexivity.
  rewrite IH, combine_fst_snd. reflexivity.
Qed.

Lemma remask_const b rows : remask rows (repeat b (length rows)) = map (with_mask b) rows.
Proof.
  unfold remask. induction rows as [|r rows IH]; cbn [length repeat combine map fst snd]; [reflexivity | now rewrite IH].
Qed.

Lemma remask_or rows : forall sel,
  remask rows (np_or (map r_mask rows) sel)
  = map (fun rb => with_mask (r_mask (fst rb) || snd rb) (fst rb)) (combine rows sel).
Proof.
  unfold remask, np_or. induction rows as [|r rows IH]; intros [|b sel]; cbn [map combine fst snd]; try reflexivity.
  now rewrite IH.
Qed.

(* the call Screen(<the five data columns of s>, observation_mask = mk, control name, both mappings of s) *)
Lemma py_screen_of_screen s mk :
  py_screen (col_tnames s) (col_tdoses s) (col_samples s) (col_plates s) (Some (col_obs s)) (Some mk)
            (Some (s_ctrl s)) (Some (attr_tmap s)) (Some (attr_smap s))
  = rebuild true s (remask (s_rows s) mk).
Proof.
  unfold py_screen, rebuild, col_tnames, col_tdoses, col_samples, col_plates, col_obs, attr_tmap, attr_smap, tmap_arg, smap_arg.
  cbn [fst snd]. now rewrite zip_rows_cols.
Qed.

Lemma with_cols_self r : with_cols (r_obs r) (r_mask r) r = r.
Proof. destruct r; reflexivity. Qed.

(* writing the values into the observation column and True into the mask column at the selected positions
   = the model's row-wise [assign] *)
Lemma put_cols_assign : forall sel vs rows,
  length sel = length rows -> length vs = count_true sel ->
  put_cols rows (mask_put sel vs (map r_obs rows)) (mask_put sel (repeat true (count_true sel)) (map r_mask rows))
  = assign sel vs rows.
Proof.
  induction sel as [|b sel IH]; intros vs [|r rows] Hl Hv; cbn [length] in Hl; try discriminate; [reflexivity|].
  rewrite count_true_cons in *. cbn [map mask_put assign]. destruct b.
  - destruct vs as [|v vs]; cbn [length] in Hv; [discriminate|]. cbn [repeat put_cols]. rewrite IH by lia. reflexivity.
  - cbn [put_cols]. rewrite IH by lia. now rewrite with_cols_self.
Qed.

Lemma source_arrays_aligned s ids :
  plates_encoded s ->
  length (np_isin (s_pids s) ids) = length (s_rows s) /\ length (col_obs s) = length (s_rows s) /\
  length (col_mask s) = length (s_rows s) /\ length (np_or (col_mask s) (np_isin (s_pids s) ids)) = length (s_rows s).
Proof.
  intros H. apply plates_encoded_length in H. unfold np_isin, col_obs, col_mask, np_or.
  rewrite !map_length, combine_length, !map_length, H. repeat split; try reflexivity. apply Nat.min_id.
Qed.
