(* C13: facts the other C13 files share (the plates of a sample, ranks of names, one sample per plate), then
   NPlatePerCellLine, repaired logic: no sample is left with fewer unobserved plates than configured.
   (The code as found is refuted in Props/C13.v.) *)
From Coq Require Import ZArith List Bool Lia Permutation.
From Batchie Require Import Lib.ListX Lib.Sexp Model.Encode Model.Screen Model.Retro Proofs.C11Lib.
Import ListNotations.
Open Scope nat_scope.

(* the distinct plates holding an experiment of sample s *)
Definition sample_plates (s : name) (rows : list row) : list name :=
  sort_uniq name_cmp (map r_plate (filter (in_sample s) rows)).

Lemma In_sample_plates : forall s rows p,
  In p (sample_plates s rows) <-> exists r, In r rows /\ r_sample r = s /\ r_plate r = p.
Proof.
  intros s rows p. unfold sample_plates. rewrite (sort_uniq_In _ name_cmp_spec), in_map_iff. split.
  - intros (r & Hp & Hr). apply filter_In in Hr as [Hr Hs]. apply in_sample_true in Hs. eauto.
  - intros (r & Hr & Hs & Hp). exists r. split; [exact Hp|]. apply filter_In. split; [exact Hr|].
    now apply in_sample_true.
Qed.

Lemma sample_names_nil : forall rows, sample_names rows = [] -> rows = [].
Proof.
  intros [|r rows] H; [reflexivity|]. exfalso.
  assert (Hin : In (r_sample r) (sample_names (r :: rows))) by (apply In_sample_names; exists r; split; [now left|reflexivity]).
  rewrite H in Hin. contradiction.
Qed.
Lemma plate_names_of_nil : forall rows, plate_names_of rows = [] -> rows = [].
Proof.
  intros [|r rows] H; [reflexivity|]. exfalso.
  assert (Hin : In (r_plate r) (plate_names_of (r :: rows))) by (apply In_plate_names_of; exists r; split; [now left|reflexivity]).
  rewrite H in Hin. contradiction.
Qed.

Lemma nth_error_index_of : forall x l, In x l -> nth_error l (index_of x l) = Some x.
Proof.
  intros x. induction l as [|y l IH]; intros H; [contradiction|]. cbn [index_of].
  destruct (name_eqb x y) eqn:E; [apply name_eqb_eq in E; now subst|].
  destruct H as [->|H]; [rewrite name_eqb_refl in E; discriminate|]. cbn [nth_error]. now apply IH.
Qed.
Lemma index_of_inj : forall x y l, In x l -> In y l -> index_of x l = index_of y l -> x = y.
Proof.
  intros x y l Hx Hy E. apply nth_error_index_of in Hx. apply nth_error_index_of in Hy. rewrite E in Hx. congruence.
Qed.

Fixpoint get (s : name) (counts : list (name * nat)) : nat :=
  match counts with
  | [] => 0
  | (k, c) :: r => if name_eqb k s then c else get s r
  end.

Lemma get_count_add : forall s k counts,
  (forall k' c, In (k', c) counts -> 0 < c) ->
  get s (count_add k counts) = (if name_eqb k s then 1 else 0) + get s counts
  /\ (forall k' c, In (k', c) (count_add k counts) -> 0 < c).
Proof.
  intros s k counts. induction counts as [|[k0 c0] counts IH]; intros Hpos; cbn [count_add get].
  - split; [destruct (name_eqb k s); reflexivity|]. intros k' c [E|[]]. inversion E. lia.
  - destruct (name_eqb k0 k) eqn:E0.
    + apply name_eqb_eq in E0. subst k0. cbn [get]. split.
      * destruct (name_eqb k s); lia.
      * intros k' c [E|Hin]; [inversion E; lia|]. eapply Hpos. right. exact Hin.
    + cbn [get]. destruct IH as [IH1 IH2]; [intros k' c Hin; eapply Hpos; right; exact Hin|]. split.
      * destruct (name_eqb k0 s) eqn:E1.
        -- apply name_eqb_eq in E1. subst k0. rewrite name_eqb_sym in E0. rewrite E0. reflexivity.
        -- exact IH1.
      * intros k' c [E|Hin]; [inversion E; subst; eapply Hpos; left; reflexivity|eapply IH2; exact Hin].
Qed.

Definition occ (s : name) (l : list name) : nat := length (filter (fun k => name_eqb k s) l).

Lemma get_fold : forall s sps acc,
  (forall k' c, In (k', c) acc -> 0 < c) ->
  get s (fold_left (fun a k => count_add k a) sps acc) = occ s sps + get s acc
  /\ (forall k' c, In (k', c) (fold_left (fun a k => count_add k a) sps acc) -> 0 < c).
Proof.
  intros s sps. induction sps as [|k sps IH]; intros acc Hpos; cbn [fold_left].
  - split; [reflexivity|exact Hpos].
  - destruct (get_count_add s k acc Hpos) as [H1 H2]. destruct (IH _ H2) as [H3 H4]. split; [|exact H4].
    rewrite H3, H1. unfold occ. cbn [filter]. destruct (name_eqb k s); cbn [length]; lia.
Qed.

Lemma In_get : forall s counts, 0 < get s counts -> In (s, get s counts) counts.
Proof.
  intros s counts. induction counts as [|[k c] counts IH]; cbn [get]; [lia|].
  destruct (name_eqb k s) eqn:E.
  - apply name_eqb_eq in E. subst. intros _. now left.
  - intros H. right. now apply IH.
Qed.

Lemma plate_sample_ok : forall p rows s, plate_sample p rows = Ok s -> plate_samples p rows = [s].
Proof.
  intros p rows s H. unfold plate_sample in H. destruct (plate_samples p rows) as [|a [|b l]]; congruence.
Qed.

Lemma In_plate_samples : forall p rows s,
  In s (plate_samples p rows) <-> exists r, In r rows /\ r_plate r = p /\ r_sample r = s.
Proof.
  intros p rows s. unfold plate_samples. rewrite (sort_uniq_In _ name_cmp_spec), in_map_iff. split.
  - intros (r & Hs & Hr). apply filter_In in Hr as [Hr Hp]. apply in_plate_true in Hp. eauto.
  - intros (r & Hr & Hp & Hs). exists r. split; [exact Hs|]. apply filter_In. split; [exact Hr|].
    now apply in_plate_true.
Qed.

(* when every plate holds one sample ([sps] are the plates' samples), a row's sample is its plate's *)
Definition one_sample_plates (rows : list row) (sps : list name) : Prop :=
  Forall2 (fun p s => plate_sample p rows = Ok s) (plate_names_of rows) sps.

Lemma one_sample_row : forall rows sps, one_sample_plates rows sps ->
  forall r, In r rows -> plate_sample (r_plate r) rows = Ok (r_sample r).
Proof.
  intros rows sps H r Hr.
  assert (Hp : In (r_plate r) (plate_names_of rows)) by (apply In_plate_names_of; eauto).
  unfold one_sample_plates in H. revert Hp. induction H as [|p s ps ss Hps _ IH]; [intros []|].
  intros [->|Hp]; [|now apply IH].
  pose proof (plate_sample_ok _ _ _ Hps) as Hl.
  assert (Hin : In (r_sample r) (plate_samples (r_plate r) rows)) by (apply In_plate_samples; eauto).
  rewrite Hl in Hin. destruct Hin as [<-|[]]. exact Hps.
Qed.

(* the plates, among ps, whose sample is s *)
Definition plates_with (s : name) (rows : list row) (ps : list name) : list name :=
  filter (fun p => match plate_sample p rows with Ok s' => name_eqb s' s | Err _ => false end) ps.

Lemma plates_with_combine : forall rows s ps sps,
  Forall2 (fun p s' => plate_sample p rows = Ok s') ps sps ->
  map fst (filter (fun x => name_eqb (snd x) s) (combine ps sps)) = plates_with s rows ps.
Proof.
  intros rows s ps sps H. induction H as [|p s' ps sps Hp _ IH]; [reflexivity|].
  cbn [combine filter snd plates_with]. rewrite Hp. fold (plates_with s rows ps).
  destruct (name_eqb s' s); cbn [map fst]; now rewrite IH.
Qed.

Lemma plates_with_length : forall rows s ps sps,
  Forall2 (fun p s' => plate_sample p rows = Ok s') ps sps -> length (plates_with s rows ps) = occ s sps.
Proof.
  intros rows s ps sps H. induction H as [|p s' ps sps Hp _ IH]; [reflexivity|].
  unfold occ in *. cbn [filter plates_with]. rewrite Hp. fold (plates_with s rows ps).
  destruct (name_eqb s' s); cbn [length]; congruence.
Qed.

Lemma In_plates_with : forall rows sps s p, one_sample_plates rows sps ->
  In p (plates_with s rows (plate_names_of rows)) <-> In p (sample_plates s rows).
Proof.
  intros rows sps s p H. unfold plates_with. rewrite filter_In, In_sample_plates. split.
  - intros [Hp Hs]. destruct (plate_sample p rows) as [s'|t] eqn:E; [|discriminate].
    apply name_eqb_eq in Hs. subst s'. apply plate_sample_ok in E.
    assert (Hin : In s (plate_samples p rows)) by (rewrite E; now left).
    apply In_plate_samples in Hin as (r & Hr & Hpl & Hsa). eauto.
  - intros (r & Hr & Hs & Hp). split; [apply In_plate_names_of; eauto|].
    rewrite <- Hp, (one_sample_row rows sps H r Hr), Hs. apply name_eqb_refl.
Qed.

Lemma plate_count_of_sample : forall rows sps s, one_sample_plates rows sps ->
  occ s sps = length (sample_plates s rows).
Proof.
  intros rows sps s H. rewrite <- (plates_with_length rows s _ _ H).
  apply Permutation_length, NoDup_Permutation; [apply NoDup_filter, NoDup_sort_uniq|apply NoDup_sort_uniq|].
  intros p. now apply (In_plates_with rows sps).
Qed.

Theorem nplate_minimum : forall m rows out,
  nplate true m rows = Ok out ->
  forall s, In s (sample_names out) -> (m <= Z.of_nat (length (sample_plates s out)))%Z.
Proof.
  intros m rows out H s Hs. unfold nplate, plate_counts in H.
  destruct (res_map_all _ (plate_names_of rows)) as [sps|t] eqn:Er; cbn [res_bind] in H; [|discriminate].
  apply res_map_all_Forall2 in Er. fold (one_sample_plates rows sps) in Er.
  inversion H; subst out. clear H.
  set (counts := fold_left (fun acc s0 => count_add s0 acc) sps []) in *.
  set (drop := map fst (filter (fun kc => (Z.of_nat (snd kc) <? m)%Z) counts)) in *.
  apply In_sample_names in Hs as (r & Hr & Hsr). apply filter_In in Hr as [Hr Hnd].
  apply negb_true_iff in Hnd. rewrite Hsr in Hnd.
  (* the rows of sample s are all kept, so its plates are those of the input *)
  assert (Hsame : sample_plates s (filter (fun r0 => negb (name_mem (r_sample r0) drop)) rows) = sample_plates s rows).
  { unfold sample_plates. rewrite filter_filter. f_equal. f_equal. apply filter_ext_in. intros r0 _.
    destruct (in_sample s r0) eqn:E; [|now rewrite andb_false_r].
    apply in_sample_true in E. now rewrite E, Hnd. }
  rewrite Hsame, <- (plate_count_of_sample rows sps s Er).
  destruct (get_fold s sps [] ltac:(intros k' c [])) as [Hg _]. cbn [get] in Hg. rewrite Nat.add_0_r in Hg.
  fold counts in Hg.
  assert (Hpos : 0 < occ s sps).
  { rewrite (plate_count_of_sample rows sps s Er).
    assert (Hin : In (r_plate r) (sample_plates s rows)) by (apply In_sample_plates; eauto).
    destruct (sample_plates s rows); [contradiction|cbn; lia]. }
  destruct (Z.of_nat (occ s sps) <? m)%Z eqn:El; [|apply Z.ltb_ge in El; lia].
  exfalso. assert (Hd : In s drop).
  { unfold drop. apply in_map_iff. exists (s, get s counts). split; [reflexivity|].
    apply filter_In. split; [apply In_get; lia|]. cbn [snd]. now rewrite Hg. }
  apply name_mem_In in Hd. congruence.
Qed.
