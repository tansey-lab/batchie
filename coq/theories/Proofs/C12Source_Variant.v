(* C12 / C03, one piece of the links of Proofs/C12Source.v (which see): which variant of the model the source is (C03) *)
From Coq Require Import ZArith List.
From Batchie Require Import Lib.Sexp Generated.SrcArithC03 Model.Screen Model.Reveal Model.Holdout Generated.SrcReveal Proofs.C03Frozen Proofs.C03Witness Proofs.C12Source_Reveal.
Import ListNotations.
Open Scope Z_scope.

(* one operation / a history of the lifecycle as the TRANSLATED source functions perform it
   (save+load is the constructor call of Screen.load_h5, C02's subject, as in the model) *)
Definition src_step (s : screen) (o : op) : result screen :=
  match o with
  | Reveal ids => src_reveal_plates s ids
  | Mask => src_mask_screen s
  | Unmask => src_unmask_screen s
  | SaveLoad => save_load s
  end.
Definition src_history (ops : list op) (s0 : screen) : result screen :=
  fold_left (fun acc o => dor s <- acc; src_step s o) ops (Ok s0).

Theorem src_step_is_model : forall s o, src_step s o = step (carry_mappings true) s o.
Proof.
  intros s [ids| | |]; cbn [src_step step];
    [apply src_reveal_plates_is_model | apply src_mask_screen_is_model | apply src_unmask_screen_is_model | reflexivity].
Qed.

Theorem src_history_is_model : forall ops s0, src_history ops s0 = history (carry_mappings true) ops s0.
Proof.
  intros ops s0. unfold src_history, history. generalize (Ok s0 : result screen).
  induction ops as [|o ops IH]; intros acc; cbn [fold_left]; [reflexivity|].
  rewrite IH. f_equal. destruct acc as [s|t]; cbn [res_bind]; [apply src_step_is_model | reflexivity].
Qed.

(* an operation depends on the variant only through the one flag of its own call site *)
Lemma step_carries v s o : step v s o = step (carry_mappings (carries v o)) s o.
Proof. now destruct o. Qed.

(* the two variants of each operation differ on the training half of the C03 witness: the sample ids it gives *)
Definition sids_of (r : result screen) : option (list Z) := match r with Ok s => Some (s_sids s) | Err _ => None end.

(* the translation determines the variant: [carry_mappings true] is the ONLY variant whose model equals the translated
   source on all inputs - and it is the variant the call-site constants of Generated/SrcArithC03.v name *)
Theorem source_variant_unique : forall v,
  (forall s o, src_step s o = step v s o) <->
  v = {| carry_reveal := SRC_reveal_plates_carries_mappings; carry_mask := SRC_mask_screen_carries_mappings;
         carry_unmask := SRC_unmask_screen_carries_mappings |}.
Proof.
  intros v. change (Build_variant _ _ _) with (carry_mappings true). split.
  - intros H.
    (* an operation on which the two variants give the witness different sample ids must carry the mappings in v *)
    assert (W : forall o, sids_of (step (carry_mappings false) w_train o) <> sids_of (step (carry_mappings true) w_train o) ->
                          carries v o = true).
    { intros o Hd. destruct (carries v o) eqn:E; [reflexivity|]. destruct Hd.
      rewrite <- (src_step_is_model w_train o), (H w_train o), (step_carries v), E. reflexivity. }
    destruct v as [a b c]. unfold carry_mappings. f_equal.
    + apply (W (Reveal [0])). vm_compute. discriminate.
    + apply (W Mask). vm_compute. discriminate.
    + apply (W Unmask). vm_compute. discriminate.
  - intros -> s o. apply src_step_is_model.
Qed.

(* the lifecycle of the translated source: split (model of the hold-out code, its selection an oracle input), then the
   translated reveal / mask / unmask functions.  Its derived screens keep the parent's mappings and ids. *)
Definition src_lifecycle (p : screen) (sel : list bool) (test : bool) (ops : list op) : result screen :=
  dor pr <- holdout_split p sel; src_history ops (half test pr).

Theorem src_lifecycle_is_model : forall p sel test ops,
  src_lifecycle p sel test ops = lifecycle (carry_mappings true) p sel test ops.
Proof.
  intros p sel test ops. unfold src_lifecycle, lifecycle.
  destruct (holdout_split p sel) as [pr|t]; cbn [res_bind]; [apply src_history_is_model | reflexivity].
Qed.

Theorem ids_frozen_of_source : forall p sel test ops s,
  src_lifecycle p sel test ops = Ok s -> frozen_to p s.
Proof. intros p sel test ops s H. rewrite src_lifecycle_is_model in H. exact (ids_frozen p sel test ops s H). Qed.
