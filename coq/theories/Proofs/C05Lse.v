(* C05: the log-sum-exp reduction.  It is -inf exactly when every summand is,
   and it does not depend on the order of the summands (for every ln / exp). *)
From Coq Require Import List Qcanon Permutation.
From Batchie Require Import Lib.ListX Lib.Num Lib.NumP Model.Dbal Proofs.C05Pad.
Import ListNotations.

Lemma ext_max_cons a l :
  ext_max (a :: l) = match a, ext_max l with
                     | None, m => m
                     | Some x, None => Some x
                     | Some x, Some y => Some (qmax x y)
                     end.
Proof. reflexivity. Qed.

Lemma ext_max_spec l :
  match ext_max l with
  | None => Forall (fun a => a = None) l
  | Some m => In (Some m) l /\ forall x, In (Some x) l -> (x <= m)%Qc
  end.
Proof.
  induction l as [|a l IH]; [constructor|].
  rewrite ext_max_cons. destruct a as [x|], (ext_max l) as [y|].
  - destruct IH as [Hin Hmax]. unfold qmax, qltb. destruct (Qclt_le_dec x y) as [Hlt|Hle].
    + split; [now right|]. intros z [Hz|Hz]; [inversion Hz; subst; now apply Qclt_le_weak|now apply Hmax].
    + split; [now left|]. intros z [Hz|Hz]; [inversion Hz; subst; apply Qcle_refl|].
      eapply Qcle_trans; [now apply Hmax|exact Hle].
  - split; [now left|]. intros z [Hz|Hz]; [inversion Hz; subst; apply Qcle_refl|].
    rewrite Forall_forall in IH. specialize (IH _ Hz). discriminate.
  - destruct IH as [Hin Hmax]. split; [now right|]. intros z [Hz|Hz]; [discriminate|now apply Hmax].
  - now constructor.
Qed.

Lemma ext_max_perm l l' : Permutation l l' -> ext_max l = ext_max l'.
Proof.
  intros HP. pose proof (ext_max_spec l) as H1. pose proof (ext_max_spec l') as H2.
  destruct (ext_max l) as [m|], (ext_max l') as [m'|].
  - destruct H1 as [Hin1 Hmax1], H2 as [Hin2 Hmax2]. f_equal. apply Qcle_antisym.
    + apply Hmax2. eapply Permutation_in; eassumption.
    + apply Hmax1. eapply Permutation_in; [apply Permutation_sym|]; eassumption.
  - destruct H1 as [Hin1 _]. rewrite Forall_forall in H2.
    specialize (H2 _ (Permutation_in _ HP Hin1)). discriminate.
  - destruct H2 as [Hin2 _]. rewrite Forall_forall in H1.
    specialize (H1 _ (Permutation_in _ (Permutation_sym HP) Hin2)). discriminate.
  - reflexivity.
Qed.

Theorem logsumexp_perm orc l l' : Permutation l l' -> logsumexp orc l = logsumexp orc l'.
Proof.
  intros HP. unfold logsumexp. rewrite (ext_max_perm _ _ HP).
  destruct (ext_max l') as [amax|]; [|reflexivity].
  rewrite (qsum_perm _ _ (Permutation_map (lse_shifted orc amax) HP)).
  unfold qlen. now rewrite (filter_length_perm (lse_ismax amax) _ _ HP).
Qed.

Theorem logsumexp_none_iff orc l : logsumexp orc l = None <-> Forall (fun a => a = None) l.
Proof.
  unfold logsumexp. pose proof (ext_max_spec l) as H. destruct (ext_max l) as [m|].
  - split; [discriminate|]. intros HF. destruct H as [Hin _].
    rewrite Forall_forall in HF. specialize (HF _ Hin). discriminate.
  - tauto.
Qed.
