(* One piece of Proofs/C18SourceParser.v (which see): the option table of analyze_model_evaluation.get_parser(), read from /repo on every run
   (Generated/SrcParser_analyze_model_evaluation.v), provides what the argument record of that command assumes. *)
From Coq Require Import List.
From Batchie Require Import Model.Cli Proofs.C18Parser Generated.SrcParser_analyze_model_evaluation.

Theorem parser_analyze_model_evaluation_fields : forall f, In f (am_fields ++ logging_fields) -> declares src_parser_analyze_model_evaluation f.
Proof. apply declares_all. vm_compute. reflexivity. Qed.

Theorem parser_analyze_model_evaluation_dests_derived : dests_derived src_parser_analyze_model_evaluation.
Proof. apply dests_derived_sound. vm_compute. reflexivity. Qed.

Theorem parser_analyze_model_evaluation_dests_distinct : dests_distinct src_parser_analyze_model_evaluation.
Proof. apply dests_distinct_sound. vm_compute. reflexivity. Qed.
