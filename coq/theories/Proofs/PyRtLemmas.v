(* Lemmas about the translator's run-time library Lib/PyRt.v, shared by the linking proofs. *)
From Coq Require Import ZArith List Bool Lia.
From Batchie Require Import Lib.Sexp Lib.PyRt.
Import ListNotations.
Open Scope Z_scope.

(* a loop whose body never raises is a fold_left *)
Lemma res_fold_pure {S A : Type} (f : S -> A -> result S) (g : S -> A -> S) :
  (forall s a, f s a = Ok (g s a)) -> forall l s, res_fold f l s = Ok (fold_left g l s).
Proof.
  intros H l; induction l as [|a l IH]; intros s; cbn [res_fold fold_left]; [reflexivity|].
  rewrite H. cbn [res_bind]. apply IH.
Qed.

(* a loop with no state that raises [t] on the first element failing [p] *)
Lemma res_fold_check {A : Type} (p : A -> bool) (t : Z) (f : unit -> A -> result unit) :
  (forall u a, f u a = if p a then Ok tt else Err t) ->
  forall l u, res_fold f l u = if forallb p l then Ok tt else Err t.
Proof.
  intros H l; induction l as [|a l IH]; intros u; cbn [res_fold forallb]; [destruct u; reflexivity|].
  rewrite H. destruct (p a); cbn [res_bind andb]; [apply IH | reflexivity].
Qed.

(* a loop over distinct items, each appending a block of entries that belong ([P]) to that item alone, when the body does so
   as long as no entry of the item is there yet: the blocks in order *)
Lemma res_fold_blocks {E A} (P : A -> E -> Prop) (block : A -> list E) (F : list E -> A -> result (list E)) :
  (forall a b e, P a e -> P b e -> a = b) ->
  (forall a, Forall (P a) (block a)) ->
  (forall res a, Forall (fun e => ~ P a e) res -> F res a = Ok (res ++ block a)) ->
  forall l res, NoDup l -> Forall (fun e => forall a, In a l -> ~ P a e) res ->
  res_fold F l res = Ok (res ++ flat_map block l).
Proof.
  intros Hdisj Hblock HF l. induction l as [|a l IH]; intros res Hnd Hres; cbn [res_fold flat_map]; [now rewrite app_nil_r|].
  inversion Hnd as [|? ? Ha Hl]; subst. rewrite HF.
  - cbn [res_bind]. rewrite IH, <- app_assoc; [reflexivity | exact Hl |].
    apply Forall_app. split.
    + eapply Forall_impl; [|exact Hres]. intros e He b Hb. apply He. now right.
    + eapply Forall_impl; [|apply Hblock]. intros e He b Hb Pb. apply Ha. now rewrite (Hdisj a b e He Pb).
  - eapply Forall_impl; [|exact Hres]. intros e He. apply He. now left.
Qed.

(* a loop that appends the elements satisfying [p] *)
Lemma fold_append_filter {A : Type} (p : A -> bool) :
  forall l acc, fold_left (fun r a => if p a then r ++ [a] else r) l acc = acc ++ filter p l.
Proof.
  induction l as [|a l IH]; intros acc; cbn [fold_left filter]; [now rewrite app_nil_r|].
  rewrite IH. destruct (p a); [rewrite <- app_assoc; reflexivity | reflexivity].
Qed.

(* a loop that appends every element *)
Lemma fold_snoc {A : Type} : forall (l acc : list A), fold_left (fun r a => r ++ [a]) l acc = acc ++ l.
Proof.
  induction l as [|a l IH]; intros acc; cbn [fold_left]; [now rewrite app_nil_r|].
  rewrite IH, <- app_assoc. reflexivity.
Qed.

Lemma zrange_of_nat n : zrange (Z.of_nat n) = map Z.of_nat (seq 0 n).
Proof. unfold zrange. now rewrite Nat2Z.id. Qed.

Lemma zmem_app x l1 l2 : zmem x (l1 ++ l2) = zmem x l1 || zmem x l2.
Proof. unfold zmem. apply existsb_app. Qed.

Lemma zmem_set_add x s y : zmem x (set_add s y) = zmem x s || (x =? y).
Proof.
  unfold set_add. destruct (zmem y s) eqn:E.
  - destruct (Z.eqb_spec x y) as [->|]; [rewrite E; reflexivity | now rewrite orb_false_r].
  - rewrite zmem_app. cbn. now rewrite orb_false_r.
Qed.

(* a comprehension whose condition never raises is a filter *)
Lemma res_filter_pure {A : Type} (p : A -> result bool) (q : A -> bool) :
  (forall a, p a = Ok (q a)) -> forall l, res_filter p l = Ok (filter q l).
Proof.
  intros H l; induction l as [|a l IH]; cbn [res_filter filter]; [reflexivity|].
  rewrite H, IH. cbn [res_bind]. destruct (q a); reflexivity.
Qed.

Lemma dict_set_fresh {V : Type} (d : list (Z * V)) k v :
  ~ In k (map fst d) -> dict_set d k v = d ++ [(k, v)].
Proof.
  induction d as [|[k' v'] d IH]; intros H; cbn [dict_set app]; [reflexivity|].
  cbn [map fst In] in H. destruct (Z.eqb_spec k' k) as [->|_]; [exfalso; apply H; now left|].
  rewrite IH by (intros X; apply H; now right). reflexivity.
Qed.

(* a dict built key by key from distinct keys lists them in order *)
Lemma fold_dict_set_distinct {A V : Type} (key : A -> Z) (val : A -> V) :
  forall l d, NoDup (map fst d ++ map key l) ->
  fold_left (fun d x => dict_set d (key x) (val x)) l d = d ++ map (fun x => (key x, val x)) l.
Proof.
  induction l as [|a l IH]; intros d H; cbn [fold_left map]; [now rewrite app_nil_r|].
  cbn [map] in H. rewrite dict_set_fresh.
  - rewrite IH.
    + rewrite <- app_assoc. reflexivity.
    + rewrite map_app. cbn [map fst]. rewrite <- app_assoc. exact H.
  - apply NoDup_remove_2 in H. intros X. apply H. apply in_or_app. now left.
Qed.

Lemma res_bind_ret {A : Type} (e : result A) : (dor x <- e; Ok x) = e.
Proof. destruct e; reflexivity. Qed.

Lemma res_bind_inv {A B : Type} (e : result A) (k : A -> result B) y :
  res_bind e k = Ok y -> exists x, e = Ok x /\ k x = Ok y.
Proof. destruct e as [x|t]; [eauto|discriminate]. Qed.

(* a comprehension whose element is one call that may raise *)
Lemma res_map_all_ret {A B : Type} (f : A -> result B) (l : list A) :
  res_map_all (fun x => dor r <- f x; Ok r) l = res_map_all f l.
Proof.
  induction l as [|a l IH]; cbn [res_map_all]; [reflexivity|].
  rewrite res_bind_ret, IH. reflexivity.
Qed.

(* one step of a linking proof: case analysis on what both sides evaluate next - the optional value a branch
   tests, or the library call *)
Ltac cli_case e :=
  lazymatch e with
  | res_bind ?e' _ => cli_case e'
  | Ok _ => cbn [res_bind]
  | Err _ => cbn [res_bind]
  | (if is_some ?o then _ else _) => destruct o; cbn [is_some is_none unwrap res_bind]
  | (if is_none ?o then _ else _) => destruct o; cbn [is_some is_none unwrap res_bind]
  | (match ?o with Some _ => _ | None => _ end) => destruct o; cbn [is_some is_none unwrap res_bind]
  | _ => destruct e; cbn [res_bind]; try reflexivity
  end.
Ltac cli_step := match goal with |- context [res_bind ?e _] => cli_case e end.

(* l[i] and l[i] = v for an index that is not negative: reads and writes of a list used as an array *)
Definition upd {A} (l : list A) (c : nat) (x : A) : list A := firstn c l ++ x :: skipn (S c) l.

Lemma upd_length {A} (l : list A) c x : (c < length l)%nat -> length (upd l c x) = length l.
Proof.
  intros H. unfold upd. rewrite app_length. cbn [length]. rewrite firstn_length, skipn_length. lia.
Qed.

Lemma nth_upd {A} (l : list A) x d : forall c k, (c < length l)%nat ->
  nth k (upd l c x) d = if (k =? c)%nat then x else nth k l d.
Proof.
  induction l as [|a l IH]; intros c k H; cbn [length] in H; [lia|].
  destruct c as [|c], k as [|k]; try reflexivity. exact (IH c k ltac:(lia)).
Qed.

Lemma nth_upd_same {A} (l : list A) c x d : (c < length l)%nat -> nth c (upd l c x) d = x.
Proof. intros H. now rewrite nth_upd, Nat.eqb_refl. Qed.

Lemma nth_upd_other {A} (l : list A) c x d k : (c < length l)%nat -> k <> c -> nth k (upd l c x) d = nth k l d.
Proof. intros H Hk. rewrite nth_upd by exact H. now apply Nat.eqb_neq in Hk as ->. Qed.

Lemma list_get_nonneg {A} (l : list A) (z : Z) :
  0 <= z -> list_get l z = match nth_error l (Z.to_nat z) with Some a => Ok a | None => Err 98 end.
Proof.
  intros H. unfold list_get. destruct (Z.ltb_spec z 0); [lia|]. destruct (Z.ltb_spec z 0); [lia | reflexivity].
Qed.

Lemma list_get_in {A} (l : list A) (z : Z) d :
  0 <= z < Z.of_nat (length l) -> list_get l z = Ok (nth (Z.to_nat z) l d).
Proof. intros H. rewrite list_get_nonneg by lia. now rewrite (nth_error_nth' l d) by lia. Qed.

Lemma list_get_out {A} (l : list A) (z : Z) : Z.of_nat (length l) <= z -> list_get l z = Err 98.
Proof. intros H. rewrite list_get_nonneg by lia. now rewrite (proj2 (nth_error_None l _)) by lia. Qed.

Lemma list_set_in {A} tag (l : list A) (z : Z) v :
  0 <= z < Z.of_nat (length l) -> list_set tag l z v = Ok (upd l (Z.to_nat z) v).
Proof.
  intros H. unfold list_set. destruct (Z.ltb_spec z 0); [lia|].
  destruct (Z.leb_spec 0 z); [|lia]. destruct (Z.ltb_spec z (Z.of_nat (length l))); [reflexivity | lia].
Qed.
