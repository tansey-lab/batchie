(* C05: relabelling the posterior samples.  If every 3-subset of the samples is
   enumerated (in any order), then relabelling the samples by a permutation, consistently in the
   means, the variances and a symmetric distance matrix, leaves the score unchanged. *)
From Coq Require Import List Qcanon Lia Arith Permutation.
From Batchie Require Import Lib.Num Lib.ListX Model.Dbal Proofs.C05Lse Proofs.C05Kernel.
Import ListNotations.

Definition sigma (sg : list nat) (i : nat) : nat := nth i sg 0%nat.
(* new sample i is old sample (sigma i) *)
Definition relabel_rows {A} (sg : list nat) (a : list (list A)) : list (list A) :=
  map (fun i => nth i a []) sg.
Definition relabel_plate (sg : list nat) (pl : plate) : plate :=
  (relabel_rows sg (fst pl), relabel_rows sg (snd pl)).
Definition relabel_matrix (sg : list nat) (D : list (list Qc)) : list (list Qc) :=
  map (fun i => map (fun j => get2 0%Qc D i j) sg) sg.
Definition sym_on (T : nat) (D : list (list Qc)) : Prop :=
  forall i j, (i < T)%nat -> (j < T)%nat -> get2 0%Qc D i j = get2 0%Qc D j i.
(* every triple a > b > c of samples is enumerated exactly once *)
Definition complete (T : nat) (ts : list triple) : Prop :=
  NoDup ts /\ forall a b c, In (a, b, c) ts <-> (c < b /\ b < a /\ a < T)%nat.

Definition map3 (f : nat -> nat) (t : triple) : triple := let '(a, b, c) := t in (f a, f b, f c).
Definition s12 (t : triple) : triple := let '(a, b, c) := t in if (a <? b)%nat then (b, a, c) else (a, b, c).
Definition s23 (t : triple) : triple := let '(a, b, c) := t in if (b <? c)%nat then (a, c, b) else (a, b, c).
Definition sort3 (t : triple) : triple := s12 (s23 (s12 t)).

Section Sigma.
Variables (sg : list nat) (T : nat).
Hypothesis Hsg : Permutation sg (seq 0 T).

Lemma sg_length : length sg = T.
Proof. now rewrite (Permutation_length Hsg), seq_length. Qed.

Lemma sigma_lt i : (i < T)%nat -> (sigma sg i < T)%nat.
Proof.
  intros Hi. unfold sigma.
  assert (Hin : In (nth i sg 0%nat) sg) by (apply nth_In; now rewrite sg_length).
  apply (Permutation_in _ Hsg) in Hin. apply in_seq in Hin. lia.
Qed.

Lemma sigma_inj i j : (i < T)%nat -> (j < T)%nat -> sigma sg i = sigma sg j -> i = j.
Proof.
  intros Hi Hj. unfold sigma.
  assert (Hnd : NoDup sg) by (apply (Permutation_NoDup (Permutation_sym Hsg)), seq_NoDup).
  apply (proj1 (NoDup_nth sg 0%nat) Hnd); now rewrite sg_length.
Qed.

Lemma get2_relabel_rows {A} (d : A) a i e : (i < T)%nat ->
  get2 d (relabel_rows sg a) i e = get2 d a (sigma sg i) e.
Proof.
  intros Hi. unfold get2, relabel_rows, sigma.
  now rewrite (nth_map_lt _ sg [] 0%nat i) by now rewrite sg_length.
Qed.

Lemma get2_relabel_matrix D i j : (i < T)%nat -> (j < T)%nat ->
  get2 0%Qc (relabel_matrix sg D) i j = get2 0%Qc D (sigma sg i) (sigma sg j).
Proof.
  intros Hi Hj. unfold relabel_matrix. unfold get2 at 1.
  rewrite (nth_map_lt _ sg [] 0%nat i) by now rewrite sg_length.
  rewrite (nth_map_lt _ sg 0%Qc 0%nat j) by now rewrite sg_length. reflexivity.
Qed.

Lemma n_exp_relabel pl : (0 < T)%nat -> plate_wf T pl -> n_exp (relabel_plate sg pl) = n_exp pl.
Proof.
  intros HT (E & Hm & Hv). unfold n_exp at 2. rewrite (rect_width T E _ Hm HT).
  unfold n_exp, relabel_plate, relabel_rows, shape2. cbn [fst snd].
  replace (hd [] (map (fun i => nth i (fst pl) []) sg)) with (nth 0 (map (fun i => nth i (fst pl) []) sg) [])
    by (destruct (map _ sg); reflexivity).
  rewrite (nth_map_lt _ sg [] 0%nat 0%nat) by (rewrite sg_length; exact HT).
  apply (rect_row T E _ _ Hm). apply sigma_lt. exact HT.
Qed.

Lemma direct_summand_relabel orc D df pl t :
  (0 < T)%nat -> plate_wf T pl -> triple_valid T t ->
  direct_summand orc (relabel_matrix sg D) df (relabel_plate sg pl) t
  = direct_summand orc D df pl (map3 (sigma sg) t).
Proof.
  intros HT Hwf Hv. destruct t as [[a b] c]. destruct Hv as (Ha & Hb & Hc).
  unfold direct_summand, map3.
  rewrite !get2_relabel_matrix by assumption.
  destruct (qeqb _ 0%Qc); [reflexivity|].
  fold (n_exp (relabel_plate sg pl)). fold (n_exp pl). rewrite (n_exp_relabel pl HT Hwf).
  replace (map (direct_exp_term orc (relabel_plate sg pl) (a, b, c)) (seq 0 (n_exp pl)))
    with (map (direct_exp_term orc pl (sigma sg a, sigma sg b, sigma sg c)) (seq 0 (n_exp pl))); [reflexivity|].
  apply map_ext. intros e. unfold direct_exp_term. cbn [relabel_plate fst snd].
  now rewrite !get2_relabel_rows by assumption.
Qed.
End Sigma.

(* the per-triple summand is symmetric in the three samples *)
Lemma triple_term_swap12 orc v1 v2 v3 m1 m2 m3 :
  triple_term orc v2 v1 v3 m2 m1 m3 = triple_term orc v1 v2 v3 m1 m2 m3.
Proof.
  unfold triple_term. cbv zeta.
  replace (v2 * v1 + v1 * v3 + v2 * v3)%Qc with (v1 * v2 + v2 * v3 + v1 * v3)%Qc by ring.
  f_equal. unfold qsq, Qcdiv. ring.
Qed.

Lemma triple_term_swap23 orc v1 v2 v3 m1 m2 m3 :
  triple_term orc v1 v3 v2 m1 m3 m2 = triple_term orc v1 v2 v3 m1 m2 m3.
Proof.
  unfold triple_term. cbv zeta.
  replace (v1 * v3 + v3 * v2 + v1 * v2)%Qc with (v1 * v2 + v2 * v3 + v1 * v3)%Qc by ring.
  f_equal. unfold qsq, Qcdiv. ring.
Qed.

Section Sym.
Variables (orc : oracle) (T : nat) (D : list (list Qc)) (df : Qc) (pl : plate).
Hypothesis Hsym : sym_on T D.

Lemma direct_summand_swap12 a b c : (a < T)%nat -> (b < T)%nat ->
  direct_summand orc D df pl (b, a, c) = direct_summand orc D df pl (a, b, c).
Proof.
  intros Ha Hb. unfold direct_summand.
  replace (get2 0%Qc D b a + get2 0%Qc D a c + get2 0%Qc D b c)%Qc
    with (get2 0%Qc D a b + get2 0%Qc D b c + get2 0%Qc D a c)%Qc
    by (rewrite (Hsym b a Hb Ha); ring).
  assert (Hterm : forall e, direct_exp_term orc pl (b, a, c) e = direct_exp_term orc pl (a, b, c) e)
    by (intros e; unfold direct_exp_term; apply triple_term_swap12).
  now rewrite (map_ext _ _ Hterm).
Qed.

Lemma direct_summand_swap23 a b c : (b < T)%nat -> (c < T)%nat ->
  direct_summand orc D df pl (a, c, b) = direct_summand orc D df pl (a, b, c).
Proof.
  intros Hb Hc. unfold direct_summand.
  replace (get2 0%Qc D a c + get2 0%Qc D c b + get2 0%Qc D a b)%Qc
    with (get2 0%Qc D a b + get2 0%Qc D b c + get2 0%Qc D a c)%Qc
    by (rewrite (Hsym c b Hc Hb); ring).
  assert (Hterm : forall e, direct_exp_term orc pl (a, c, b) e = direct_exp_term orc pl (a, b, c) e)
    by (intros e; unfold direct_exp_term; apply triple_term_swap23).
  now rewrite (map_ext _ _ Hterm).
Qed.

Lemma direct_summand_s12 t : triple_valid T t ->
  direct_summand orc D df pl (s12 t) = direct_summand orc D df pl t /\ triple_valid T (s12 t).
Proof.
  destruct t as [[a b] c]. intros (Ha & Hb & Hc). unfold s12. destruct (a <? b)%nat.
  - split; [now apply direct_summand_swap12|cbn; tauto].
  - split; [reflexivity|cbn; tauto].
Qed.

Lemma direct_summand_s23 t : triple_valid T t ->
  direct_summand orc D df pl (s23 t) = direct_summand orc D df pl t /\ triple_valid T (s23 t).
Proof.
  destruct t as [[a b] c]. intros (Ha & Hb & Hc). unfold s23. destruct (b <? c)%nat.
  - split; [now apply direct_summand_swap23|cbn; tauto].
  - split; [reflexivity|cbn; tauto].
Qed.

Lemma direct_summand_sort3 t : triple_valid T t ->
  direct_summand orc D df pl (sort3 t) = direct_summand orc D df pl t.
Proof.
  intros Hv. unfold sort3.
  destruct (direct_summand_s12 t Hv) as [E1 V1].
  destruct (direct_summand_s23 _ V1) as [E2 V2].
  destruct (direct_summand_s12 _ V2) as [E3 _].
  now rewrite E3, E2, E1.
Qed.
End Sym.

(* sorting a triple: descending, same members *)
Definition mem3 (t : triple) (n : nat) : Prop := let '(a, b, c) := t in n = a \/ n = b \/ n = c.

Lemma s12_mem t n : mem3 (s12 t) n <-> mem3 t n.
Proof. destruct t as [[a b] c]. unfold s12. destruct (a <? b)%nat; cbn [mem3]; tauto. Qed.

Lemma s23_mem t n : mem3 (s23 t) n <-> mem3 t n.
Proof. destruct t as [[a b] c]. unfold s23. destruct (b <? c)%nat; cbn [mem3]; tauto. Qed.

Lemma sort3_mem t n : mem3 (sort3 t) n <-> mem3 t n.
Proof. unfold sort3. now rewrite s12_mem, s23_mem, s12_mem. Qed.

(* the three comparisons sort3 makes *)
Ltac sort3_cases a b :=
  unfold sort3, s12 at 2; destruct (Nat.ltb_spec a b); unfold s23;
  match goal with |- context [(?u <? ?v)%nat] => destruct (Nat.ltb_spec u v) end; unfold s12;
  match goal with |- context [(?u <? ?v)%nat] => destruct (Nat.ltb_spec u v) end.

Lemma sort3_strict a b c : a <> b -> a <> c -> b <> c ->
  let '(x, y, z) := sort3 (a, b, c) in (z < y /\ y < x)%nat.
Proof. intros Hab Hac Hbc. sort3_cases a b; lia. Qed.

Lemma sort3_bound T a b c : (a < T)%nat -> (b < T)%nat -> (c < T)%nat ->
  let '(x, y, z) := sort3 (a, b, c) in (x < T)%nat.
Proof. intros Ha Hb Hc. sort3_cases a b; lia. Qed.

Definition phi (sg : list nat) (t : triple) : triple := sort3 (map3 (sigma sg) t).

(* two strictly descending triples with the same members are equal: the largest, then the smallest, then the middle *)
Lemma desc_mem_eq T t t' : desc T t -> desc T t' -> (forall n, mem3 t n <-> mem3 t' n) -> t = t'.
Proof.
  destruct t as [[a b] c], t' as [[a' b'] c']. cbn [desc mem3]. intros H H' Hm.
  pose proof (proj1 (Hm a) (or_introl eq_refl)) as Ma.
  pose proof (proj2 (Hm a') (or_introl eq_refl)) as Ma'.
  assert (Ea : a = a') by lia.
  pose proof (proj1 (Hm c) (or_intror (or_intror eq_refl))) as Mc.
  pose proof (proj2 (Hm c') (or_intror (or_intror eq_refl))) as Mc'.
  assert (Ec : c = c') by lia.
  pose proof (proj1 (Hm b) (or_intror (or_introl eq_refl))) as Mb.
  assert (Eb : b = b') by lia. congruence.
Qed.

Section Phi.
Variables (sg : list nat) (T : nat).
Hypothesis Hsg : Permutation sg (seq 0 T).

Lemma phi_desc t : desc T t -> desc T (phi sg t).
Proof.
  destruct t as [[a b] c]. intros (Hcb & Hba & HaT). unfold phi, map3.
  pose proof (sigma_lt sg T Hsg a ltac:(lia)) as La.
  pose proof (sigma_lt sg T Hsg b ltac:(lia)) as Lb.
  pose proof (sigma_lt sg T Hsg c ltac:(lia)) as Lc.
  assert (Nab : sigma sg a <> sigma sg b) by (intros E; apply (sigma_inj sg T Hsg) in E; lia).
  assert (Nac : sigma sg a <> sigma sg c) by (intros E; apply (sigma_inj sg T Hsg) in E; lia).
  assert (Nbc : sigma sg b <> sigma sg c) by (intros E; apply (sigma_inj sg T Hsg) in E; lia).
  pose proof (sort3_strict _ _ _ Nab Nac Nbc) as Hs.
  pose proof (sort3_bound T _ _ _ La Lb Lc) as Hb.
  destruct (sort3 _) as [[x y] z]. unfold desc. lia.
Qed.

(* the relabelling is injective below T, so it reflects membership *)
Lemma map3_sigma_mem t t' : triple_valid T t -> triple_valid T t' ->
  (forall n, mem3 (map3 (sigma sg) t) n -> mem3 (map3 (sigma sg) t') n) ->
  forall m, mem3 t m -> mem3 t' m.
Proof.
  destruct t as [[a b] c], t' as [[a' b'] c']. intros (Ha & Hb & Hc) (Ha' & Hb' & Hc') Hm m Hin.
  assert (Hlt : (m < T)%nat) by (destruct Hin as [->|[->| ->]]; assumption).
  assert (Hs : mem3 (map3 (sigma sg) (a, b, c)) (sigma sg m)) by (destruct Hin as [->|[->| ->]]; cbn; auto).
  apply Hm in Hs. cbn [mem3 map3] in Hs |- *.
  destruct Hs as [E|[E|E]]; apply (sigma_inj sg T Hsg) in E; auto.
Qed.

Lemma phi_inj t1 t2 : desc T t1 -> desc T t2 -> phi sg t1 = phi sg t2 -> t1 = t2.
Proof.
  intros H1 H2 E. apply (desc_mem_eq T); [exact H1 | exact H2 |].
  assert (Hm : forall n, mem3 (map3 (sigma sg) t1) n <-> mem3 (map3 (sigma sg) t2) n).
  { intros n. rewrite <- (sort3_mem (map3 _ t1)), <- (sort3_mem (map3 _ t2)). fold (phi sg t1) (phi sg t2). now rewrite E. }
  intros m. split; apply map3_sigma_mem; try (apply desc_valid; assumption); intros n; apply Hm.
Qed.
End Phi.

Lemma complete_desc T ts t : complete T ts -> (In t ts <-> desc T t).
Proof. intros [_ H]. destruct t as [[a b] c]. apply H. Qed.

Lemma complete_perm T ts ts' : complete T ts -> complete T ts' -> Permutation ts ts'.
Proof.
  intros H H'. apply NoDup_Permutation; [apply H|apply H'|].
  intros t. now rewrite (complete_desc T ts t H), (complete_desc T ts' t H').
Qed.

Lemma phi_image_perm sg T ts ts' :
  Permutation sg (seq 0 T) -> complete T ts -> complete T ts' -> Permutation (map (phi sg) ts') ts.
Proof.
  intros Hsg Hc Hc'. apply NoDup_Permutation_bis.
  - apply NoDup_map_inj_in; [|apply Hc'].
    intros x y Hx Hy. apply (phi_inj sg T Hsg); now apply (complete_desc T ts').
  - rewrite map_length. now rewrite (Permutation_length (complete_perm T ts ts' Hc Hc')).
  - intros t Ht. apply in_map_iff in Ht as (t' & <- & Hin).
    apply (complete_desc T ts _ Hc). apply (phi_desc sg T Hsg). now apply (complete_desc T ts').
Qed.

Theorem direct_relabel orc T sg D df ts ts' pl :
  (0 < T)%nat -> Permutation sg (seq 0 T) -> plate_wf T pl -> sym_on T D ->
  complete T ts -> complete T ts' ->
  direct orc (relabel_matrix sg D) df ts' (relabel_plate sg pl) = direct orc D df ts pl.
Proof.
  intros HT Hsg Hwf Hsym Hc Hc'. unfold direct.
  rewrite (map_ext_in _ (fun t => direct_summand orc D df pl (phi sg t))).
  - rewrite <- (map_map (phi sg) (direct_summand orc D df pl)).
    apply logsumexp_perm, Permutation_map. now apply (phi_image_perm sg T).
  - intros t Ht. apply (complete_desc T ts' t Hc') in Ht. pose proof (desc_valid T t Ht) as Hv.
    rewrite (direct_summand_relabel sg T Hsg orc D df pl t HT Hwf Hv). unfold phi. symmetry.
    apply (direct_summand_sort3 orc T D df pl Hsym).
    destruct t as [[a b] c]. destruct Hv as (Ha & Hb & Hc0). cbn [map3 triple_valid].
    repeat split; now apply (sigma_lt sg T Hsg).
Qed.

Lemma rect_relabel_rows {A} sg T E (a : list (list A)) :
  Permutation sg (seq 0 T) -> rect T E a -> rect T E (relabel_rows sg a).
Proof.
  intros Hsg Ha. split.
  - unfold relabel_rows. now rewrite map_length, (sg_length sg T Hsg).
  - apply Forall_forall. intros r Hr. unfold relabel_rows in Hr. apply in_map_iff in Hr as (i & <- & Hi).
    apply (rect_row T E a i Ha). apply (Permutation_in _ Hsg) in Hi. apply in_seq in Hi. lia.
Qed.

Lemma plate_wf_relabel sg T pl : Permutation sg (seq 0 T) -> plate_wf T pl -> plate_wf T (relabel_plate sg pl).
Proof.
  intros Hsg (E & Hm & Hv). exists E. split; cbn [relabel_plate fst snd]; now apply rect_relabel_rows.
Qed.

Lemma complete_valid T ts : complete T ts -> Forall (triple_valid T) ts.
Proof.
  intros Hc. apply Forall_forall. intros t Ht. apply desc_valid. now apply (complete_desc T ts t Hc).
Qed.

Theorem hetero_relabel orc T sg plates D df ts ts' :
  (0 < T)%nat -> Permutation sg (seq 0 T) -> Forall (plate_wf T) plates -> sym_on T D ->
  complete T ts -> complete T ts' ->
  hetero orc (map (relabel_plate sg) plates) (relabel_matrix sg D) df ts' = hetero orc plates D df ts.
Proof.
  intros HT Hsg Hwf Hsym Hc Hc'.
  rewrite !(hetero_eq_direct orc T); try assumption; try now apply complete_valid.
  - rewrite map_map. apply map_ext_in. intros pl Hin. rewrite Forall_forall in Hwf.
    apply (direct_relabel orc T sg D df ts ts' pl); auto.
  - apply Forall_forall. intros pl' Hin. apply in_map_iff in Hin as (pl & <- & Hin).
    rewrite Forall_forall in Hwf. apply plate_wf_relabel; auto.
Qed.
