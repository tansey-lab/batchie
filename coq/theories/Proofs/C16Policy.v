(* C16: characterisation of filter_eligible in terms of per-sample counts. *)
From Coq Require Import ZArith List Bool Lia Permutation.
From Batchie Require Import Lib.Sexp Model.Policy.
Import ListNotations.
Open Scope Z_scope.

Lemma mem_In x l : mem x l = true <-> In x l.
Proof.
  unfold mem. rewrite existsb_exists. split.
  - intros (y & Hy & E). apply Z.eqb_eq in E. now subst.
  - intros H. exists x. split; [exact H|apply Z.eqb_refl].
Qed.

Lemma mem_app x l1 l2 : mem x (l1 ++ l2) = mem x l1 || mem x l2.
Proof. unfold mem. apply existsb_app. Qed.

Lemma cnt_nil c : cnt c [] = 0.
Proof. reflexivity. Qed.

Lemma cnt_cons c p l : cnt c (p :: l) = (if sample_of p =? c then 1 else 0) + cnt c l.
Proof. unfold cnt. cbn [filter]. destruct (sample_of p =? c); cbn [length]; lia. Qed.

Lemma cnt_app c l1 l2 : cnt c (l1 ++ l2) = cnt c l1 + cnt c l2.
Proof. unfold cnt. rewrite filter_app, app_length. lia. Qed.

Lemma cnt_nonneg c l : 0 <= cnt c l.
Proof. unfold cnt. lia. Qed.

Lemma cnt_perm c l l' : Permutation l l' -> cnt c l = cnt c l'.
Proof.
  induction 1 as [|x l l' _ IH|x y l|l l' l'' _ IH1 _ IH2].
  - reflexivity.
  - rewrite !cnt_cons. lia.
  - rewrite !cnt_cons. lia.
  - lia.
Qed.

Lemma cnt_pos_In c l : 1 <= cnt c l <-> exists p, In p l /\ sample_of p = c.
Proof.
  induction l as [|q l IH].
  - rewrite cnt_nil. split; [lia|intros (p & [] & _)].
  - rewrite cnt_cons. destruct (sample_of q =? c) eqn:E.
    + apply Z.eqb_eq in E. pose proof (cnt_nonneg c l). split; [|lia]. intros _. exists q. split; [now left|exact E].
    + apply Z.eqb_neq in E. rewrite Z.add_0_l, IH. split.
      * intros (p & Hp & Hs). exists p. split; [now right|exact Hs].
      * intros (p & [->|Hp] & Hs); [contradiction|]. exists p. now split.
Qed.

Lemma cnt_filter_nonempty c l : 1 <= cnt c l -> filter (fun p => sample_of p =? c) l <> [].
Proof. unfold cnt. intros H E. rewrite E in H. cbn in H. lia. Qed.

(* the defaultdict(int) as an association list *)
Fixpoint get (d : list (Z * Z)) (s : Z) : Z :=
  match d with
  | [] => 0
  | (s', v) :: r => if s' =? s then v else get r s
  end.

Lemma get_incr d s c : get (incr d s) c = get d c + (if s =? c then 1 else 0).
Proof.
  induction d as [|[s' v] d IH]; cbn [incr get].
  - destruct (s =? c); lia.
  - destruct (s' =? s) eqn:E; cbn [get].
    + apply Z.eqb_eq in E. subst s'. destruct (s =? c); lia.
    + destruct (s' =? c) eqn:E2.
      * apply Z.eqb_eq in E2. subst s'. rewrite Z.eqb_sym in E. rewrite E. lia.
      * exact IH.
Qed.

Lemma keys_incr d s c : In c (map fst (incr d s)) <-> In c (map fst d) \/ c = s.
Proof.
  induction d as [|[s' v] d IH]; cbn [incr map fst In].
  - intuition.
  - destruct (s' =? s) eqn:E; cbn [map fst In].
    + apply Z.eqb_eq in E. subst s'. intuition.
    + rewrite IH. intuition.
Qed.

Lemma NoDup_incr d s : NoDup (map fst d) -> NoDup (map fst (incr d s)).
Proof.
  induction d as [|[s' v] d IH]; cbn [incr map fst]; intros H.
  - constructor; [intros []|constructor].
  - inversion H as [|? ? Hn Hd]; subst. destruct (s' =? s) eqn:E; cbn [map fst].
    + constructor; assumption.
    + apply Z.eqb_neq in E. constructor; [|now apply IH].
      rewrite keys_incr. intros [Hi|Hi]; [contradiction|congruence].
Qed.

Lemma vals_incr d s : Forall (fun cv => 1 <= snd cv) d -> Forall (fun cv => 1 <= snd cv) (incr d s).
Proof.
  induction 1 as [|[s' v] d Hv Hd IH]; cbn [incr]; [repeat constructor; cbn [snd]; lia|].
  cbn [snd] in Hv. destruct (s' =? s); constructor; cbn [snd]; try assumption; lia.
Qed.

Lemma get_In d c v : NoDup (map fst d) -> In (c, v) d -> get d c = v.
Proof.
  induction d as [|[s' v'] d IH]; cbn [map fst get]; intros Hnd Hin; [destruct Hin|].
  inversion Hnd as [|? ? Hn Hd]; subst. destruct Hin as [E|Hin].
  - injection E as -> ->. now rewrite Z.eqb_refl.
  - destruct (s' =? c) eqn:E.
    + apply Z.eqb_eq in E. subst s'. exfalso. apply Hn. apply (in_map fst d (c, v)). exact Hin.
    + now apply IH.
Qed.

Lemma get_notin d c : ~ In c (map fst d) -> get d c = 0.
Proof.
  induction d as [|[s' v'] d IH]; cbn [map fst get In]; intros H; [reflexivity|].
  destruct (s' =? c) eqn:E.
  - apply Z.eqb_eq in E. exfalso. apply H. now left.
  - apply IH. intros Hi. apply H. now right.
Qed.

Lemma In_get (d : list (Z * Z)) (c : Z) : In c (map fst d) -> exists v, In (c, v) d.
Proof.
  intros H. apply in_map_iff in H as ([c' v] & E & Hin). cbn [fst] in E. subst c'. now exists v.
Qed.

(* d is the dictionary of counts of the plates in l *)
Definition counts (d : list (Z * Z)) (l : list plate) : Prop :=
  NoDup (map fst d) /\ Forall (fun cv => 1 <= snd cv) d /\ (forall c, get d c = cnt c l).

Lemma counts_fold ps : forall d l, counts d l ->
  counts (fold_left (fun d p => incr d (sample_of p)) ps d) (l ++ ps).
Proof.
  induction ps as [|p ps IH]; intros d l H; cbn [fold_left].
  - now rewrite app_nil_r.
  - replace (l ++ p :: ps) with ((l ++ [p]) ++ ps) by (now rewrite <- app_assoc).
    apply IH. destruct H as (H1 & H2 & H3). split; [now apply NoDup_incr|]. split; [now apply vals_incr|].
    intros c. rewrite get_incr, H3, cnt_app, cnt_cons, cnt_nil. lia.
Qed.

Lemma counts_count_samples l : counts (count_samples l) l.
Proof.
  unfold count_samples. apply (counts_fold l [] []). split; [constructor|]. split; [constructor|]. reflexivity.
Qed.

(* count_samples lists exactly the samples that occur, each with its number of plates *)
Lemma count_samples_In l c v : In (c, v) (count_samples l) <-> v = cnt c l /\ 1 <= v.
Proof.
  destruct (counts_count_samples l) as (Hnd & Hpos & Hget). split.
  - intros Hin. split; [now rewrite <- Hget, (get_In _ _ _ Hnd Hin)|].
    rewrite Forall_forall in Hpos. exact (Hpos _ Hin).
  - intros [-> Hc]. destruct (in_dec Z.eq_dec c (map fst (count_samples l))) as [Hi|Hi].
    + apply In_get in Hi as (v & Hv). now rewrite <- Hget, (get_In _ _ _ Hnd Hv).
    + apply get_notin in Hi. rewrite Hget in Hi. lia.
Qed.

Lemma count_samples_key l c : In c (map fst (count_samples l)) <-> 1 <= cnt c l.
Proof.
  split.
  - intros Hin. apply In_get in Hin as (v & Hv). apply count_samples_In in Hv. lia.
  - intros Hc. apply (in_map fst _ (c, cnt c l)), count_samples_In. now split.
Qed.

Lemma sample_chosen_spec k d :
  match sample_chosen k d with
  | Some c => exists v, In (c, v) d /\ v < k
  | None => forall c v, In (c, v) d -> k <= v
  end.
Proof.
  unfold sample_chosen. induction d as [|[s v] d IH] using rev_ind.
  - cbn [fold_left]. intros c v [].
  - rewrite fold_left_app. cbn [fold_left fst snd]. destruct (v <? k) eqn:E.
    + exists v. split; [apply in_or_app; right; now left|lia].
    + destruct (fold_left _ d None) as [c|].
      * destruct IH as (v' & Hin & Hv). exists v'. split; [apply in_or_app; now left|exact Hv].
      * intros c v' Hin. apply in_app_or in Hin as [Hin|[E2|[]]]; [now apply (IH c)|].
        injection E2 as <- <-. lia.
Qed.

Lemma mem_insufficient k d s : mem s (insufficient k d) = true <-> exists v, In (s, v) d /\ v < k.
Proof.
  rewrite mem_In. unfold insufficient. rewrite in_map_iff. split.
  - intros ([s' v] & E & Hin). cbn [fst] in E. subst s'. apply filter_In in Hin as [Hin Hv]. cbn [snd] in Hv.
    exists v. split; [exact Hin|lia].
  - intros (v & Hin & Hv). exists (s, v). split; [reflexivity|]. apply filter_In. split; [exact Hin|]. cbn [snd]. lia.
Qed.

(* the two conditions under which a plate may open a new sample, in terms of counts *)
Lemma not_insufficient k l c : 1 <= cnt c l -> negb (mem c (insufficient k (count_samples l))) = (k <=? cnt c l).
Proof.
  intros Hc. apply eq_true_iff_eq. rewrite negb_true_iff, <- not_true_iff_false, mem_insufficient, Z.leb_le. split.
  - intros Hn. destruct (Z_lt_le_dec (cnt c l) k) as [Hlt|Hle]; [|exact Hle].
    exfalso. apply Hn. exists (cnt c l). split; [now apply count_samples_In|exact Hlt].
  - intros Hle (v & Hin & Hv). apply count_samples_In in Hin. lia.
Qed.

Lemma not_counted l c : negb (mem c (map fst (count_samples l))) = (cnt c l =? 0).
Proof.
  apply eq_true_iff_eq. rewrite negb_true_iff, <- not_true_iff_false, mem_In, count_samples_key, Z.eqb_eq.
  pose proof (cnt_nonneg c l). lia.
Qed.

Definition open_pred (k : Z) (b r : list plate) (p : plate) : bool :=
  (k <=? cnt (sample_of p) r) && (cnt (sample_of p) b =? 0).

Lemma fe_cases k b r el :
  filter_eligible k b r = Ok el ->
  forallb single (b ++ r) = true /\
  ((exists c, 0 < cnt c b < k /\ el = filter (fun p => sample_of p =? c) r) \/
   ((forall c, cnt c b = 0 \/ k <= cnt c b) /\ el = filter (open_pred k b r) r)).
Proof.
  unfold filter_eligible. destruct (forallb single (b ++ r)); [|discriminate].
  pose proof (sample_chosen_spec k (count_samples b)) as Hc.
  destruct (sample_chosen k (count_samples b)) as [c|]; intros H; injection H as <-; (split; [reflexivity|]).
  - left. exists c. destruct Hc as (v & Hin & Hv). apply count_samples_In in Hin. split; [lia|reflexivity].
  - right. split.
    + intros c. pose proof (cnt_nonneg c b). destruct (Z.eq_dec (cnt c b) 0) as [E|E]; [now left|right].
      apply (Hc c), count_samples_In. lia.
    + apply filter_ext_in. intros p Hp. unfold open_pred. f_equal; [|apply not_counted].
      apply not_insufficient, cnt_pos_In. now exists p.
Qed.

Lemma fe_ok k b r : forallb single (b ++ r) = true -> exists el, filter_eligible k b r = Ok el.
Proof.
  intros H. unfold filter_eligible. rewrite H. destruct (sample_chosen k (count_samples b)); eexists; reflexivity.
Qed.

Lemma fe_err k b r : forallb single (b ++ r) = false -> filter_eligible k b r = Err 1.
Proof. intros H. unfold filter_eligible. now rewrite H. Qed.
