(* C14, one piece of Proofs/C14SourceHelpers.v (which see): ScreenBase.n_plates on a Screen object *)
From Coq Require Import ZArith.
From Batchie Require Import Lib.Sexp Model.Views Generated.SrcPlates.
Open Scope Z_scope.

Theorem src_screen_n_plates_is_model : forall s : pyscreen,
  src_screen_n_plates s = Ok (Z.of_nat (length (screen_unique_pids (snd s)))).
Proof. reflexivity. Qed.
