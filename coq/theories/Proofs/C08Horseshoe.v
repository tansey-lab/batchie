(* C08: the horseshoe steps of the sampler (_prec_V0_step, _prec_V2_step,
   _prec_V1_step: auxiliary of phi, phi, auxiliary of eta, eta) draw from the full conditionals of
   the complete joint density energy_hs of Model/GibbsSpec.v. *)
From Coq Require Import List QArith Qcanon Lia.
From Batchie Require Import Lib.Num Model.Gibbs Model.GibbsSpec Proofs.C08Sums Proofs.C08Misc Proofs.C08HorseshoeAlg.
Import ListNotations.
Open Scope Qc_scope.

(* two states that agree on everything the joint density reads except (phi0, eta0) / (phi2, eta2) /
   (phi1, eta1); likewise for the auxiliaries *)
Definition off0 (s1 s2 : st) : Prop :=
  W s1 = W s2 /\ W0 s1 = W0 s2 /\ V2 s1 = V2 s2 /\ V1 s1 = V1 s2 /\ V0 s1 = V0 s2 /\ alpha s1 = alpha s2 /\
  prec s1 = prec s2 /\ tau s1 = tau s2 /\ tau0 s1 = tau0 s2 /\ gam s1 = gam s2 /\
  phi2 s1 = phi2 s2 /\ eta2 s1 = eta2 s2 /\ phi1 s1 = phi1 s2 /\ eta1 s1 = eta1 s2.
Definition off2 (s1 s2 : st) : Prop :=
  W s1 = W s2 /\ W0 s1 = W0 s2 /\ V2 s1 = V2 s2 /\ V1 s1 = V1 s2 /\ V0 s1 = V0 s2 /\ alpha s1 = alpha s2 /\
  prec s1 = prec s2 /\ tau s1 = tau s2 /\ tau0 s1 = tau0 s2 /\ gam s1 = gam s2 /\
  phi0 s1 = phi0 s2 /\ eta0 s1 = eta0 s2 /\ phi1 s1 = phi1 s2 /\ eta1 s1 = eta1 s2.
Definition off1 (s1 s2 : st) : Prop :=
  W s1 = W s2 /\ W0 s1 = W0 s2 /\ V2 s1 = V2 s2 /\ V1 s1 = V1 s2 /\ V0 s1 = V0 s2 /\ alpha s1 = alpha s2 /\
  prec s1 = prec s2 /\ tau s1 = tau s2 /\ tau0 s1 = tau0 s2 /\ gam s1 = gam s2 /\
  phi0 s1 = phi0 s2 /\ eta0 s1 = eta0 s2 /\ phi2 s1 = phi2 s2 /\ eta2 s1 = eta2 s2.
Definition offa0 (u1 u2 : aux) : Prop :=
  a_phi2 u1 = a_phi2 u2 /\ a_eta2 u1 = a_eta2 u2 /\ a_phi1 u1 = a_phi1 u2 /\ a_eta1 u1 = a_eta1 u2.
Definition offa2 (u1 u2 : aux) : Prop :=
  a_phi0 u1 = a_phi0 u2 /\ a_eta0 u1 = a_eta0 u2 /\ a_phi1 u1 = a_phi1 u2 /\ a_eta1 u1 = a_eta1 u2.
Definition offa1 (u1 u2 : aux) : Prop :=
  a_phi0 u1 = a_phi0 u2 /\ a_eta0 u1 = a_eta0 u2 /\ a_phi2 u1 = a_phi2 u2 /\ a_eta2 u1 = a_eta2 u2.

(* splits a conjunction of equations between record fields, each closed by reflexivity *)
Ltac split_all := repeat match goal with |- _ /\ _ => split end; try reflexivity.

Section HS.
Variable ln : Qc -> Qc.
Variable g : cfg.
Variable d : data.
Notation D := (c_D g).
Notation ndd := (c_ndd g).

(* unfolds the complete joint down to sums over the fields of the two records *)
Ltac open_energy :=
  unfold energy_hs, energy, e_hs, e_hs_mat, e_lik, sse, spec_mean, e_W0, e_V0, e_W, e_Vk, e_hyper, blk0, blkK;
  cbn [W W0 V2 V1 V0 alpha prec tau tau0 phi2 phi1 phi0 eta2 eta1 eta0 gam Mu a_phi0 a_eta0 a_phi2 a_eta2 a_phi1 a_eta1].

(* the difference of the complete joint between two such states is carried by the factors that
   mention the group *)
Lemma energy_hs_diff0 j s1 s2 u1 u2 : off0 s1 s2 -> offa0 u1 u2 ->
  energy_hs ln j g d s1 u1 - energy_hs ln j g d s2 u2
  = blk0 ln j ndd (V0 s1) (phi0 s1) (eta0 s1) (a_phi0 u1) (a_eta0 u1)
    - blk0 ln j ndd (V0 s2) (phi0 s2) (eta0 s2) (a_phi0 u2) (a_eta0 u2).
Proof.
  destruct s1 as [sW sW0 sV2 sV1 sV0 sal spr stau stau0 sp2 sp1 sp0 se2 se1 se0 sgam sMu],
           s2 as [tW tW0 tV2 tV1 tV0 tal tpr ttau ttau0 tp2 tp1 tp0 te2 te1 te0 tgam tMu],
           u1 as [ua1 ua2 ua3 ua4 ua5 ua6], u2 as [ub1 ub2 ub3 ub4 ub5 ub6].
  unfold off0, offa0.
  cbn [W W0 V2 V1 V0 alpha prec tau tau0 phi2 phi1 phi0 eta2 eta1 eta0 gam Mu a_phi0 a_eta0 a_phi2 a_eta2 a_phi1 a_eta1].
  intros (-> & -> & -> & -> & -> & -> & -> & -> & -> & -> & -> & -> & -> & ->) (-> & -> & -> & ->).
  open_energy. ring.
Qed.

Lemma energy_hs_diff2 j s1 s2 u1 u2 : off2 s1 s2 -> offa2 u1 u2 ->
  energy_hs ln j g d s1 u1 - energy_hs ln j g d s2 u2
  = blkK ln j ndd D (V2 s1) (phi2 s1) (eta2 s1) (a_phi2 u1) (a_eta2 u1)
    - blkK ln j ndd D (V2 s2) (phi2 s2) (eta2 s2) (a_phi2 u2) (a_eta2 u2).
Proof.
  destruct s1 as [sW sW0 sV2 sV1 sV0 sal spr stau stau0 sp2 sp1 sp0 se2 se1 se0 sgam sMu],
           s2 as [tW tW0 tV2 tV1 tV0 tal tpr ttau ttau0 tp2 tp1 tp0 te2 te1 te0 tgam tMu],
           u1 as [ua1 ua2 ua3 ua4 ua5 ua6], u2 as [ub1 ub2 ub3 ub4 ub5 ub6].
  unfold off2, offa2.
  cbn [W W0 V2 V1 V0 alpha prec tau tau0 phi2 phi1 phi0 eta2 eta1 eta0 gam Mu a_phi0 a_eta0 a_phi2 a_eta2 a_phi1 a_eta1].
  intros (-> & -> & -> & -> & -> & -> & -> & -> & -> & -> & -> & -> & -> & ->) (-> & -> & -> & ->).
  open_energy. ring.
Qed.

Lemma energy_hs_diff1 j s1 s2 u1 u2 : off1 s1 s2 -> offa1 u1 u2 ->
  energy_hs ln j g d s1 u1 - energy_hs ln j g d s2 u2
  = blkK ln j ndd D (V1 s1) (phi1 s1) (eta1 s1) (a_phi1 u1) (a_eta1 u1)
    - blkK ln j ndd D (V1 s2) (phi1 s2) (eta1 s2) (a_phi1 u2) (a_eta1 u2).
Proof.
  destruct s1 as [sW sW0 sV2 sV1 sV0 sal spr stau stau0 sp2 sp1 sp0 se2 se1 se0 sgam sMu],
           s2 as [tW tW0 tV2 tV1 tV0 tal tpr ttau ttau0 tp2 tp1 tp0 te2 te1 te0 tgam tMu],
           u1 as [ua1 ua2 ua3 ua4 ua5 ua6], u2 as [ub1 ub2 ub3 ub4 ub5 ub6].
  unfold off1, offa1.
  cbn [W W0 V2 V1 V0 alpha prec tau tau0 phi2 phi1 phi0 eta2 eta1 eta0 gam Mu a_phi0 a_eta0 a_phi2 a_eta2 a_phi1 a_eta1].
  intros (-> & -> & -> & -> & -> & -> & -> & -> & -> & -> & -> & -> & -> & ->) (-> & -> & -> & ->).
  open_energy. ring.
Qed.

(* the complete joint extends the conditional one: a move that leaves the horseshoe precisions alone has the same energy difference
   in both, so every Gaussian / gamma block theorem about [energy] is a theorem about [energy_hs] *)
Theorem energy_hs_extends j s1 s2 u :
  phi0 s1 = phi0 s2 -> eta0 s1 = eta0 s2 -> phi2 s1 = phi2 s2 -> eta2 s1 = eta2 s2 ->
  phi1 s1 = phi1 s2 -> eta1 s1 = eta1 s2 ->
  energy_hs ln j g d s1 u - energy_hs ln j g d s2 u = energy ln g d s1 - energy ln g d s2.
Proof.
  intros H1 H2 H3 H4 H5 H6. unfold energy_hs, e_hs. rewrite H1, H2, H3, H4, H5, H6. ring.
Qed.

(* the stability term is exactly an exponential tilt of the plain horseshoe model *)
Theorem energy_hs_tilt j s u :
  energy_hs ln j g d s u = energy_hs ln 0 g d s u + qofZ 2 * j * hs_total g s.
Proof.
  unfold energy_hs, e_hs, e_hs_mat, hs_total.
  rewrite !(e_hs_vec_tilt ln j), (e_hc_tilt ln j).
  rewrite (sumn_ext ndd (fun m => e_hs_vec ln j D (rnth (phi2 s) m) (rnth (a_phi2 u) m))
                        (fun m => e_hs_vec ln 0 D (rnth (phi2 s) m) (rnth (a_phi2 u) m)
                                  + qofZ 2 * j * sumn D (fun k => vnth (rnth (phi2 s) m) k)))
    by (intros m _; apply e_hs_vec_tilt).
  rewrite (sumn_ext ndd (fun m => e_hs_vec ln j D (rnth (phi1 s) m) (rnth (a_phi1 u) m))
                        (fun m => e_hs_vec ln 0 D (rnth (phi1 s) m) (rnth (a_phi1 u) m)
                                  + qofZ 2 * j * sumn D (fun k => vnth (rnth (phi1 s) m) k)))
    by (intros m _; apply e_hs_vec_tilt).
  rewrite !sumn_add, !sumn_scale. ring.
Qed.

Variable orc : oracle.
Hypothesis ln_mul : forall a b, 0 < a -> 0 < b -> ln (a * b) = ln a + ln b.

(* first draw: the auxiliaries of phi0, jointly *)
Theorem hs_phiaux0 j s sh rates k :
  length (phi0 s) = ndd ->
  prog_prec_V0 g d orc s = Draw (DGammaVec sh rates) k ->
  forall u x x',
    energy_hs ln j g d s (set_a_phi0 u x) - energy_hs ln j g d s (set_a_phi0 u x')
    = sumn ndd (fun m => gform ln sh (vnth rates m) (vnth x m) (vnth x' m)).
Proof.
  intros Hl Hp u x x'.
  unfold prog_prec_V0 in Hp. injection Hp as <- <-.
  rewrite energy_hs_diff0 by (unfold off0, offa0; split_all).
  cbn [set_a_phi0 a_phi0 a_eta0]. rewrite blk0_phiaux. apply sumn_ext; intros m Hm.
  rewrite vnth_map by lia. reflexivity.
Qed.

(* second draw: phi0, jointly, given the drawn auxiliaries a *)
Theorem hs_phi0 s d1 k1 a sh rates k2 :
  prog_prec_V0 g d orc s = Draw d1 k1 -> k1 (VV a) = Draw (DGammaVec sh rates) k2 ->
  0 < eta0 s ->
  forall u x x', (forall m, (m < ndd)%nat -> 0 < vnth x m) -> (forall m, (m < ndd)%nat -> 0 < vnth x' m) ->
    energy_hs ln jitter g d (set_phi0 s x) (set_a_phi0 u a) - energy_hs ln jitter g d (set_phi0 s x') (set_a_phi0 u a)
    = sumn ndd (fun m => gform ln sh (vnth rates m) (vnth x m) (vnth x' m)).
Proof.
  intros Hp Hk He u x x' Hx Hx'.
  unfold prog_prec_V0 in Hp. injection Hp as <- <-. injection Hk as <- <-.
  rewrite energy_hs_diff0 by (unfold off0, offa0; split_all).
  cbn [set_phi0 set_a_phi0 a_phi0 a_eta0 V0 phi0 eta0 val_v].
  rewrite (blk0_phi ln jitter ln_mul) by assumption. apply sumn_ext; intros m Hm.
  rewrite vnth_tab by exact Hm. reflexivity.
Qed.

(* third draw: the auxiliary of eta0; only eta0 matters, which the phi update does not touch *)
Theorem hs_etaaux0 j s d1 k1 v1 d2 k2 v2 sh r k3 :
  prog_prec_V0 g d orc s = Draw d1 k1 -> k1 v1 = Draw d2 k2 -> k2 v2 = Draw (DGamma sh r) k3 ->
  forall s1 u t t', eta0 s1 = eta0 s ->
    energy_hs ln j g d s1 (set_a_eta0 u t) - energy_hs ln j g d s1 (set_a_eta0 u t') = gform ln sh r t t'.
Proof.
  intros Hp Hk1 Hk2 s1 u t t' He.
  unfold prog_prec_V0 in Hp. injection Hp as <- <-. injection Hk1 as <- <-. injection Hk2 as <- <-.
  rewrite energy_hs_diff0 by (unfold off0, offa0; split_all).
  cbn [set_a_eta0 a_phi0 a_eta0]. rewrite blk0_etaaux, He. reflexivity.
Qed.

(* fourth draw: eta0 given the drawn auxiliary b, in the state that holds the new phi0 *)
Theorem hs_eta0 s d1 k1 v1 d2 k2 v2 d3 k3 b sh r k4 v4 sfin :
  prog_prec_V0 g d orc s = Draw d1 k1 -> k1 v1 = Draw d2 k2 -> k2 v2 = Draw d3 k3 ->
  k3 (VQ b) = Draw (DGamma sh r) k4 -> k4 v4 = Ret sfin ->
  (forall m, (m < ndd)%nat -> 0 < vnth (phi0 sfin) m) ->
  forall u t t', 0 < t -> 0 < t' ->
    energy_hs ln jitter g d (set_eta0 sfin t) (set_a_eta0 u b) - energy_hs ln jitter g d (set_eta0 sfin t') (set_a_eta0 u b)
    = gform ln sh r t t'.
Proof.
  intros Hp Hk1 Hk2 Hk3 Hk4 Hpos u t t' Ht Ht'.
  unfold prog_prec_V0 in Hp. injection Hp as <- <-. injection Hk1 as <- <-. injection Hk2 as <- <-. injection Hk3 as <- <- <-. injection Hk4 as <-.
  rewrite energy_hs_diff0 by (unfold off0, offa0; split_all).
  cbn [set_eta0 set_phi0 set_a_eta0 a_phi0 a_eta0 V0 phi0 eta0 val_q] in Hpos |- *.
  rewrite (blk0_eta ln jitter ln_mul) by assumption. reflexivity.
Qed.

(* what the step stores: the clipped draws *)
Theorem hs_stored0 s d1 k1 v1 d2 k2 x d3 k3 v3 d4 k4 y sfin :
  prog_prec_V0 g d orc s = Draw d1 k1 -> k1 v1 = Draw d2 k2 -> k2 (VV x) = Draw d3 k3 ->
  k3 v3 = Draw d4 k4 -> k4 (VQ y) = Ret sfin ->
  eta0 sfin = clipC orc (nobs d) y /\ length (phi0 sfin) = ndd /\
  (forall m, (m < ndd)%nat -> vnth (phi0 sfin) m = clipC orc (n_occ d m) (vnth x m)) /\ off0 sfin s.
Proof.
  intros Hp Hk1 Hk2 Hk3 Hk4.
  unfold prog_prec_V0 in Hp. injection Hp as <- <-. injection Hk1 as <- <-. injection Hk2 as <- <-. injection Hk3 as <- <-. injection Hk4 as <-.
  cbn [set_eta0 set_phi0 eta0 phi0 val_q val_v]. split; [reflexivity|]. split; [apply tab_length|]. split.
  - intros m Hm. now rewrite vnth_tab by exact Hm.
  - unfold off0. split_all.
Qed.

(* for the arrays V, phi, eta of either family and any final store [fin]; the statements are about [blkK], the part of
   the complete joint that mentions the family *)
Section Family.
Variable V : list (list Qc).
Variable phi : list (list Qc).
Variable eta : list Qc.
Variable fin : list (list Qc) -> list Qc -> st.

Lemma hsK_phiaux sh rates k :
  length phi = ndd -> (forall m, (m < ndd)%nat -> length (rnth phi m) = D) ->
  prog_prec_Vk g d orc V phi eta fin = Draw (DGammaMat sh rates) k ->
  forall j aeta x x',
    blkK ln j ndd D V phi eta x aeta - blkK ln j ndd D V phi eta x' aeta
    = sumn ndd (fun m => sumn D (fun i => gform ln sh (vnth (rnth rates m) i) (vnth (rnth x m) i) (vnth (rnth x' m) i))).
Proof.
  intros Hl Hr Hp j aeta x x'.
  unfold prog_prec_Vk in Hp. injection Hp as <- <-.
  rewrite blkK_phiaux. apply sumn_ext; intros m Hm. apply sumn_ext; intros i Hi.
  rewrite rnth_map by lia. rewrite vnth_map by (rewrite Hr by exact Hm; exact Hi). reflexivity.
Qed.

Lemma hsK_phi d1 k1 a sh rates k2 :
  prog_prec_Vk g d orc V phi eta fin = Draw d1 k1 -> k1 (VM a) = Draw (DGammaMat sh rates) k2 ->
  (forall i, (i < D)%nat -> 0 < vnth eta i) ->
  forall aeta x x',
    (forall m i, (m < ndd)%nat -> (i < D)%nat -> 0 < vnth (rnth x m) i) ->
    (forall m i, (m < ndd)%nat -> (i < D)%nat -> 0 < vnth (rnth x' m) i) ->
    blkK ln jitter ndd D V x eta a aeta - blkK ln jitter ndd D V x' eta a aeta
    = sumn ndd (fun m => sumn D (fun i => gform ln sh (vnth (rnth rates m) i) (vnth (rnth x m) i) (vnth (rnth x' m) i))).
Proof.
  intros Hp Hk He aeta x x' Hx Hx'.
  unfold prog_prec_Vk in Hp. injection Hp as <- <-. injection Hk as <- <-.
  rewrite (blkK_phi ln jitter ln_mul) by assumption. cbn [val_m].
  apply sumn_ext; intros m Hm. apply sumn_ext; intros i Hi.
  rewrite rnth_tab by exact Hm. rewrite vnth_tab by exact Hi. reflexivity.
Qed.

Lemma hsK_etaaux d1 k1 v1 d2 k2 v2 sh rates k3 :
  length eta = D ->
  prog_prec_Vk g d orc V phi eta fin = Draw d1 k1 -> k1 v1 = Draw d2 k2 -> k2 v2 = Draw (DGammaVec sh rates) k3 ->
  forall j V' phi' aphi t t',
    blkK ln j ndd D V' phi' eta aphi t - blkK ln j ndd D V' phi' eta aphi t'
    = sumn D (fun i => gform ln sh (vnth rates i) (vnth t i) (vnth t' i)).
Proof.
  intros Hl Hp Hk1 Hk2 j V' phi' aphi t t'.
  unfold prog_prec_Vk in Hp. injection Hp as <- <-. injection Hk1 as <- <-. injection Hk2 as <- <-.
  rewrite blkK_etaaux. apply sumn_ext; intros i Hi. rewrite vnth_map by lia. reflexivity.
Qed.

(* the state the step returns is some [fin ph et]; the eta draw is conditional on that ph *)
Lemma hsK_eta d1 k1 v1 d2 k2 v2 d3 k3 b sh rates k4 v4 sfin :
  prog_prec_Vk g d orc V phi eta fin = Draw d1 k1 -> k1 v1 = Draw d2 k2 -> k2 v2 = Draw d3 k3 ->
  k3 (VV b) = Draw (DGammaVec sh rates) k4 -> k4 v4 = Ret sfin ->
  exists ph et, sfin = fin ph et /\
    ((forall m i, (m < ndd)%nat -> (i < D)%nat -> 0 < vnth (rnth ph m) i) ->
     forall aphi t t', (forall i, (i < D)%nat -> 0 < vnth t i) -> (forall i, (i < D)%nat -> 0 < vnth t' i) ->
       blkK ln jitter ndd D V ph t aphi b - blkK ln jitter ndd D V ph t' aphi b
       = sumn D (fun i => gform ln sh (vnth rates i) (vnth t i) (vnth t' i))).
Proof.
  intros Hp Hk1 Hk2 Hk3 Hk4.
  unfold prog_prec_Vk in Hp. injection Hp as <- <-. injection Hk1 as <- <-. injection Hk2 as <- <-. injection Hk3 as <- <- <-. injection Hk4 as <-.
  eexists. eexists. split; [reflexivity|].
  intros Hpos aphi t t' Ht Ht'. rewrite (blkK_eta ln jitter ln_mul) by assumption. cbn [val_v].
  apply sumn_ext; intros i Hi. rewrite vnth_tab by exact Hi. reflexivity.
Qed.

Lemma hsK_stored d1 k1 v1 d2 k2 x d3 k3 v3 d4 k4 y sfin :
  prog_prec_Vk g d orc V phi eta fin = Draw d1 k1 -> k1 v1 = Draw d2 k2 -> k2 (VM x) = Draw d3 k3 ->
  k3 v3 = Draw d4 k4 -> k4 (VV y) = Ret sfin ->
  sfin = fin (tab ndd (fun m => tab D (fun i => clipC orc (n_occ d m) (vnth (rnth x m) i))))
             (tab D (fun i => clipC orc (nobs d) (vnth y i))).
Proof.
  intros Hp Hk1 Hk2 Hk3 Hk4.
  unfold prog_prec_Vk in Hp. injection Hp as <- <-. injection Hk1 as <- <-. injection Hk2 as <- <-. injection Hk3 as <- <-. injection Hk4 as <-.
  reflexivity.
Qed.
End Family.

Theorem hs_phiaux2 j s sh rates k :
  length (phi2 s) = ndd -> (forall m, (m < ndd)%nat -> length (rnth (phi2 s) m) = D) ->
  prog_prec_V2 g d orc s = Draw (DGammaMat sh rates) k ->
  forall u x x',
    energy_hs ln j g d s (set_a_phi2 u x) - energy_hs ln j g d s (set_a_phi2 u x')
    = sumn ndd (fun m => sumn D (fun i => gform ln sh (vnth (rnth rates m) i) (vnth (rnth x m) i) (vnth (rnth x' m) i))).
Proof.
  intros Hl Hr Hp u x x'. rewrite energy_hs_diff2 by (unfold off2, offa2; split_all).
  cbn [set_a_phi2 a_phi2 a_eta2]. exact (hsK_phiaux _ _ _ _ sh rates k Hl Hr Hp j _ x x').
Qed.

Theorem hs_phi2 s d1 k1 a sh rates k2 :
  prog_prec_V2 g d orc s = Draw d1 k1 -> k1 (VM a) = Draw (DGammaMat sh rates) k2 ->
  (forall i, (i < D)%nat -> 0 < vnth (eta2 s) i) ->
  forall u x x',
    (forall m i, (m < ndd)%nat -> (i < D)%nat -> 0 < vnth (rnth x m) i) ->
    (forall m i, (m < ndd)%nat -> (i < D)%nat -> 0 < vnth (rnth x' m) i) ->
    energy_hs ln jitter g d (set_phi2 s x) (set_a_phi2 u a) - energy_hs ln jitter g d (set_phi2 s x') (set_a_phi2 u a)
    = sumn ndd (fun m => sumn D (fun i => gform ln sh (vnth (rnth rates m) i) (vnth (rnth x m) i) (vnth (rnth x' m) i))).
Proof.
  intros Hp Hk He u x x' Hx Hx'. rewrite energy_hs_diff2 by (unfold off2, offa2; split_all).
  cbn [set_phi2 set_a_phi2 a_phi2 a_eta2 V2 phi2 eta2].
  exact (hsK_phi _ _ _ _ d1 k1 a sh rates k2 Hp Hk He _ x x' Hx Hx').
Qed.

Theorem hs_etaaux2 j s d1 k1 v1 d2 k2 v2 sh rates k3 :
  length (eta2 s) = D ->
  prog_prec_V2 g d orc s = Draw d1 k1 -> k1 v1 = Draw d2 k2 -> k2 v2 = Draw (DGammaVec sh rates) k3 ->
  forall s1 u t t', eta2 s1 = eta2 s ->
    energy_hs ln j g d s1 (set_a_eta2 u t) - energy_hs ln j g d s1 (set_a_eta2 u t')
    = sumn D (fun i => gform ln sh (vnth rates i) (vnth t i) (vnth t' i)).
Proof.
  intros Hl Hp Hk1 Hk2 s1 u t t' He. rewrite energy_hs_diff2 by (unfold off2, offa2; split_all).
  cbn [set_a_eta2 a_phi2 a_eta2]. rewrite He.
  exact (hsK_etaaux _ _ _ _ d1 k1 v1 d2 k2 v2 sh rates k3 Hl Hp Hk1 Hk2 j _ _ _ t t').
Qed.

Theorem hs_eta2 s d1 k1 v1 d2 k2 v2 d3 k3 b sh rates k4 v4 sfin :
  prog_prec_V2 g d orc s = Draw d1 k1 -> k1 v1 = Draw d2 k2 -> k2 v2 = Draw d3 k3 ->
  k3 (VV b) = Draw (DGammaVec sh rates) k4 -> k4 v4 = Ret sfin ->
  (forall m i, (m < ndd)%nat -> (i < D)%nat -> 0 < vnth (rnth (phi2 sfin) m) i) ->
  forall u t t', (forall i, (i < D)%nat -> 0 < vnth t i) -> (forall i, (i < D)%nat -> 0 < vnth t' i) ->
    energy_hs ln jitter g d (set_eta2 sfin t) (set_a_eta2 u b) - energy_hs ln jitter g d (set_eta2 sfin t') (set_a_eta2 u b)
    = sumn D (fun i => gform ln sh (vnth rates i) (vnth t i) (vnth t' i)).
Proof.
  intros Hp Hk1 Hk2 Hk3 Hk4 Hpos u t t' Ht Ht'.
  destruct (hsK_eta _ _ _ _ d1 k1 v1 d2 k2 v2 d3 k3 b sh rates k4 v4 sfin Hp Hk1 Hk2 Hk3 Hk4) as (ph & et & -> & H).
  rewrite energy_hs_diff2 by (unfold off2, offa2; split_all).
  cbn [set_eta2 set_phi2 set_a_eta2 a_phi2 a_eta2 V2 phi2 eta2] in Hpos |- *.
  exact (H Hpos _ t t' Ht Ht').
Qed.

Theorem hs_stored2 s d1 k1 v1 d2 k2 x d3 k3 v3 d4 k4 y sfin :
  prog_prec_V2 g d orc s = Draw d1 k1 -> k1 v1 = Draw d2 k2 -> k2 (VM x) = Draw d3 k3 ->
  k3 v3 = Draw d4 k4 -> k4 (VV y) = Ret sfin ->
  (forall i, (i < D)%nat -> vnth (eta2 sfin) i = clipC orc (nobs d) (vnth y i)) /\
  (forall m i, (m < ndd)%nat -> (i < D)%nat -> vnth (rnth (phi2 sfin) m) i = clipC orc (n_occ d m) (vnth (rnth x m) i)) /\
  off2 sfin s.
Proof.
  intros Hp Hk1 Hk2 Hk3 Hk4.
  rewrite (hsK_stored _ _ _ _ d1 k1 v1 d2 k2 x d3 k3 v3 d4 k4 y sfin Hp Hk1 Hk2 Hk3 Hk4).
  cbn [set_eta2 set_phi2 eta2 phi2]. split; [|split].
  - intros i Hi. now rewrite vnth_tab by exact Hi.
  - intros m i Hm Hi. rewrite rnth_tab by exact Hm. now rewrite vnth_tab by exact Hi.
  - unfold off2. split_all.
Qed.

Theorem hs_phiaux1 j s sh rates k :
  length (phi1 s) = ndd -> (forall m, (m < ndd)%nat -> length (rnth (phi1 s) m) = D) ->
  prog_prec_V1 g d orc s = Draw (DGammaMat sh rates) k ->
  forall u x x',
    energy_hs ln j g d s (set_a_phi1 u x) - energy_hs ln j g d s (set_a_phi1 u x')
    = sumn ndd (fun m => sumn D (fun i => gform ln sh (vnth (rnth rates m) i) (vnth (rnth x m) i) (vnth (rnth x' m) i))).
Proof.
  intros Hl Hr Hp u x x'. rewrite energy_hs_diff1 by (unfold off1, offa1; split_all).
  cbn [set_a_phi1 a_phi1 a_eta1]. exact (hsK_phiaux _ _ _ _ sh rates k Hl Hr Hp j _ x x').
Qed.

Theorem hs_phi1 s d1 k1 a sh rates k2 :
  prog_prec_V1 g d orc s = Draw d1 k1 -> k1 (VM a) = Draw (DGammaMat sh rates) k2 ->
  (forall i, (i < D)%nat -> 0 < vnth (eta1 s) i) ->
  forall u x x',
    (forall m i, (m < ndd)%nat -> (i < D)%nat -> 0 < vnth (rnth x m) i) ->
    (forall m i, (m < ndd)%nat -> (i < D)%nat -> 0 < vnth (rnth x' m) i) ->
    energy_hs ln jitter g d (set_phi1 s x) (set_a_phi1 u a) - energy_hs ln jitter g d (set_phi1 s x') (set_a_phi1 u a)
    = sumn ndd (fun m => sumn D (fun i => gform ln sh (vnth (rnth rates m) i) (vnth (rnth x m) i) (vnth (rnth x' m) i))).
Proof.
  intros Hp Hk He u x x' Hx Hx'. rewrite energy_hs_diff1 by (unfold off1, offa1; split_all).
  cbn [set_phi1 set_a_phi1 a_phi1 a_eta1 V1 phi1 eta1].
  exact (hsK_phi _ _ _ _ d1 k1 a sh rates k2 Hp Hk He _ x x' Hx Hx').
Qed.

Theorem hs_etaaux1 j s d1 k1 v1 d2 k2 v2 sh rates k3 :
  length (eta1 s) = D ->
  prog_prec_V1 g d orc s = Draw d1 k1 -> k1 v1 = Draw d2 k2 -> k2 v2 = Draw (DGammaVec sh rates) k3 ->
  forall s1 u t t', eta1 s1 = eta1 s ->
    energy_hs ln j g d s1 (set_a_eta1 u t) - energy_hs ln j g d s1 (set_a_eta1 u t')
    = sumn D (fun i => gform ln sh (vnth rates i) (vnth t i) (vnth t' i)).
Proof.
  intros Hl Hp Hk1 Hk2 s1 u t t' He. rewrite energy_hs_diff1 by (unfold off1, offa1; split_all).
  cbn [set_a_eta1 a_phi1 a_eta1]. rewrite He.
  exact (hsK_etaaux _ _ _ _ d1 k1 v1 d2 k2 v2 sh rates k3 Hl Hp Hk1 Hk2 j _ _ _ t t').
Qed.

Theorem hs_eta1 s d1 k1 v1 d2 k2 v2 d3 k3 b sh rates k4 v4 sfin :
  prog_prec_V1 g d orc s = Draw d1 k1 -> k1 v1 = Draw d2 k2 -> k2 v2 = Draw d3 k3 ->
  k3 (VV b) = Draw (DGammaVec sh rates) k4 -> k4 v4 = Ret sfin ->
  (forall m i, (m < ndd)%nat -> (i < D)%nat -> 0 < vnth (rnth (phi1 sfin) m) i) ->
  forall u t t', (forall i, (i < D)%nat -> 0 < vnth t i) -> (forall i, (i < D)%nat -> 0 < vnth t' i) ->
    energy_hs ln jitter g d (set_eta1 sfin t) (set_a_eta1 u b) - energy_hs ln jitter g d (set_eta1 sfin t') (set_a_eta1 u b)
    = sumn D (fun i => gform ln sh (vnth rates i) (vnth t i) (vnth t' i)).
Proof.
  intros Hp Hk1 Hk2 Hk3 Hk4 Hpos u t t' Ht Ht'.
  destruct (hsK_eta _ _ _ _ d1 k1 v1 d2 k2 v2 d3 k3 b sh rates k4 v4 sfin Hp Hk1 Hk2 Hk3 Hk4) as (ph & et & -> & H).
  rewrite energy_hs_diff1 by (unfold off1, offa1; split_all).
  cbn [set_eta1 set_phi1 set_a_eta1 a_phi1 a_eta1 V1 phi1 eta1] in Hpos |- *.
  exact (H Hpos _ t t' Ht Ht').
Qed.

Theorem hs_stored1 s d1 k1 v1 d2 k2 x d3 k3 v3 d4 k4 y sfin :
  prog_prec_V1 g d orc s = Draw d1 k1 -> k1 v1 = Draw d2 k2 -> k2 (VM x) = Draw d3 k3 ->
  k3 v3 = Draw d4 k4 -> k4 (VV y) = Ret sfin ->
  (forall i, (i < D)%nat -> vnth (eta1 sfin) i = clipC orc (nobs d) (vnth y i)) /\
  (forall m i, (m < ndd)%nat -> (i < D)%nat -> vnth (rnth (phi1 sfin) m) i = clipC orc (n_occ d m) (vnth (rnth x m) i)) /\
  off1 sfin s.
Proof.
  intros Hp Hk1 Hk2 Hk3 Hk4.
  rewrite (hsK_stored _ _ _ _ d1 k1 v1 d2 k2 x d3 k3 v3 d4 k4 y sfin Hp Hk1 Hk2 Hk3 Hk4).
  cbn [set_eta1 set_phi1 eta1 phi1]. split; [|split].
  - intros i Hi. now rewrite vnth_tab by exact Hi.
  - intros m i Hm Hi. rewrite rnth_tab by exact Hm. now rewrite vnth_tab by exact Hi.
  - unfold off1. split_all.
Qed.

Theorem hs_shape0 s :
  exists r1 k1, prog_prec_V0 g d orc s = Draw (DGammaVec 1 r1) k1 /\ forall v1,
  exists r2 k2, k1 v1 = Draw (DGammaVec 1 r2) k2 /\ forall v2,
  exists r3 k3, k2 v2 = Draw (DGamma 1 r3) k3 /\ forall v3,
  exists r4 k4, k3 v3 = Draw (DGamma (half * (1 + qnat ndd)) r4) k4 /\ forall v4,
  exists sfin, k4 v4 = Ret sfin.
Proof.
  unfold prog_prec_V0. do 2 eexists. split; [reflexivity|]. intros v1. do 2 eexists. split; [reflexivity|]. intros v2.
  do 2 eexists. split; [reflexivity|]. intros v3. do 2 eexists. split; [reflexivity|]. intros v4. eexists. reflexivity.
Qed.

Lemma hs_shapeK V phi eta fin :
  exists r1 k1, prog_prec_Vk g d orc V phi eta fin = Draw (DGammaMat 1 r1) k1 /\ forall v1,
  exists r2 k2, k1 v1 = Draw (DGammaMat 1 r2) k2 /\ forall v2,
  exists r3 k3, k2 v2 = Draw (DGammaVec 1 r3) k3 /\ forall v3,
  exists r4 k4, k3 v3 = Draw (DGammaVec (half * (1 + qnat ndd)) r4) k4 /\ forall v4,
  exists sfin, k4 v4 = Ret sfin.
Proof.
  unfold prog_prec_Vk. do 2 eexists. split; [reflexivity|]. intros v1. do 2 eexists. split; [reflexivity|]. intros v2.
  do 2 eexists. split; [reflexivity|]. intros v3. do 2 eexists. split; [reflexivity|]. intros v4. eexists. reflexivity.
Qed.

Theorem hs_shape2 s :
  exists r1 k1, prog_prec_V2 g d orc s = Draw (DGammaMat 1 r1) k1 /\ forall v1,
  exists r2 k2, k1 v1 = Draw (DGammaMat 1 r2) k2 /\ forall v2,
  exists r3 k3, k2 v2 = Draw (DGammaVec 1 r3) k3 /\ forall v3,
  exists r4 k4, k3 v3 = Draw (DGammaVec (half * (1 + qnat ndd)) r4) k4 /\ forall v4,
  exists sfin, k4 v4 = Ret sfin.
Proof. apply hs_shapeK. Qed.

Theorem hs_shape1 s :
  exists r1 k1, prog_prec_V1 g d orc s = Draw (DGammaMat 1 r1) k1 /\ forall v1,
  exists r2 k2, k1 v1 = Draw (DGammaMat 1 r2) k2 /\ forall v2,
  exists r3 k3, k2 v2 = Draw (DGammaVec 1 r3) k3 /\ forall v3,
  exists r4 k4, k3 v3 = Draw (DGammaVec (half * (1 + qnat ndd)) r4) k4 /\ forall v4,
  exists sfin, k4 v4 = Ret sfin.
Proof. apply hs_shapeK. Qed.

(* a clipped precision is positive as soon as the clipping bound is *)
Lemma in_bounds_pos lo x : 0 < lo -> in_bounds lo x -> 0 < x.
Proof. intros Hl [H _]. eapply Qclt_le_trans; eassumption. Qed.
End HS.

(* for the examples *)
Lemma below2 (P : nat -> Prop) : P 0%nat -> P 1%nat -> forall m, (m < 2)%nat -> P m.
Proof. intros H0 H1 [|[|m]] Hm; [exact H0|exact H1|lia]. Qed.
