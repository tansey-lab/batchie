(* C19 — the completion marker published before advanced_screen.h5 (retrospective mode; asynchronous publishing): witness. *)
From Coq Require Import ZArith List.
From Batchie Require Import Model.Orchestrate Proofs.C19Base Proofs.C19Main.
Import ListNotations.
Open Scope Z_scope.

Definition meta_before_advanced : list kind := [KTraining; KTest; KThetas; KDist; KSelected; KMeta; KAdvanced].
(* the run of step (0,0) is interrupted after six of its seven files: everything but advanced_screen.h5 *)
Definition witness_marker_before_advanced : list entry := [mke 10 meta_before_advanced; full; full].

Theorem resume_refuted_marker_before_advanced :
  exists sched,
    Forall (fun e => covers (e_order e) = true) sched /\
    let r := script_run Retro true 1 3 [] sched in
    (* step (1,0) is started from the TRAINING screen of (0,0) - the screen before plate 0 was revealed - ... *)
    nth 1 (snd r) GDone = GLaunch (1, 0) (LFirst (SFile (0, 0) KTraining) (SFile (0, 0) KTraining))
                                   [KThetas; KDist; KSelected; KAdvanced; KMeta] true /\
    ideal_launch Retro 1 1 = LFirst (SFile (0, 0) KAdvanced) (SFile (0, 0) KTraining) /\
    (* ... and records the selection of plate 0 a second time *)
    (exists d0 d1, get_plate (fst r) (0, 0) = Some d0 /\ get_plate (fst r) (1, 0) = Some d1 /\
                   f_selected d0 = Some 0 /\ f_selected d1 = Some 0 /\ f_advanced d0 = None) /\
    completed (fst r) <> ideal Retro 1 3 (length (completed (fst r))).
Proof.
  exists witness_marker_before_advanced. split; [repeat constructor|].
  cbn zeta. split; [vm_compute; reflexivity|]. split; [reflexivity|]. split.
  - eexists. eexists. vm_compute. repeat split; reflexivity.
  - vm_compute. discriminate.
Qed.

(* with batch size 2 the marker-before-advanced directory is a plate > 0: the next call finds no screen at all and raises a
   TypeError that names nothing (after creating the next job directory, which the call after it names, the operator removes,
   and so on): however often the script is rerun, no further step is ever completed *)
Definition stuck_sched : list entry := [full; mke 6 meta_before_advanced; full].
Definition stuck_a : fs := fst (script_run Retro true 2 4 [] stuck_sched).
Definition stuck_b : fs := fst (attempt Retro true 2 4 stuck_a full).

Lemma stuck_cycle : forall m f, f = stuck_a \/ f = stuck_b ->
  let f' := fst (script_run Retro true 2 4 f (repeat full m)) in f' = stuck_a \/ f' = stuck_b.
Proof.
  induction m as [|m IH]; intros f Hf; [exact Hf|].
  cbn [repeat script_run].
  assert (Hstep : fst (attempt Retro true 2 4 f full) = stuck_a \/ fst (attempt Retro true 2 4 f full) = stuck_b).
  { (* stuck_b is unfolded by hand: left to itself the conversion test evaluates both sides *)
    destruct Hf as [-> | ->]; [right; unfold stuck_b; reflexivity|left; vm_compute; reflexivity]. }
  destruct (attempt Retro true 2 4 f full) as [f1 g]. cbn [fst] in Hstep.
  specialize (IH f1 Hstep). cbn zeta in IH.
  destruct (script_run Retro true 2 4 f1 (repeat full m)) as [f2 gs]. exact IH.
Qed.

Theorem marker_before_advanced_strands :
  Forall (fun e => covers (e_order e) = true) stuck_sched /\
  nth 2 (snd (script_run Retro true 2 4 [] stuck_sched)) GDone = GFail 9 /\
  forall m, map fst (completed (fst (script_run Retro true 2 4 [] (stuck_sched ++ repeat full m)))) = [(0, 0); (0, 1)].
Proof.
  split; [repeat constructor|]. split; [vm_compute; reflexivity|].
  intros m. rewrite script_run_app. cbn zeta. cbn [fst].
  pose proof (stuck_cycle m stuck_a (or_introl eq_refl)) as Hc. cbn zeta in Hc. unfold stuck_a at 1 3 in Hc.
  destruct Hc as [E|E]; rewrite E; vm_compute; reflexivity.
Qed.
