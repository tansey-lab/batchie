(* C14, one piece of Proofs/C14Source.v (conventions and objects: see there): ScreenBase.size on a Screen object *)
From Coq Require Import ZArith.
From Batchie Require Import Lib.Sexp Model.Views Generated.SrcViews.
Open Scope Z_scope.

Theorem src_screen_size_is_model : forall s : pyscreen, src_screen_size s = Ok (Z.of_nat (screen_size (snd s))).
Proof. reflexivity. Qed.
