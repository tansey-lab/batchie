(* C13: SampleSegregating generator, repaired logic: one sample per generated plate, at most max
   experiments per plate.  (The code as found is refuted in Props/C13.v.) *)
From Coq Require Import ZArith List Lia Permutation.
From Batchie Require Import Lib.Sexp Proofs.PyRtLemmas Lib.ListX Model.Encode Model.Screen Model.Retro Model.Pairwise Proofs.C11Lib Proofs.C11Select Proofs.C11Holdout Proofs.C13Wrap.
Import ListNotations.
Open Scope nat_scope.

Definition dval (l : list Z) : Z := fold_left (fun a d => (10 * a + (d - 48))%Z) l 0%Z.

Lemma dval_snoc : forall l d, dval (l ++ [d]) = (10 * dval l + (d - 48))%Z.
Proof. intros. unfold dval. now rewrite fold_left_app. Qed.

Lemma dec_fuel_spec : forall f n acc, n < f ->
  exists digs, dec_fuel f n acc = digs ++ acc /\ dval digs = Z.of_nat n.
Proof.
  induction f as [|f IH]; intros n acc Hn; [lia|]. cbn [dec_fuel].
  pose proof (Nat.div_mod n 10 ltac:(lia)) as Hdm.
  pose proof (Nat.mod_upper_bound n 10 ltac:(lia)) as Hm.
  destruct (n / 10 =? 0) eqn:E.
  - apply Nat.eqb_eq in E. exists [(48 + Z.of_nat (n mod 10))%Z]. split; [reflexivity|].
    unfold dval. cbn [fold_left]. lia.
  - apply Nat.eqb_neq in E.
    destruct (IH (n / 10) ((48 + Z.of_nat (n mod 10))%Z :: acc)) as (digs & Hd & Hv); [lia|].
    exists (digs ++ [(48 + Z.of_nat (n mod 10))%Z]). split.
    + rewrite Hd, <- app_assoc. reflexivity.
    + rewrite dval_snoc, Hv. lia.
Qed.

Lemma decimal_inj : forall a b, decimal a = decimal b -> a = b.
Proof.
  intros a b H. unfold decimal in H.
  destruct (dec_fuel_spec (S a) a [] ltac:(lia)) as (da & Ha & Va).
  destruct (dec_fuel_spec (S b) b [] ltac:(lia)) as (db & Hb & Vb).
  rewrite Ha, Hb, !app_nil_r in H. subst db. lia.
Qed.

Lemma gen_name_inj : forall a b, gen_name a = gen_name b -> a = b.
Proof. intros a b H. unfold gen_name in H. apply app_inv_head in H. now apply decimal_inj. Qed.
Lemma gen_name_not_nil : forall a, gen_name a <> [].
Proof. intros a. unfold gen_name, gen_prefix. discriminate. Qed.

Lemma split_start_mono : forall q r k, split_start q r k <= split_start q r (S k).
Proof. intros. unfold split_start. lia. Qed.

Lemma array_split_concat {A} : forall (l : list A) n, 0 < n -> concat (array_split l n) = l.
Proof.
  intros l n Hn. unfold array_split.
  rewrite (concat_slices l (split_start (length l / n) (length l mod n)) (split_start_mono _ _) n 0).
  pose proof (Nat.div_mod (length l) n ltac:(lia)) as Hdm.
  pose proof (Nat.mod_upper_bound (length l) n ltac:(lia)) as Hm.
  unfold split_start. cbn [Nat.add Nat.mul Nat.min skipn]. rewrite Nat.sub_0_r.
  apply firstn_all2. rewrite Nat.min_r by lia. lia.
Qed.

Lemma array_split_chunk {A} : forall (l : list A) n c, 0 < n -> In c (array_split l n) ->
  incl c l /\
  length l / n <= length c <= length l / n + (if length l mod n =? 0 then 0 else 1).
Proof.
  intros l n c Hn Hc. unfold array_split in Hc. apply in_map_iff in Hc as (j & <- & Hj). split.
  - intros x Hx. eapply In_skipn, In_firstn, Hx.
  - apply in_seq in Hj. pose proof (Nat.div_mod (length l) n ltac:(lia)) as Hdm.
    pose proof (Nat.mod_upper_bound (length l) n ltac:(lia)) as Hm.
    assert (Hq : S j * (length l / n) <= n * (length l / n)) by (apply Nat.mul_le_mono_r; lia).
    rewrite firstn_length, skipn_length. unfold split_start.
    destruct (length l mod n =? 0) eqn:E; [apply Nat.eqb_eq in E|]; lia.
Qed.

Lemma array_split_bound : forall L M, 0 < M ->
  let n := Z.to_nat (cdiv (Z.of_nat L) (Z.of_nat M)) in
  0 < L -> 0 < n /\ L / n + (if L mod n =? 0 then 0 else 1) <= M.
Proof.
  intros L M HM n HL. unfold cdiv in n.
  assert (Hn : n = (L + M - 1) / M).
  { subst n. replace (Z.of_nat L + Z.of_nat M - 1)%Z with (Z.of_nat (L + M - 1)) by lia.
    rewrite <- Nat2Z.inj_div. apply Nat2Z.id. }
  pose proof (Nat.div_mod (L + M - 1) M ltac:(lia)) as H1.
  pose proof (Nat.mod_upper_bound (L + M - 1) M ltac:(lia)) as H2.
  rewrite <- Hn in H1.
  assert (Hn0 : 0 < n) by nia.
  split; [exact Hn0|].
  pose proof (Nat.div_mod L n ltac:(lia)) as H3.
  pose proof (Nat.mod_upper_bound L n ltac:(lia)) as H4.
  assert (HnM : L <= n * M) by nia.
  destruct (L mod n =? 0) eqn:E.
  - apply Nat.eqb_eq in E. nia.
  - apply Nat.eqb_neq in E. nia.
Qed.

Lemma NoDup_concat_chunk {A} : forall (ls : list (list A)) c, NoDup (concat ls) -> In c ls -> NoDup c.
Proof.
  induction ls as [|l ls IH]; intros c H Hc; [contradiction|]. cbn [concat] in H.
  destruct (NoDup_app_inv _ _ H) as (H1 & H2 & _). destruct Hc as [<-|Hc]; [exact H1|now apply IH].
Qed.

Lemma label_of_gen : forall i pis k acc,
  let res := fold_left (fun acc kp => if memb i (snd kp) then gen_name (fst kp) else acc) (enum_from k pis) acc in
  (res = acc /\ forall c, In c pis -> memb i c = false) \/
  (exists j c, nth_error pis j = Some c /\ memb i c = true /\ res = gen_name (k + j)).
Proof.
  intros i pis. induction pis as [|c0 pis IH]; intros k acc; cbn [enum_from fold_left fst snd].
  - left. split; [reflexivity|intros c []].
  - destruct (IH (S k) (if memb i c0 then gen_name k else acc)) as [[Hr Hn]|(j & c & Hj & Hm & Hr)].
    + destruct (memb i c0) eqn:E.
      * right. exists 0, c0. cbn. rewrite Nat.add_0_r. auto.
      * left. split; [exact Hr|]. intros c [<-|Hc]; auto.
    + right. exists (S j), c. cbn [nth_error]. replace (k + S j) with (S k + j) by lia. auto.
Qed.

Lemma label_of_spec : forall pis i,
  (label_of pis i = [] /\ forall c, In c pis -> ~ In i c) \/
  (exists j c, nth_error pis j = Some c /\ In i c /\ label_of pis i = gen_name j).
Proof.
  intros pis i. unfold label_of. destruct (label_of_gen i pis 0 []) as [[Hr Hn]|(j & c & Hj & Hm & Hr)].
  - left. split; [exact Hr|]. intros c Hc Hi. apply memb_In in Hi. rewrite (Hn c Hc) in Hi. discriminate.
  - right. exists j, c. apply memb_In in Hm. auto.
Qed.

(* the numpy contract of rng.permutation, answer by answer *)
Definition sample_count (s : name) (rows : list row) : Z := Z.of_nat (length (idx_where (in_sample s) rows)).

Fixpoint ss_contract (mx : Z) (rows : list row) (samples : list name) (ds : list draw) : Prop :=
  match samples with
  | [] => True
  | s :: rest =>
      if (sample_count s rows >? mx)%Z then
        match ds with
        | DInts perm :: ds1 => Permutation perm (idx_where (in_sample s) rows) /\ ss_contract mx rows rest ds1
        | _ => False
        end
      else ss_contract mx rows rest ds
  end.

(* the smaller of the (at most two) sizes of the plates of sample s *)
Definition ss_q (mx : Z) (rows : list row) (s : name) : nat :=
  let L := length (idx_where (in_sample s) rows) in
  if (Z.of_nat L >? mx)%Z then L / Z.to_nat (cdiv (Z.of_nat L) mx) else L.

(* c is one of the plates of sample s: row numbers of s, at most max of them, and as many as every other plate of s
   up to one *)
Definition chunk_of (mx : Z) (rows : list row) (s : name) (c : list nat) : Prop :=
  incl c (idx_where (in_sample s) rows) /\ (Z.of_nat (length c) <= mx)%Z /\
  ss_q mx rows s <= length c <= ss_q mx rows s + 1.

(* the plates partition the row numbers of the samples, sample by sample *)
Lemma ss_plates_chunks : forall mx rows samples ds pis ds',
  ss_plates true mx rows samples ds = Ok (pis, ds') ->
  ss_contract mx rows samples ds -> NoDup samples ->
  NoDup (concat pis) /\
  (forall c, In c pis -> exists s, In s samples /\ chunk_of mx rows s c) /\
  (forall s i, In s samples -> In i (idx_where (in_sample s) rows) -> In i (concat pis)).
Proof.
  intros mx rows samples. induction samples as [|s samples IH]; intros ds pis ds' H HC Hnd; cbn [ss_plates] in H.
  - inversion H; subst. split; [constructor|]. split; [intros c []|intros s i []].
  - cbn [ss_contract] in HC. unfold sample_count in HC. inversion Hnd as [|? ? Hns Hnd']; subst.
    pose proof (eq_refl : ss_q mx rows s = _) as Hq. unfold ss_q at 2 in Hq. cbv zeta in Hq.
    set (idx := idx_where (in_sample s) rows) in *.
    (* both branches put plates [new] that partition idx in front of the plates of the other samples *)
    assert (Hstep : forall new ps ds1, ss_plates true mx rows samples ds1 = Ok (ps, ds') ->
              ss_contract mx rows samples ds1 -> Permutation (concat new) idx ->
              (forall c, In c new -> chunk_of mx rows s c) ->
              NoDup (concat (new ++ ps)) /\
              (forall c, In c (new ++ ps) -> exists s', In s' (s :: samples) /\ chunk_of mx rows s' c) /\
              (forall s' i, In s' (s :: samples) -> In i (idx_where (in_sample s') rows) -> In i (concat (new ++ ps)))).
    { intros new ps ds1 Er HC1 HP Hnew. destruct (IH _ _ _ Er HC1 Hnd') as (I1 & I2 & I3).
      rewrite concat_app. split; [|split].
      - apply NoDup_app_intro; [eapply Permutation_NoDup; [symmetry; exact HP|apply NoDup_idx_where]|exact I1|].
        intros x Hx Hps. apply (Permutation_in _ HP), In_idx_where in Hx as (r & Hr & Hsr).
        apply in_concat in Hps as (c & Hc & Hxc). destruct (I2 c Hc) as (s' & Hs' & Hin & _).
        apply Hin in Hxc. apply In_idx_where in Hxc as (r' & Hr' & Hsr'). apply in_sample_true in Hsr, Hsr'.
        apply Hns. replace s with s' by congruence. exact Hs'.
      - intros c Hc. apply in_app_or in Hc as [Hc|Hc]; [exists s; split; [now left|now apply Hnew]|].
        destruct (I2 c Hc) as (s' & Hs' & Hch). exists s'. split; [now right|exact Hch].
      - intros s' i [<-|Hs'] Hi; apply in_or_app; [left|right; now apply (I3 s')].
        eapply Permutation_in; [symmetry; exact HP|exact Hi]. }
    destruct (Z.of_nat (length idx) >? mx)%Z eqn:Eb.
    + destruct (mx <=? 0)%Z eqn:Em; [discriminate|]. apply Z.leb_gt in Em.
      destruct ds as [|[perm|l] ds1]; try contradiction. destruct HC as [HP HC].
      cbn [take_ints res_bind] in H.
      apply res_bind_inv in H as ([ps ds2] & Er & H); cbn beta iota in H.
      inversion H; subst pis ds2. clear H.
      destruct (array_split_bound (length idx) (Z.to_nat mx) ltac:(lia) ltac:(lia)) as [Hn0 Hb].
      rewrite Z2Nat.id in Hn0, Hb by lia.
      set (n := Z.to_nat (cdiv (Z.of_nat (length idx)) mx)) in *.
      apply (Hstep _ _ _ Er HC); [now rewrite array_split_concat|].
      intros c Hc. destruct (array_split_chunk perm n c Hn0 Hc) as [Hsub Hl].
      rewrite (Permutation_length HP) in Hl. split; [|split; [|rewrite Hq]]; [|destruct (length idx mod n =? 0); lia..].
      intros i Hi. eapply Permutation_in; [exact HP|]. now apply Hsub.
    + apply res_bind_inv in H as ([ps ds2] & Er & H); cbn beta iota in H.
      inversion H; subst pis ds2. clear H.
      apply (Hstep [idx] _ _ Er HC); [cbn [concat]; now rewrite app_nil_r|].
      intros c [<-|[]]. split; [apply incl_refl|lia].
Qed.

(* with disjoint chunks a row number gets the name of the chunk that contains it *)
Lemma label_of_chunk : forall pis j c i,
  NoDup (concat pis) -> nth_error pis j = Some c -> In i c -> label_of pis i = gen_name j.
Proof.
  intros pis j c i Hnd Hj Hi. destruct (label_of_spec pis i) as [[_ Hno]|(j' & c' & Hj' & Hi' & ->)].
  - exfalso. exact (Hno c (nth_error_In _ _ Hj) Hi).
  - f_equal. destruct (Nat.eq_dec j' j) as [E|E]; [exact E|exfalso].
    apply (NoDup_concat_disjoint pis j' j i Hnd E); erewrite nth_error_nth by eassumption; assumption.
Qed.

(* rows relabelled by their position: membership, and the size of the plate p when c lists the positions labelled p *)
Lemma In_relabelled : forall (L : nat -> name) u r',
  In r' (map (fun ir => set_plate (L (fst ir)) (snd ir)) (enum_from 0 u)) <->
  exists i r, nth_error u i = Some r /\ r' = set_plate (L i) r.
Proof.
  intros L u r'. rewrite in_map_iff. split.
  - intros ([i r] & <- & Hin). apply In_enum_from in Hin as [_ Hn]. rewrite Nat.sub_0_r in Hn. exists i, r. auto.
  - intros (i & r & Hn & ->). exists (i, r). split; [reflexivity|]. apply In_enum_from. rewrite Nat.sub_0_r. split; [lia|exact Hn].
Qed.

Lemma relabelled_plate_count : forall (L : nat -> name) u p c,
  NoDup c -> (forall i, In i c <-> i < length u /\ L i = p) ->
  length (filter (in_plate p) (map (fun ir => set_plate (L (fst ir)) (snd ir)) (enum_from 0 u))) = length c.
Proof.
  intros L u p c Hnd Hc. rewrite filter_length_map, <- (map_length fst).
  apply Permutation_length, NoDup_Permutation; [apply NoDup_map_fst_filter, NoDup_enum_fst|exact Hnd|].
  intros i. rewrite Hc, in_map_iff. split.
  - intros ([i' r] & <- & Hin). apply filter_In in Hin as [Hin Hf]. apply in_plate_true in Hf.
    apply In_enum_from in Hin as [_ Hn]. rewrite Nat.sub_0_r in Hn. cbn [fst].
    split; [apply nth_error_Some; congruence|exact Hf].
  - intros [Hi Hp]. destruct (nth_error u i) as [r|] eqn:Hn; [|apply nth_error_None in Hn; lia].
    exists (i, r). split; [reflexivity|]. apply filter_In. split; [|now apply in_plate_true].
    apply In_enum_from. rewrite Nat.sub_0_r. split; [lia|exact Hn].
Qed.

(* every row of the output sits on a plate that holds exactly the rows of one chunk of the row's sample *)
Lemma sample_seg_plates : forall mx u ds nu ds',
  sample_seg true mx u ds = Ok (nu, ds') ->
  ss_contract mx u (sample_names u) ds ->
  forall r, In r nu ->
    exists c, chunk_of mx u (r_sample r) c /\ length (filter (in_plate (r_plate r)) nu) = length c /\
              forall r', In r' nu -> r_plate r' = r_plate r -> r_sample r' = r_sample r.
Proof.
  intros mx u ds nu ds' H HC. unfold sample_seg in H.
  apply res_bind_inv in H as ([pis ds1] & Es & H); cbn beta iota in H.
  match type of H with (dor c <- construct ?x; _) = _ => destruct (construct x) as [c|t] eqn:Ec end;
    cbn [res_bind] in H; [|discriminate].
  apply construct_ok in Ec. inversion H; subst c nu ds1. clear H.
  destruct (ss_plates_chunks _ _ _ _ _ _ Es HC (NoDup_sort_uniq _)) as (Hnd & Hchunk & Hcover).
  (* every row number lies in a chunk of its row's sample *)
  assert (Hin : forall i r, nth_error u i = Some r ->
            exists j c, nth_error pis j = Some c /\ In i c /\ chunk_of mx u (r_sample r) c).
  { intros i r Hn.
    assert (Hi : In i (concat pis)).
    { apply (Hcover (r_sample r)); [apply In_sample_names; exists r; split; [eapply nth_error_In; exact Hn|reflexivity]|].
      apply In_idx_where. exists r. split; [exact Hn|now apply in_sample_true]. }
    apply in_concat in Hi as (c & Hc & Hic). destruct (In_nth_error _ _ Hc) as [j Hj]. exists j, c.
    split; [exact Hj|]. split; [exact Hic|].
    destruct (Hchunk c Hc) as (s & _ & Hch). replace (r_sample r) with s; [exact Hch|].
    apply (proj1 Hch), In_idx_where in Hic as (r0 & Hr0 & Hs0). apply in_sample_true in Hs0. congruence. }
  intros r0 Hr0. apply In_relabelled in Hr0 as (i & r & Hn & ->). destruct (Hin _ _ Hn) as (j & c & Hj & Hi & Hch).
  cbn [set_plate r_plate r_sample]. rewrite (label_of_chunk _ _ _ _ Hnd Hj Hi).
  (* the rows called gen_name j are those of chunk j *)
  assert (Hc : forall i', In i' c <-> i' < length u /\ label_of pis i' = gen_name j).
  { intros i'. split.
    - intros Hi'. split; [|exact (label_of_chunk _ _ _ _ Hnd Hj Hi')].
      apply (proj1 Hch), In_idx_where in Hi' as (r' & Hr' & _). apply nth_error_Some. congruence.
    - intros [Hlt Hl]. destruct (nth_error u i') as [r'|] eqn:Hn'; [|apply nth_error_None in Hn'; lia].
      destruct (Hin _ _ Hn') as (j' & c' & Hj' & Hi' & _). rewrite (label_of_chunk _ _ _ _ Hnd Hj' Hi') in Hl.
      apply gen_name_inj in Hl. subst j'. congruence. }
  exists c. split; [exact Hch|]. split.
  - apply relabelled_plate_count; [apply (NoDup_concat_chunk pis); [exact Hnd|eapply nth_error_In; exact Hj]|exact Hc].
  - intros r1 Hr1 Hp. apply In_relabelled in Hr1 as (i1 & q1 & Hn1 & ->). cbn [set_plate r_plate r_sample] in *.
    assert (Hi1 : In i1 c) by (apply Hc; split; [apply nth_error_Some; congruence|exact Hp]).
    apply (proj1 Hch), In_idx_where in Hi1 as (q & Hq & Hs). apply in_sample_true in Hs. congruence.
Qed.

Theorem sample_segregating_plates : forall mx rows ds out ds',
  generate_plates (GSampleSeg true mx) rows ds = Ok (out, ds') ->
  ss_contract mx (unobserved rows) (sample_names (unobserved rows)) ds ->
  forall r, In r (unobserved out) ->
    exists c, chunk_of mx (unobserved rows) (r_sample r) c /\
              length (filter (in_plate (r_plate r)) (unobserved out)) = length c /\
              forall r', In r' (unobserved out) -> r_plate r' = r_plate r -> r_sample r' = r_sample r.
Proof.
  intros mx rows ds out ds' H HC. apply generate_wrap_unobs in H as [[_ E]|H].
  - rewrite E. intros r [].
  - cbn [generate_inner] in H. eapply sample_seg_plates; eassumption.
Qed.

Theorem sample_segregating_shape : forall mx rows ds out ds',
  generate_plates (GSampleSeg true mx) rows ds = Ok (out, ds') ->
  ss_contract mx (unobserved rows) (sample_names (unobserved rows)) ds ->
  (forall r1 r2, In r1 (unobserved out) -> In r2 (unobserved out) ->
     r_plate r1 = r_plate r2 -> r_sample r1 = r_sample r2) /\
  (forall p, In p (plate_names_of (unobserved out)) ->
     (Z.of_nat (length (filter (in_plate p) (unobserved out))) <= mx)%Z).
Proof.
  intros mx rows ds out ds' H HC. pose proof (sample_segregating_plates _ _ _ _ _ H HC) as Hpl. split.
  - intros r1 r2 H1 H2 Hp. destruct (Hpl r2 H2) as (_ & _ & _ & Hsame). now apply Hsame.
  - intros p Hp. apply In_plate_names_of in Hp as (r & Hr & <-).
    destruct (Hpl r Hr) as (c & (_ & Hmx & _) & -> & _). exact Hmx.
Qed.
