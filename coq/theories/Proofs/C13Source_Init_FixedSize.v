(* C13: FixedSizeSmoother.__init__ (Generated/SrcInits.v) stores what it is constructed with - plate_size *)
From Coq Require Import ZArith.
From Batchie Require Import Lib.Sexp Generated.SrcInits.
Open Scope Z_scope.

Theorem src_fixed_size_init_stores : forall plate_size : Z, src_fixed_size_init plate_size = Ok plate_size.
Proof. reflexivity. Qed.
