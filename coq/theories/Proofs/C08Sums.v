(* C08: finite sums, tabulated vectors, set_nth, scatter, and the generic
   quadratic-form lemma behind every Gaussian block. *)
From Coq Require Import List QArith Qcanon Lia.
From Batchie Require Import Lib.ListX Lib.Num Lib.NumP Model.Gibbs.
Import ListNotations.
Open Scope Qc_scope.

Lemma qsum_single x : qsum [x] = x.
Proof. unfold qsum; cbn [fold_right]. ring. Qed.

Lemma sumn_0 f : sumn 0 f = 0.
Proof. reflexivity. Qed.

Lemma sumn_S n f : sumn (S n) f = sumn n f + f n.
Proof.
  unfold sumn. rewrite seq_S, map_app, qsum_app. cbn [map Nat.add]. now rewrite qsum_single.
Qed.

Lemma sumn_ext n f h : (forall i, (i < n)%nat -> f i = h i) -> sumn n f = sumn n h.
Proof.
  induction n as [|n IH]; intros H; [reflexivity|].
  rewrite !sumn_S, IH, H by (intros; try apply H; lia). reflexivity.
Qed.

Lemma sumn_add n f h : sumn n (fun i => f i + h i) = sumn n f + sumn n h.
Proof. induction n as [|n IH]; [rewrite !sumn_0; ring|rewrite !sumn_S, IH; ring]. Qed.

Lemma sumn_sub n f h : sumn n (fun i => f i - h i) = sumn n f - sumn n h.
Proof. induction n as [|n IH]; [rewrite !sumn_0; ring|rewrite !sumn_S, IH; ring]. Qed.

Lemma sumn_scale n c f : sumn n (fun i => c * f i) = c * sumn n f.
Proof. induction n as [|n IH]; [rewrite !sumn_0; ring|rewrite !sumn_S, IH; ring]. Qed.

Lemma sumn_zero n : sumn n (fun _ => 0) = 0.
Proof. induction n as [|n IH]; [reflexivity|rewrite sumn_S, IH; ring]. Qed.

Lemma sumn_zero' n f : (forall i, (i < n)%nat -> f i = 0) -> sumn n f = 0.
Proof. intros H. rewrite (sumn_ext n f (fun _ => 0)) by exact H. apply sumn_zero. Qed.

Lemma sumn_swap n m (f : nat -> nat -> Qc) :
  sumn n (fun i => sumn m (fun j => f i j)) = sumn m (fun j => sumn n (fun i => f i j)).
Proof.
  induction n as [|n IH].
  - rewrite sumn_0. symmetry. apply sumn_zero'. intros; apply sumn_0.
  - rewrite sumn_S, IH, <- sumn_add. apply sumn_ext. intros j _. now rewrite sumn_S.
Qed.

Lemma sumn_single n j f : (j < n)%nat -> sumn n (fun k => if Nat.eqb j k then f k else 0) = f j.
Proof.
  induction n as [|n IH]; intros Hj; [lia|].
  rewrite sumn_S. destruct (Nat.eqb j n) eqn:E.
  - apply Nat.eqb_eq in E; subst j. rewrite sumn_zero'; [ring|].
    intros i Hi. destruct (Nat.eqb n i) eqn:E'; [apply Nat.eqb_eq in E'; lia|reflexivity].
  - apply Nat.eqb_neq in E. rewrite IH by lia. ring.
Qed.

Lemma sumn_update n j f a :
  (j < n)%nat -> sumn n (fun k => if Nat.eqb k j then a else f k) = sumn n f - f j + a.
Proof.
  intros Hj.
  rewrite (sumn_ext n _ (fun k => f k + (if Nat.eqb j k then a - f k else 0))).
  - rewrite sumn_add, (sumn_single n j (fun k => a - f k)) by exact Hj. ring.
  - intros k _. rewrite (Nat.eqb_sym k j). destruct (Nat.eqb j k) eqn:E; [apply Nat.eqb_eq in E; subst|]; ring.
Qed.

Lemma qsum_map_add {A} (f h : A -> Qc) l : qsum (map (fun x => f x + h x) l) = qsum (map f l) + qsum (map h l).
Proof. induction l as [|x l IH]; cbn [map]; [rewrite !qsum_nil; ring|rewrite !qsum_cons, IH; ring]. Qed.

Lemma qsum_map_scale {A} c (f : A -> Qc) l : qsum (map (fun x => c * f x) l) = c * qsum (map f l).
Proof. induction l as [|x l IH]; cbn [map]; [rewrite !qsum_nil; ring|rewrite !qsum_cons, IH; ring]. Qed.

Lemma qofZ_add a b : qofZ (a + b) = qofZ a + qofZ b.
Proof.
  unfold qofZ. apply Qc_is_canon. unfold Qcplus. cbn [this Q2Qc].
  rewrite !Qred_correct, inject_Z_plus. reflexivity.
Qed.

Lemma qofZ_1 : qofZ 1 = 1.
Proof. apply Qc_is_canon. reflexivity. Qed.

Lemma qnat_S n : qnat (S n) = qnat n + 1.
Proof. unfold qnat. now rewrite Nat2Z.inj_succ, <- Z.add_1_r, qofZ_add, qofZ_1. Qed.

Lemma qsum_map_const {A} c (l : list A) : qsum (map (fun _ => c) l) = qlen l * c.
Proof.
  change (qlen l) with (qnat (length l)).
  induction l as [|x l IH]; cbn [map length]; [rewrite qsum_nil; change (qnat 0) with 0; ring|].
  rewrite qsum_cons, IH, qnat_S. ring.
Qed.

Lemma sumn_const m c : sumn m (fun _ => c) = qnat m * c.
Proof. unfold sumn. rewrite qsum_map_const. unfold qlen. now rewrite seq_length. Qed.

(* the first term / an initial segment taken out of a sum *)
Lemma sumn_shift n f : sumn (S n) f = f O + sumn n (fun k => f (S k)).
Proof. unfold sumn. cbn [seq map]. rewrite <- seq_shift, map_map. reflexivity. Qed.

Lemma sumn_split D dd f : (dd <= D)%nat -> sumn D f = sumn dd f + sumn (D - dd) (fun j => f (dd + j)%nat).
Proof.
  intros H. replace D with (dd + (D - dd))%nat at 1 by lia. generalize (D - dd)%nat as m. intros m.
  induction m as [|m IH]; [rewrite Nat.add_0_r, sumn_0; ring|].
  rewrite Nat.add_succ_r, !sumn_S, IH. ring.
Qed.

(* summing over the indices selected by a filter = masked sum over all indices *)
Lemma qsum_filter (p : nat -> bool) (f : nat -> Qc) l :
  qsum (map f (filter p l)) = qsum (map (fun i => if p i then f i else 0) l).
Proof.
  induction l as [|x l IH]; [reflexivity|]. cbn [filter map]. rewrite qsum_cons.
  destruct (p x); [cbn [map]; rewrite qsum_cons, IH; reflexivity|rewrite IH; ring].
Qed.

Lemma qsum_filter_seq (p : nat -> bool) (f : nat -> Qc) n :
  qsum (map f (filter p (seq 0 n))) = sumn n (fun i => if p i then f i else 0).
Proof. apply qsum_filter. Qed.

Lemma tab_length {A} n (f : nat -> A) : length (tab n f) = n.
Proof. unfold tab. now rewrite map_length, seq_length. Qed.

Lemma nth_tab {A} n (f : nat -> A) k dflt : (k < n)%nat -> nth k (tab n f) dflt = f k.
Proof. apply nth_map_seq0. Qed.

Lemma vnth_tab n f k : (k < n)%nat -> vnth (tab n f) k = f k.
Proof. apply nth_tab. Qed.
Lemma rnth_tab n (f : nat -> list Qc) k : (k < n)%nat -> rnth (tab n f) k = f k.
Proof. apply nth_tab. Qed.
Lemma vnth_nil k : vnth [] k = 0.
Proof. destruct k; reflexivity. Qed.
Lemma rnth_nil k : rnth [] k = [].
Proof. destruct k; reflexivity. Qed.

Lemma vnth_map (f : Qc -> Qc) l k : (k < length l)%nat -> vnth (map f l) k = f (vnth l k).
Proof. apply nth_map_lt. Qed.
Lemma rnth_map (f : list Qc -> list Qc) M m : (m < length M)%nat -> rnth (map f M) m = f (rnth M m).
Proof. apply nth_map_lt. Qed.

Lemma set_nth_length {A} i (x : A) l : length (set_nth i x l) = length l.
Proof. revert i; induction l as [|a l IH]; intros [|i]; cbn [set_nth length]; auto. Qed.

Lemma nth_set_nth {A} i j (x dflt : A) l :
  nth j (set_nth i x l) dflt = if Nat.eqb i j && Nat.ltb i (length l) then x else nth j l dflt.
Proof.
  revert i j; induction l as [|a l IH]; intros i j.
  - cbn [set_nth length]. replace (Nat.ltb i 0) with false by (symmetry; apply Nat.ltb_ge; lia).
    rewrite andb_false_r. reflexivity.
  - destruct i as [|i], j as [|j]; cbn [set_nth nth length]; try reflexivity.
    rewrite IH. change (Nat.eqb (S i) (S j)) with (Nat.eqb i j). change (Nat.ltb (S i) (S (length l))) with (Nat.ltb i (length l)).
    reflexivity.
Qed.

Lemma nth_set_nth_eq {A} i (x dflt : A) l : (i < length l)%nat -> nth i (set_nth i x l) dflt = x.
Proof. intros H. rewrite nth_set_nth, Nat.eqb_refl. apply Nat.ltb_lt in H. now rewrite H. Qed.
Lemma nth_set_nth_neq {A} i j (x dflt : A) l : i <> j -> nth j (set_nth i x l) dflt = nth j l dflt.
Proof. intros H. rewrite nth_set_nth. apply Nat.eqb_neq in H. now rewrite H. Qed.

Lemma vnth_set_nth i j x v :
  vnth (set_nth i x v) j = if Nat.eqb i j && Nat.ltb i (length v) then x else vnth v j.
Proof. apply nth_set_nth. Qed.
Lemma rnth_set_nth i j x M :
  rnth (set_nth i x M) j = if Nat.eqb i j && Nat.ltb i (length M) then x else rnth M j.
Proof. apply nth_set_nth. Qed.

Lemma set_nth_same {A} i (dflt : A) l : set_nth i (nth i l dflt) l = l.
Proof. revert i; induction l as [|a l IH]; intros [|i]; cbn [set_nth nth]; try reflexivity. now rewrite IH. Qed.

Lemma sumn_set_nth {A} n j (z dflt : A) l (F : nat -> A -> Qc) :
  (j < n)%nat -> (j < length l)%nat ->
  sumn n (fun k => F k (nth k (set_nth j z l) dflt)) = sumn n (fun k => F k (nth k l dflt)) - F j (nth j l dflt) + F j z.
Proof.
  intros Hn Hl. rewrite <- (sumn_update n j (fun k => F k (nth k l dflt)) (F j z)) by exact Hn.
  apply sumn_ext; intros k _. rewrite nth_set_nth, (Nat.eqb_sym j k).
  apply Nat.ltb_lt in Hl. rewrite Hl, andb_true_r. destruct (Nat.eqb_spec k j) as [->|_]; reflexivity.
Qed.
Lemma sumn_set_vnth n j z v (F : nat -> Qc -> Qc) :
  (j < n)%nat -> (j < length v)%nat ->
  sumn n (fun k => F k (vnth (set_nth j z v) k)) = sumn n (fun k => F k (vnth v k)) - F j (vnth v j) + F j z.
Proof. apply sumn_set_nth. Qed.
Lemma sumn_set_rnth n j z M (F : nat -> list Qc -> Qc) :
  (j < n)%nat -> (j < length M)%nat ->
  sumn n (fun k => F k (rnth (set_nth j z M) k)) = sumn n (fun k => F k (rnth M k)) - F j (rnth M j) + F j z.
Proof. apply sumn_set_nth. Qed.

Lemma scatter_set_length M idx vals : length (scatter_set M idx vals) = length M.
Proof.
  revert M vals; induction idx as [|i idx IH]; intros M [|v vals]; cbn [scatter_set]; try reflexivity.
  now rewrite IH, set_nth_length.
Qed.

Lemma scatter_set_notin M idx vals j : ~ In j idx -> vnth (scatter_set M idx vals) j = vnth M j.
Proof.
  revert M vals; induction idx as [|i idx IH]; intros M [|v vals] Hn; cbn [scatter_set]; try reflexivity.
  rewrite IH by (intros H; apply Hn; now right). unfold vnth. apply nth_set_nth_neq. intros ->. apply Hn. now left.
Qed.

(* a[idx] += map h idx, idx duplicate-free *)
Lemma scatter_add_map M idx (h : nat -> Qc) j :
  NoDup idx -> (forall i, In i idx -> (i < length M)%nat) ->
  vnth (scatter_add M idx (map h idx)) j = if in_dec Nat.eq_dec j idx then vnth M j + h j else vnth M j.
Proof.
  unfold scatter_add. intros Hnd Hlt.
  assert (Hgen : forall M0, (forall i, In i idx -> (i < length M0)%nat) ->
     vnth (scatter_set M0 idx (map (fun p => vnth M (fst p) + snd p) (combine idx (map h idx)))) j
     = if in_dec Nat.eq_dec j idx then vnth M j + h j else vnth M0 j).
  { clear Hlt. induction idx as [|i idx IH]; intros M0 Hlt0; cbn [map combine scatter_set].
    - destruct (in_dec Nat.eq_dec j []) as [[]|]; reflexivity.
    - inversion Hnd as [|? ? Hni Hnd']; subst. cbn [fst snd].
      destruct (in_dec Nat.eq_dec j (i :: idx)) as [Hin|Hnin].
      + destruct Hin as [->|Hin].
        * rewrite scatter_set_notin by exact Hni. unfold vnth at 1. rewrite nth_set_nth_eq; [reflexivity|apply Hlt0; now left].
        * rewrite IH; [|exact Hnd'|intros k Hk; rewrite set_nth_length; apply Hlt0; now right].
          destruct (in_dec Nat.eq_dec j idx); [reflexivity|contradiction].
      + rewrite IH; [|exact Hnd'|intros k Hk; rewrite set_nth_length; apply Hlt0; now right].
        destruct (in_dec Nat.eq_dec j idx) as [Hin|_]; [exfalso; apply Hnin; now right|].
        unfold vnth. apply nth_set_nth_neq. intros ->. apply Hnin. now left. }
  apply Hgen. exact Hlt.
Qed.

Lemma scatter_add_length M idx delta : length (scatter_add M idx delta) = length M.
Proof. apply scatter_set_length. Qed.

Definition quad (D : nat) (Q : list (list Qc)) (x : list Qc) : Qc :=
  sumn D (fun j => sumn D (fun k => vnth x j * vnth (rnth Q j) k * vnth x k)).
(* contribution of one observation to the energy difference: (rho - t)^2 - rho^2 *)
Definition hterm (rho t : Qc) : Qc := qsq (rho - t) - qsq rho.

Lemma sumn_mul n f h : sumn n f * sumn n h = sumn n (fun j => sumn n (fun k => f j * h k)).
Proof.
  rewrite (sumn_ext n (fun j => sumn n (fun k => f j * h k)) (fun j => sumn n h * f j)).
  - rewrite sumn_scale. ring.
  - intros j _. rewrite sumn_scale. ring.
Qed.

Lemma vdot_sq D X x :
  qsq (vdot D X x) = sumn D (fun j => sumn D (fun k => vnth x j * (vnth X j * vnth X k) * vnth x k)).
Proof.
  unfold qsq, vdot. rewrite sumn_mul. apply sumn_ext; intros j _. apply sumn_ext; intros k _. ring.
Qed.

Lemma q2_eq : qofZ 2 = 1 + 1.
Proof. apply Qc_is_canon. reflexivity. Qed.
Lemma q3_eq : qofZ 3 = 1 + 1 + 1.
Proof. apply Qc_is_canon. reflexivity. Qed.
Lemma half_eq : half * (1 + 1) = 1.
Proof. apply Qc_is_canon. reflexivity. Qed.
Lemma two_neq0 : 1 + 1 <> 0.
Proof. intros H. apply (f_equal this) in H. vm_compute in H. discriminate H. Qed.
Lemma half_inv : half = / (1 + 1).
Proof. apply Qc_is_canon. reflexivity. Qed.
(* closes a field identity that mentions [half] and [qofZ 2]: both are read over 1 + 1, whose inverse is defined *)
Ltac field_half := rewrite half_inv, q2_eq; field; exact two_neq0.

Lemma hterm_expand rho t : hterm rho t = qsq t + (- qofZ 2) * (rho * t).
Proof. unfold hterm, qsq. rewrite q2_eq. ring. Qed.

Lemma rows_sq D (rows : rowsT) x :
  qsum (map (fun r => qsq (vdot D (snd r) x)) rows)
  = sumn D (fun j => sumn D (fun k => vnth x j * qsum (map (fun r => vnth (snd r) j * vnth (snd r) k) rows) * vnth x k)).
Proof.
  induction rows as [|[rho X] rows IH]; cbn [map].
  - rewrite qsum_nil. symmetry. apply sumn_zero'; intros j _. apply sumn_zero'; intros k _. cbn [map qsum fold_right]. ring.
  - rewrite qsum_cons, IH. cbn [snd]. rewrite vdot_sq, <- sumn_add. apply sumn_ext; intros j _.
    rewrite <- sumn_add. apply sumn_ext; intros k _. rewrite qsum_cons. cbn [snd]. ring.
Qed.

Lemma rows_lin D (rows : rowsT) x :
  qsum (map (fun r => fst r * vdot D (snd r) x) rows)
  = sumn D (fun j => qsum (map (fun r => vnth (snd r) j * fst r) rows) * vnth x j).
Proof.
  induction rows as [|[rho X] rows IH]; cbn [map].
  - rewrite qsum_nil. symmetry. apply sumn_zero'; intros j _. cbn [map qsum fold_right]. ring.
  - rewrite qsum_cons, IH. cbn [fst snd]. unfold vdot. rewrite <- sumn_scale, <- sumn_add.
    apply sumn_ext; intros j _. rewrite qsum_cons. cbn [fst snd]. ring.
Qed.

Lemma diag_quad D lam x :
  sumn D (fun k => vnth lam k * qsq (vnth x k))
  = sumn D (fun j => sumn D (fun k => vnth x j * (if Nat.eqb j k then vnth lam j else 0) * vnth x k)).
Proof.
  apply sumn_ext; intros j Hj.
  rewrite (sumn_ext D _ (fun k => if Nat.eqb j k then vnth x j * vnth lam j * vnth x k else 0)).
  - rewrite sumn_single by exact Hj. unfold qsq. ring.
  - intros k _. destruct (Nat.eqb j k); ring.
Qed.

Lemma gauss_rows D (p : Qc) (rows : rowsT) (lam x : list Qc) :
  p * qsum (map (fun r => hterm (fst r) (vdot D (snd r) x)) rows) + sumn D (fun k => vnth lam k * qsq (vnth x k))
  = quad D (gramQ D p rows lam) x - qofZ 2 * vdot D (xtr D p rows) x.
Proof.
  rewrite (qsum_map_ext _ (fun r => qsq (vdot D (snd r) x) + (- qofZ 2) * (fst r * vdot D (snd r) x)))
    by (intros; apply hterm_expand).
  rewrite qsum_map_add, qsum_map_scale, rows_sq, rows_lin, diag_quad.
  assert (Hq : quad D (gramQ D p rows lam) x
    = sumn D (fun j => sumn D (fun k => vnth x j *
        (p * qsum (map (fun r => vnth (snd r) j * vnth (snd r) k) rows) + (if Nat.eqb j k then vnth lam j else 0)) * vnth x k))).
  { unfold quad, gramQ. apply sumn_ext; intros j Hj. apply sumn_ext; intros k Hk.
    rewrite rnth_tab by exact Hj. rewrite vnth_tab by exact Hk. reflexivity. }
  assert (Hb : vdot D (xtr D p rows) x = sumn D (fun j => p * (qsum (map (fun r => vnth (snd r) j * fst r) rows) * vnth x j))).
  { unfold vdot, xtr. apply sumn_ext; intros j Hj. rewrite vnth_tab by exact Hj. ring. }
  rewrite Hq, Hb, sumn_scale. clear Hq Hb.
  match goal with |- p * (?A + ?c * ?B) + ?C = ?R - ?t * (p * ?B') =>
    transitivity (p * A + C - t * (p * B)); [ring|f_equal] end.
  rewrite <- sumn_scale, <- sumn_add. apply sumn_ext; intros j _.
  rewrite <- sumn_scale, <- sumn_add. apply sumn_ext; intros k _. ring.
Qed.

Lemma mul0_vec (l : list Qc) : np_vmuls l q0 = map (fun _ => 0) l.
Proof. unfold np_vmuls, q0. apply map_ext. intros y. ring. Qed.
Lemma mul0_mat (M : list (list Qc)) : np_mmuls M q0 = map (map (fun _ => 0)) M.
Proof. unfold np_mmuls. apply map_ext. intros r. apply mul0_vec. Qed.
