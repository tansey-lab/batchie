(* C14, one piece of Proofs/C14Source.v (conventions and objects: see there): the attribute getters of Screen
   (`return self._<attr>`, Generated/SrcScreenAttrs.v) *)
From Coq Require Import List.
From Batchie Require Import Lib.Sexp Model.Screen Model.Views Generated.SrcViews Generated.SrcScreenAttrs.
Import ListNotations.
Open Scope Z_scope.

(* each property of a Screen object returns the array / mapping the model screen holds in that place: exactly the value the
   C14 configurations' primitives give `s.<attr>` *)
Theorem src_screen_attrs_are_model : forall s : pyscreen,
  src_screen_plate_ids s = Ok (s_pids (snd s)) /\
  src_screen_sample_ids s = Ok (s_sids (snd s)) /\
  src_screen_treatment_ids s = Ok (s_tids (snd s)) /\
  src_screen_sample_names s = Ok (map r_sample (s_rows (snd s))) /\
  src_screen_treatment_names s = Ok (s_arity (snd s), map (fun r => map fst (r_treats r)) (s_rows (snd s))) /\
  src_screen_treatment_doses s = Ok (s_arity (snd s), map (fun r => map snd (r_treats r)) (s_rows (snd s))) /\
  src_screen_observations s = Ok (map r_obs (s_rows (snd s))) /\
  src_screen_observation_mask s = Ok (map r_mask (s_rows (snd s))) /\
  src_screen_treatment_mapping s = Ok (s_tmap (snd s)) /\
  src_screen_sample_mapping s = Ok (s_smap (snd s)) /\
  src_screen_plate_mapping s = Ok (s_pmap (snd s)).
Proof. intros s. repeat split; reflexivity. Qed.

(* consistency with the links of the ScreenSubset properties (Proofs/C14Source_Attrs.v), which read the parent's attribute as a
   PRIMITIVE: with the translated getter of the parent in its place, a view's property is the mask selection of the parent's *)
Theorem src_view_attrs_of_parent_getters : forall v : view,
  src_view_plate_ids v = (dor a <- src_screen_plate_ids (view_screen v); Ok (select (v_sel v) a)) /\
  src_view_sample_ids v = (dor a <- src_screen_sample_ids (view_screen v); Ok (select (v_sel v) a)) /\
  src_view_treatment_ids v = (dor a <- src_screen_treatment_ids (view_screen v); Ok (select (v_sel v) a)) /\
  src_view_sample_names v = (dor a <- src_screen_sample_names (view_screen v); Ok (select (v_sel v) a)) /\
  src_view_treatment_names v = (dor a <- src_screen_treatment_names (view_screen v); Ok (select2 (v_sel v) a)) /\
  src_view_treatment_doses v = (dor a <- src_screen_treatment_doses (view_screen v); Ok (select2 (v_sel v) a)) /\
  src_view_observations v = (dor a <- src_screen_observations (view_screen v); Ok (select (v_sel v) a)) /\
  src_view_observation_mask v = (dor a <- src_screen_observation_mask (view_screen v); Ok (select (v_sel v) a)) /\
  src_view_treatment_mapping v = src_screen_treatment_mapping (view_screen v) /\
  src_view_sample_mapping v = src_screen_sample_mapping (view_screen v) /\
  src_view_plate_mapping v = src_screen_plate_mapping (view_screen v).
Proof. intros v. repeat split; reflexivity. Qed.
