(* C11: every shipped generator conserves the experiments (any oracle answers). *)
From Coq Require Import List Bool Arith Permutation.
From Batchie Require Import Proofs.PyRtLemmas Lib.Sexp Lib.ListX Model.Encode Model.Screen Model.Retro Model.Pairwise Proofs.C11Lib.
Import ListNotations.
Open Scope nat_scope.

Lemma take_names_ok : forall ds l ds', take_names ds = Ok (l, ds') -> ds = DNames l :: ds'.
Proof. intros [|[l0|l0] ds] l ds' H; cbn in H; congruence. Qed.
Lemma take_ints_ok : forall ds l ds', take_ints ds = Ok (l, ds') -> ds = DInts l :: ds'.
Proof. intros [|[l0|l0] ds] l ds' H; cbn in H; congruence. Qed.

Lemma plate_perm_conserves : forall force u ds nu ds',
  unmasked u -> plate_perm force u ds = Ok (nu, ds') -> Permutation (map strip nu) (map strip u).
Proof.
  intros force u ds nu ds' Hu H. unfold plate_perm in H.
  apply res_bind_inv in H as ([names ds1] & _ & H).
  destruct (negb (length names =? _)) eqn:El; [discriminate|].
  apply negb_false_iff, Nat.eqb_eq in El.
  apply res_bind_inv in H as (c & ->%construct_ok & [= <- <-]).
  rewrite map_app, combine_relabel_strip by (auto using unmasked_filter).
  rewrite <- map_app. apply Permutation_map, filter_partition.
Qed.

Lemma sample_seg_conserves : forall fixed mx u ds nu ds',
  sample_seg fixed mx u ds = Ok (nu, ds') -> map strip nu = map strip u.
Proof.
  intros fixed mx u ds nu ds' H. unfold sample_seg in H.
  apply res_bind_inv in H as ([pis ds1] & _ & H).
  apply res_bind_inv in H as (c & ->%construct_ok & [= <- <-]).
  apply (relabel_conserves (fun i _ => label_of pis i)).
Qed.

Lemma assign_v_length : forall v vals names, length (assign_v v vals names) = length names.
Proof.
  induction v as [|b v IH]; intros vals [|x names]; cbn [assign_v length]; try reflexivity.
  destruct b; [destruct vals|]; cbn [length]; now rewrite IH.
Qed.

Lemma pw_singles_length : forall samples srows co names ds names' ds',
  pw_singles samples srows co names ds = Ok (names', ds') -> length names' = length names.
Proof.
  induction samples as [|s samples IH]; intros srows co names ds names' ds' H; cbn [pw_singles] in H.
  - now inversion H.
  - destruct (is_nil _); [discriminate|].
    apply res_bind_inv in H as ([asg ds1] & _ & H).
    destruct (negb _); [discriminate|]. destruct (negb _); [discriminate|].
    apply IH in H. now rewrite assign_v_length in H.
Qed.

Lemma pairwise_conserves : forall ctrl subset anchor u ds nu ds',
  unmasked u -> pairwise ctrl subset anchor u ds = Ok (nu, ds') -> Permutation (map strip nu) (map strip u).
Proof.
  intros ctrl subset anchor u ds nu ds' Hu H. unfold pairwise in H.
  apply res_bind_inv in H as ([gs ds1] & _ & H).
  apply res_bind_inv in H as ([ctl ds2] & _ & H).
  destruct (negb (is_nil ctl)); [discriminate|].
  destruct (opt_map_all _ _) as [tuples|] eqn:Et; [|discriminate].
  apply opt_map_all_length in Et.
  apply res_bind_inv in H as (co & Hco%construct_ok & H).
  apply (f_equal (map strip)) in Hco.
  rewrite (combine_relabel_strip_gen (fun t => gen_name (index_of t (sort_uniq name_cmp tuples)))) in Hco
    by (auto using unmasked_filter).
  destruct (is_nil (filter (fun r => negb (is_combo ctrl r)) u)) eqn:En.
  - apply is_nil_true in En. injection H as <- <-. rewrite Hco. apply Permutation_map.
    etransitivity; [|apply (filter_partition (is_combo ctrl) u)]. now rewrite En, app_nil_r.
  - apply res_bind_inv in H as ([names ds3] & Es & H).
    apply pw_singles_length in Es. rewrite map_length in Es.
    apply res_bind_inv in H as (so & ->%construct_ok & H).
    apply res_bind_inv in H as (al & ->%construct_ok & [= <- <-]).
    rewrite map_app, Hco, combine_relabel_strip by (auto using unmasked_filter).
    rewrite <- map_app. apply Permutation_map, filter_partition.
Qed.

Lemma generate_inner_conserves : forall g u ds nu ds',
  unmasked u -> generate_inner g u ds = Ok (nu, ds') -> Permutation (map strip nu) (map strip u).
Proof.
  intros [force|fx mx|ctrl sb an] u ds nu ds' Hu H; cbn [generate_inner] in H.
  - eapply plate_perm_conserves; eassumption.
  - apply sample_seg_conserves in H. now rewrite H.
  - eapply pairwise_conserves; eassumption.
Qed.

Theorem generator_conserves : forall g rows ds out ds',
  generate_plates g rows ds = Ok (out, ds') ->
  exists nu, out = nu ++ observed rows
             /\ Forall (fun r => r_mask r = false) nu
             /\ Permutation (map strip nu) (map strip (unobserved rows)).
Proof.
  intros g. apply (wrap_conserves (fun nu u => Permutation (map strip nu) (map strip u))).
  - constructor.
  - intros nu u HP s. apply Permutation_in, HP.
  - apply generate_inner_conserves.
Qed.

Theorem relabel_any_conserves : forall (labels : nat -> row -> name) rows,
  map strip (map (fun ir => set_plate (labels (fst ir) (snd ir)) (snd ir)) (enum_from 0 rows)) = map strip rows.
Proof. intros. apply relabel_conserves. Qed.
