(* C03: ids_frozen with EVERY step a translated source function: the translated hold-out (Generated/SrcHoldoutIds.v)
   followed by any history of the translated reveal_plates / mask_screen / unmask_screen (Generated/SrcReveal.v) and save + load. *)
From Coq Require Import ZArith List.
From Batchie Require Import Lib.Sexp Model.Screen Model.Reveal Model.Holdout
  Proofs.C03Frozen Proofs.C12Source_Variant Generated.SrcHoldoutIds Proofs.C03Source_Holdout.
From Batchie Require Model.Retro.
Import ListNotations.
Open Scope Z_scope.

Definition src_lifecycle_full (num : Z) (den : positive) (counts : option (list Z)) (p : screen) (ds : list Retro.draw)
           (test : bool) (ops : list op) : result screen :=
  dor x <- src_balanced_holdout_ids num den counts p ds; src_history ops (half test (fst x)).

Theorem ids_frozen_of_source_full : forall num den counts p ds test ops s,
  src_lifecycle_full num den counts p ds test ops = Ok s -> frozen_to p s.
Proof.
  intros num den counts p ds test ops s H. unfold src_lifecycle_full in H.
  destruct (src_balanced_holdout_ids num den counts p ds) as [[pr ds']|t] eqn:E; cbn [res_bind fst] in H; [|discriminate].
  destruct (src_holdout_is_split _ _ _ _ _ _ _ E) as (sel & _ & Hs).
  rewrite src_history_is_model in H.
  eapply ids_frozen_per_op; [exact Hs| |exact H]. intros o _. apply carries_all.
Qed.
