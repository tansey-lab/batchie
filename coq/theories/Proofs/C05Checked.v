(* C05: the scorer with its ValueError checks and unranking of the recorded
   draws (what the wire entry point runs) returns the pure [scorer] value on well-formed input. *)
From Coq Require Import List ZArith Arith Qcanon Lia.
From Batchie Require Import Lib.Sexp Lib.Num Model.Dbal Proofs.C05Kernel Proofs.C05Scorer Proofs.C05Inv.
Import ListNotations.

Lemma take_sizes_nonempty {A} sizes : forall (l : list A),
  Forall (fun s => 0 < s)%nat sizes -> (list_sum sizes <= length l)%nat ->
  Forall (fun g => g <> []) (take_sizes l sizes).
Proof.
  induction sizes as [|s r IH]; intros l Hpos Hsum; cbn [take_sizes]; [constructor|].
  inversion Hpos as [|? ? Hs Hr]; subst.
  change (list_sum (s :: r)) with (s + list_sum r)%nat in Hsum.
  constructor.
  - intros E. apply (f_equal (@length A)) in E. rewrite firstn_length in E. cbn [length] in E. lia.
  - apply IH; [exact Hr|]. rewrite skipn_length. lia.
Qed.

Lemma ceil_div_le n m : (0 < n)%nat -> (0 < m)%nat -> (ceil_div n m <= n)%nat.
Proof.
  intros Hn Hm. unfold ceil_div. apply Nat.div_le_upper_bound; [lia|]. nia.
Qed.

Lemma array_split_nonempty {A} (l : list A) k :
  (0 < k)%nat -> (k <= length l)%nat -> Forall (fun g => g <> []) (array_split l k).
Proof.
  intros Hk Hle. unfold array_split. apply take_sizes_nonempty.
  - assert (Hq : (0 < length l / k)%nat) by (apply Nat.div_str_pos; lia).
    apply Forall_app. split; apply Forall_forall; intros s Hs; apply repeat_spec in Hs; lia.
  - rewrite split_sizes_sum by exact Hk. lia.
Qed.

Section Checked.
Variables (orc : oracle) (T : nat) (D : list (list Qc)).
Hypothesis HT : (3 <= T)%nat.
Hypothesis HD : rect T T D.

Definition chk_step (gd : list (Z * plate) * list Z) : result (list (Z * ext)) :=
  res_bind (hetero_checked orc (map snd (fst gd)) D 1%Qc (snd gd))
           (fun v => Ok (combine (map fst (fst gd)) v)).
Definition pure_step (gd : list (Z * plate) * list triple) : list (Z * ext) :=
  combine (map fst (fst gd)) (hetero orc (map snd (fst gd)) D 1%Qc (snd gd)).

Lemma steps_ok groups : forall draws_idx draws_ts,
  Forall (fun g => g <> [] /\ Forall (fun kp => plate_wf T (snd kp)) g) groups ->
  Forall2 (fun idxs ts => triples_of_draw T idxs = Ok ts) draws_idx draws_ts ->
  res_map_all chk_step (combine groups draws_idx) = Ok (map pure_step (combine groups draws_ts)).
Proof.
  induction groups as [|g groups IH]; intros di dt Hg HF; [reflexivity|].
  inversion HF as [|idxs ts di' dt' Hdraw HF']; subst; [reflexivity|].
  inversion Hg as [|? ? [Hne Hwf] Hg']; subst.
  cbn [combine res_map_all map]. rewrite (IH _ _ Hg' HF').
  unfold chk_step at 1. cbn [fst snd].
  rewrite (hetero_checked_ok orc T); [|exact HT| |  |exact HD].
  - rewrite Hdraw. reflexivity.
  - intros E. apply map_eq_nil in E. contradiction.
  - apply Forall_forall. intros pl Hpl. apply in_map_iff in Hpl as (kp & <- & Hkp).
    rewrite Forall_forall in Hwf. now apply Hwf.
Qed.

Theorem scorer_checked_ok mc plates draws_idx draws_ts :
  (0 < mc)%nat -> plates <> [] ->
  Forall (fun kp => plate_wf T (snd kp)) plates ->
  Forall2 (fun idxs ts => triples_of_draw T idxs = Ok ts) draws_idx draws_ts ->
  scorer_checked orc mc plates D draws_idx = Ok (scorer orc mc plates D draws_ts).
Proof.
  intros Hmc Hne Hwf HF. unfold scorer_checked, scorer.
  destruct plates as [|kp rest] eqn:Epl; [congruence|]. rewrite <- Epl in *.
  set (k := ceil_div (length plates) mc).
  assert (Hn : (0 < length plates)%nat) by (rewrite Epl; cbn [length]; lia).
  assert (Hk : (0 < k)%nat) by (now apply ceil_div_pos).
  assert (Hkn : (k <= length plates)%nat) by (now apply ceil_div_le).
  fold chk_step.
  rewrite (steps_ok (array_split plates k) draws_idx draws_ts).
  - cbn [res_bind]. f_equal. symmetry. apply flat_map_concat_map.
  - pose proof (array_split_nonempty plates k Hk Hkn) as Hnonempty.
    rewrite Forall_forall in Hnonempty. apply Forall_forall. intros g Hg. split; [now apply Hnonempty|].
    apply Forall_forall. intros x Hx. rewrite Forall_forall in Hwf. apply Hwf.
    rewrite <- (concat_array_split plates k (or_introl Hk)). apply in_concat. now exists g.
  - exact HF.
Qed.
End Checked.
