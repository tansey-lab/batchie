(* C19 — the invariant along arbitrary crash schedules, the resume theorems, and the two
   refutations of the unrestricted statement. *)
From Coq Require Import ZArith List Lia.
From Batchie Require Import Model.Orchestrate Proofs.C19Base Proofs.C19Canon Proofs.C19Step.
Import ListNotations.
Open Scope Z_scope.

Lemma script_run_app md fixed bs n : forall s1 s2 f,
  script_run md fixed bs n f (s1 ++ s2)
  = let r1 := script_run md fixed bs n f s1 in
    let r2 := script_run md fixed bs n (fst r1) s2 in (fst r2, snd r1 ++ snd r2).
Proof.
  induction s1 as [|e s1 IH]; intros s2 f; cbn [app script_run].
  - cbn zeta. cbn [fst snd]. now destruct (script_run md fixed bs n f s2).
  - destruct (attempt md fixed bs n f e) as [f1 g]. rewrite IH. cbn zeta.
    destruct (script_run md fixed bs n f1 s1) as [f2 g2]. cbn [fst snd].
    now destruct (script_run md fixed bs n f2 s2).
Qed.

Section Main.
Variables (md : mode) (bs n : nat) (fixed : bool).
Hypothesis Hbs : (1 <= bs)%nat.
Hypothesis Hn : (1 <= n)%nat.
Hypothesis Hfix : fixed = true \/ bs = 1%nat.

Local Notation canon := (canon md bs n).
Local Notation B := (Z.of_nat bs).

(* reachable trees: completed steps 0..c-1 in lexicographic order with the ideal contents,
   plus at most one of {empty next iteration directory, one incomplete directory at index c} *)
Definition Inv (f : fs) : Prop :=
  exists c x, f = canon c x /\ okx c x /\ (md = Retro -> (c <= n)%nat).

Definition sched_ok (sched : list entry) : Prop := Forall (fun e => entry_ok e = true) sched.

(* what one call may do, seen from a tree with completed steps 0..c-1 *)
Definition call_ok (f f' : fs) (g : logitem) : Prop :=
  exists c,
    completed f = ideal md bs n c /\
    (completed f' = ideal md bs n c \/ completed f' = ideal md bs n (S c)) /\
    match g with
    | GLaunch s l _ _ => s = step_of bs c /\ l = ideal_launch md bs c /\ ~ In s (map fst (completed f))
    | GNamed _ s => ~ In s (map fst (completed f))
    | GFail _ => False
    | _ => True
    end.

(* the trees crash schedules lead to *)
Definition reachable (f : fs) : Prop := exists c x, f = canon c x /\ state_ok md n c x.

Lemma reachable_init : reachable [].
Proof. exists 0%nat, XNone. split; [symmetry; apply (canon_0 md bs n Hbs Hn)|apply state_ok_init]. Qed.

Lemma reachable_attempt f e :
  reachable f -> entry_ok e = true ->
  let r := attempt md fixed B n f e in reachable (fst r) /\ call_ok f (fst r) (snd r).
Proof.
  intros (c & x & -> & Hs) He.
  destruct (attempt_canon md bs n Hbs Hn fixed c x e Hs Hfix He) as (c' & x' & g & E & Hs' & Hg & Hc' & _).
  cbn zeta. rewrite E. cbn [fst snd]. split; [now exists c', x'|]. exists c.
  rewrite !(completed_canon md bs n Hbs Hn) by (apply Hs' || apply Hs).
  split; [reflexivity|]. split; [destruct Hc' as [[-> _]|(-> & _)]; auto|].
  pose proof (next_not_completed md bs n Hbs Hn c) as Hnot.
  destruct g; cbn [log_ok] in Hg |- *; auto.
  - now subst s.
  - destruct Hg as [-> ->]. auto.
Qed.

Lemma reachable_run : forall sched f, sched_ok sched -> reachable f ->
  reachable (fst (script_run md fixed B n f sched)).
Proof.
  induction sched as [|e r IH]; intros f Hs Hf; [exact Hf|].
  inversion Hs as [|? ? He Hr]; subst. cbn [script_run].
  destruct (reachable_attempt f e Hf He) as [Hi _]. cbn zeta in Hi.
  destruct (attempt md fixed B n f e) as [f1 g]. cbn [fst] in Hi.
  specialize (IH f1 Hr Hi). now destruct (script_run md fixed B n f1 r).
Qed.

Lemma reach_from_empty sched : sched_ok sched -> reachable (fst (script_run md fixed B n [] sched)).
Proof. intros Hs. exact (reachable_run sched [] Hs reachable_init). Qed.

Lemma reachable_completed f : reachable f ->
  completed f = ideal md bs n (length (completed f)) /\ (md = Retro -> (length (completed f) <= n)%nat).
Proof.
  intros (c & x & -> & Hi). rewrite (completed_canon md bs n Hbs Hn c x) by apply Hi.
  rewrite ideal_length. split; [reflexivity|exact (state_ok_le md n c x Hi)].
Qed.

Theorem resume_correct sched :
  sched_ok sched ->
  let f := fst (script_run md fixed (Z.of_nat bs) n [] sched) in
  completed f = ideal md bs n (length (completed f)) /\ (md = Retro -> (length (completed f) <= n)%nat).
Proof. intros Hs. apply reachable_completed, reach_from_empty, Hs. Qed.

(* every single call along every schedule is safe *)
Theorem step_safe sched e :
  sched_ok sched -> entry_ok e = true ->
  let f := fst (script_run md fixed (Z.of_nat bs) n [] sched) in
  let r := attempt md fixed (Z.of_nat bs) n f e in
  call_ok f (fst r) (snd r).
Proof. intros Hs He. apply reachable_attempt; [apply reach_from_empty, Hs|exact He]. Qed.

Theorem invariant sched : sched_ok sched -> Inv (fst (script_run md fixed (Z.of_nat bs) n [] sched)).
Proof.
  intros Hs. destruct (reach_from_empty sched Hs) as (c & x & -> & Hi). exists c, x.
  split; [reflexivity|]. split; [apply Hi|exact (state_ok_le md n c x Hi)].
Qed.

(* calls that are not interrupted complete one step each *)
Lemma run_full e : entry_ok e = true -> full_entry e ->
  forall m c, (forall k, (c <= k < c + m)%nat -> can_complete md bs n k /\ (md = Retro -> (k < n)%nat)) ->
  fst (script_run md fixed (Z.of_nat bs) n (canon c XNone) (repeat e m)) = canon (c + m) XNone.
Proof.
  intros He Hf. induction m as [|m IH]; intros c Hc; [now rewrite Nat.add_0_r|].
  cbn [repeat script_run]. destruct (Hc c) as [Hc1 Hc2]; [lia|].
  destruct (attempt_full md bs n Hbs Hn fixed c XNone e I Hfix eq_refl Hc1 Hc2 He Hf) as [ps ->].
  specialize (IH (S c)). rewrite Nat.add_succ_r.
  destruct (script_run md fixed B n (canon (S c) XNone) (repeat e m)) as [f2 gs]. cbn [fst] in *.
  apply IH. intros k Hk. apply Hc. lia.
Qed.

End Main.

Lemma firstn_map_seq {A} (g : nat -> A) k m : (k <= m)%nat -> firstn k (map g (seq 0 m)) = map g (seq 0 k).
Proof.
  intros H. rewrite firstn_map. f_equal. replace m with (k + (m - k))%nat by lia.
  rewrite seq_app, firstn_app, seq_length, Nat.sub_diag. cbn [firstn]. rewrite app_nil_r.
  apply firstn_all2. now rewrite seq_length.
Qed.

Theorem resume_correct_retro (bs n : nat) fixed sched :
  (1 <= bs)%nat -> (1 <= n)%nat -> fixed = true \/ bs = 1%nat -> sched_ok sched ->
  let f := fst (script_run Retro fixed (Z.of_nat bs) n [] sched) in
  completed f = firstn (length (completed f)) (crash_free Retro bs n).
Proof.
  intros Hbs Hn Hfix Hs. cbn zeta.
  destruct (resume_correct Retro bs n fixed Hbs Hn Hfix sched Hs) as [H1 H2]. cbn zeta in H1, H2.
  unfold crash_free. unfold ideal in *. rewrite firstn_map_seq by auto. exact H1.
Qed.

Theorem uninterrupted_is_crash_free md (bs n : nat) fixed e :
  (1 <= bs)%nat -> (1 <= n)%nat -> fixed = true \/ bs = 1%nat ->
  entry_ok e = true -> full_entry e -> (md = Prosp -> (bs <= n)%nat) ->
  completed (fst (script_run md fixed (Z.of_nat bs) n []
                    (repeat e (match md with Retro => n | Prosp => bs end))))
  = crash_free md bs n.
Proof.
  intros Hbs Hn Hfix He Hf Hp. rewrite <- (canon_0 md bs n Hbs Hn).
  rewrite (run_full md bs n fixed Hbs Hn Hfix e He Hf).
  - rewrite (completed_canon md bs n Hbs Hn) by exact I. reflexivity.
  - intros k Hk. unfold can_complete. destruct md.
    + split; [lia|intros _; lia].
    + split; [|discriminate]. specialize (Hp eq_refl). pose proof (Nat.mod_upper_bound k bs). lia.
Qed.

(* each retrospective step after the first reads the advanced screen of its immediate predecessor,
   and step_of enumerates the indices in lexicographic order without gaps *)
Theorem inputs_from_predecessor (bs c : nat) :
  match ideal_launch Retro bs (S c) with
  | LFirst sp _ => sp = SFile (step_of bs c) KAdvanced
  | LNext sp _ _ => sp = SFile (step_of bs c) KAdvanced
  | _ => False
  end.
Proof. rewrite (ideal_launch_S Retro bs c). now destruct (S c mod bs)%nat. Qed.

Theorem step_of_successor (bs n c : nat) : (1 <= bs)%nat ->
  step_of bs (S c) = (if snd (step_of bs c) >=? Z.of_nat bs - 1
                      then (fst (step_of bs c) + 1, 0)
                      else (fst (step_of bs c), snd (step_of bs c) + 1)).
Proof. intros Hbs. symmetry. apply (next_step_arith bs Hbs). Qed.

(* the unrestricted statement is false of the faithful model *)
Definition canon_order : list kind := all_kinds.
Definition full : entry := mke 99 canon_order.

(* (i) unrepaired examine, batch size 2, every publication order canonical (marker last):
   crash between the two makedirs levels of iter_1 -> step (0,1), complete, is launched again *)
Definition witness_empty_iter : list entry := [full; full; mke 2 canon_order; full].

Theorem resume_refuted_empty_iter :
  exists sched k s l ps ok,
    sched_ok sched /\
    In s (map fst (completed (fst (script_run Retro false 2 4 [] (firstn k sched))))) /\
    nth k (snd (script_run Retro false 2 4 [] sched)) GDone = GLaunch s l ps ok /\
    ~ In s (map fst (completed (fst (script_run Retro false 2 4 [] sched)))).
Proof.
  exists witness_empty_iter, 3%nat, (0, 1). do 3 eexists.
  split; [repeat constructor|]. split; [vm_compute; tauto|]. split; [vm_compute; reflexivity|].
  vm_compute. intros [H|[]]. discriminate.
Qed.

(* (ii) repaired examine, prospective mode, batch size 1: the metadata is published first (allowed by
   data dependence: it is computed from the input screen), the pipeline crashes -> step (0,0) counts as
   complete although it never recorded a selection, and the run goes on to iteration 1 *)
Definition meta_first : list kind := [KMeta; KTraining; KTest; KThetas; KDist; KSelected; KAdvanced].
Definition witness_marker_early : list entry := [mke 5 meta_first; full].

Theorem resume_refuted_marker_early :
  exists sched,
    Forall (fun e => covers (e_order e) = true /\ dep_ok (LProsp SInput) (e_order e) = true) sched /\
    let f := fst (script_run Prosp true 1 3 [] sched) in
    completed f <> ideal Prosp 1 3 (length (completed f)) /\
    exists d, In ((0, 0), d) (completed f) /\ f_selected d = None.
Proof.
  exists witness_marker_early. split; [repeat constructor|]. cbn zeta. split.
  - vm_compute. discriminate.
  - eexists. split; [vm_compute; left; reflexivity|reflexivity].
Qed.
