(* The model of select_next_plate.main equals its translation (Generated/SrcCli.v). *)
From Coq Require Import ZArith List.
From Batchie Require Import Model.Cli Generated.SrcCli Proofs.PyRtLemmas Proofs.C06SourceCli_Prng.
Open Scope Z_scope.

Theorem src_cli_select_next_plate_is_model :
  forall (Scr Pl Po H : Type) (L : sn_lib Scr Pl Po H) (mix : Z -> Z) (a : sn_args),
  src_cli_select_next_plate Scr Pl Po H L mix a = cli_select_next_plate L mix a.
Proof.
  intros. unfold src_cli_select_next_plate, cli_select_next_plate. cbv zeta.
  rewrite !res_map_all_ret, src_get_prng_is_model.
  repeat cli_step. all: reflexivity.
Qed.
