(* C13: SparseCoverPlateGenerator.__init__ (Generated/SrcInits.v) stores what it is constructed with - reveal_single_treatment_experiments *)
From Batchie Require Import Lib.Sexp Generated.SrcInits.
Open Scope Z_scope.

Theorem src_sparse_cover_init_stores : forall reveal : bool, src_sparse_cover_init reveal = Ok reveal.
Proof. reflexivity. Qed.
