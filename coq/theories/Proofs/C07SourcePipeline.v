(* C07: the translated functions composed as the command line composes them - per listed chunk index one
   calculate_pairwise_distance_matrix_on_predictions, save, load; then ChunkedDistanceMatrix.concat and to_dense -
   equal the model's pipeline (Model/DistMat.pipeline). *)
From Coq Require Import ZArith List Lia.
From Batchie Require Import Lib.Sexp Model.Chunks Model.DistMat Generated.SrcDistMat Proofs.C07DistMat
  Proofs.C07SourceMat.
Import ListNotations.
Open Scope Z_scope.

Section Pipe.
Variable V : Type.
Variable vzero : V.
Variable visz : V -> bool.
Hypothesis visz_zero : visz vzero = true.
Variables Th Pr : Type.
Variable get_theta : Z -> Th.
Variable predict : Th -> Pr.
Variable dist : Pr -> Pr -> V.

Notation ok := (storage_ok vzero visz).
Notation abs := (dm_of_storage vzero).
Notation d := (metric_of V Th Pr get_theta predict dist).

(* one job of the pipeline: compute the chunk, save it, load the file *)
Definition one_chunk (n : nat) (c k : Z) : result (cdm V) :=
  dor m <- src_calculate_pairwise V vzero visz Th Pr (Z.of_nat n) get_theta predict dist k c;
  dor f <- src_cdm_save V vzero visz m;
  src_cdm_load V vzero visz f.

Definition src_pipeline (n : nat) (c : Z) (order : list Z) : result (list (list V)) :=
  dor ms <- res_map_all (fun k => one_chunk n c k) order;
  dor m <- src_cdm_concat V vzero visz ms;
  src_cdm_to_dense V vzero visz m.

Lemma one_chunk_refines n c k : 0 <= k < c ->
  storage_refines vzero visz (one_chunk n c k) (Ok (mk V d n (chunk n k c))).
Proof.
  intros Hk. unfold one_chunk.
  pose proof (src_calculate_is_model V vzero visz visz_zero Th Pr get_theta predict dist n k c Hk) as L.
  rewrite compute_chunk_ok in L.
  destruct (src_calculate_pairwise V vzero visz Th Pr (Z.of_nat n) get_theta predict dist k c) as [st|t];
    cbn [storage_refines] in L; [|contradiction].
  destruct L as [L1 <-]. exact (src_load_save_is_model V vzero visz visz_zero st L1).
Qed.

(* an object that represents a matrix of valid keys: it holds a value only if its size allows one, and its stored pairs
   address cells *)
Lemma abs_roomy st n ps : ok st -> abs st = mk V d n ps -> Forall (valid n) ps -> roomy st.
Proof.
  intros (Lcols & Lvals & Bcur & Bchunk & Zeros) E Hv. unfold roomy.
  pose proof (f_equal dm_size E) as Es. apply (f_equal (fun m => length (dm_entries m))) in E.
  cbn [dm_of_storage mk dm_size dm_entries] in Es, E. rewrite !map_length, seq_length in E.
  destruct Hv as [|p ps [Hp1 Hp2] _]; [left | right]; cbn [length] in E; lia.
Qed.

Lemma abs_in_range st n ps : abs st = mk V d n ps -> Forall (valid n) ps -> entries_in_range st.
Proof.
  intros E Hv k Hk. pose proof (f_equal dm_size E) as Es. cbn [dm_of_storage mk dm_size] in Es.
  assert (I : In (entry_at V vzero st k) (dm_entries (abs st))) by (apply in_map, in_seq; lia).
  rewrite E in I. apply in_map_iff in I as (p & Ep & Hp).
  rewrite Forall_forall in Hv. destruct (Hv p Hp) as [Hp1 Hp2].
  injection Ep as E1 E2 _. rewrite <- E1, <- E2, Es. lia.
Qed.

Lemma calc_chunks n c order : (forall k, In k order -> 0 <= k < c) ->
  exists sts, res_map_all (fun k => one_chunk n c k) order = Ok sts
    /\ Forall ok sts /\ Forall roomy sts /\ map abs sts = map (fun k => mk V d n (chunk n k c)) order.
Proof.
  induction order as [|k order IH]; intros H; cbn [res_map_all map].
  - exists []. repeat split; constructor.
  - pose proof (one_chunk_refines n c k (H k ltac:(now left))) as L.
    destruct (one_chunk n c k) as [st|t]; cbn [storage_refines] in L; [|contradiction]. destruct L as [L1 L2].
    destruct (IH ltac:(intros k' Hk'; apply H; now right)) as (sts & E & F & R & M).
    exists (st :: sts). rewrite E. cbn [res_bind map]. repeat split; [now constructor | | now rewrite L2, M].
    constructor; [|exact R]. exact (abs_roomy st n (chunk n k c) L1 L2 (proj2 (chunk_ok n k c))).
Qed.

(* also for the empty family: both sides are concat's refusal of an empty list *)
Theorem src_pipeline_any : forall (n : nat) (c : Z) (order : list Z),
  (forall k, In k order -> 0 <= k < c) ->
  src_pipeline n c order = pipeline V vzero d n c order.
Proof.
  intros n c order Hk.
  assert (Hne : order = [] \/ order <> []) by (destruct order; [now left | now right]).
  destruct Hne as [-> | Hne]; [reflexivity|].
  unfold src_pipeline. rewrite pipeline_eq.
  destruct (calc_chunks n c order Hk) as (sts & E & F & R & M). rewrite E. cbn [res_bind].
  assert (R' : Forall roomy (tl sts)) by (destruct R; [constructor | assumption]).
  pose proof (src_concat_is_model V vzero visz visz_zero sts F R') as L.
  destruct (concat_chunks V d n c order Hne) as (ps & Ec & [_ Wv] & _). rewrite M, Ec in L. rewrite Ec.
  destruct (src_cdm_concat V vzero visz sts) as [st|t]; cbn [storage_refines] in L; [|contradiction].
  destruct L as [L1 L2]. cbn [res_bind].
  rewrite src_to_dense_is_model; [now rewrite L2 | exact L1 | exact (abs_in_range st n ps L2 Wv)].
Qed.

Theorem src_pipeline_is_model : forall (n : nat) (c : Z) (order : list Z),
  order <> [] -> (forall k, In k order -> 0 <= k < c) ->
  src_pipeline n c order = pipeline V vzero d n c order.
Proof. intros n c order _. apply src_pipeline_any. Qed.
End Pipe.
