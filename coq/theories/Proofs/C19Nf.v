(* C19 / C16 — the nextflow side as read from /repo/nextflow (Generated/SrcNfOutputs.v, harness/nf_reader.py) against the
   model's file kinds (Model/NfFiles.v), the globs of the translated helpers, and select_next_plate's option table. *)
From Coq Require Import ZArith List String Bool.
From Batchie Require Import Model.Orchestrate Model.NfFiles Generated.SrcNfOutputs Model.Cli Generated.SrcParser_select_next_plate.
Import ListNotations.
Open Scope string_scope.

(* every kind of file the model speaks of is published by the process the model attributes it to, under a pattern that matches
   the name the module's script block writes, and that written name is matched by the pattern the script globs for *)
Definition kind_published (k : kind) : bool :=
  existsb (fun t => match t with (proc, pat, written) =>
             String.eqb proc (kind_process k) && glob_match pat written && glob_match (kind_pattern k) written end) nf_outputs.

Theorem nf_publishes_every_kind : forall k, kind_published k = true.
Proof. intros k; destruct k; vm_compute; reflexivity. Qed.

Theorem nf_outputs_are_what_the_script_globs : forall k,
  exists pat written, In (kind_process k, pat, written) nf_outputs /\
                      glob_match pat written = true /\ glob_match (kind_pattern k) written = true.
Proof.
  intros k. pose proof (nf_publishes_every_kind k) as H. unfold kind_published in H.
  apply existsb_exists in H as ([[proc pat] written] & Hin & H).
  apply andb_true_iff in H as [H H3]. apply andb_true_iff in H as [H1 H2].
  apply String.eqb_eq in H1. subst proc. exists pat, written. auto.
Qed.

(* nothing ELSE the modules publish is mistaken for a file of another kind: a written name is matched by the glob of one kind only *)
Definition matching_kinds (written : string) : list kind :=
  filter (fun k => glob_match (kind_pattern k) written) all_kinds.

Lemma written_names_match_one_kind :
  forallb (fun t => (List.length (matching_kinds (snd t)) <=? 1)%nat) nf_outputs = true.
Proof. vm_compute. reflexivity. Qed.

Theorem nf_written_names_unambiguous : forall proc pat written k1 k2,
  In (proc, pat, written) nf_outputs ->
  glob_match (kind_pattern k1) written = true -> glob_match (kind_pattern k2) written = true -> k1 = k2.
Proof.
  intros proc pat written k1 k2 Hin H1 H2.
  pose proof written_names_match_one_kind as Hone. rewrite forallb_forall in Hone. apply Hone in Hin. cbn [snd] in Hin.
  assert (Hk : forall k, glob_match (kind_pattern k) written = true -> In k (matching_kinds written)).
  { intros k Hk. apply filter_In. split; [destruct k; cbn; tauto|exact Hk]. }
  apply Hk in H1, H2.
  destruct (matching_kinds written) as [|a [|b r]]; [destruct H1| |discriminate Hin].
  destruct H1 as [<-|[]], H2 as [<-|[]]. reflexivity.
Qed.

(* the globs of the translated helpers ARE the model's patterns: each glob primitive of the C19 helper configurations asks for
   kind_pattern of the kind its template names, at that kind's directory depth; and every kind is globbed for *)
Theorem script_globs_are_kind_patterns : forall pat code lv,
  In (pat, code, lv) script_globs ->
  exists k, kind_of_code code = Some k /\ pat = kind_pattern k /\ lv = kind_levels k.
Proof.
  intros pat code lv Hin.
  repeat (destruct Hin as [Hin|Hin]; [injection Hin as <- <- <-; eexists; repeat split; reflexivity|]).
  destruct Hin.
Qed.

Theorem script_globs_cover_every_kind : forall k, exists code, kind_of_code code = Some k /\
  In (kind_pattern k, code, kind_levels k) script_globs.
Proof.
  intros k; destruct k;
    [exists 0%Z|exists 1%Z|exists 2%Z|exists 3%Z|exists 4%Z|exists 5%Z|exists 6%Z]; (split; [reflexivity|]);
    cbn [script_globs kind_pattern kind_levels In]; tauto.
Qed.

(* where the files land: every configuration that sets publishDir sets it to the --outdir the script passes, and every module
   writes below ${meta.id} - one directory level, the '*' of the script's globs *)
Theorem nf_publish_dir_is_outdir :
  nf_publish_dirs <> [] /\ Forall (fun c => snd c = publish_setting) nf_publish_dirs /\ nf_prefix = publish_prefix.
Proof. split; [discriminate|]. split; [repeat constructor|reflexivity]. Qed.

(* the excludes chain (C16: "the batch so far" reaches the policy): the workflow splits params.excludes on the separator the
   script joins with; `excludes` is the element of the sub-workflow's input tuple that the sub-workflow picks, at the position of
   SELECT_NEXT_PLATE's `excludes` input; the module passes the ids, separated by blanks, after a flag that select_next_plate's
   parser declares as an option taking one or more ints *)
Definition nth_str (n : nat) (l : list string) : string := nth n l "".
Fixpoint index_of (z : Z) (l : list Z) (i : nat) : option nat :=
  match l with [] => None | x :: r => if Z.eqb x z then Some i else index_of z r (S i) end.

Definition flag_option (flag : list Z) (t : list argopt) : option argopt :=
  find (fun o => existsb (fun f => Orchestrate.zlist_eqb f flag) (o_flags o)) t.

Theorem nf_excludes_chain :
  nf_excludes_tokenize = excludes_sep /\
  (exists pos, index_of nf_excludes_index nf_select_picks 0 = Some pos /\ nth_str pos nf_select_inputs = "excludes") /\
  nf_excludes_join = " " /\
  match flag_option (str_of_string nf_excludes_flag) src_parser_select_next_plate with
  | Some o => o_type o = Some TInt /\ o_nargs o = Some NPlus /\ o_action o = ActStore /\
              opt_dest o = str_of_string "batch_plate_id"
  | None => False
  end.
Proof.
  split; [reflexivity|]. split; [exists 2%nat; split; reflexivity|]. split; [reflexivity|].
  vm_compute. repeat split; reflexivity.
Qed.
