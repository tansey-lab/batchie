(* C18 — the interaction model is explicit: outputs and request traces are functions of the
   program and the answers it consumes; generator-driven execution is replay; a program that
   draws only through its own generator frames out the global generator state. *)
From Coq Require Import ZArith List Lia.
From Batchie Require Import Lib.Sexp Model.RandProg.
Import ListNotations.
Open Scope Z_scope.

Section Generic.
  Context {Req Ans : Type}.

  Lemma run_length : forall Out (p : prog Req Ans Out) a o rs,
    run p a = Ok (o, rs) -> (length rs <= length a)%nat.
  Proof.
    intros Out p. induction p as [o0 | r k IH]; intros a o rs H.
    - cbn in H. inversion H. cbn. lia.
    - cbn in H. destruct a as [| x rest]; [discriminate |].
      destruct (run (k x) rest) as [[o1 rs1] | t] eqn:E; [| discriminate].
      inversion H; subst. cbn. apply IH in E. lia.
  Qed.

  (* the answers beyond the consumed prefix are irrelevant *)
  Lemma run_prefix : forall Out (p : prog Req Ans Out) a o rs,
    run p a = Ok (o, rs) ->
    forall a', firstn (length rs) a' = firstn (length rs) a -> run p a' = Ok (o, rs).
  Proof.
    intros Out p. induction p as [o0 | r k IH]; intros a o rs H a' Hpre.
    - cbn in *. exact H.
    - cbn in H. destruct a as [| x rest]; [discriminate |].
      destruct (run (k x) rest) as [[o1 rs1] | t] eqn:E; [| discriminate].
      inversion H; subst o rs. cbn [length firstn] in Hpre.
      destruct a' as [| x' rest']; [discriminate |].
      inversion Hpre as [[Hx Hrest]]. subst x'.
      cbn. rewrite (IH x rest o1 rs1 E rest' Hrest). reflexivity.
  Qed.

  Lemma run_app : forall Out (p : prog Req Ans Out) a o rs extra,
    run p a = Ok (o, rs) -> run p (firstn (length rs) a ++ extra) = Ok (o, rs).
  Proof.
    intros Out p a o rs extra H. apply (run_prefix _ p a o rs H).
    pose proof (run_length _ p a o rs H) as Hl.
    rewrite firstn_app, firstn_firstn, Nat.min_id.
    rewrite firstn_length, Nat.min_l by exact Hl.
    rewrite Nat.sub_diag. cbn. apply app_nil_r.
  Qed.

  Lemma exec_is_replay : forall Out S (gen : S -> Req -> Ans * S) (p : prog Req Ans Out) s,
    run p (o_answers (exec gen p s)) = Ok (o_out (exec gen p s), o_reqs (exec gen p s))
    /\ length (o_answers (exec gen p s)) = length (o_reqs (exec gen p s)).
  Proof.
    intros Out S gen p. induction p as [o0 | r k IH]; intros s.
    - cbn. split; reflexivity.
    - cbn. destruct (IH (fst (gen s r)) (snd (gen s r))) as [H1 H2].
      rewrite H1. split; [reflexivity | now rewrite H2].
  Qed.

  Lemma answers_determine_run :
    forall Out S1 S2 (g1 : S1 -> Req -> Ans * S1) (g2 : S2 -> Req -> Ans * S2)
           (p : prog Req Ans Out) s1 s2,
    o_answers (exec g1 p s1) = o_answers (exec g2 p s2) ->
    o_out (exec g1 p s1) = o_out (exec g2 p s2) /\ o_reqs (exec g1 p s1) = o_reqs (exec g2 p s2).
  Proof.
    intros Out S1 S2 g1 g2 p s1 s2 H.
    destruct (exec_is_replay Out S1 g1 p s1) as [H1 _].
    destruct (exec_is_replay Out S2 g2 p s2) as [H2 _].
    rewrite H in H1. rewrite H1 in H2. inversion H2. split; reflexivity.
  Qed.

  Lemma replay_deterministic :
    forall Out S (g1 g2 : S -> Req -> Ans * S) (p : prog Req Ans Out) s1 s2,
    (forall s r, g1 s r = g2 s r) -> s1 = s2 -> exec g1 p s1 = exec g2 p s2.
  Proof.
    intros Out S g1 g2 p. induction p as [o0 | r k IH]; intros s1 s2 Hg Hs; subst s2.
    - reflexivity.
    - cbn. rewrite Hg. rewrite (IH (fst (g2 s1 r)) (snd (g2 s1 r)) (snd (g2 s1 r)) Hg eq_refl).
      reflexivity.
  Qed.

  (* a world whose steps answer like [gen] on the related state runs every program like [gen] does *)
  Lemma exec_simulation :
    forall Out S W (gen : S -> Req -> Ans * S) (wstep : W -> Req -> Ans * W) (R : W -> S -> Prop),
    (forall w s r, R w s -> fst (wstep w r) = fst (gen s r) /\ R (snd (wstep w r)) (snd (gen s r))) ->
    forall (p : prog Req Ans Out) w s, R w s ->
      o_out (exec wstep p w) = o_out (exec gen p s)
      /\ o_reqs (exec wstep p w) = o_reqs (exec gen p s)
      /\ o_answers (exec wstep p w) = o_answers (exec gen p s)
      /\ R (o_final (exec wstep p w)) (o_final (exec gen p s)).
  Proof.
    intros Out S W gen wstep R Hsim p. induction p as [o0 | r k IH]; intros w s Hws.
    - cbn. auto.
    - cbn. destruct (Hsim w s r Hws) as [Ha Hs]. rewrite Ha.
      destruct (IH (fst (gen s r)) _ _ Hs) as (H1 & H2 & H3 & H4).
      rewrite H1, H2, H3. auto.
  Qed.

  Lemma frame :
    forall Out S G (gen : S -> Req -> Ans * S) (wstep : S * G -> Req -> Ans * (S * G))
           (p : prog Req Ans Out),
    (forall s g r, wstep (s, g) r = (fst (gen s r), (snd (gen s r), g))) ->
    forall s g,
      o_out (exec wstep p (s, g)) = o_out (exec gen p s)
      /\ o_reqs (exec wstep p (s, g)) = o_reqs (exec gen p s)
      /\ o_answers (exec wstep p (s, g)) = o_answers (exec gen p s)
      /\ o_final (exec wstep p (s, g)) = (o_final (exec gen p s), g).
  Proof.
    intros Out S G gen wstep p Hown s g.
    apply (exec_simulation Out S (S * G) gen wstep (fun w s' => w = (s', g))); [| reflexivity].
    intros w s' r ->. rewrite Hown. split; reflexivity.
  Qed.

  Lemma own_only_is_own : forall S G (gen : S -> Req -> Ans * S) (s : S) (g : G) r,
    own_only gen (s, g) r = (fst (gen s r), (snd (gen s r), g)).
  Proof. reflexivity. Qed.

  Lemma two_runs_interleaved :
    forall Out S G (gen : S -> Req -> Ans * S) (wstep : S * G -> Req -> Ans * (S * G))
           (p : prog Req Ans Out) (perturb : G -> G),
    (forall s g r, wstep (s, g) r = (fst (gen s r), (snd (gen s r), g))) ->
    forall s g,
      let run1 := exec wstep p (s, g) in
      let run2 := exec wstep p (s, perturb (snd (o_final run1))) in
      o_out run1 = o_out run2 /\ o_reqs run1 = o_reqs run2 /\ o_answers run1 = o_answers run2
      /\ fst (o_final run1) = fst (o_final run2)
      /\ snd (o_final run1) = g /\ snd (o_final run2) = perturb g.
  Proof.
    intros Out S G gen wstep p perturb Hown s g run1 run2. subst run1 run2.
    destruct (frame Out S G gen wstep p Hown s g) as (A1 & A2 & A3 & A4).
    rewrite A4. cbn [snd fst].
    destruct (frame Out S G gen wstep p Hown s (perturb g)) as (B1 & B2 & B3 & B4).
    rewrite A1, A2, A3, B1, B2, B3, B4. cbn [fst snd]. repeat split; reflexivity.
  Qed.

  Lemma run_bind_eq : forall A B (p : prog Req Ans A) (f : A -> prog Req Ans B) a,
    run (bind p f) a =
      match run p a with
      | Ok (x, r1) =>
          match run (f x) (skipn (length r1) a) with
          | Ok (y, r2) => Ok (y, r1 ++ r2)
          | Err t => Err t
          end
      | Err t => Err t
      end.
  Proof.
    intros A B p f. induction p as [o0 | r k IH]; intros a; cbn [bind run].
    - cbn [length skipn]. destruct (run (f o0) a) as [[y r2] | t]; reflexivity.
    - destruct a as [| x0 rest]; [reflexivity |]. rewrite IH.
      destruct (run (k x0) rest) as [[o1 rs1] | t]; [| reflexivity]. cbn [length skipn].
      destruct (run (f o1) (skipn (length rs1) rest)) as [[y r2] | t]; reflexivity.
  Qed.

  Lemma run_bind : forall A B (p : prog Req Ans A) (f : A -> prog Req Ans B) a x r1,
    run p a = Ok (x, r1) ->
    run (bind p f) a =
      match run (f x) (skipn (length r1) a) with
      | Ok (y, r2) => Ok (y, r1 ++ r2)
      | Err t => Err t
      end.
  Proof. intros A B p f a x r1 H. rewrite run_bind_eq, H. reflexivity. Qed.

  Lemma run_bind_err : forall A B (p : prog Req Ans A) (f : A -> prog Req Ans B) a t,
    run p a = Err t -> run (bind p f) a = Err t.
  Proof. intros A B p f a t H. rewrite run_bind_eq, H. reflexivity. Qed.

  Lemma run_bind_ret : forall A B (p : prog Req Ans A) (g : A -> B) a,
    run (bind p (fun x => Ret (g x))) a =
      match run p a with Ok (x, rs) => Ok (g x, rs) | Err t => Err t end.
  Proof.
    intros A B p g a. rewrite run_bind_eq. destruct (run p a) as [[x rs] | t]; [| reflexivity].
    cbn [run]. now rewrite app_nil_r.
  Qed.

  Lemma bind_sequential : forall A B (p : prog Req Ans A) (f : A -> prog Req Ans B) a1 a2 x r1 y r2,
    run p a1 = Ok (x, r1) -> length a1 = length r1 -> run (f x) a2 = Ok (y, r2) ->
    run (bind p f) (a1 ++ a2) = Ok (y, r1 ++ r2).
  Proof.
    intros A B p f a1 a2 x r1 y r2 H1 Hl H2.
    assert (Hp : run p (a1 ++ a2) = Ok (x, r1)).
    { apply (run_prefix _ p a1 x r1 H1). rewrite <- Hl.
      rewrite firstn_app, Nat.sub_diag, firstn_all. cbn. now rewrite app_nil_r. }
    rewrite (run_bind _ _ p f (a1 ++ a2) x r1 Hp).
    rewrite <- Hl, skipn_app, skipn_all, Nat.sub_diag. cbn. rewrite H2. reflexivity.
  Qed.

  Lemma for_each_draw_run : forall A B (rq : A -> Req) (post : A -> Ans -> B) l answers,
    run (for_each (fun x => Draw (rq x) (fun a => Ret (post x a))) l) answers
    = if (length l <=? length answers)%nat
      then Ok (map (fun xa => post (fst xa) (snd xa)) (combine l answers), map rq l)
      else Err 1.
  Proof.
    intros A B rq post l. induction l as [| x r IH]; intros answers; [reflexivity |].
    destruct answers as [| a rest]; [reflexivity |].
    cbn [for_each bind run]. rewrite run_bind_ret, IH. cbn [length Nat.leb].
    destruct (length r <=? length rest)%nat; reflexivity.
  Qed.

  Lemma for_each_trace : forall A B (rq : A -> Req) (post : A -> Ans -> B) l answers,
    (length l <= length answers)%nat ->
    run (for_each (fun x => Draw (rq x) (fun a => Ret (post x a))) l) answers
    = Ok (map (fun xa => post (fst xa) (snd xa)) (combine l answers), map rq l).
  Proof. intros A B rq post l answers Hl. apply Nat.leb_le in Hl. now rewrite for_each_draw_run, Hl. Qed.

  Lemma for_each_short : forall A B (rq : A -> Req) (post : A -> Ans -> B) l answers,
    (length answers < length l)%nat ->
    run (for_each (fun x => Draw (rq x) (fun a => Ret (post x a))) l) answers = Err 1.
  Proof. intros A B rq post l answers Hl. apply Nat.leb_gt in Hl. now rewrite for_each_draw_run, Hl. Qed.

  (* a loop whose body makes at most one request, and whether it does is decided by the item *)
  Lemma for_each_reqs : forall A B (body : A -> prog Req Ans B) (draws : A -> bool) (rq : A -> Req),
    (forall x answers b rs, run (body x) answers = Ok (b, rs) -> rs = if draws x then [rq x] else []) ->
    forall l answers outs rs,
      run (for_each body l) answers = Ok (outs, rs) -> rs = map rq (filter draws l).
  Proof.
    intros A B body draws rq Hbody. induction l as [| x l IH]; intros answers outs rs H.
    - inversion H. reflexivity.
    - cbn [for_each] in H. rewrite run_bind_eq in H.
      destruct (run (body x) answers) as [[b r1] | t] eqn:Eb; [| discriminate].
      rewrite run_bind_ret in H.
      destruct (run (for_each body l) (skipn (length r1) answers)) as [[bs r2] | t] eqn:El; [| discriminate].
      inversion H. rewrite (Hbody _ _ _ _ Eb), (IH _ _ _ El). cbn [filter].
      destruct (draws x); reflexivity.
  Qed.

  Lemma run_bind_ret_ok : forall A B (p : prog Req Ans A) (g : A -> B) a y rs,
    run (bind p (fun x => Ret (g x))) a = Ok (y, rs) -> exists x, run p a = Ok (x, rs).
  Proof.
    intros A B p g a y rs H. rewrite run_bind_ret in H.
    destruct (run p a) as [[x rs'] | t]; [| discriminate]. inversion H. now exists x.
  Qed.
End Generic.

Lemma random_scorer_trace : forall plates answers,
  (length plates <= length answers)%nat ->
  run (random_scorer_prog plates) answers
  = Ok (map (fun xa => (fst xa, hd 0 (snd xa))) (combine plates answers),
        map (fun _ => RRandom) plates).
Proof.
  intros plates answers H. unfold random_scorer_prog, random_scorer_body.
  exact (for_each_trace Z (Z * Z) (fun _ => RRandom) (fun pid a => (pid, hd 0 a)) plates answers H).
Qed.

Lemma balanced_holdout_trace : forall plates num den answers out reqs,
  run (balanced_holdout_prog plates num den) answers = Ok (out, reqs) ->
  reqs = map (balanced_holdout_req num den) (filter (fun pl => negb (snd pl)) plates).
Proof.
  intros plates num den answers out reqs H. unfold balanced_holdout_prog in H.
  destruct (run_bind_ret_ok _ _ _ _ _ _ _ H) as [chosen Hloop].
  apply (for_each_reqs _ _ (balanced_holdout_body num den)) with (2 := Hloop).
  intros pl al b rs. unfold balanced_holdout_body. destruct (snd pl); cbn [run negb].
  - now inversion 1.
  - destruct al; now inversion 1.
Qed.

(* what the legacy Gibbs sampler does: the draw is served from the GLOBAL component *)
Definition leaky_prog : prog req ans Z := Draw RRandom (fun a => Ret (hd 0 a)).
Definition counter_gen (g : Z) (_ : req) : ans * Z := ([g], g + 1).

Lemma global_draws_refuted :
  exists (p : prog req ans Z) (ggen : Z -> req -> ans * Z) (s g1 g2 : Z),
    o_out (exec (from_global ggen) p (s, g1)) <> o_out (exec (from_global ggen) p (s, g2))
    /\ snd (o_final (exec (from_global ggen) p (s, g1))) <> g1.
Proof.
  exists leaky_prog, counter_gen, 0, 5, 6. vm_compute. split; discriminate.
Qed.
