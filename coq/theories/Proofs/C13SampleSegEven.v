(* C13: SampleSegregating generator, repaired logic: the plates of one sample are the chunks of
   np.array_split(permutation, n_plates), so their sizes differ by at most one ("equal sized plates"). *)
From Coq Require Import List Lia.
From Batchie Require Import Lib.Sexp Model.Screen Model.Retro Model.Pairwise Proofs.C13SampleSeg.
Import ListNotations.
Open Scope nat_scope.

Theorem sample_segregating_even : forall mx rows ds out ds',
  generate_plates (GSampleSeg true mx) rows ds = Ok (out, ds') ->
  ss_contract mx (unobserved rows) (sample_names (unobserved rows)) ds ->
  forall r1 r2, In r1 (unobserved out) -> In r2 (unobserved out) -> r_sample r1 = r_sample r2 ->
    length (filter (in_plate (r_plate r1)) (unobserved out))
    <= length (filter (in_plate (r_plate r2)) (unobserved out)) + 1.
Proof.
  intros mx rows ds out ds' H HC r1 r2 H1 H2 Hs.
  destruct (sample_segregating_plates _ _ _ _ _ H HC r1 H1) as (c1 & (_ & _ & Hq1) & -> & _).
  destruct (sample_segregating_plates _ _ _ _ _ H HC r2 H2) as (c2 & (_ & _ & Hq2) & -> & _).
  rewrite Hs in Hq1. lia.
Qed.
