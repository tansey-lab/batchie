(* C19: the four run_* command builders of nextflow/scripts/batchie.py, re-translated from /repo on every run
   (Generated/SrcOrchCmd.v, configurations C19_RUN_* of harness/src_functions.py), build exactly the command lines that denote
   the model's launches LInit / LFirst / LProsp / LNext: the launch primitive launch_cmd of the run_next_* links is a theorem. *)
From Coq Require Import ZArith List Lia.
From Coq Require DecimalNat DecimalFacts.
From Batchie Require Import Lib.PyRt Model.Orchestrate Generated.SrcOrchCmd Proofs.C19Base.
Import ListNotations.
Open Scope Z_scope.

Lemma all_words_app a b :
  all_words (a ++ b) = match all_words a with
                       | Some x => match all_words b with Some y => Some (x ++ y) | None => None end
                       | None => None
                       end.
Proof.
  induction a as [|[w|] a IH]; cbn [app all_words].
  - destruct (all_words b); reflexivity.
  - rewrite IH. destruct (all_words a); [destruct (all_words b)|]; reflexivity.
  - reflexivity.
Qed.

Lemma all_words_extra extra : all_words (map extra_word extra) = Some (map WExtra extra).
Proof. induction extra as [|x l IH]; cbn [map all_words extra_word]; [reflexivity|]. now rewrite IH. Qed.

Lemma excludes_of_extra extra r : excludes_of (map WExtra extra ++ r) = excludes_of r.
Proof. induction extra as [|x l IH]; cbn [map app excludes_of]; [reflexivity | exact IH]. Qed.

(* run_initial_plate: `nextflow run main.nf --mode retrospective --screen S --name N --outdir D --initialize true -work-dir D/work`
   + extra words = the launch LInit S of the job directory D; a None screen is a TypeError before anything is started *)
Theorem src_run_initial_plate_is_model : forall acts o scr nm extra,
  src_run_initial_plate acts o scr nm extra = launch_cmd acts o (option_map LInit scr).
Proof.
  intros acts o scr nm extra. unfold src_run_initial_plate, join_words, check_call.
  rewrite all_words_app, all_words_extra. destruct scr as [p|]; reflexivity.
Qed.

Theorem src_run_first_batch_plate_is_model : forall acts o tr te nm extra,
  src_run_first_batch_plate acts o tr te nm extra = launch_cmd acts o (first_cmd tr te).
Proof.
  intros acts o tr te nm extra. unfold src_run_first_batch_plate, join_words, check_call.
  rewrite all_words_app, all_words_extra. destruct tr as [p|]; [destruct te as [q|]|]; reflexivity.
Qed.

Theorem src_run_first_prospective_batch_plate_is_model : forall acts o scr nm extra,
  src_run_first_prospective_batch_plate acts o scr nm extra = launch_cmd acts o (option_map LProsp scr).
Proof.
  intros acts o scr nm extra. unfold src_run_first_prospective_batch_plate, join_words, check_call.
  rewrite all_words_app, all_words_extra. destruct scr as [p|]; reflexivity.
Qed.

(* run_subsequent_batch_plate, with the two glob patterns of ONE job directory t (both come from the dict
   get_theta_and_dist_chunks(t) returns): the launch LNext S t excludes; excludes=None puts no --excludes word *)
Theorem src_run_subsequent_batch_plate_is_model : forall acts o scr t nm extra excl,
  src_run_subsequent_batch_plate acts o scr (TGlob t) (DGlob t) nm extra excl = launch_cmd acts o (next_cmd scr t excl).
Proof.
  intros acts o scr t nm extra excl. unfold src_run_subsequent_batch_plate, join_words, check_call.
  destruct excl as [l|]; cbn [is_some sunwrap sbind]; rewrite !all_words_app, all_words_extra;
    (destruct scr as [p|]; [|reflexivity]); cbn; rewrite step_eqb_refl.
  - now rewrite excludes_of_extra.
  - now rewrite <- (app_nil_r (map WExtra extra)), excludes_of_extra.
Qed.

Lemma uint_of_chars_chars u : uint_of_chars (uint_chars u) = Some u.
Proof. induction u; cbn [uint_chars uint_of_chars]; try reflexivity; rewrite IHu; reflexivity. Qed.

Lemma uint_chars_no_sep u : Forall (fun c => c <> 95) (uint_chars u).
Proof. induction u; cbn [uint_chars]; constructor; (lia || assumption). Qed.

Lemma to_uint_nonnil i : Nat.to_uint i <> Decimal.Nil.
Proof.
  pose proof (DecimalNat.Unsigned.to_of (Nat.to_uint i)) as H. rewrite DecimalNat.Unsigned.of_to in H.
  rewrite H. apply DecimalFacts.unorm_nonnil.
Qed.

Lemma int_of_str_numeral i : int_of_str (uint_chars (Nat.to_uint i)) = SOk (Z.of_nat i).
Proof.
  unfold int_of_str. rewrite uint_of_chars_chars, DecimalNat.Unsigned.of_to.
  destruct (uint_chars (Nat.to_uint i)) eqn:E; [|reflexivity].
  exfalso. apply (to_uint_nonnil i). destruct (Nat.to_uint i); cbn [uint_chars] in E; (reflexivity || discriminate E).
Qed.

Lemma split_on_no_sep sep s : Forall (fun c => c <> sep) s -> split_on sep s = [s].
Proof.
  induction 1 as [|c r Hc _ IH]; cbn [split_on]; [reflexivity|].
  destruct (Z.eqb_spec c sep) as [E|_]; [contradiction|]. now rewrite IH.
Qed.

Lemma split_on_numbered sep pre s :
  Forall (fun c => c <> sep) pre -> Forall (fun c => c <> sep) s -> split_on sep (pre ++ sep :: s) = [pre; s].
Proof.
  intros Hp Hs. induction Hp as [|c r Hc _ IH]; cbn [app split_on].
  - rewrite Z.eqb_refl. now rewrite split_on_no_sep.
  - destruct (Z.eqb_spec c sep) as [E|_]; [contradiction|]. now rewrite IH.
Qed.

(* the translated dir_sort_key on any path whose last component is "<prefix>_<decimal numeral of i>" (prefix without "_") *)
Theorem src_dir_sort_key_numbered : forall (dir : fspath) (pre : str) (i : nat),
  Forall (fun c => c <> 95) pre -> src_dir_sort_key (dir ++ [numbered pre i]) = SOk (Z.of_nat i).
Proof.
  intros dir pre i Hp. unfold src_dir_sort_key, basename, numbered. rewrite last_last.
  rewrite (split_on_numbered 95 pre _ Hp (uint_chars_no_sep _)). cbn [snth nth_error sbind].
  now rewrite int_of_str_numeral.
Qed.

Lemma no_sep_iter : Forall (fun c => c <> 95) S_iter.
Proof. repeat constructor; discriminate. Qed.
Lemma no_sep_plate : Forall (fun c => c <> 95) S_plate.
Proof. repeat constructor; discriminate. Qed.

(* the index primitives of examine's configuration (dir_sort_key(x) = iter_index x / plate_index x on the model value of the
   path) are what the translated dir_sort_key computes on the path's NAME *)
Theorem src_dir_sort_key_is_iter_index : forall (out : fspath) (d : iter_path),
  0 <= fst d -> src_dir_sort_key (iter_pathname out d) = SOk (iter_index d).
Proof.
  intros out d H. unfold iter_pathname, iter_index. rewrite (src_dir_sort_key_numbered out S_iter _ no_sep_iter).
  now rewrite Z2Nat.id.
Qed.

Theorem src_dir_sort_key_is_plate_index : forall (out : fspath) (p : plate_path),
  0 <= snd (fst p) -> src_dir_sort_key (plate_pathname out p) = SOk (plate_index p).
Proof.
  intros out p H. unfold plate_pathname, plate_index.
  change (out ++ [numbered S_iter (Z.to_nat (fst (fst p))); numbered S_plate (Z.to_nat (snd (fst p)))])
    with (out ++ [numbered S_iter (Z.to_nat (fst (fst p)))] ++ [numbered S_plate (Z.to_nat (snd (fst p)))]).
  rewrite app_assoc, (src_dir_sort_key_numbered _ S_plate _ no_sep_plate). now rewrite Z2Nat.id.
Qed.
