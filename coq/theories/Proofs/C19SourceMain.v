(* C19: main() of nextflow/scripts/batchie.py, re-translated from /repo on every run (Generated/SrcOrchMain.v, configuration
   C19_MAIN of harness/src_functions.py), is the model's [invocation]: the mode dispatch, the while-loop on explicit fuel whose
   body calls the translated run_next_* function in the world, and the test that leaves the loop.  The fuel hypothesis is
   discharged on every reachable tree. *)
From Coq Require Import ZArith List Lia.
From Batchie Require Import Model.Orchestrate Generated.SrcOrchestrate Generated.SrcOrchMain Proofs.C19Base Proofs.C19Canon Proofs.C19Step Proofs.C19Main Proofs.C19Invocation Proofs.C19InvocationThm Proofs.C19Source.
Import ListNotations.
Open Scope Z_scope.

(* one call in the world = one [attempt] of the model, with the value [call_returns] says it hands back *)
Lemma exec_result_is_attempt md fixed bs n f e :
  exec_result n f e (result_of_plan md bs (plan_of md fixed bs f))
  = (fst (attempt md fixed bs n f e), snd (attempt md fixed bs n f e),
     call_returns md bs (snd (attempt md fixed bs n f e))).
Proof.
  unfold attempt. destruct (plan_of md fixed bs f) as [w s| |acts] eqn:Ep;
    cbn [result_of_plan exec_result fst snd call_returns]; [reflexivity | reflexivity |].
  destruct (plan_acts_shape _ _ _ _ _ Ep) as (a0 & b0 & c0 & x & ->).
  cbn [rev app].
  destruct x as [s|i|s|s l|w]; cbn [exec_result app]; unfold run_events; cbn [firstn nth];
    destruct (e_k e <? 4)%nat; cbn [fst snd call_returns]; reflexivity.
Qed.

(* the function main() holds in run_next *)
(* (the world of main()'s link holds no torn marker: the function runs on the tree with the empty torn set) *)
Definition src_stepfn (md : mode) : stepfn :=
  match md with
  | Retro => fun f => src_run_next_retrospective_step (f, [])
  | Prosp => fun f => src_run_next_prospective_step (f, [])
  end.

Lemma src_stepfn_is_model md f extra bs :
  src_stepfn md f SInput extra bs = result_of_plan md bs (plan_of md true bs f).
Proof. destruct md; [apply src_run_next_retro_is_model | apply src_run_next_prosp_is_model]. Qed.

Lemma world_call_is_attempt md n f sched calls0 extra bs :
  world_call n (src_stepfn md) (mkw f sched calls0) OutDir SInput extra bs
  = match sched with
    | [] => MEnd IExhausted (mkw f [] calls0)
    | e :: rest =>
        let a := attempt md true bs n f e in
        let w1 := mkw (fst a) rest (calls0 ++ [snd a]) in
        match call_returns md bs (snd a) with Some v => MOk (v, w1) | None => MEnd IRaised w1 end
    end.
Proof.
  unfold world_call. cbn [w_sched w_fs w_calls]. destruct sched as [|e rest]; [reflexivity|].
  rewrite src_stepfn_is_model, exec_result_is_attempt. reflexivity.
Qed.

(* number of times the loop body is started: one per call, and once more when the observation ends while main() goes on *)
Definition iterations (r : ires) : nat :=
  match r_end r with IExhausted => S (length (r_calls r)) | _ => length (r_calls r) end.

Lemma iterations_cons md fixed bs n f e rest :
  iterations (invocation md fixed bs n f (e :: rest))
  = match call_returns md bs (snd (attempt md fixed bs n f e)) with
    | Some true => S (iterations (invocation md fixed bs n (fst (attempt md fixed bs n f e)) rest))
    | _ => 1%nat
    end.
Proof.
  cbn [invocation]. destruct (attempt md fixed bs n f e) as [f1 g]. cbn [fst snd]. unfold iterations.
  destruct (call_returns md bs g) as [[|]|]; cbn [r_end r_calls length]; [|reflexivity..].
  now destruct (r_end (invocation md fixed bs n f1 rest)).
Qed.

(* the body of main()'s while-loop, as the translation writes it *)
Definition main_body (md : mode) (n : nat) (extra : eargs) (bs : Z) (w : world) : mres (bool * world) :=
  dom (again, w1) <- world_call n (src_stepfn md) w OutDir SInput extra bs;
  if negb again then MOk (false, w1) else MOk (true, w1).

Lemma main_loop md n extra bs :
  forall sched fuel f calls0,
  (iterations (invocation md true bs n f sched) <= fuel)%nat ->
  mwhile fuel (main_body md n extra bs) (mkw f sched calls0) = mres_of_ires calls0 (invocation md true bs n f sched).
Proof.
  induction sched as [|e rest IH]; intros fuel f calls0 Hf.
  - cbn [invocation iterations r_end r_calls length] in Hf. destruct fuel as [|fuel]; [lia|].
    cbn [mwhile]. unfold main_body. rewrite world_call_is_attempt.
    cbn [mbind invocation]. unfold mres_of_ires. cbn [r_fs r_rest r_calls r_end]. now rewrite app_nil_r.
  - rewrite iterations_cons in Hf. cbn [invocation].
    destruct fuel as [|fuel]; [destruct (call_returns md bs (snd (attempt md true bs n f e))) as [[|]|]; lia|].
    cbn [mwhile]. unfold main_body at 1. rewrite world_call_is_attempt. cbn zeta.
    destruct (attempt md true bs n f e) as [f1 g]. cbn [fst snd] in *.
    destruct (call_returns md bs g) as [[|]|]; cbn [mbind fst snd negb]; [|reflexivity..].
    rewrite IH by lia. unfold mres_of_ires. cbn [r_fs r_rest r_calls r_end]. now rewrite <- app_assoc.
Qed.

Lemma mbind_ret (r : mres world) : (dom w <- r; MOk w) = r.
Proof. destruct r; reflexivity. Qed.

(* main(): for sufficient fuel it is the model's invocation *)
Theorem src_main_is_invocation : forall md n fuel argv extra f sched calls0,
  a_mode argv = modename_of md ->
  (iterations (invocation md true (a_batch_size argv) n f sched) <= fuel)%nat ->
  src_main n fuel argv extra (mkw f sched calls0)
  = mres_of_ires calls0 (invocation md true (a_batch_size argv) n f sched).
Proof.
  intros md n fuel argv extra f sched calls0 Hm Hf. unfold src_main. rewrite Hm.
  destruct md; cbn [modename_of modename_eqb]; rewrite mbind_ret.
  - exact (main_loop Retro n extra (a_batch_size argv) sched fuel f calls0 Hf).
  - exact (main_loop Prosp n extra (a_batch_size argv) sched fuel f calls0 Hf).
Qed.

(* a mode string argparse does not admit: ValueError before anything is called *)
Theorem src_main_unknown_mode : forall n fuel argv extra w z,
  a_mode argv = NOther z -> src_main n fuel argv extra w = MEnd IRaised w.
Proof. intros n fuel argv extra w z Hm. unfold src_main. rewrite Hm. reflexivity. Qed.

(* the observation window bounds the loop: one iteration per schedule entry, and one more *)
Lemma iterations_le_sched md fixed bs n : forall sched f,
  (iterations (invocation md fixed bs n f sched) <= S (length sched))%nat.
Proof.
  induction sched as [|e rest IH]; intros f; [cbn; lia|].
  rewrite iterations_cons. specialize (IH (fst (attempt md fixed bs n f e))).
  destruct (call_returns md bs (snd (attempt md fixed bs n f e))) as [[|]|]; cbn [length]; lia.
Qed.

Theorem src_main_is_invocation_window : forall md n fuel argv extra f sched calls0,
  a_mode argv = modename_of md -> (length sched < fuel)%nat ->
  src_main n fuel argv extra (mkw f sched calls0)
  = mres_of_ires calls0 (invocation md true (a_batch_size argv) n f sched).
Proof.
  intros md n fuel argv extra f sched calls0 Hm Hf. apply src_main_is_invocation; [exact Hm|].
  pose proof (iterations_le_sched md true (a_batch_size argv) n sched f). lia.
Qed.

Definition call_bound (md : mode) (bs n c : nat) : nat :=
  match md with Retro => S (n - c) | Prosp => (bs - c mod bs)%nat end.

Section Bound.
Variables (bs n : nat) (fixed : bool).
Hypothesis Hbs : (1 <= bs)%nat.
Hypothesis Hn : (1 <= n)%nat.
Hypothesis Hfix : fixed = true \/ bs = 1%nat.
Local Notation B := (Z.of_nat bs).

Lemma call_bound_pos md c : (1 <= call_bound md bs n c)%nat.
Proof. unfold call_bound. destruct md; [lia|]. pose proof (Nat.mod_upper_bound c bs ltac:(lia)). lia. Qed.

Lemma iterations_bound md : forall sched c x, sched_ok sched -> state_ok md n c x ->
  (iterations (invocation md fixed B n (canon md bs n c x) sched) <= call_bound md bs n c)%nat.
Proof.
  induction sched as [|e rest IH]; intros c x Hs Hi.
  - unfold iterations. cbn [invocation r_end r_calls length]. apply call_bound_pos.
  - inversion Hs as [|? ? He Hr]; subst. rewrite iterations_cons.
    destruct (attempt_canon md bs n Hbs Hn fixed c x e Hi Hfix He) as (c1 & x1 & g & Ea & Hi1 & Hlog & Hd & Hdone).
    rewrite Ea. cbn [fst snd]. pose proof (call_bound_pos md c) as Hpos.
    destruct (call_returns md B g) as [[|]|] eqn:Ec; [|lia..].
    destruct (call_true_inv md bs g Ec) as (s & l & ps & Eg & Hlt).
    destruct Hd as [[_ Hno]|(-> & -> & ps' & Eg')]; [now apply Hno in Eg|].
    specialize (IH (S c) XNone Hr Hi1).
    (* the step just completed uses up one of the calls that were left *)
    enough (S (call_bound md bs n (S c)) <= call_bound md bs n c)%nat by lia.
    unfold call_bound. destruct md.
    + destruct Hi1 as [_ Hr1]. destruct (Hr1 eq_refl) as [Hle _]. lia.
    + rewrite Eg in Eg'. injection Eg' as Es _ _. subst s. specialize (Hlt eq_refl).
      unfold step_of in Hlt. cbn [snd] in Hlt.
      destruct (div_same_batch bs Hbs c Hlt) as [_ Hmod]. rewrite Hmod. lia.
Qed.

End Bound.

(* from ANY tree reachable by a crash schedule, for ANY further schedule: main() with fuel call_bound (retrospective:
   plates not yet completed + 1, prospective: what is left of the current batch) is the model's invocation - the hypothesis on `iterations` is gone *)
Theorem src_main_fuel_discharged : forall (bs n : nat), (1 <= bs)%nat -> (1 <= n)%nat ->
  forall md sched0 sched argv extra calls0 fuel,
  sched_ok sched0 -> sched_ok sched ->
  a_mode argv = modename_of md -> a_batch_size argv = Z.of_nat bs ->
  let f := fst (script_run md true (Z.of_nat bs) n [] sched0) in
  (call_bound md bs n (length (completed f)) <= fuel)%nat ->
  src_main n fuel argv extra (mkw f sched calls0)
  = mres_of_ires calls0 (invocation md true (Z.of_nat bs) n f sched).
Proof.
  intros bs n Hbs Hn md sched0 sched argv extra calls0 fuel Hs0 Hs Hm Hb. cbn zeta.
  destruct (reach_from_empty md bs n true Hbs Hn (or_introl eq_refl) sched0 Hs0) as (c & x & -> & Hi).
  destruct Hi as [Hx Hr].
  rewrite (completed_canon md bs n Hbs Hn c x Hx), (ideal_length md bs n). intros Hf.
  rewrite <- Hb. apply src_main_is_invocation; [exact Hm|]. rewrite Hb.
  pose proof (iterations_bound bs n true Hbs Hn (or_introl eq_refl) md sched c x Hs (conj Hx Hr)). lia.
Qed.

(* in particular: n + 1 iterations (retrospective) resp. batch-size iterations (prospective) always suffice *)
Lemma call_bound_le md bs n c : (call_bound md bs n c <= match md with Retro => S n | Prosp => bs end)%nat.
Proof. unfold call_bound. destruct md; lia. Qed.

(* prospective, the setting of C19_invocation_finishes_batch_and_stops: with fuel = the batch size main() returns normally,
   having made exactly bs - c mod bs calls, all successful launches of the steps up to the end of the current batch *)
Theorem src_main_finishes_batch : forall (bs n : nat), (1 <= bs)%nat -> (1 <= n)%nat ->
  forall sched0 e rest argv extra fuel,
  sched_ok sched0 -> entry_ok e = true -> full_entry e -> (bs <= n)%nat ->
  a_mode argv = NProspective -> a_batch_size argv = Z.of_nat bs -> (bs <= fuel)%nat ->
  let f := fst (script_run Prosp true (Z.of_nat bs) n [] sched0) in
  let c := length (completed f) in
  let m := (bs - c mod bs)%nat in
  (forall w s, plan_of Prosp true (Z.of_nat bs) f <> PNamed w s) ->
  exists w', src_main n fuel argv extra (mkw f (repeat e m ++ rest) []) = MOk w'
    /\ w_sched w' = rest
    /\ map launch_key (w_calls w') = map (ideal_key Prosp bs) (seq c m)
    /\ completed (w_fs w') = ideal Prosp bs n (c + m).
Proof.
  intros bs n Hbs Hn sched0 e rest argv extra fuel Hs0 He Hf Hbn Hm Hb Hfuel. cbn zeta. intros Hplan.
  pose proof (invocation_finishes_batch bs n true Hbs Hn (or_introl eq_refl) sched0 e rest Hs0 He Hf Hbn) as H.
  cbn zeta in H. specialize (H Hplan). destruct H as (H1 & H2 & H3 & H4).
  set (f := fst (script_run Prosp true (Z.of_nat bs) n [] sched0)) in *.
  set (r := invocation Prosp true (Z.of_nat bs) n f (repeat e (bs - length (completed f) mod bs) ++ rest)) in *.
  exists (mkw (r_fs r) (r_rest r) (r_calls r)).
  rewrite (src_main_is_invocation Prosp n fuel argv extra f _ [] Hm).
  - rewrite Hb. fold r. unfold mres_of_ires. rewrite H1. cbn [app w_sched w_calls w_fs]. auto.
  - rewrite Hb. fold r. unfold iterations. rewrite H1.
    apply (f_equal (@length _)) in H3. rewrite !map_length, seq_length in H3. lia.
Qed.

(* retrospective, the setting of C19_retro_invocation_stops_iff_finished: with fuel = n + 1, whatever the schedule, a main()
   that returns normally has completed all n steps, all its calls but the last were successful launches; once the n steps are
   complete main() makes one call, changes nothing and returns *)
Theorem src_main_retro_stops : forall (bs n : nat), (1 <= bs)%nat -> (1 <= n)%nat ->
  forall sched0 sched argv extra fuel,
  sched_ok sched0 -> sched_ok sched ->
  a_mode argv = NRetrospective -> a_batch_size argv = Z.of_nat bs -> (S n <= fuel)%nat ->
  let f := fst (script_run Retro true (Z.of_nat bs) n [] sched0) in
  (forall w', src_main n fuel argv extra (mkw f sched []) = MOk w' ->
     completed (w_fs w') = crash_free Retro bs n /\
     exists pre, w_calls w' = pre ++ [GDone] /\ Forall (fun g => exists s l ps, g = GLaunch s l ps true) pre) /\
  (completed f = crash_free Retro bs n -> sched <> [] ->
     exists w', src_main n fuel argv extra (mkw f sched []) = MOk w' /\ w_fs w' = f /\ w_calls w' = [GDone]).
Proof.
  intros bs n Hbs Hn sched0 sched argv extra fuel Hs0 Hs Hm Hb Hfuel. cbn zeta.
  pose proof (src_main_fuel_discharged bs n Hbs Hn Retro sched0 sched argv extra [] fuel Hs0 Hs Hm Hb) as E.
  cbn zeta in E. rewrite E by (pose proof (call_bound_le Retro bs n (length (completed (fst (script_run Retro true (Z.of_nat bs) n [] sched0))))); cbn in *; lia).
  clear E.
  pose proof (retro_invocation_stops bs n true Hbs Hn (or_introl eq_refl) sched0 sched Hs0 Hs) as H. cbn zeta in H.
  destruct H as [H1 H2].
  set (r := invocation Retro true (Z.of_nat bs) n (fst (script_run Retro true (Z.of_nat bs) n [] sched0)) sched) in *.
  unfold mres_of_ires. cbn [app]. split.
  - intros w' Ew. destruct (r_end r) eqn:Er; try discriminate Ew. injection Ew as <-. cbn [w_fs w_calls]. exact (H1 eq_refl).
  - intros Ec Hne. destruct (H2 Ec Hne) as (Ecalls & Eend & Efs). rewrite Eend. eexists. split; [reflexivity|].
    cbn [w_fs w_calls]. auto.
Qed.
