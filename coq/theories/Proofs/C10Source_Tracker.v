(* C10: SimulationTracker.__init__ / save / load (core.py; Generated/SrcTracker.v; model vocabulary: Model/Tracker.v) *)
From Coq Require Import ZArith List.
From Coq Require String.
From Batchie Require Import Lib.Sexp Model.Tracker Generated.SrcTracker.
Import ListNotations.
Import String.StringSyntax.
Local Open Scope string_scope.
Open Scope Z_scope.

(* __init__ stores its three arguments, whatever the instance held before *)
Theorem src_tracker_init_stores : forall (J : Type) (o : pytracker J) (a b c : J), src_tracker_init J o a b c = Ok (a, b, c).
Proof. intros J [[x y] z] a b c. reflexivity. Qed.

(* save writes ONE JSON object: the three attributes under their names, in the order __init__ assigned them *)
Theorem src_tracker_save_writes_dict : forall (J : Type) (t : pytracker J), src_tracker_save J t = Ok (Some (tracker_dict t)).
Proof. reflexivity. Qed.

(* load of a file that holds exactly the three keys, in the order save writes them: the object with those values *)
Theorem src_tracker_load_of_saved : forall (J : Type) (blank t : pytracker J),
  src_tracker_load J blank (Some (tracker_dict t)) = Ok t.
Proof. intros J [[x y] z] [[a b] c]. reflexivity. Qed.

Theorem src_tracker_save_load : forall (J : Type) (blank t : pytracker J),
  (dor f <- src_tracker_save J t; src_tracker_load J blank f) = Ok t.
Proof. intros. rewrite src_tracker_save_writes_dict. cbn [res_bind]. apply src_tracker_load_of_saved. Qed.

(* what load refuses: an empty file (95); an object with a key that is no parameter, or without one of the three (TypeError, 93) *)
Theorem src_tracker_load_refuses : forall (J : Type) (blank : pytracker J) (x : J),
  src_tracker_load J blank None = Err 95 /\
  src_tracker_load J blank (Some [(tkey_of "seed", x); (tkey_of "extra", x)]) = Err 93 /\
  src_tracker_load J blank (Some [(tkey_of "seed", x); (tkey_of "losses", x)]) = Err 93.
Proof. intros. repeat split; reflexivity. Qed.

(* the order of the keys in the file does not matter (cls( **data ) binds by name) *)
Theorem src_tracker_load_any_order : forall (J : Type) (blank : pytracker J) (a b c : J),
  src_tracker_load J blank (Some [(tkey_of "seed", c); (tkey_of "plate_ids_selected", a); (tkey_of "losses", b)]) = Ok (a, b, c).
Proof. intros J [[x y] z] a b c. reflexivity. Qed.
