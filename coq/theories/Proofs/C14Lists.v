(* C14: list lemmas about select / np_where / scatter / bor_vec / filter over seq. *)
From Coq Require Import List Bool Arith Lia Sorted.
From Batchie Require Import Lib.ListX Model.Views Proofs.C14Defs.
Import ListNotations.
Open Scope nat_scope.

Lemma select_nil_r {A} sel : @select A sel [] = [].
Proof. destruct sel as [|b s]; reflexivity. Qed.

Lemma select_map {A B} (f : A -> B) sel l : select sel (map f l) = map f (select sel l).
Proof.
  revert l; induction sel as [|b s IH]; intros [|x l]; cbn [select map]; try reflexivity.
  destruct b; cbn [map]; now rewrite IH.
Qed.

Lemma In_select {A} sel (l : list A) x : In x (select sel l) -> In x l.
Proof.
  revert l; induction sel as [|b s IH]; intros [|y l]; cbn [select]; try (intros []).
  destruct b; cbn [In]; intros H; [destruct H as [H|H]; [now left|]|]; right; now apply IH.
Qed.

Lemma Forall_select {A} (P : A -> Prop) sel l : Forall P l -> Forall P (select sel l).
Proof. rewrite !Forall_forall. intros H x Hx. apply H. eapply In_select; eassumption. Qed.

Lemma map_nth_seq {A} (l : list A) d : map (fun i => nth i l d) (seq 0 (length l)) = l.
Proof. symmetry. apply list_eq_map_nth. Qed.

Lemma nth_map_error {A B} (f : A -> B) l i d :
  nth i (map f l) d = match nth_error l i with Some x => f x | None => d end.
Proof.
  revert i; induction l as [|x l IH]; intros [|i]; cbn [map nth nth_error]; try reflexivity. apply IH.
Qed.

Lemma where_from_select i sel : where_from i sel = select sel (seq i (length sel)).
Proof.
  revert i; induction sel as [|b s IH]; intros i; cbn [where_from length seq select]; [reflexivity|].
  destruct b; now rewrite IH.
Qed.

Lemma select_map_filter {A} (f : A -> bool) l : select (map f l) l = filter f l.
Proof.
  induction l as [|x l IH]; cbn [map select filter]; [reflexivity|]. destruct (f x); now rewrite IH.
Qed.

Lemma where_filter sel : np_where sel = filter (fun i => nth i sel false) (seq 0 (length sel)).
Proof.
  unfold np_where. rewrite where_from_select. rewrite <- (map_nth_seq sel false) at 1. apply select_map_filter.
Qed.

Lemma where_select sel : np_where sel = select sel (seq 0 (length sel)).
Proof. apply where_from_select. Qed.

(* attribute = the column's values at the selected indices, in index order *)
Lemma select_nth {A} (d : A) sel col :
  length sel = length col -> select sel col = map (fun i => nth i col d) (np_where sel).
Proof.
  intros H. rewrite where_select, <- select_map, H, map_nth_seq. reflexivity.
Qed.

Lemma mem_nat_In i l : mem_nat i l = true <-> In i l.
Proof.
  unfold mem_nat. rewrite existsb_exists. split.
  - intros (x & Hx & E). apply Nat.eqb_eq in E. now subst.
  - intros H. exists i. split; [exact H|apply Nat.eqb_refl].
Qed.

Lemma mem_filter_seq f n i : mem_nat i (filter f (seq 0 n)) = (i <? n) && f i.
Proof.
  apply eq_true_iff_eq. rewrite mem_nat_In, filter_In, in_seq, andb_true_iff, Nat.ltb_lt. intuition lia.
Qed.

Lemma mem_where i sel : mem_nat i (np_where sel) = nth i sel false.
Proof.
  rewrite where_filter, mem_filter_seq.
  destruct (Nat.ltb_spec i (length sel)) as [H|H]; cbn [andb]; [reflexivity|].
  symmetry. now apply nth_overflow.
Qed.

Lemma In_where i sel : In i (np_where sel) <-> nth i sel false = true.
Proof. now rewrite <- mem_nat_In, mem_where. Qed.

Lemma where_sorted sel : StronglySorted lt (np_where sel).
Proof. rewrite where_filter. apply StronglySorted_filter, seq_sorted. Qed.

Lemma where_lt sel i : In i (np_where sel) -> i < length sel.
Proof. rewrite where_filter, filter_In, in_seq. lia. Qed.

Lemma sel_mask_of sel : sel = mask_of (length sel) (np_where sel).
Proof.
  unfold mask_of. rewrite <- (map_nth_seq sel false) at 1.
  apply map_ext. intros i. now rewrite mem_where.
Qed.

Lemma list_bool_ext (a b : list bool) :
  length a = length b ->
  (forall i, i < length a -> (nth i a false = true <-> nth i b false = true)) -> a = b.
Proof.
  intros HL H. apply nth_ext with (d := false) (d' := false); [exact HL|].
  intros i Hi. apply eq_true_iff_eq. now apply H.
Qed.

Lemma set_nth_length {A} i (x : A) l : length (set_nth i x l) = length l.
Proof.
  revert i; induction l as [|y l IH]; intros [|i]; cbn [set_nth length]; try reflexivity. now rewrite IH.
Qed.

Lemma set_nth_app {A} (pre : list A) x y s : set_nth (length pre) x (pre ++ y :: s) = pre ++ x :: s.
Proof. induction pre as [|a pre IH]; cbn [length app set_nth]; [reflexivity|now rewrite IH]. Qed.

Lemma nth_set_nth {A} i j (x d : A) l :
  nth i (set_nth j x l) d = if (i =? j) && (j <? length l) then x else nth i l d.
Proof.
  revert i j; induction l as [|y l IH]; intros i j.
  - cbn [set_nth length]. destruct j; rewrite andb_false_r; reflexivity.
  - destruct j as [|j]; cbn [set_nth].
    + destruct i as [|i]; reflexivity.
    + destruct i as [|i]; cbn [nth]; [reflexivity|].
      rewrite IH. cbn [length]. reflexivity.
Qed.

Lemma scatter_length {A} (l : list A) idx vals : length (scatter l idx vals) = length l.
Proof.
  revert l vals; induction idx as [|i idx IH]; intros l [|x vals]; cbn [scatter]; try reflexivity.
  now rewrite IH, set_nth_length.
Qed.

Lemma scatter_where_expand pre sel inner :
  scatter (pre ++ sel) (where_from (length pre) sel) inner = pre ++ expand sel inner.
Proof.
  revert pre inner; induction sel as [|b s IH]; intros pre inner; cbn [where_from expand]; [reflexivity|].
  (* once position [length pre] holds its final value y, it joins the prefix *)
  assert (step : forall y inner', scatter (pre ++ y :: s) (where_from (S (length pre)) s) inner' = pre ++ y :: expand s inner').
  { intros y inner'. specialize (IH (pre ++ [y]) inner').
    rewrite app_length, Nat.add_1_r, <- !app_assoc in IH. exact IH. }
  destruct b; [|apply step].
  destruct inner as [|x inner]; cbn [scatter]; [reflexivity|]. rewrite set_nth_app. apply step.
Qed.

Lemma scatter_where sel inner : scatter sel (np_where sel) inner = expand sel inner.
Proof. exact (scatter_where_expand [] sel inner). Qed.

Lemma expand_length sel inner : length (expand sel inner) = length sel.
Proof.
  revert inner; induction sel as [|b s IH]; intros inner; cbn [expand length]; [reflexivity|].
  destruct b; [destruct inner|]; cbn [length]; now rewrite ?IH.
Qed.

Lemma select_expand {A} sel inner (l : list A) :
  length inner = length (select sel l) -> select (expand sel inner) l = select inner (select sel l).
Proof.
  revert inner l; induction sel as [|b s IH]; intros inner [|y l] HI; cbn [expand select] in *;
    try (now rewrite !select_nil_r).
  destruct b; [|now apply IH].
  destruct inner as [|x inner]; [discriminate|]. injection HI as HI. cbn [select]. now rewrite IH.
Qed.

Lemma select_length {A} sel (l : list A) : length sel = length l -> length (select sel l) = length (np_where sel).
Proof.
  intros H. destruct l as [|d l'] eqn:E.
  - rewrite select_nil_r. destruct sel; [reflexivity|discriminate].
  - rewrite <- E in *. rewrite (select_nth d) by exact H. apply map_length.
Qed.

Lemma where_expand sel inner :
  length inner = length (np_where sel) -> np_where (expand sel inner) = select inner (np_where sel).
Proof.
  intros H. rewrite !where_select, expand_length. apply select_expand. now rewrite <- where_select.
Qed.

Lemma bor_vec_length a b : length a = length b -> length (bor_vec a b) = length a.
Proof. intros H. unfold bor_vec. rewrite map_length, combine_length. lia. Qed.

Lemma nth_bor_vec a b i : length a = length b ->
  nth i (bor_vec a b) false = nth i a false || nth i b false.
Proof.
  unfold bor_vec. revert b i; induction a as [|x a IH]; intros [|y b] i H; cbn [length] in H; try discriminate.
  - destruct i; reflexivity.
  - injection H as H. destruct i as [|i]; cbn [combine map nth fst snd]; [reflexivity|]. now apply IH.
Qed.

Lemma nth_map_negb sel i : i < length sel -> nth i (map negb sel) false = negb (nth i sel false).
Proof.
  intros H. rewrite nth_map_error.
  destruct (nth_error sel i) as [x|] eqn:E.
  - now rewrite (nth_error_nth _ _ _ E).
  - apply nth_error_None in E. lia.
Qed.

Lemma where_of_pointwise sel n (f : nat -> bool) :
  length sel = n -> (forall i, i < n -> nth i sel false = f i) -> np_where sel = filter f (seq 0 n).
Proof.
  intros HL H. rewrite where_filter, HL. apply filter_ext_in. intros i Hi. apply in_seq in Hi. apply H. lia.
Qed.
