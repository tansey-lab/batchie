(* C14: the first-occurrence unique filter (select_unique_zipped_numpy_arrays). *)
From Coq Require Import ZArith List Bool Lia Sorted.
From Batchie Require Import Lib.Sexp Lib.ListX Model.Encode Model.Views Proofs.C14Defs Proofs.C14Lists.
From Batchie Require Proofs.C01Sort.
Import ListNotations.
Open Scope nat_scope.

Lemma name_eqb_spec a b : reflect (a = b) (name_eqb a b).
Proof. apply iff_reflect. symmetry. apply C01Sort.name_eqb_eq. Qed.

Lemma seen_spec k seen : reflect (In k seen) (existsb (name_eqb k) seen).
Proof.
  apply iff_reflect. rewrite existsb_exists. split.
  - intros H. exists k. split; [exact H|apply C01Sort.name_eqb_refl].
  - intros (x & Hx & E). now destruct (name_eqb_spec k x) as [->|].
Qed.

Lemma first_index_lt k keys : In k keys -> first_index k keys < length keys.
Proof.
  induction keys as [|x r IH]; cbn [In first_index length]; [intros []|].
  intros H. destruct (name_eqb_spec k x) as [->|N]; [lia|].
  destruct H as [H|H]; [congruence|]. apply IH in H. lia.
Qed.

Lemma first_index_nth k keys : In k keys -> nth (first_index k keys) keys [] = k.
Proof.
  induction keys as [|x r IH]; cbn [In first_index]; [intros []|].
  intros H. destruct (name_eqb_spec k x) as [->|N]; cbn [nth]; [reflexivity|].
  destruct H as [H|H]; [congruence|]. now apply IH.
Qed.

Lemma first_index_min k keys j : j < first_index k keys -> nth j keys [] <> k.
Proof.
  revert j; induction keys as [|x r IH]; intros j; cbn [first_index]; [lia|].
  destruct (name_eqb_spec k x) as [->|N]; [lia|].
  intros H. destruct j as [|j]; cbn [nth]; [congruence|]. apply IH. lia.
Qed.

Lemma first_index_is i keys : i < length keys ->
  (first_index (nth i keys []) keys = i <-> forall j, j < i -> nth j keys [] <> nth i keys []).
Proof.
  intros Hi. split.
  - intros E j Hj. apply first_index_min. now rewrite E.
  - intros H. assert (Hin : In (nth i keys []) keys) by now apply nth_In.
    destruct (Nat.lt_trichotomy (first_index (nth i keys []) keys) i) as [L|[L|L]]; [|exact L|].
    + exfalso. apply (H _ L). now apply first_index_nth.
    + exfalso. exact (first_index_min _ _ _ L eq_refl).
Qed.

Lemma scatter_true l idx i :
  nth i (scatter l idx (repeat true (length idx))) false = nth i l false || (mem_nat i idx && (i <? length l)).
Proof.
  revert l; induction idx as [|j idx IH]; intros l; cbn [length repeat scatter].
  - cbn. now rewrite orb_false_r.
  - rewrite IH, nth_set_nth, set_nth_length. unfold mem_nat. cbn [existsb].
    destruct (Nat.eqb_spec i j) as [->|N]; cbn [andb orb].
    + destruct (nth j l false), (existsb (Nat.eqb j) idx), (j <? length l); reflexivity.
    + reflexivity.
Qed.

Lemma unique_mask_length keys : length (unique_mask keys) = length keys.
Proof. unfold unique_mask. now rewrite scatter_length, repeat_length. Qed.

Lemma nth_unique_mask keys i :
  nth i (unique_mask keys) false = true <->
  i < length keys /\ forall j, j < i -> nth j keys [] <> nth i keys [].
Proof.
  unfold unique_mask. rewrite scatter_true, nth_repeat, repeat_length. cbn [orb].
  rewrite andb_true_iff, Nat.ltb_lt, mem_nat_In, in_map_iff.
  split.
  - intros [(k & E & Hk) Hi]. split; [exact Hi|].
    rewrite (C01Sort.sort_uniq_In name_cmp C01Sort.name_cmp_spec) in Hk.
    apply first_index_is; [exact Hi|]. rewrite <- E. now rewrite first_index_nth.
  - intros [Hi H]. split; [|exact Hi].
    exists (nth i keys []). split; [now apply first_index_is|].
    apply (C01Sort.sort_uniq_In name_cmp C01Sort.name_cmp_spec). now apply nth_In.
Qed.

Lemma first_mask_rec_length seen keys : length (first_mask_rec seen keys) = length keys.
Proof.
  revert seen; induction keys as [|k r IH]; intros seen; cbn [first_mask_rec length]; [reflexivity|].
  destruct (existsb (name_eqb k) seen); cbn [length]; now rewrite IH.
Qed.

Lemma select_first_mask_keep key seen l :
  select (first_mask_rec seen (map key l)) l = keep_first key seen l.
Proof.
  revert seen; induction l as [|i r IH]; intros seen; cbn [map first_mask_rec keep_first]; [reflexivity|].
  destruct (existsb (name_eqb (key i)) seen); cbn [select]; now rewrite IH.
Qed.

(* on an ascending list, keep_first keeps an index iff its key is new and no smaller index of the list has it *)
Lemma In_keep_first key seen l i : StronglySorted lt l ->
  (In i (keep_first key seen l) <->
   In i l /\ ~ In (key i) seen /\ forall j, In j l -> j < i -> key j <> key i).
Proof.
  intros Hs. revert seen; induction Hs as [|i0 r Hs IH Hf]; intros seen; cbn [keep_first In]; [tauto|].
  rewrite Forall_forall in Hf.
  destruct (seen_spec (key i0) seen) as [E|E].
  - rewrite IH. split.
    + intros (Hi & Hn & Hj). repeat split; [now right|exact Hn|].
      intros j [<-|Hjr] Hlt; [intros E'; apply Hn; now rewrite <- E'|now apply Hj].
    + intros ([<-|Hi] & Hn & Hj); [contradiction|]. repeat split; [exact Hi|exact Hn|].
      intros j Hjr. apply Hj. now right.
  - cbn [In]. rewrite IH. cbn [In]. split.
    + intros [<-|(Hi & Hn & Hj)].
      * repeat split; [now left|exact E|]. intros j [<-|Hjr] Hlt; [lia|]. apply Hf in Hjr. lia.
      * repeat split; [now right|tauto|]. intros j [<-|Hjr] Hlt; [tauto|now apply Hj].
    + intros ([<-|Hi] & Hn & Hj); [now left|]. right. repeat split; [exact Hi| |intros j Hjr; apply Hj; now right].
      intros [E'|H']; [|contradiction]. apply (Hj i0); [now left|now apply Hf|exact E'].
Qed.

(* the mask is keep_first over all positions *)
Lemma nth_first_mask_rec seen keys i :
  nth i (first_mask_rec seen keys) false = true <->
  i < length keys /\ ~ In (nth i keys []) seen /\ forall j, j < i -> nth j keys [] <> nth i keys [].
Proof.
  rewrite <- In_where, where_select, first_mask_rec_length.
  rewrite <- (map_nth_seq keys []) at 1.
  rewrite select_first_mask_keep, In_keep_first by apply seq_sorted. rewrite in_seq.
  split; intros (Hi & Hn & Hj); repeat split; try assumption; try lia.
  - intros j Hlt. apply Hj; [apply in_seq|]; lia.
  - intros j _. apply Hj.
Qed.

Lemma unique_mask_rec keys : unique_mask keys = first_mask_rec [] keys.
Proof.
  apply list_bool_ext.
  - now rewrite unique_mask_length, first_mask_rec_length.
  - intros i _. rewrite nth_unique_mask, nth_first_mask_rec. cbn [In]. tauto.
Qed.

(* kept keys: a duplicate-free enumeration of the keys *)
Fixpoint kf (seen keys : list (list Z)) : list (list Z) :=
  match keys with
  | [] => []
  | k :: r => if existsb (name_eqb k) seen then kf seen r else k :: kf (k :: seen) r
  end.

Lemma select_first_mask_rec seen keys : select (first_mask_rec seen keys) keys = kf seen keys.
Proof.
  revert seen; induction keys as [|k r IH]; intros seen; cbn [first_mask_rec kf]; [reflexivity|].
  destruct (existsb (name_eqb k) seen); cbn [select]; now rewrite IH.
Qed.

Lemma In_kf seen keys k : In k (kf seen keys) <-> In k keys /\ ~ In k seen.
Proof.
  revert seen; induction keys as [|x r IH]; intros seen; cbn [kf In]; [tauto|].
  destruct (seen_spec x seen) as [E|E]; [|cbn [In]]; rewrite IH; cbn [In].
  all: destruct (list_eq_dec Z.eq_dec x k) as [->|N]; tauto.
Qed.

Lemma NoDup_kf seen keys : NoDup (kf seen keys).
Proof.
  revert seen; induction keys as [|x r IH]; intros seen; cbn [kf]; [constructor|].
  destruct (existsb (name_eqb x) seen); [apply IH|].
  constructor; [|apply IH]. rewrite In_kf. cbn [In]. tauto.
Qed.

(* the keys of the indices keep_first keeps are the kept keys *)
Lemma map_keep_first key seen l : map key (keep_first key seen l) = kf seen (map key l).
Proof.
  revert seen; induction l as [|i r IH]; intros seen; cbn [keep_first kf map]; [reflexivity|].
  destruct (existsb (name_eqb (key i)) seen); cbn [map]; now rewrite IH.
Qed.

Lemma keep_first_NoDup key seen l : NoDup (map key (keep_first key seen l)).
Proof. rewrite map_keep_first. apply NoDup_kf. Qed.

Lemma keep_first_covers key seen l i : In i l ->
  In (key i) seen \/ exists i', In i' (keep_first key seen l) /\ key i' = key i.
Proof.
  intros Hi. destruct (seen_spec (key i) seen) as [E|E]; [now left|right].
  assert (H : In (key i) (kf seen (map key l))) by (apply In_kf; split; [now apply in_map|exact E]).
  rewrite <- map_keep_first, in_map_iff in H. destruct H as (i' & E' & H'). now exists i'.
Qed.

Lemma select_unique_ok cols :
  Forall (fun c => length c = length (hd [] cols)) cols ->
  select_unique cols = Ok (unique_mask (zip_cols cols)).
Proof.
  intros H. unfold select_unique.
  replace (forallb (fun c => length c =? length (hd [] cols)) cols) with true; [reflexivity|].
  symmetry. apply forallb_forall. intros c Hc. apply Nat.eqb_eq.
  rewrite Forall_forall in H. now apply H.
Qed.

Lemma select_unique_inv cols m : select_unique cols = Ok m -> m = unique_mask (zip_cols cols).
Proof.
  unfold select_unique. destruct (negb _); [discriminate|]. now intros [= <-].
Qed.
