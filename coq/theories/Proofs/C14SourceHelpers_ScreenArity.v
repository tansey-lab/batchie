(* C14, one piece of Proofs/C14SourceHelpers.v (which see): ScreenBase.treatment_arity on a Screen object *)
From Coq Require Import ZArith.
From Batchie Require Import Lib.Sexp Model.Screen Model.Views Generated.SrcPlates.
Open Scope Z_scope.

Theorem src_screen_treatment_arity_is_model : forall s : pyscreen,
  src_screen_treatment_arity s = Ok (Z.of_nat (s_arity (snd s))).
Proof. reflexivity. Qed.
