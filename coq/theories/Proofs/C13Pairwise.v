(* C13: Pairwise generator - every generated plate holds one sample (the grouping tuples start with
   the sample id; single-agent rows are assigned to plates of their own sample). *)
From Coq Require Import ZArith List Bool Lia.
From Batchie Require Import Lib.Sexp Proofs.PyRtLemmas Model.Encode Model.Screen Model.Retro Model.Pairwise Proofs.C01Encode Proofs.C11Lib Proofs.C13Wrap Proofs.C13SampleSeg Proofs.C13NPlate Proofs.C13MergeLib.
Import ListNotations.
Open Scope nat_scope.

Lemma Forall2_combine_In {A B} (R : A -> B -> Prop) : forall la lb a b,
  Forall2 R la lb -> In (b, a) (combine lb la) -> R a b.
Proof.
  intros la lb a b H. induction H as [|x y la lb Hxy _ IH]; cbn [combine]; [intros []|].
  intros [E|Hin]; [now inversion E; subst|now apply IH].
Qed.

Lemma pw_tuple_head : forall samples gs ids r t, pw_tuple samples gs ids r = Some t ->
  exists rest, t = Z.of_nat (index_of (r_sample r) samples) :: rest.
Proof.
  intros samples gs ids r t H. unfold pw_tuple in H.
  destruct (opt_map_all (group_of gs) ids); cbn [opt_bind] in H; [|discriminate]. inversion H. eauto.
Qed.

Lemma Forall2_impl' {A B} (R R' : A -> B -> Prop) : (forall a b, R a b -> R' a b) ->
  forall la lb, Forall2 R la lb -> Forall2 R' la lb.
Proof. intros H la lb HF. induction HF; constructor; auto. Qed.

Definition ok_plate (co : list row) (r : row) (nm : name) : Prop :=
  exists c, In c co /\ r_plate c = nm /\ r_sample c = r_sample r.

Lemma assign_v_rows : forall (f : row -> bool) (Q Q' : row -> name -> Prop) srows vals names,
  length vals = vcount (map f srows) ->
  Forall2 Q srows names ->
  (forall r old, f r = false -> Q r old -> Q' r old) ->
  (forall r nm, f r = true -> In nm vals -> Q' r nm) ->
  Forall2 Q' srows (assign_v (map f srows) vals names).
Proof.
  intros f Q Q' srows. induction srows as [|r srows IH]; intros vals names Hl HQ H0 H1;
    inversion HQ as [|? x ? names' Hrx Hrest]; subst; cbn [map assign_v]; [constructor|].
  cbn [map vcount] in Hl. destruct (f r) eqn:E.
  - destruct vals as [|y vals]; [cbn [length] in Hl; lia|]. constructor; [apply H1; [exact E|now left]|].
    apply IH; [cbn [length] in Hl; lia|exact Hrest|exact H0|].
    intros r0 nm Hf Hin. apply H1; [exact Hf|now right].
  - constructor; [now apply H0|]. apply IH; [cbn in Hl; lia|exact Hrest|exact H0|exact H1].
Qed.

Lemma pw_singles_spec : forall co samples srows (D : row -> Prop) names ds names' ds',
  pw_singles samples srows co names ds = Ok (names', ds') ->
  Forall2 (fun r nm => D r -> ok_plate co r nm) srows names ->
  Forall2 (fun r nm => (In (r_sample r) samples \/ D r) -> ok_plate co r nm) srows names'.
Proof.
  intros co samples. induction samples as [|s samples IH]; intros srows D names ds names' ds' H HI;
    cbn [pw_singles] in H.
  - inversion H; subst. eapply Forall2_impl'; [|exact HI]. cbn. intros r nm Hd [[]|Hr]. now apply Hd.
  - set (eligible := sort_uniq name_cmp (map r_plate (filter (in_sample s) co))) in *.
    destruct (is_nil eligible); [discriminate|].
    apply res_bind_inv in H as ([asg ds1] & _ & H); cbn beta iota in H.
    destruct (negb (length asg =? _)) eqn:El; [discriminate|]. apply negb_false_iff, Nat.eqb_eq in El.
    destruct (negb (forallb _ asg)) eqn:Ef; [discriminate|]. apply negb_false_iff in Ef.
    rewrite forallb_forall in Ef.
    apply (IH srows (fun r => D r \/ r_sample r = s)) in H.
    + eapply Forall2_impl'; [|exact H]. cbn. intros r nm Hd Hpre. apply Hd.
      destruct Hpre as [[E|Hin]|Hr]; [right; right; now symmetry|left; exact Hin|right; left; exact Hr].
    + apply (assign_v_rows (in_sample s) (fun r nm => D r -> ok_plate co r nm)); auto.
      * intros r old Hf Hq [Hd|Hs]; [now apply Hq|]. apply in_sample_true in Hs. congruence.
      * intros r nm Hf Hin _. apply in_sample_true in Hf. specialize (Ef nm Hin).
        apply name_mem_In in Ef. unfold eligible in Ef. apply (sort_uniq_In _ name_cmp_spec), in_map_iff in Ef as (c & Hp & Hc).
        apply filter_In in Hc as [Hc Hs]. apply in_sample_true in Hs. exists c. repeat split; auto. congruence.
Qed.

(* what the generator returns: the relabelled combination rows [co], one sample per generated plate, followed by the
   single-agent rows [so], each on the plate of a combination row of its own sample *)
Lemma pairwise_ok : forall ctrl subset anchor u ds nu ds',
  pairwise ctrl subset anchor u ds = Ok (nu, ds') ->
  exists co so, nu = co ++ so /\ one_sample co /\
    (forall c, In c co -> is_combo ctrl c = true /\ exists k, r_plate c = gen_name k) /\
    (forall r, In r so -> ok_plate co r (r_plate r)).
Proof.
  intros ctrl subset anchor u ds nu ds' H. unfold pairwise in H.
  set (crows := filter (is_combo ctrl) u) in *. set (srows := filter (fun r => negb (is_combo ctrl r)) u) in *.
  set (tm := build_tmapping ctrl (concat (map r_treats crows))) in *.
  apply res_bind_inv in H as ([gs ds1] & _ & H); cbn beta iota in H.
  apply res_bind_inv in H as ([ctl ds2] & _ & H); cbn beta iota in H.
  destruct (negb (is_nil ctl)); [discriminate|].
  match type of H with match ?x with _ => _ end = _ => destruct x as [tuples|] eqn:Et end; [|discriminate].
  apply opt_map_all_Some in Et.
  set (uniq := sort_uniq name_cmp tuples) in *.
  match type of H with (dor c <- construct ?x; _) = _ => set (co := x) in * end.
  apply res_bind_inv in H as (co' & Ec & H); cbn beta iota in H.
  apply construct_ok in Ec. subst co'.
  assert (Hco : forall c, In c co -> exists t r, In (t, r) (combine tuples crows) /\
            c = set_mask false (set_plate (gen_name (index_of t uniq)) r)).
  { intros c Hc. apply in_map_iff in Hc as ([t r] & <- & Hin). exists t, r. auto. }
  (* equal plates = equal tuples, and a tuple starts with the sample's rank *)
  assert (Hone : one_sample co).
  { intros c1 c2 H1 H2 Hp. destruct (Hco _ H1) as (t1 & r1 & I1 & ->). destruct (Hco _ H2) as (t2 & r2 & I2 & ->).
    cbn [set_mask set_plate r_plate r_sample] in *. apply gen_name_inj in Hp.
    assert (T1 : In t1 uniq) by (apply (sort_uniq_In _ name_cmp_spec); eapply in_combine_l; exact I1).
    assert (T2 : In t2 uniq) by (apply (sort_uniq_In _ name_cmp_spec); eapply in_combine_l; exact I2).
    apply (index_of_inj _ _ _ T1 T2) in Hp. subst t2.
    pose proof (Forall2_combine_In _ _ _ _ _ Et I1) as E1. pose proof (Forall2_combine_In _ _ _ _ _ Et I2) as E2.
    cbn in E1, E2. apply pw_tuple_head in E1 as (rest1 & E1). apply pw_tuple_head in E2 as (rest2 & E2).
    rewrite E1 in E2. injection E2 as E2 _. apply Nat2Z.inj in E2.
    apply (index_of_inj _ _ (sample_names crows)); [| |exact E2]; apply In_sample_names.
    - exists r1. split; [eapply in_combine_r; exact I1|reflexivity].
    - exists r2. split; [eapply in_combine_r; exact I2|reflexivity]. }
  assert (Hgen : forall c, In c co -> is_combo ctrl c = true /\ exists k, r_plate c = gen_name k).
  { intros c Hc. destruct (Hco c Hc) as (t & r & Hin & ->). split; [|cbn; eauto].
    apply in_combine_r, filter_In in Hin as [_ Hf]. exact Hf. }
  destruct (is_nil srows) eqn:En.
  - inversion H; subst. exists co, []. rewrite app_nil_r. split; [reflexivity|]. split; [exact Hone|]. split; [exact Hgen|intros r []].
  - apply res_bind_inv in H as ([names ds3] & Es & H); cbn beta iota in H.
    match type of H with (dor c <- construct ?x; _) = _ => set (so := x) in * end.
    apply res_bind_inv in H as (so' & Ec2 & H); cbn beta iota in H.
    apply construct_ok in Ec2. subst so'.
    apply res_bind_inv in H as (al & Ec3 & H); cbn beta iota in H.
    apply construct_ok in Ec3. inversion H; subst nu ds' al. clear H.
    exists co, so. split; [reflexivity|]. split; [exact Hone|]. split; [exact Hgen|].
    apply (pw_singles_spec co _ srows (fun _ => False)) in Es.
    + intros c Hc. apply in_map_iff in Hc as ([nm r] & <- & Hin).
      apply (Forall2_combine_In _ _ _ _ _ Es Hin). left. apply In_sample_names.
      exists r. split; [eapply in_combine_r; exact Hin|reflexivity].
    + clear. induction srows as [|r l IH]; cbn [map]; constructor; [intros []|exact IH].
Qed.

Theorem pairwise_one_sample : forall ctrl subset anchor u ds nu ds',
  pairwise ctrl subset anchor u ds = Ok (nu, ds') -> one_sample nu.
Proof.
  intros ctrl subset anchor u ds nu ds' H. apply pairwise_ok in H as (co & so & -> & Hone & _ & Hso).
  assert (Hall : forall c, In c (co ++ so) -> ok_plate co c (r_plate c)).
  { intros c Hc. apply in_app_or in Hc as [Hc|Hc]; [exists c; auto|now apply Hso]. }
  intros c1 c2 H1 H2 Hp. destruct (Hall _ H1) as (d1 & D1 & P1 & S1). destruct (Hall _ H2) as (d2 & D2 & P2 & S2).
  rewrite <- S1, <- S2. apply Hone; congruence.
Qed.

Theorem pairwise_single_sample_w : forall ctrl subset anchor rows ds out ds',
  generate_plates (GPairwise ctrl subset anchor) rows ds = Ok (out, ds') -> one_sample (unobserved out).
Proof.
  intros ctrl subset anchor rows ds out ds' H. apply generate_wrap_unobs in H as [[_ E]|H].
  - rewrite E. intros r1 r2 [].
  - cbn [generate_inner] in H. eapply pairwise_one_sample; exact H.
Qed.
