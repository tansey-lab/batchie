(* C09: list, index and rational facts the prediction proofs use. *)
From Coq Require Import List QArith Qcanon Lia ZifyBool.
From Batchie Require Import Lib.ListX Lib.Sexp Lib.Num Lib.NumP Model.Predict.
Import ListNotations.
Open Scope Qc_scope.

Lemma map2_cons {A B C} (f : A -> B -> C) a x b y : map2 f (a :: x) (b :: y) = f a b :: map2 f x y.
Proof. reflexivity. Qed.
Lemma map2_nil_l {A B C} (f : A -> B -> C) y : map2 f [] y = [].
Proof. reflexivity. Qed.
Lemma map2_nil_r {A B C} (f : A -> B -> C) x : map2 f x [] = [].
Proof. destruct x; reflexivity. Qed.

Lemma map2_map {A B C X} (f : A -> B -> C) (g : X -> A) (h : X -> B) l :
  map2 f (map g l) (map h l) = map (fun x => f (g x) (h x)) l.
Proof.
  induction l as [|x l IH]; [reflexivity|].
  cbn [map]. rewrite map2_cons, IH. reflexivity.
Qed.

Lemma map2_length {A B C} (f : A -> B -> C) x y : length (map2 f x y) = Nat.min (length x) (length y).
Proof. unfold map2. now rewrite map_length, combine_length. Qed.

Lemma map2_nth {A B C} (f : A -> B -> C) da db dc x : forall y j,
  (j < length x)%nat -> (j < length y)%nat -> nth j (map2 f x y) dc = f (nth j x da) (nth j y db).
Proof.
  induction x as [|a x IH]; intros [|b y] j Hx Hy; cbn [length] in *; try lia.
  rewrite map2_cons. destruct j as [|j]; [reflexivity|]. cbn [nth]. apply IH; lia.
Qed.

Lemma vadd_cons a x b y : vadd (a :: x) (b :: y) = (a + b) :: vadd x y.
Proof. reflexivity. Qed.
Lemma vmul_cons a x b y : vmul (a :: x) (b :: y) = (a * b) :: vmul x y.
Proof. reflexivity. Qed.

Lemma vadd_comm x : forall y, vadd x y = vadd y x.
Proof.
  induction x as [|a x IH]; intros [|b y]; try reflexivity.
  rewrite !vadd_cons, IH. f_equal. ring.
Qed.

Lemma vmul_nil_r x : vmul x [] = [].
Proof. apply map2_nil_r. Qed.
Lemma vmul_nil_l y : vmul [] y = [].
Proof. reflexivity. Qed.

Lemma vmul3_swap w : forall x y, vmul (vmul w x) y = vmul (vmul w y) x.
Proof.
  induction w as [|a w IH]; intros x y; [reflexivity|].
  destruct x as [|b x], y as [|c y]; try reflexivity.
  rewrite !vmul_cons, IH. f_equal. ring.
Qed.

Lemma zrow_length r : length (zrow r) = length r.
Proof. unfold zrow. apply map_length. Qed.

Lemma qsum_vmul_zrow l : forall z, qsum (vmul l (zrow z)) = 0.
Proof.
  induction l as [|a l IH]; intros [|b z]; try reflexivity.
  unfold zrow in *. cbn [map]. rewrite vmul_cons, qsum_cons, IH. ring.
Qed.

Lemma vadd_zrow_r x : forall y, (length x <= length y)%nat -> vadd x (zrow y) = x.
Proof.
  induction x as [|a x IH]; intros [|b y] H; cbn [length] in H; try reflexivity; try lia.
  unfold zrow in *. cbn [map]. rewrite vadd_cons, IH by lia. f_equal. ring.
Qed.

Lemma vadd_zrow_zrow y : vadd (zrow y) (zrow y) = zrow y.
Proof.
  induction y as [|b y IH]; [reflexivity|].
  unfold zrow in *. cbn [map]. rewrite vadd_cons, IH. f_equal; ring.
Qed.

Lemma py_index_lt n i k : py_index n i = Some k -> (k < n)%nat.
Proof.
  unfold py_index.
  destruct (0 <=? i)%Z eqn:E0.
  - destruct (i <? Z.of_nat n)%Z eqn:E1; [|discriminate]. intros H; inversion H; subst. lia.
  - destruct (- Z.of_nat n <=? i)%Z eqn:E1; [|discriminate]. intros H; inversion H; subst. lia.
Qed.

Lemma py_index_last n : py_index (S n) CONTROL = Some n.
Proof.
  unfold py_index, CONTROL.
  destruct (0 <=? -1)%Z eqn:E0; [lia|].
  destruct (- Z.of_nat (S n) <=? -1)%Z eqn:E1; [|lia]. f_equal. lia.
Qed.

Lemma py_get_in_or_default {A} (d : A) arr i : In (py_get d arr i) arr \/ py_get d arr i = d.
Proof.
  unfold py_get. destruct (py_index (length arr) i) as [k|] eqn:E; [|now right].
  left. apply nth_In. eapply py_index_lt; eassumption.
Qed.

Lemma rectb_In D M r : rectb D M = true -> In r M -> length r = D.
Proof.
  unfold rectb. rewrite forallb_forall. intros H Hin. apply H in Hin. now apply Nat.eqb_eq in Hin.
Qed.

(* every gathered row is no longer than the row the control sentinel gathers *)
Lemma py_get_len_le_last D M a :
  rectb D M = true -> (length (py_get [] M a) <= length (py_get [] M CONTROL))%nat.
Proof.
  intros HR. destruct (py_get_in_or_default [] M a) as [Hin|Hd].
  - assert (Hlast : In (py_get [] M CONTROL) M).
    { destruct M as [|r M]; [destruct Hin|].
      unfold py_get. cbn [length]. rewrite py_index_last. apply nth_In. cbn [length]. lia. }
    rewrite (rectb_In _ _ _ HR Hin), (rectb_In _ _ _ HR Hlast). lia.
  - rewrite Hd. cbn [length]. lia.
Qed.

Lemma select_map {A B} (f : A -> B) mask : forall l, select mask (map f l) = map f (select mask l).
Proof.
  induction mask as [|m mask IH]; intros [|x l]; try reflexivity.
  cbn [map select]. destruct m; cbn [map]; now rewrite IH.
Qed.

Lemma select_In {A} mask : forall (l : list A) x, In x (select mask l) -> In x l.
Proof.
  induction mask as [|m mask IH]; intros [|y l] x H; cbn [select] in H; try destruct H.
  destruct m.
  - destruct H as [->|H]; [now left|right; now apply IH].
  - right; now apply IH.
Qed.

Lemma forallb_select {A} (p : A -> bool) mask l : forallb p l = true -> forallb p (select mask l) = true.
Proof.
  rewrite !forallb_forall. intros H x Hx. apply H. eapply select_In; eassumption.
Qed.

Lemma select_length {A} mask : forall (l : list A),
  length (select mask l) = length (select mask (repeat tt (length l))).
Proof.
  induction mask as [|m mask IH]; intros [|x l]; try reflexivity.
  cbn [length repeat select]. destruct m; cbn [length]; now rewrite IH.
Qed.

Lemma select_repeat {A} (x : A) mask : forall n,
  select mask (repeat x n) = repeat x (length (select mask (repeat tt n))).
Proof.
  induction mask as [|m mask IH]; intros [|n]; try reflexivity.
  cbn [repeat select]. destruct m; cbn [length repeat]; now rewrite IH.
Qed.

Lemma take_idx_map {A B} (f : A -> B) d idx l : take_idx (f d) idx (map f l) = map f (take_idx d idx l).
Proof.
  unfold take_idx. rewrite map_map. apply map_ext. intros i. apply map_nth.
Qed.

Lemma forallb_take {A} (p : A -> bool) d idx l :
  Forall (fun i => (i < length l)%nat) idx -> forallb p l = true -> forallb p (take_idx d idx l) = true.
Proof.
  rewrite !forallb_forall. intros Hi H x Hx. unfold take_idx in Hx.
  apply in_map_iff in Hx as (i & <- & Hin). apply H. apply nth_In.
  rewrite Forall_forall in Hi. now apply Hi.
Qed.

Lemma take_idx_repeat {A} (x d : A) idx n :
  Forall (fun i => (i < n)%nat) idx -> take_idx d idx (repeat x n) = repeat x (length idx).
Proof.
  induction 1 as [|i idx Hi _ IH]; [reflexivity|].
  cbn [length repeat]. unfold take_idx in *. cbn [map]. rewrite IH. f_equal.
  now apply nth_repeat_in.
Qed.

Lemma take_idx_indep {A} (d d' : A) idx l :
  Forall (fun i => (i < length l)%nat) idx -> take_idx d idx l = take_idx d' idx l.
Proof.
  intros H. unfold take_idx. apply map_ext_in. intros i Hi. apply nth_indep.
  rewrite Forall_forall in H. now apply H.
Qed.

Lemma res_map_all_spec {A B} (f : A -> result B) (da : A) (db : B) l : forall rs,
  res_map_all f l = Ok rs ->
  length rs = length l /\ forall i, (i < length l)%nat -> f (nth i l da) = Ok (nth i rs db).
Proof.
  induction l as [|a l IH]; intros rs H; cbn [res_map_all] in H.
  - inversion H; subst. split; [reflexivity|]. intros i Hi; cbn [length] in Hi; lia.
  - unfold res_bind in H. destruct (f a) as [b|] eqn:Ea; [|discriminate].
    destruct (res_map_all f l) as [bs|] eqn:El; [|discriminate].
    inversion H; subst. destruct (IH bs eq_refl) as [Hlen Hnth]. split; [cbn [length]; now rewrite Hlen|].
    intros [|i] Hi; cbn [length] in Hi; cbn [nth]; [assumption|apply Hnth; lia].
Qed.

Lemma viab_lo_le_hi : VIAB_LO <= VIAB_HI.
Proof. unfold Qcle. vm_compute. discriminate. Qed.

Lemma clip_viab_range x : VIAB_LO <= clip_viab x /\ clip_viab x <= VIAB_HI.
Proof.
  unfold clip_viab, qclip, qltb.
  destruct (Qclt_le_dec x VIAB_LO) as [H1|H1].
  - split; [apply Qcle_refl|apply viab_lo_le_hi].
  - destruct (Qclt_le_dec VIAB_HI x) as [H2|H2].
    + split; [apply viab_lo_le_hi|apply Qcle_refl].
    + split; assumption.
Qed.

Lemma clip_viab_id x : VIAB_LO <= x -> x <= VIAB_HI -> clip_viab x = x.
Proof.
  intros H1 H2. unfold clip_viab, qclip, qltb.
  destruct (Qclt_le_dec x VIAB_LO) as [H|H]; [exfalso; eapply Qclt_not_le; eassumption|].
  destruct (Qclt_le_dec VIAB_HI x) as [H'|H']; [exfalso; eapply Qclt_not_le; eassumption|reflexivity].
Qed.

Lemma clip_viab_idem x : clip_viab (clip_viab x) = clip_viab x.
Proof. apply clip_viab_id; apply clip_viab_range. Qed.

Lemma clip_viab_pos x : 0 < clip_viab x.
Proof.
  apply Qclt_le_trans with VIAB_LO; [|apply clip_viab_range].
  unfold Qclt. vm_compute. reflexivity.
Qed.

Lemma Qc_inv_pos p : 0 < p -> 0 < 1 / p.
Proof.
  unfold Qclt, Qcdiv, Qcmult, Qcinv; cbn [this Q2Qc]. rewrite !Qred_correct. intros H.
  rewrite Qmult_1_l. now apply Qinv_lt_0_compat.
Qed.
