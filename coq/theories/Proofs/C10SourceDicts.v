(* C10: the dict methods of the two posterior-sample classes (private_parameters_dict / shared_parameters_dict / from_dicts)
   and Theta.equals, re-translated from /repo on every run (Generated/SrcThetaDicts.v, by harness/py2gal.py), equal the
   hand-written model Model/ThetaDicts.v for all inputs; from_dicts inverts the two dict methods; the primitives the
   ThetaHolder.save_h5 / load_h5 configurations (C10_SAVE / C10_LOAD) gave to these three calls are these translations on the
   representation sample -> (private dict, shared dict); Theta.equals is the model equality of the samples. *)
From Coq Require Import ZArith List Bool Lia ZifyBool.
From Batchie Require Import Lib.Sexp Lib.PyRt Model.Thetas Model.ThetaDicts Generated.SrcThetas Generated.SrcThetaDicts.
From Batchie Require Import Proofs.C18Args Proofs.C10Thetas Proofs.C10Source.
From Coq Require String.
Import ListNotations.
Import String.StringSyntax.
Local Open Scope string_scope.
Open Scope Z_scope.

(* d[k] is an entry of d, under a key that is k *)
Lemma sdict_get_In {V : Type} (d : list (pystr * V)) k v : sdict_get d k = Some v -> In (k, v) d.
Proof.
  induction d as [|[k' w] r IH]; cbn [sdict_get]; intros H; [discriminate|].
  destruct (str_eqb k' k) eqn:E; [|right; now apply IH].
  apply str_eqb_eq in E. left. congruence.
Qed.

Lemma sdict_get_in {V : Type} (d : list (pystr * V)) k v : In (k, v) d -> exists v', sdict_get d k = Some v'.
Proof.
  induction d as [|[k' w] r IH]; intros H; [contradiction|]. cbn [sdict_get].
  destruct (str_eqb k' k) eqn:E; [now exists w|].
  destruct H as [H|H]; [inversion H; subst; now rewrite str_eqb_refl in E | now apply IH].
Qed.

Lemma sdict_get_key {V : Type} (d : list (pystr * V)) k v :
  sdict_get d k = Some v -> existsb (str_eqb k) (map fst d) = true.
Proof.
  intros H. apply existsb_exists. exists k. split; [|apply str_eqb_refl].
  apply sdict_get_In in H. now apply (in_map fst) in H.
Qed.

Lemma res_bind_ext {X Y : Type} (e : result X) (k k' : X -> result Y) :
  (forall x, k x = k' x) -> res_bind e k = res_bind e k'.
Proof. intros H. destruct e; [apply H | reflexivity]. Qed.

Section Dicts.
Variables A F : Type.
Notation pval := (pval A F).
Notation pdict := (pdict A F).

(* a dict that is the same finite map as d has its keys among those of d *)
Lemma equiv_keys_among (p d : pdict) : dict_equiv A F p d -> keys_among A F (map fst d) p = true.
Proof.
  intros H. unfold keys_among. apply forallb_forall. intros [k v] Hin. cbn [fst].
  destruct (sdict_get_in p k v Hin) as [v' Hv]. rewrite H in Hv. exact (sdict_get_key d k v' Hv).
Qed.

(* conversely: a dict with its keys among those of d that reads as d under each of them is the same finite map *)
Lemma equiv_of_reads (p d : pdict) :
  keys_among A F (map fst d) p = true -> (forall k, In k (map fst d) -> sdict_get p k = sdict_get d k) ->
  dict_equiv A F p d.
Proof.
  intros Hk Hr k. destruct (existsb (str_eqb k) (map fst d)) eqn:E.
  - apply existsb_exists in E as (k' & Hin & E). apply str_eqb_eq in E. subst k'. now apply Hr.
  - destruct (sdict_get d k) as [v|] eqn:Ed; [now rewrite (sdict_get_key d k v Ed) in E|].
    destruct (sdict_get p k) as [v|] eqn:Ep; [|reflexivity].
    apply sdict_get_In in Ep. unfold keys_among in Hk. rewrite forallb_forall in Hk.
    apply Hk in Ep. cbn [fst] in Ep. congruence.
Qed.

Theorem src_sc_private_is_model : forall t : sc_sample A F,
  src_sc_private_parameters_dict A F t = Ok (sc_private t).
Proof. intros t. reflexivity. Qed.

(* the inherited Theta.shared_parameters_dict, on an object of ANY class *)
Theorem src_theta_shared_is_model : forall (T : Type) (t : T),
  src_theta_shared_parameters_dict A F T t = Ok (no_shared A F).
Proof. reflexivity. Qed.

Theorem src_sc_from_dicts_is_model : forall p s : pdict,
  src_sc_from_dicts A F p s = sc_from_dicts A F p s.
Proof.
  intros p s. unfold src_sc_from_dicts, sc_from_dicts, sdict_only, keys_among, kwarg. now destruct (forallb _ p).
Qed.

(* from_dicts gives the sample back from ANY dict that is the same finite map as its private dict (any entry order),
   whatever the shared dict *)
Theorem sc_from_dicts_of_equiv : forall (t : sc_sample A F) (p s : pdict),
  dict_equiv A F p (sc_private t) -> sc_from_dicts A F p s = Ok t.
Proof.
  intros t p s H. unfold sc_from_dicts, kwarg, sdict_read.
  pose proof (equiv_keys_among p (sc_private t) H) as Hk. cbn [sc_private map fst] in Hk. rewrite Hk.
  rewrite (H (key "W")), (H (key "W0")), (H (key "V2")), (H (key "V1")), (H (key "V0")), (H (key "alpha")), (H (key "precision")).
  destruct t. reflexivity.
Qed.

Theorem sc_roundtrip : forall (t : sc_sample A F) (s : pdict), sc_from_dicts A F (sc_private t) s = Ok t.
Proof. intros t s. apply sc_from_dicts_of_equiv. intros k. reflexivity. Qed.

(* the round trip through the three TRANSLATED methods *)
Theorem src_sc_roundtrip : forall t : sc_sample A F,
  (dor p <- src_sc_private_parameters_dict A F t;
   dor s <- src_theta_shared_parameters_dict A F (sc_sample A F) t;
   src_sc_from_dicts A F p s) = Ok t.
Proof.
  intros t. rewrite src_sc_private_is_model, src_theta_shared_is_model. cbn [res_bind].
  rewrite src_sc_from_dicts_is_model. apply sc_roundtrip.
Qed.

(* conversely: whatever from_dicts accepts IS (as a finite map) the private dict of the sample it returns *)
Theorem sc_from_dicts_only_of_private : forall (p s : pdict) (t : sc_sample A F),
  sc_from_dicts A F p s = Ok t -> dict_equiv A F p (sc_private t).
Proof.
  intros p s t. unfold sc_from_dicts, kwarg, sdict_read.
  destruct (keys_among A F _ p) eqn:Hk; cbn [negb]; [|discriminate].
  destruct (sdict_get p (key "W")) as [w|] eqn:E1; [|discriminate]. cbn [res_bind].
  destruct (sdict_get p (key "W0")) as [w0|] eqn:E2; [|discriminate]. cbn [res_bind].
  destruct (sdict_get p (key "V2")) as [v2|] eqn:E3; [|discriminate]. cbn [res_bind].
  destruct (sdict_get p (key "V1")) as [v1|] eqn:E4; [|discriminate]. cbn [res_bind].
  destruct (sdict_get p (key "V0")) as [v0|] eqn:E5; [|discriminate]. cbn [res_bind].
  destruct (sdict_get p (key "alpha")) as [al|] eqn:E6; [|discriminate]. cbn [res_bind].
  destruct (sdict_get p (key "precision")) as [pr|] eqn:E7; [|discriminate]. cbn [res_bind].
  destruct w; cbn [as_arr res_bind]; try discriminate.
  destruct w0; cbn [as_arr res_bind]; try discriminate.
  destruct v2; cbn [as_arr res_bind]; try discriminate.
  destruct v1; cbn [as_arr res_bind]; try discriminate.
  destruct v0; cbn [as_arr res_bind]; try discriminate.
  destruct al; cbn [as_num res_bind]; try discriminate.
  destruct pr; cbn [as_num res_bind]; try discriminate.
  intros [= <-]. apply equiv_of_reads; [exact Hk|].
  intros k [<-|[<-|[<-|[<-|[<-|[<-|[<-|[]]]]]]]]; assumption.
Qed.

Theorem src_in_private_is_model : forall t : in_sample A F,
  src_in_private_parameters_dict A F t = Ok (in_private t).
Proof. reflexivity. Qed.

Theorem src_in_shared_is_model : forall t : in_sample A F,
  src_in_shared_parameters_dict A F t = Ok (in_shared t).
Proof. reflexivity. Qed.

Theorem src_in_from_dicts_is_model : forall p s : pdict,
  src_in_from_dicts A F p s = in_from_dicts A F p s.
Proof.
  intros p s. unfold src_in_from_dicts, in_from_dicts.
  (* the five reads of the shared dict are the same on both sides; then the key test of cls( **d ) *)
  do 5 (apply res_bind_ext; intro).
  unfold sdict_only, keys_among, kwarg. now destruct (forallb _ p).
Qed.

(* the three exported columns zipped back are the rows *)
Lemma rezip_rows (l : table F) :
  combine (combine (map (fun x => fst (fst x)) l) (map (fun x => snd (fst x)) l)) (map (fun x => snd x) l) = l.
Proof. induction l as [|[[a b] v] r IH]; cbn [map combine fst snd]; [reflexivity | now rewrite IH]. Qed.

(* and rows are determined by their three columns *)
Lemma columns_eq (l l' : table F) :
  map (fun x => fst (fst x)) l = map (fun x => fst (fst x)) l' ->
  map (fun x => snd (fst x)) l = map (fun x => snd (fst x)) l' ->
  map (fun x => snd x) l = map (fun x => snd x) l' -> l = l'.
Proof.
  revert l'. induction l as [|[[a b] v] l IH]; intros [|[[a' b'] v'] l']; cbn [map fst snd]; intros H1 H2 H3;
    try discriminate; [reflexivity|].
  inversion H1; inversion H2; inversion H3; subst. f_equal. now apply IH.
Qed.

Lemma pdict_set_fresh (d : table F) a b v :
  ~ In (a, b) (map fst d) -> pdict_set d a b v = d ++ [((a, b), v)].
Proof.
  induction d as [|[[a' b'] v'] r IH]; intros H; cbn [pdict_set app]; [reflexivity|].
  destruct ((a' =? a) && (b' =? b)) eqn:E.
  - exfalso. apply H. left. cbn [fst]. f_equal; lia.
  - rewrite IH; [reflexivity|]. intros X. apply H. now right.
Qed.

Lemma table_fold_distinct (l d : table F) :
  NoDup (map fst d ++ map fst l) ->
  fold_left (fun d kv => pdict_set d (fst (fst kv)) (snd (fst kv)) (snd kv)) l d = d ++ l.
Proof.
  revert d. induction l as [|[[a b] v] r IH]; intros d H; cbn [fold_left fst snd]; [now rewrite app_nil_r|].
  cbn [map fst] in H. rewrite pdict_set_fresh.
  - rewrite IH; [now rewrite <- app_assoc|]. rewrite map_app. cbn [map fst]. now rewrite <- app_assoc.
  - apply NoDup_remove_2 in H. intros X. apply H. apply in_or_app. now left.
Qed.

(* dict(rows) of rows with distinct keys - the items of a dict - is that dict *)
Lemma table_of_items (l : table F) : NoDup (map fst l) -> table_of_pairs l = l.
Proof. intros H. unfold table_of_pairs. now rewrite (table_fold_distinct l []). Qed.

(* from_dicts on ANY dicts that are the same finite maps as the sample's two dicts: the sample with its table rebuilt by
   dict(...) - the sample itself when the table's keys are distinct, as the keys of a Python dict are *)
Theorem in_from_dicts_of_equiv_general : forall (t : in_sample A F) (p s : pdict),
  dict_equiv A F p (in_private t) -> dict_equiv A F s (in_shared t) ->
  in_from_dicts A F p s
  = Ok {| in_W := in_W t; in_V2 := in_V2 t; in_precision := in_precision t; in_lookup := table_of_pairs (in_lookup t) |}.
Proof.
  intros t p s Hp Hs. unfold in_from_dicts, kwarg, sdict_read.
  (* each key is named: a pattern left open is matched against every read, and comparing two long key literals is dear *)
  rewrite (Hs (key "single_effect_lookup_keys1")), (Hs (key "single_effect_lookup_keys2")), (Hs (key "single_effect_lookup_vals")).
  pose proof (equiv_keys_among p (in_private t) Hp) as Hk. cbn [in_private map fst] in Hk. rewrite Hk.
  rewrite (Hp (key "W")), (Hp (key "V2")), (Hp (key "precision")).
  rewrite <- (rezip_rows (in_lookup t)). destruct t. reflexivity.
Qed.

Theorem in_from_dicts_of_equiv : forall (t : in_sample A F) (p s : pdict),
  NoDup (map fst (in_lookup t)) ->
  dict_equiv A F p (in_private t) -> dict_equiv A F s (in_shared t) -> in_from_dicts A F p s = Ok t.
Proof.
  intros t p s Hnd Hp Hs. rewrite (in_from_dicts_of_equiv_general t p s Hp Hs), (table_of_items _ Hnd). now destruct t.
Qed.

Theorem in_roundtrip : forall t : in_sample A F,
  NoDup (map fst (in_lookup t)) -> in_from_dicts A F (in_private t) (in_shared t) = Ok t.
Proof. intros t H. apply in_from_dicts_of_equiv; [exact H | |]; intros k; reflexivity. Qed.

(* the empty table: three empty columns out, the empty dict back *)
Corollary in_roundtrip_empty_table : forall (w v2 : A) (pr : F),
  let t := {| in_W := w; in_V2 := v2; in_precision := pr; in_lookup := [] |} in
  in_shared t = [(key "single_effect_lookup_keys1", PInts []); (key "single_effect_lookup_keys2", PInts []);
                 (key "single_effect_lookup_vals", PNums [])]
  /\ in_from_dicts A F (in_private t) (in_shared t) = Ok t.
Proof. intros w v2 pr t. split; [reflexivity | apply in_roundtrip; constructor]. Qed.

Theorem src_in_roundtrip : forall t : in_sample A F,
  NoDup (map fst (in_lookup t)) ->
  (dor p <- src_in_private_parameters_dict A F t;
   dor s <- src_in_shared_parameters_dict A F t;
   src_in_from_dicts A F p s) = Ok t.
Proof.
  intros t H. rewrite src_in_private_is_model, src_in_shared_is_model. cbn [res_bind].
  rewrite src_in_from_dicts_is_model. now apply in_roundtrip.
Qed.

(* Consistency with the primitives of C10_SAVE / C10_LOAD.
   There a sample IS a pair theta P S = (private, shared): `t.private_parameters_dict()` was given the meaning fst t,
   `t.shared_parameters_dict()` the meaning snd t, `C.from_dicts(private_params=p, shared_params=s)` the meaning (p, s).
   With P = S = pdict and the representation sample_theta t = (sample_private t, sample_shared t), these meanings are what
   the translated methods compute. *)
Definition src_private_of (t : sample A F) : result pdict :=
  match t with SCombo c => src_sc_private_parameters_dict A F c | SInter i => src_in_private_parameters_dict A F i end.
Definition src_shared_of (t : sample A F) : result pdict :=
  match t with
  | SCombo c => src_theta_shared_parameters_dict A F (sc_sample A F) c
  | SInter i => src_in_shared_parameters_dict A F i
  end.
(* C.from_dicts for the class C of t *)
Definition src_from_dicts_as (t : sample A F) (p s : pdict) : result (sample A F) :=
  match t with
  | SCombo _ => dor c <- src_sc_from_dicts A F p s; Ok (SCombo c)
  | SInter _ => dor i <- src_in_from_dicts A F p s; Ok (SInter i)
  end.
Definition table_ok (t : sample A F) : Prop :=
  match t with SCombo _ => True | SInter i => NoDup (map fst (in_lookup i)) end.

Theorem save_prim_private_is_source : forall t : sample A F,
  src_private_of t = Ok (fst (sample_theta A F t)).
Proof. intros [c|i]; reflexivity. Qed.

Theorem save_prim_shared_is_source : forall t : sample A F,
  src_shared_of t = Ok (snd (sample_theta A F t)).
Proof. intros [c|i]; reflexivity. Qed.

(* the pair (p, s) that load_h5's primitive builds from a sample's two dicts stands for that sample: from_dicts of the
   sample's class returns it (tables with distinct keys) *)
Theorem load_prim_from_dicts_is_source : forall t : sample A F,
  table_ok t ->
  src_from_dicts_as t (fst (sample_theta A F t)) (snd (sample_theta A F t)) = Ok t.
Proof.
  intros [c|i] H; cbn [src_from_dicts_as sample_theta fst snd sample_private sample_shared].
  - rewrite src_sc_from_dicts_is_model, sc_roundtrip. reflexivity.
  - rewrite src_in_from_dicts_is_model, in_roundtrip by exact H. reflexivity.
Qed.

(* so the representation loses nothing *)
Lemma sample_theta_eq (a b : sample A F) : sample_theta A F a = sample_theta A F b -> a = b.
Proof.
  destruct a as [[w w0 v2 v1 v0 al pr]|[w v2 pr l]], b as [[w' w0' v2' v1' v0' al' pr']|[w' v2' pr' l']]; intros H;
    inversion H; subst; try reflexivity.
  f_equal. f_equal. apply columns_eq; assumption.
Qed.

Corollary sample_theta_injective : forall t u : sample A F,
  table_ok t -> table_ok u -> same_class A F t u = true -> sample_theta A F t = sample_theta A F u -> t = u.
Proof. intros t u _ _ _. apply sample_theta_eq. Qed.

(* End to end: a collection of samples through the translated save_h5, the file, the translated load_h5 and the
   translated from_dicts comes back sample by sample *)
Definition holder_of (n : Z) (ts : list (sample A F)) : pyobj pdict pdict :=
  as_obj {| h_declared := n; h_thetas := map (sample_theta A F) ts |}.

Lemma from_dicts_all (ts : list (sample A F)) :
  (forall t, In t ts -> table_ok t) ->
  res_map_all (fun tt' : sample A F * theta pdict pdict => src_from_dicts_as (fst tt') (fst (snd tt')) (snd (snd tt')))
              (combine ts (map (sample_theta A F) ts)) = Ok ts.
Proof.
  induction ts as [|t r IH]; intros H; cbn [map combine res_map_all]; [reflexivity|]. cbn [fst snd].
  rewrite load_prim_from_dicts_is_source by (apply H; now left). cbn [res_bind].
  rewrite IH by (intros x Hx; apply H; now right). reflexivity.
Qed.

Theorem src_samples_persist : forall (n : Z) (ts : list (sample A F)),
  ts <> [] -> Z.of_nat (length ts) <= n ->
  (forall t u, In t ts -> In u ts -> sample_shared A F t = sample_shared A F u) ->
  (forall t, In t ts -> table_ok t) ->
  (dor w <- src_save_h5 pdict pdict (holder_of n ts);
   dor f <- h5_close w;
   dor o <- src_load_h5 pdict pdict f;
   dor back <- res_map_all (fun tt' : sample A F * theta pdict pdict =>
                              src_from_dicts_as (fst tt') (fst (snd tt')) (snd (snd tt')))
                           (combine ts (attr_thetas o));
   Ok (attr_n_thetas o, back))
  = Ok (n, ts).
Proof.
  intros n ts Hne Hlen Hsh Hok.
  pose proof (src_save_load_is_model pdict pdict (holder_of n ts)) as H.
  assert (Hsl : save_load pdict pdict (snd (holder_of n ts)) = Ok (snd (holder_of n ts))).
  { apply load_save; unfold within_declared, shared_uniform, holder_of, as_obj; cbn [snd h_thetas h_declared].
    - destruct ts; [now elim Hne | discriminate].
    - unfold hlen. cbn [h_thetas]. now rewrite map_length.
    - intros x y Hx Hy. apply in_map_iff in Hx. apply in_map_iff in Hy.
      destruct Hx as [t [Ex Ht]]. destruct Hy as [u [Ey Hu]]. subst x y. cbn [sample_theta snd]. now apply Hsh. }
  rewrite Hsl in H. cbn [res_bind] in H.
  destruct (src_save_h5 pdict pdict (holder_of n ts)) as [w|e]; cbn [res_bind] in H |- *; [|discriminate].
  destruct (h5_close w) as [f|e]; cbn [res_bind] in H |- *; [|discriminate].
  rewrite H. cbn [res_bind]. unfold holder_of, as_obj, attr_thetas, attr_n_thetas. cbn [snd h_thetas h_declared].
  rewrite from_dicts_all by exact Hok. reflexivity.
Qed.

Variables (aeqb : A -> A -> bool) (feqb : F -> F -> bool).

Definition incl_state (r : result bool) : result (option bool) := dor e <- r; Ok (if e then None else Some false).

(* the loop over d1.items(): it stops with Some false at the first entry without an equal partner in d2 *)
Lemma equals_inner_loop (d2 : pdict) (f : option bool -> pystr * pval -> result (bool * option bool)) :
  (forall st k v, f st (k, v) =
     match sdict_get d2 k with
     | None => Ok (false, Some false)
     | Some w => dor e <- pval_equal A F aeqb feqb v w; Ok (if e then (true, st) else (false, Some false))
     end) ->
  forall d1, res_fold_brk f d1 None = incl_state (dict_included A F aeqb feqb d1 d2).
Proof.
  intros Hf. induction d1 as [|[k v] r IH]; cbn [res_fold_brk dict_included]; [reflexivity|].
  rewrite Hf. destruct (sdict_get d2 k) as [w|]; [|reflexivity].
  destruct (pval_equal A F aeqb feqb v w) as [[|]|e]; cbn [res_bind fst snd]; [exact IH | reflexivity | reflexivity].
Qed.

(* the loop over the two pairs of dicts, for a body that runs the inner loop and stops at its first Some *)
Lemma equals_outer_loop (g : option bool -> pdict * pdict -> result (bool * option bool)) :
  (forall st d1 d2, g st (d1, d2) =
     dor r <- incl_state (dict_included A F aeqb feqb d1 d2);
     match r with Some v => Ok (false, Some v) | None => Ok (true, st) end) ->
  forall p1 p2 s1 s2 : pdict,
  (dor r <- res_fold_brk g [(p1, p2); (s1, s2)] None; match r with Some v => Ok v | None => Ok true end)
  = dor e <- dict_included A F aeqb feqb p1 p2; if e then dict_included A F aeqb feqb s1 s2 else Ok false.
Proof.
  intros Hg p1 p2 s1 s2. cbn [res_fold_brk]. rewrite Hg.
  destruct (dict_included A F aeqb feqb p1 p2) as [[|]|e]; cbn [incl_state res_bind fst snd]; [|reflexivity|reflexivity].
  rewrite Hg. destruct (dict_included A F aeqb feqb s1 s2) as [[|]|e]; reflexivity.
Qed.

Theorem src_theta_equals_is_model :
  forall (T : Type) (same : T -> T -> bool) (priv shar : T -> result pdict) (a b : T),
  src_theta_equals A F aeqb feqb T same priv shar a b = theta_equals A F aeqb feqb same priv shar a b.
Proof.
  intros T same priv shar a b. unfold src_theta_equals, theta_equals.
  destruct (same a b); cbn [negb]; [|reflexivity].
  destruct (priv a) as [p1|e]; [|reflexivity]. cbn [res_bind].
  destruct (priv b) as [p2|e]; [|reflexivity]. cbn [res_bind].
  destruct (shar a) as [s1|e]; [|reflexivity]. cbn [res_bind].
  destruct (shar b) as [s2|e]; [|reflexivity]. cbn [res_bind].
  apply equals_outer_loop. intros st d1 d2. cbn beta iota zeta. rewrite (equals_inner_loop d2); [reflexivity|].
  (* the three branches of the translated body are pval_equal *)
  intros st' k v. cbn beta iota zeta. unfold sdict_mem, sdict_read, pval_equal.
  destruct (sdict_get d2 k) as [w|]; cbn [negb]; [|reflexivity].
  destruct v, w; cbn [pval_is_number pval_is_array py_ne np_array_equal res_bind negb]; try reflexivity;
    match goal with
    | |- context [aeqb ?x ?y] => destruct (aeqb x y)
    | |- context [feqb ?x ?y] => destruct (feqb x y)
    | |- context [list_eqb ?e ?x ?y] => destruct (list_eqb e x y)
    end; reflexivity.
Qed.

Lemma list_eqb_forall2 {X : Type} (e : X -> X -> bool) (l l' : list X) :
  list_eqb e l l' = true <-> Forall2 (fun x y => e x y = true) l l'.
Proof.
  revert l'. induction l as [|x l IH]; intros [|y l']; cbn [list_eqb]; split; intros H; try discriminate; try constructor;
    try (inversion H; fail).
  - now apply andb_true_iff in H.
  - apply IH. now apply andb_true_iff in H.
  - inversion H; subst. apply andb_true_iff. split; [assumption | now apply IH].
Qed.

Lemma list_eqb_eq {X : Type} (e : X -> X -> bool) :
  (forall x y, e x y = true <-> x = y) -> forall l l', list_eqb e l l' = true <-> l = l'.
Proof.
  intros He l l'. rewrite list_eqb_forall2. split; intros H.
  - induction H as [|x y l l' Hxy _ IH]; [reflexivity|]. f_equal; [now apply He | exact IH].
  - subst. induction l' as [|x l IH]; constructor; [now apply He | exact IH].
Qed.

Lemma list_eqb_z_eq (l l' : list Z) : list_eqb Z.eqb l l' = true <-> l = l'.
Proof. apply list_eqb_eq, Z.eqb_eq. Qed.

Lemma list_eqb_refl_z (l : list Z) : list_eqb Z.eqb l l = true.
Proof. now apply list_eqb_z_eq. Qed.

(* the test equals applies to two values is true exactly when they agree *)
Lemma pval_equal_agree (v w : pval) : pval_equal A F aeqb feqb v w = Ok true <-> pval_agree A F aeqb feqb v w.
Proof.
  destruct v as [a|x|l|l], w as [b|y|l'|l']; cbn [pval_equal pval_is_number py_ne np_array_equal res_bind];
    try (split; [discriminate | inversion 1]).
  - split; [intros [= H]; now constructor | inversion 1; now f_equal].
  - rewrite negb_involutive. split; [intros [= H]; now constructor | inversion 1; now f_equal].
  - split; [intros [= H]; apply list_eqb_z_eq in H; subst; constructor | inversion 1; f_equal; now apply list_eqb_z_eq].
  - split; [intros [= H]; constructor; now apply list_eqb_forall2 | inversion 1; f_equal; now apply list_eqb_forall2].
Qed.

(* two dicts with the same distinct keys in the same order are compared value by value, whatever the keys are *)
Fixpoint distinct_keys (ks : list pystr) : bool :=
  match ks with [] => true | k :: r => negb (existsb (str_eqb k) r) && distinct_keys r end.

Fixpoint vals_included (vs ws : list pval) : result bool :=
  match vs, ws with
  | v :: vs', w :: ws' => dor e <- pval_equal A F aeqb feqb v w; if e then vals_included vs' ws' else Ok false
  | _, _ => Ok true
  end.

Lemma dict_included_skip k (w : pval) (r d2 : pdict) :
  existsb (str_eqb k) (map fst r) = false ->
  dict_included A F aeqb feqb r ((k, w) :: d2) = dict_included A F aeqb feqb r d2.
Proof.
  induction r as [|[k' v] r IH]; cbn [map fst existsb dict_included sdict_get]; intros H; [reflexivity|].
  apply orb_false_iff in H as [H1 H2]. rewrite H1, IH by exact H2. reflexivity.
Qed.

Lemma dict_included_aligned (d1 : pdict) : forall d2 : pdict,
  map fst d1 = map fst d2 -> distinct_keys (map fst d1) = true ->
  dict_included A F aeqb feqb d1 d2 = vals_included (map snd d1) (map snd d2).
Proof.
  induction d1 as [|[k v] d1 IH]; intros [|[k' w] d2]; cbn [map fst snd]; try discriminate; [reflexivity|].
  intros [= <- Hk] Hd. cbn [distinct_keys] in Hd. apply andb_true_iff in Hd as [Hfresh Hd]. apply negb_true_iff in Hfresh.
  cbn [dict_included sdict_get vals_included]. rewrite str_eqb_refl, dict_included_skip, IH by assumption. reflexivity.
Qed.

Lemma dict_included_agree (d1 : pdict) : forall d2 : pdict,
  map fst d1 = map fst d2 -> distinct_keys (map fst d1) = true ->
  (dict_included A F aeqb feqb d1 d2 = Ok true <-> pdict_agree A F aeqb feqb d1 d2).
Proof.
  induction d1 as [|[k v] d1 IH]; intros [|[k' w] d2]; cbn [map fst snd]; try discriminate.
  - intros _ _. split; [constructor | reflexivity].
  - intros [= <- Hk] Hd. cbn [distinct_keys] in Hd. apply andb_true_iff in Hd as [Hfresh Hd]. apply negb_true_iff in Hfresh.
    cbn [dict_included sdict_get]. rewrite str_eqb_refl, dict_included_skip by assumption.
    specialize (IH d2 Hk Hd). split.
    + destruct (pval_equal A F aeqb feqb v w) as [[|]|] eqn:E; cbn [res_bind]; try discriminate.
      intros H. constructor; [split; [reflexivity | now apply pval_equal_agree] | now apply IH].
    + intros H. inversion H as [|? ? ? ? [_ Hv] Hr]; subst. apply pval_equal_agree in Hv. cbn [snd] in Hv.
      rewrite Hv. now apply IH.
Qed.

(* equals on the two shipped classes, with the class's own dict methods: the model equalities *)
Theorem sc_equals_is_eqb : forall a b : sc_sample A F,
  theta_equals A F aeqb feqb (fun _ _ => true) (fun t => Ok (sc_private t)) (fun _ => Ok (no_shared A F)) a b
  = Ok (sc_eqb A F aeqb feqb a b).
Proof.
  intros a b. unfold theta_equals. cbn [negb res_bind].
  rewrite (dict_included_aligned (sc_private a) (sc_private b) eq_refl eq_refl).
  destruct a as [w w0 v2 v1 v0 al pr], b as [w' w0' v2' v1' v0' al' pr']. unfold sc_eqb.
  cbn [sc_private map snd vals_included pval_equal pval_is_number np_array_equal py_ne res_bind
       sc_W sc_W0 sc_V2 sc_V1 sc_V0 sc_alpha sc_precision].
  destruct (aeqb w w'); [|reflexivity]. destruct (aeqb w0 w0'); [|reflexivity]. destruct (aeqb v2 v2'); [|reflexivity].
  destruct (aeqb v1 v1'); [|reflexivity]. destruct (aeqb v0 v0'); [|reflexivity]. destruct (feqb al al'); [|reflexivity].
  destruct (feqb pr pr'); reflexivity.
Qed.

Theorem in_equals_is_eqb : forall a b : in_sample A F,
  theta_equals A F aeqb feqb (fun _ _ => true) (fun t => Ok (in_private t)) (fun t => Ok (in_shared t)) a b
  = Ok (in_eqb A F aeqb feqb a b).
Proof.
  intros a b. unfold theta_equals. cbn [negb res_bind].
  rewrite (dict_included_aligned (in_private a) (in_private b) eq_refl eq_refl),
    (dict_included_aligned (in_shared a) (in_shared b) eq_refl eq_refl).
  destruct a as [w v2 pr l], b as [w' v2' pr' l']. unfold in_eqb, table_eqb.
  cbn [in_private in_shared map snd vals_included pval_equal pval_is_number np_array_equal py_ne res_bind
       in_W in_V2 in_precision in_lookup].
  destruct (aeqb w w'); [|reflexivity]. destruct (aeqb v2 v2'); [|reflexivity]. destruct (feqb pr pr'); [|reflexivity].
  cbn [negb andb].
  destruct (list_eqb Z.eqb (map (fun x => fst (fst x)) l) (map (fun x => fst (fst x)) l')); [|reflexivity].
  destruct (list_eqb Z.eqb (map (fun x => snd (fst x)) l) (map (fun x => snd (fst x)) l')); [|reflexivity].
  destruct (list_eqb feqb (map (fun x => snd x) l) (map (fun x => snd x) l')); reflexivity.
Qed.

(* the whole picture: Theta.equals as translated, on any two shipped samples, dispatching to the TRANSLATED dict methods
   of each sample's class, is the model equality (false across classes) *)
Theorem src_equals_is_sample_eqb : forall a b : sample A F,
  src_theta_equals A F aeqb feqb (sample A F) (same_class A F) src_private_of src_shared_of a b
  = Ok (sample_eqb A F aeqb feqb a b).
Proof.
  intros a b. rewrite src_theta_equals_is_model.
  destruct a as [x|x], b as [y|y]; cbn [sample_eqb]; try reflexivity.
  - rewrite <- (sc_equals_is_eqb x y). reflexivity.
  - rewrite <- (in_equals_is_eqb x y). reflexivity.
Qed.

(* equals is true exactly when the dict representations agree *)
Theorem sc_eqb_iff_agree : forall a b : sc_sample A F,
  sc_eqb A F aeqb feqb a b = true <-> pdict_agree A F aeqb feqb (sc_private a) (sc_private b).
Proof.
  intros a b. rewrite <- (dict_included_agree (sc_private a) (sc_private b) eq_refl eq_refl).
  pose proof (sc_equals_is_eqb a b) as E. unfold theta_equals in E. cbn [negb res_bind] in E.
  destruct (dict_included A F aeqb feqb (sc_private a) (sc_private b)) as [[|]|]; [| |discriminate E];
    injection E as <-; split; congruence.
Qed.

Theorem in_eqb_iff_agree : forall a b : in_sample A F,
  in_eqb A F aeqb feqb a b = true
  <-> pdict_agree A F aeqb feqb (in_private a) (in_private b) /\ pdict_agree A F aeqb feqb (in_shared a) (in_shared b).
Proof.
  intros a b. rewrite <- (dict_included_agree (in_private a) (in_private b) eq_refl eq_refl),
    <- (dict_included_agree (in_shared a) (in_shared b) eq_refl eq_refl).
  pose proof (in_equals_is_eqb a b) as E. unfold theta_equals in E. cbn [negb res_bind] in E.
  destruct (dict_included A F aeqb feqb (in_private a) (in_private b)) as [[|]|]; cbn [res_bind] in E; [| |discriminate E].
  - rewrite E. split; [intros ->; now split | intros [_ [= ->]]; reflexivity].
  - injection E as <-. split; [discriminate | intros [H _]; discriminate H].
Qed.

Theorem src_equals_true_iff_agree : forall a b : sample A F,
  src_theta_equals A F aeqb feqb (sample A F) (same_class A F) src_private_of src_shared_of a b = Ok true
  <-> same_class A F a b = true
      /\ pdict_agree A F aeqb feqb (sample_private A F a) (sample_private A F b)
      /\ pdict_agree A F aeqb feqb (sample_shared A F a) (sample_shared A F b).
Proof.
  intros a b. rewrite src_equals_is_sample_eqb.
  destruct a as [x|x], b as [y|y]; cbn [sample_eqb same_class sample_private sample_shared].
  - rewrite <- sc_eqb_iff_agree. split.
    + intros H. inversion H as [H']. rewrite H'. repeat split; constructor.
    + intros [_ [H _]]. now rewrite H.
  - split; [discriminate | intros [H _]; discriminate].
  - split; [discriminate | intros [H _]; discriminate].
  - pose proof (in_eqb_iff_agree x y) as E. split.
    + intros H. inversion H as [H']. split; [reflexivity | now apply E].
    + intros [_ H]. apply E in H. now rewrite H.
Qed.

(* when == on floats and np.array_equal on arrays decide equality of the VALUES (no NaN; -0.0 and 0.0 taken as one value):
   equals is true exactly when the two samples have the same dict representation, i.e. are the same sample *)
Section Reflecting.
Hypothesis aeqb_eq : forall x y, aeqb x y = true <-> x = y.
Hypothesis feqb_eq : forall x y, feqb x y = true <-> x = y.

Lemma sc_eqb_eq (x y : sc_sample A F) : sc_eqb A F aeqb feqb x y = true <-> x = y.
Proof.
  destruct x as [w w0 v2 v1 v0 al pr], y as [w' w0' v2' v1' v0' al' pr']. unfold sc_eqb.
  cbn [sc_W sc_W0 sc_V2 sc_V1 sc_V0 sc_alpha sc_precision]. rewrite !andb_true_iff, !aeqb_eq, !feqb_eq. split.
  - intros [[[[[[-> ->] ->] ->] ->] ->] ->]. reflexivity.
  - intros [= -> -> -> -> -> -> ->]. repeat split.
Qed.

Lemma in_eqb_eq (x y : in_sample A F) : in_eqb A F aeqb feqb x y = true <-> x = y.
Proof.
  destruct x as [w v2 pr l], y as [w' v2' pr' l']. unfold in_eqb, table_eqb.
  cbn [in_W in_V2 in_precision in_lookup].
  rewrite !andb_true_iff, !aeqb_eq, !feqb_eq, !list_eqb_z_eq, (list_eqb_eq feqb feqb_eq). split.
  - intros [[[-> ->] ->] [[H1 H2] H3]]. f_equal. now apply columns_eq.
  - intros [= -> -> -> ->]. repeat split.
Qed.

Theorem sample_eqb_eq : forall a b : sample A F, sample_eqb A F aeqb feqb a b = true <-> a = b.
Proof.
  intros [x|x] [y|y]; cbn [sample_eqb]; rewrite ?sc_eqb_eq, ?in_eqb_eq; split; congruence.
Qed.

Lemma sample_theta_eq_class (a b : sample A F) : sample_theta A F a = sample_theta A F b -> same_class A F a b = true.
Proof. destruct a, b; cbn [same_class]; intros H; try reflexivity; inversion H. Qed.

Theorem src_equals_true_iff_same_representation : forall a b : sample A F,
  src_theta_equals A F aeqb feqb (sample A F) (same_class A F) src_private_of src_shared_of a b = Ok true
  <-> sample_theta A F a = sample_theta A F b.
Proof.
  intros a b. rewrite src_equals_is_sample_eqb. split.
  - intros H. inversion H as [H']. apply sample_eqb_eq in H'. now subst.
  - intros H. apply sample_theta_eq in H. subst. f_equal. now apply sample_eqb_eq.
Qed.
End Reflecting.

End Dicts.
