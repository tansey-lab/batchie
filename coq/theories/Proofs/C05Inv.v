(* C05: the two wrappers agree; permuting a plate's experiments; finiteness;
   the ValueError checks pass on well-formed input. *)
From Coq Require Import List Qcanon Lia Arith Permutation.
From Batchie Require Import Lib.Sexp Lib.Num Lib.NumP Lib.ListX Model.Dbal Proofs.C05Pad Proofs.C05Lse Proofs.C05Kernel
  Proofs.C05Scorer.
Import ListNotations.

(* homoscedastic = heteroscedastic on row-constant variances *)
Definition const_plate (mu : list (list Qc)) (v : list Qc) : plate :=
  (mu, map (fun x => repeat x (snd (shape2 mu))) v).
Definition homo_plates (preds : list (list (list Qc))) (variances : list (list Qc)) : list plate :=
  map (fun pv => const_plate (fst pv) (snd pv)) (combine preds variances).

Lemma homo_expand_const mu v : homo_expand mu v = snd (const_plate mu v).
Proof.
  unfold homo_expand, const_plate. cbn [snd]. apply map_ext. intros x. f_equal. ring.
Qed.

Theorem homo_eq_hetero orc preds variances D df ts :
  length preds = length variances ->
  homo orc preds variances D df ts = hetero orc (homo_plates preds variances) D df ts.
Proof.
  intros Hlen. unfold homo, hetero, homo_plates. rewrite !map_map.
  cbn [const_plate fst].
  replace (map (fun x : list (list Qc) * list Qc => fst x) (combine preds variances)) with preds
    by (symmetry; now apply map_fst_combine).
  do 2 f_equal. apply map_ext. intros pv. apply homo_expand_const.
Qed.

(* permuting the experiments (columns) of a plate *)
Definition permute_cols (pi : list nat) (a : list (list Qc)) : list (list Qc) :=
  map (fun row => map (fun j => nth j row 0%Qc) pi) a.
Definition permute_plate (pi : list nat) (pl : plate) : plate :=
  (permute_cols pi (fst pl), permute_cols pi (snd pl)).

Lemma get2_permute_cols pi a i e :
  (i < length a)%nat -> (e < length pi)%nat ->
  get2 0%Qc (permute_cols pi a) i e = get2 0%Qc a i (nth e pi 0%nat).
Proof.
  intros Hi He. unfold get2, permute_cols.
  rewrite (nth_map_lt _ a [] [] i) by exact Hi.
  now rewrite (nth_map_lt _ pi 0%Qc 0%nat e) by exact He.
Qed.

Lemma rect_permute_cols T E pi a : rect T E a -> rect T (length pi) (permute_cols pi a).
Proof.
  intros [Hl _]. split; [unfold permute_cols; now rewrite map_length|].
  apply Forall_forall. intros r Hr. unfold permute_cols in Hr.
  apply in_map_iff in Hr as (r0 & <- & _). apply map_length.
Qed.

Lemma plate_wf_permute T pi pl : plate_wf T pl -> plate_wf T (permute_plate pi pl).
Proof.
  intros (E & Hm & Hv). exists (length pi). split; cbn [permute_plate fst snd]; eapply rect_permute_cols; eassumption.
Qed.

Theorem direct_perm_experiments orc T D df ts pl pi :
  (0 < T)%nat -> plate_wf T pl -> Forall (triple_valid T) ts ->
  Permutation pi (seq 0 (n_exp pl)) ->
  direct orc D df ts (permute_plate pi pl) = direct orc D df ts pl.
Proof.
  intros HT Hwf Hts HP. unfold direct. f_equal. apply map_ext_in. intros t Ht.
  rewrite Forall_forall in Hts. specialize (Hts t Ht). destruct t as [[i1 i2] i3].
  destruct Hts as (H1 & H2 & H3).
  pose proof Hwf as (E & Hm & Hv).
  assert (HE : n_exp pl = E) by (unfold n_exp; eapply rect_width; eassumption).
  assert (Hlen : length pi = E) by (rewrite (Permutation_length HP), seq_length; exact HE).
  assert (HE' : snd (shape2 (fst (permute_plate pi pl))) = E).
  { rewrite <- Hlen. eapply rect_width; [|exact HT]. cbn [permute_plate fst]. eapply rect_permute_cols; eassumption. }
  unfold direct_summand. destruct (qeqb _ 0%Qc); [reflexivity|].
  rewrite HE'. fold (n_exp pl). rewrite HE.
  assert (Hterms : map (direct_exp_term orc (permute_plate pi pl) (i1, i2, i3)) (seq 0 E)
                   = map (direct_exp_term orc pl (i1, i2, i3)) pi).
  { rewrite <- (map_seq_nth (direct_exp_term orc pl (i1, i2, i3)) pi 0%nat). rewrite Hlen.
    apply map_ext_in. intros e He. apply in_seq in He.
    unfold direct_exp_term. cbn [permute_plate fst snd].
    destruct Hm as [Hlm _], Hv as [Hlv _].
    rewrite !get2_permute_cols by lia. reflexivity. }
  rewrite Hterms. rewrite HE in HP.
  rewrite (qsum_perm _ _ (Permutation_map fst (Permutation_map (direct_exp_term orc pl (i1, i2, i3)) HP))).
  rewrite (qsum_perm _ _ (Permutation_map snd (Permutation_map (direct_exp_term orc pl (i1, i2, i3)) HP))).
  reflexivity.
Qed.

Theorem hetero_perm_experiments orc T D df ts before pl after pi :
  (0 < T)%nat -> Forall (plate_wf T) (before ++ pl :: after) -> Forall (triple_valid T) ts ->
  Permutation pi (seq 0 (n_exp pl)) ->
  hetero orc (before ++ permute_plate pi pl :: after) D df ts = hetero orc (before ++ pl :: after) D df ts.
Proof.
  intros HT Hwf Hts HP.
  assert (Hpl : plate_wf T pl).
  { rewrite Forall_forall in Hwf. apply Hwf. apply in_or_app. right. now left. }
  rewrite !(hetero_eq_direct orc T); try assumption.
  - rewrite !map_app. cbn [map]. now rewrite (direct_perm_experiments orc T).
  - apply Forall_app in Hwf as [Hb Ha]. apply Forall_app. split; [exact Hb|].
    inversion Ha; subst. constructor; [now apply plate_wf_permute|assumption].
Qed.

Lemma qeqb_true_iff a b : qeqb a b = true <-> a = b.
Proof. unfold qeqb. destruct (Qc_eq_dec a b); split; congruence. Qed.

Lemma direct_summand_none_iff orc D df pl t : direct_summand orc D df pl t = None <-> k_dsum D t = 0%Qc.
Proof.
  destruct t as [[i1 i2] i3]. unfold direct_summand, k_dsum.
  destruct (qeqb _ 0%Qc) eqn:E.
  - apply qeqb_true_iff in E. tauto.
  - split; [discriminate|]. intros H. apply qeqb_true_iff in H. congruence.
Qed.

Theorem direct_finite_iff orc D df ts pl :
  direct orc D df ts pl <> None <-> exists t, In t ts /\ k_dsum D t <> 0%Qc.
Proof.
  unfold direct. rewrite logsumexp_none_iff, Forall_map, <- Exists_Forall_neg, Exists_exists.
  - split; intros (t & Hin & Ht); exists t; (split; [exact Hin|]);
      [rewrite <- (direct_summand_none_iff orc D df pl) | rewrite (direct_summand_none_iff orc D df pl)]; exact Ht.
  - intros t. destruct (direct_summand orc D df pl t); [right; discriminate | left; reflexivity].
Qed.

Lemma shape2_eqb_refl s : shape2_eqb s s = true.
Proof. unfold shape2_eqb. now rewrite !Nat.eqb_refl. Qed.

Theorem hetero_checked_ok orc T plates D df idxs :
  (3 <= T)%nat -> plates <> [] -> Forall (plate_wf T) plates -> rect T T D ->
  hetero_checked orc plates D df idxs
  = res_bind (triples_of_draw T idxs) (fun ts => Ok (hetero orc plates D df ts)).
Proof.
  intros HT Hne Hwf HD. assert (HT0 : (0 < T)%nat) by lia.
  unfold hetero_checked.
  assert (Hshapes : forallb (fun pl => shape2_eqb (shape2 (fst pl)) (shape2 (snd pl))) plates = true).
  { apply forallb_forall. intros pl Hin. rewrite Forall_forall in Hwf.
    destruct (plate_shapes T pl HT0 (Hwf pl Hin)) as [-> ->]. apply shape2_eqb_refl. }
  rewrite Hshapes. cbn [negb]. unfold kernel_checked, hetero.
  destruct (shape3_pad_plates T plates HT0 Hne Hwf) as [-> ->].
  assert (HDs : shape2 D = (T, T)).
  { unfold shape2. f_equal; [apply HD|now apply (rect_width T T)]. }
  rewrite HDs. cbn [fst snd]. rewrite !Nat.eqb_refl. cbn [andb negb].
  destruct (Nat.ltb_spec T 3); [lia|reflexivity].
Qed.

(* a plate's score inside any plate list is its score when scored alone *)
Theorem hetero_alone orc T D df ts before pl after :
  (0 < T)%nat -> Forall (plate_wf T) (before ++ pl :: after) -> Forall (triple_valid T) ts ->
  nth (length before) (hetero orc (before ++ pl :: after) D df ts) None
  = nth 0 (hetero orc [pl] D df ts) None.
Proof.
  intros HT Hwf Hts.
  assert (Hpl : plate_wf T pl).
  { rewrite Forall_forall in Hwf. apply Hwf. apply in_or_app. right. now left. }
  rewrite !(hetero_eq_direct orc T) by (assumption || (constructor; [assumption|constructor])).
  rewrite map_app. rewrite app_nth2 by (rewrite map_length; lia).
  rewrite map_length, Nat.sub_diag. reflexivity.
Qed.

Theorem homo_eq_direct orc T preds variances D df ts :
  (0 < T)%nat -> length preds = length variances ->
  Forall (plate_wf T) (homo_plates preds variances) -> Forall (triple_valid T) ts ->
  homo orc preds variances D df ts = map (direct orc D df ts) (homo_plates preds variances).
Proof.
  intros HT Hlen Hwf Hts. rewrite homo_eq_hetero by exact Hlen. now apply (hetero_eq_direct orc T).
Qed.
