(* C10: holders, persistence, concatenation, chain labelling. *)
From Coq Require Import ZArith List Bool Lia Permutation.
From Batchie Require Import Lib.Sexp Lib.ListX Model.Thetas Proofs.C10Sort.
Import ListNotations.
Open Scope Z_scope.

Lemma res_map_all_id {A} (f : A -> result A) l :
  (forall x, In x l -> f x = Ok x) -> res_map_all f l = Ok l.
Proof. intros H. rewrite <- (map_id l) at 2. now apply res_map_all_ok. Qed.

(* `theta P S` and `P * S` are convertible but different atoms for lia *)
Ltac tlia := unfold Thetas.theta in *; lia.

Section Thetas.
Variables P Sh : Type.
Notation theta := (theta P Sh).
Notation holder := (holder P Sh).

Definition hlen (h : holder) : Z := Z.of_nat (length (h_thetas h)).
(* the invariant add_theta maintains *)
Definition within_declared (h : holder) : Prop := hlen h <= h_declared h.
Definition complete (h : holder) : Prop := hlen h = h_declared h.
Definition shared_uniform (h : holder) : Prop :=
  forall t u, In t (h_thetas h) -> In u (h_thetas h) -> snd t = snd u.

(* what save/load does to the samples: shared parameters of sample 0 for everybody *)
Definition normalize (h : holder) : holder :=
  match h_thetas h with
  | [] => h
  | t0 :: _ => {| h_declared := h_declared h; h_thetas := map (fun t => (fst t, snd t0)) (h_thetas h) |}
  end.

Lemma holder_eta (h : holder) : {| h_declared := h_declared h; h_thetas := h_thetas h |} = h.
Proof. now destruct h. Qed.

Lemma add_beyond_declared_refused (h : holder) t :
  h_declared h <= hlen h -> add_theta P Sh h t = Err 1.
Proof. unfold add_theta, hlen. intros H. destruct (_ >=? _) eqn:E; [reflexivity|tlia]. Qed.

Lemma add_within_declared (h : holder) t :
  hlen h < h_declared h ->
  add_theta P Sh h t = Ok {| h_declared := h_declared h; h_thetas := h_thetas h ++ [t] |}.
Proof. unfold add_theta, hlen. intros H. destruct (_ >=? _) eqn:E; [tlia|reflexivity]. Qed.

Lemma add_preserves_within (h h' : holder) t :
  add_theta P Sh h t = Ok h' -> within_declared h'.
Proof.
  unfold add_theta, within_declared, hlen. destruct (_ >=? _) eqn:E; [discriminate|].
  intros [= <-]. cbn [h_declared h_thetas]. rewrite app_length. cbn [length]. tlia.
Qed.

Lemma get_out_of_range_refused (h : holder) i :
  i < 0 \/ hlen h <= i -> get_theta P Sh h i = Err 2.
Proof.
  unfold get_theta, hlen. intros H.
  destruct ((i >? Z.of_nat (length (h_thetas h)) - 1) || (i <? 0)) eqn:E; [reflexivity|tlia].
Qed.

Lemma get_in_range (h : holder) (i : nat) t :
  nth_error (h_thetas h) i = Some t -> get_theta P Sh h (Z.of_nat i) = Ok t.
Proof.
  intros H. unfold get_theta.
  assert (Hi : (i < length (h_thetas h))%nat) by (apply nth_error_Some; congruence).
  destruct ((Z.of_nat i >? Z.of_nat (length (h_thetas h)) - 1) || (Z.of_nat i <? 0)) eqn:E; [tlia|].
  rewrite Nat2Z.id, H. reflexivity.
Qed.

Lemma get_ok_inv (h : holder) i t :
  get_theta P Sh h i = Ok t -> 0 <= i < hlen h /\ nth_error (h_thetas h) (Z.to_nat i) = Some t.
Proof.
  unfold get_theta, hlen.
  destruct ((i >? Z.of_nat (length (h_thetas h)) - 1) || (i <? 0)) eqn:E; [discriminate|].
  destruct (nth_error (h_thetas h) (Z.to_nat i)) eqn:N; [|discriminate].
  intros [= ->]. split; [tlia|reflexivity].
Qed.

Lemma add_all_ok ts : forall h : holder,
  Z.of_nat (length (h_thetas h) + length ts) <= h_declared h ->
  add_all P Sh h ts = Ok {| h_declared := h_declared h; h_thetas := h_thetas h ++ ts |}.
Proof.
  induction ts as [|t r IH]; intros h H; cbn [add_all].
  - rewrite app_nil_r, holder_eta. reflexivity.
  - cbn [length] in H. rewrite add_within_declared by (unfold hlen; tlia). cbn [res_bind].
    rewrite IH; cbn [h_declared h_thetas].
    + rewrite <- app_assoc. reflexivity.
    + rewrite app_length. cbn [length]. tlia.
Qed.

Lemma add_all_err ts : forall h : holder,
  ts <> [] -> Z.of_nat (length (h_thetas h) + length ts) > h_declared h ->
  add_all P Sh h ts = Err 1.
Proof.
  induction ts as [|t r IH]; intros h Hne H; [congruence|]. cbn [add_all].
  destruct (Z_lt_le_dec (hlen h) (h_declared h)) as [Hlt|Hge].
  - rewrite add_within_declared by exact Hlt. cbn [res_bind].
    destruct r as [|t' r'].
    + cbn [length] in H. unfold hlen in Hlt. tlia.
    + apply IH; [discriminate|]. cbn [h_declared h_thetas]. rewrite app_length. cbn [length] in *. tlia.
  - rewrite add_beyond_declared_refused by exact Hge. reflexivity.
Qed.

(* values under the decimal strings of their indices, counted from s: the groups save writes, before h5py's ordering *)
Definition keyed (s : nat) (xs : list P) : list (Decimal.uint * P) :=
  map (fun it => (key_of_index (fst it), snd it)) (combine (seq s (length xs)) xs).

Lemma keyed_cons s x r : keyed s (x :: r) = (key_of_index s, x) :: keyed (S s) r.
Proof. reflexivity. Qed.

Lemma keyed_numkeys xs : forall s, map (fun g => index_of_key (fst g)) (keyed s xs) = seq s (length xs).
Proof.
  induction xs as [|x r IH]; intros s; [reflexivity|].
  rewrite keyed_cons. cbn [map length seq fst]. now rewrite index_of_key_of_index, IH.
Qed.

Lemma keyed_keys xs : forall s, map fst (keyed s xs) = map key_of_index (seq s (length xs)).
Proof.
  induction xs as [|x r IH]; intros s; [reflexivity|].
  rewrite keyed_cons. cbn [map length seq fst]. now rewrite IH.
Qed.

Lemma keyed_values xs : forall s, map snd (keyed s xs) = xs.
Proof.
  induction xs as [|x r IH]; intros s; [reflexivity|].
  rewrite keyed_cons. cbn [map snd]. now rewrite IH.
Qed.

Lemma keyed_private (ts : list theta) : forall s,
  map (fun it => (key_of_index (fst it), fst (snd it))) (combine (seq s (length ts)) ts) = keyed s (map fst ts).
Proof.
  induction ts as [|t r IH]; intros s; [reflexivity|].
  cbn [length seq combine map]. rewrite keyed_cons, IH. reflexivity.
Qed.

Lemma save_groups (h : holder) f :
  save P Sh h = Ok f -> f_groups f = lexsort P (keyed 0 (map fst (h_thetas h))).
Proof.
  unfold save, enumerate. rewrite keyed_private. destruct (h_thetas h); [discriminate|]. now intros [= <-].
Qed.

(* sorted(keys, key=int) undoes ANY iteration order of the groups save_h5 wrote *)
Lemma numsort_restores xs gs :
  Permutation gs (keyed 0 xs) -> numsort P gs = keyed 0 xs.
Proof.
  intros Hp. unfold numsort. apply sort_by_restores.
  - eapply keys_seq_sorted. apply keyed_numkeys.
  - rewrite keyed_numkeys. apply seq_NoDup.
  - exact Hp.
Qed.

Lemma save_empty_refused (h : holder) : h_thetas h = [] -> save P Sh h = Err 4.
Proof. unfold save. now intros ->. Qed.

Lemma load_of_groups n (sh : Sh) (ts : list theta) gs :
  Permutation gs (keyed 0 (map fst ts)) ->
  load P Sh {| f_n := n; f_shared := sh; f_groups := gs |}
  = add_all P Sh (empty_holder P Sh n) (map (fun t => (fst t, sh)) ts).
Proof.
  intros Hp. unfold load. cbn [f_n f_shared f_groups].
  rewrite (numsort_restores _ gs Hp), <- (map_map snd (fun x => (x, sh))), keyed_values, map_map. reflexivity.
Qed.

(* complete description of save followed by load *)
Lemma save_load_nonempty (h : holder) t0 r :
  h_thetas h = t0 :: r ->
  save_load P Sh h
  = add_all P Sh (empty_holder P Sh (h_declared h)) (map (fun t => (fst t, snd t0)) (h_thetas h)).
Proof.
  intros E. unfold save_load, save, enumerate. rewrite keyed_private, E. cbn [res_bind]. rewrite <- E.
  apply load_of_groups. apply sort_by_perm.
Qed.

Lemma save_load_general (h : holder) :
  h_thetas h <> [] -> within_declared h -> save_load P Sh h = Ok (normalize h).
Proof.
  intros Hne Hw. destruct (h_thetas h) as [|t0 r] eqn:E; [congruence|].
  rewrite (save_load_nonempty h t0 r E). unfold normalize. rewrite E. rewrite <- E.
  rewrite add_all_ok; cbn [empty_holder h_declared h_thetas app]; [reflexivity|].
  rewrite map_length. unfold within_declared, hlen in Hw. cbn [length Nat.add]. tlia.
Qed.

Lemma save_load_general_explicit (h : holder) t0 r :
  h_thetas h = t0 :: r -> hlen h <= h_declared h ->
  save_load P Sh h
  = Ok {| h_declared := h_declared h; h_thetas := map (fun t => (fst t, snd t0)) (h_thetas h) |}.
Proof.
  intros E Hw. rewrite save_load_general; [|rewrite E; discriminate|exact Hw].
  unfold normalize. now rewrite E.
Qed.

Lemma save_load_overfull (h : holder) :
  h_thetas h <> [] -> hlen h > h_declared h -> save_load P Sh h = Err 1.
Proof.
  intros Hne Hw. destruct (h_thetas h) as [|t0 r] eqn:E; [congruence|].
  rewrite (save_load_nonempty h t0 r E).
  apply add_all_err.
  - rewrite E. discriminate.
  - cbn [empty_holder h_declared h_thetas length]. rewrite map_length. unfold hlen in Hw. tlia.
Qed.

Lemma normalize_uniform (h : holder) : shared_uniform h -> normalize h = h.
Proof.
  intros Hu. unfold normalize. destruct (h_thetas h) as [|t0 r] eqn:E; [reflexivity|].
  rewrite <- (holder_eta h) at 2. f_equal. rewrite E.
  rewrite <- (map_id (t0 :: r)) at 2. apply map_ext_in. intros t Ht.
  rewrite (surjective_pairing t) at 2. f_equal. symmetry. apply Hu; rewrite E; [exact Ht | now left].
Qed.

Lemma normalize_is_uniform (h : holder) : h_thetas h <> [] -> shared_uniform (normalize h).
Proof.
  intros Hne. unfold normalize, shared_uniform. destruct (h_thetas h) as [|t0 r] eqn:E; [congruence|].
  cbn [h_thetas]. intros t u Ht Hu. apply in_map_iff in Ht as [t' [<- _]]. apply in_map_iff in Hu as [u' [<- _]].
  reflexivity.
Qed.

Lemma normalize_thetas_length (h : holder) : length (h_thetas (normalize h)) = length (h_thetas h).
Proof. unfold normalize. destruct (h_thetas h) eqn:E; [now rewrite E|]. cbn [h_thetas]. now rewrite map_length. Qed.

Lemma normalize_declared (h : holder) : h_declared (normalize h) = h_declared h.
Proof. unfold normalize. now destruct (h_thetas h). Qed.

Theorem load_save (h : holder) :
  h_thetas h <> [] -> within_declared h -> shared_uniform h -> save_load P Sh h = Ok h.
Proof. intros Hne Hw Hu. rewrite save_load_general by assumption. now rewrite normalize_uniform. Qed.

Theorem load_save_complete (n : nat) (ts : list theta) :
  (1 <= n)%nat -> length ts = n -> (forall t u, In t ts -> In u ts -> snd t = snd u) ->
  save_load P Sh {| h_declared := Z.of_nat n; h_thetas := ts |} = Ok {| h_declared := Z.of_nat n; h_thetas := ts |}.
Proof.
  intros Hn Hl Hu. apply load_save.
  - cbn [h_thetas]. destruct ts; [cbn in Hl; tlia | discriminate].
  - unfold within_declared, hlen. cbn [h_thetas h_declared]. tlia.
  - exact Hu.
Qed.

Lemma save_load_ok_inv (h h' : holder) :
  save_load P Sh h = Ok h' -> h_thetas h <> [] /\ within_declared h /\ h' = normalize h.
Proof.
  intros H. destruct (h_thetas h) as [|t0 r] eqn:E.
  - unfold save_load in H. rewrite save_empty_refused in H by exact E. discriminate.
  - assert (Hne : h_thetas h <> []) by (rewrite E; discriminate).
    destruct (Z_le_gt_dec (hlen h) (h_declared h)) as [Hw|Hw].
    + rewrite save_load_general in H by assumption. injection H as <-. rewrite <- E. auto.
    + rewrite save_load_overfull in H by assumption. discriminate.
Qed.

Theorem save_load_fixed_point (h h' : holder) :
  save_load P Sh h = Ok h' -> save_load P Sh h' = Ok h'.
Proof.
  intros H. apply save_load_ok_inv in H as (Hne & Hw & ->).
  apply load_save.
  - intros E. apply Hne. apply length_zero_iff_nil. rewrite <- normalize_thetas_length, E. reflexivity.
  - unfold within_declared, hlen in *. now rewrite normalize_thetas_length, normalize_declared.
  - apply normalize_is_uniform, Hne.
Qed.

Theorem file_keys (h : holder) f :
  save P Sh h = Ok f ->
  Permutation (map fst (f_groups f)) (map key_of_index (seq 0 (length (h_thetas h)))).
Proof.
  intros H. rewrite (save_groups h f H).
  eapply perm_trans; [apply Permutation_map, sort_by_perm|]. now rewrite keyed_keys, map_length.
Qed.

(* the statement about sorting on its own, for plain values *)
Theorem numeric_sort_restores_order (xs : list P) (gs : list (Decimal.uint * P)) :
  Permutation gs (map (fun it => (key_of_index (fst it), snd it)) (combine (seq 0 (length xs)) xs)) ->
  map snd (numsort P gs) = xs.
Proof.
  intros Hp. rewrite (numsort_restores xs gs Hp). apply keyed_values.
Qed.

Definition total_declared (hs : list holder) : Z := fold_right Z.add 0 (map h_declared hs).
Definition all_thetas (hs : list holder) : list theta := concat (map h_thetas hs).

Lemma fold_combine (r : list holder) : forall h,
  fold_left (combine_holders P Sh) r h
  = {| h_declared := h_declared h + total_declared r; h_thetas := h_thetas h ++ all_thetas r |}.
Proof.
  induction r as [|a r IH]; intros h; cbn [fold_left].
  - unfold total_declared, all_thetas. cbn. rewrite Z.add_0_r, app_nil_r, holder_eta. reflexivity.
  - rewrite IH. unfold combine_holders, total_declared, all_thetas. cbn [h_declared h_thetas map fold_right concat].
    f_equal; [tlia | now rewrite app_assoc].
Qed.

Theorem concat_chain_major (hs : list holder) :
  hs <> [] ->
  concat_holders P Sh hs = Ok {| h_declared := total_declared hs; h_thetas := all_thetas hs |}.
Proof.
  intros Hne. destruct hs as [|h r]; [congruence|]. unfold concat_holders.
  destruct r as [|h2 r].
  - unfold total_declared, all_thetas. cbn. rewrite Z.add_0_r, app_nil_r, holder_eta. reflexivity.
  - rewrite fold_combine. reflexivity.
Qed.

Lemma concat_nothing_refused : concat_holders P Sh [] = Err 3.
Proof. reflexivity. Qed.

Definition chain_ids_from (s : nat) (hs : list holder) : list Z :=
  concat (map (fun ih => repeat (Z.of_nat (fst ih)) (Z.to_nat (h_declared (snd ih)))) (combine (seq s (length hs)) hs)).
(* the intended labelling: every sample paired with the number of the holder it sits in *)
Definition labelled_from (s : nat) (hs : list holder) : list (Z * theta) :=
  concat (map (fun ih => map (pair (Z.of_nat (fst ih))) (h_thetas (snd ih))) (combine (seq s (length hs)) hs)).
Definition labelled := labelled_from 0.

Lemma complete_size (h : holder) : complete h -> Z.to_nat (h_declared h) = length (h_thetas h).
Proof. unfold complete, hlen. tlia. Qed.

Lemma chain_ids_is_from hs : chain_ids P Sh hs = chain_ids_from 0 hs.
Proof. reflexivity. Qed.

Lemma combine_repeat_app {A B} (a : A) (l : list B) xs ys :
  combine (repeat a (length l) ++ xs) (l ++ ys) = map (pair a) l ++ combine xs ys.
Proof. induction l as [|b r IH]; cbn; [reflexivity | now rewrite IH]. Qed.

Lemma aligned_from hs : forall s,
  (forall h, In h hs -> complete h) ->
  combine (chain_ids_from s hs) (all_thetas hs) = labelled_from s hs.
Proof.
  induction hs as [|h r IH]; intros s Hc; [reflexivity|].
  unfold chain_ids_from, all_thetas, labelled_from in *.
  cbn [length seq combine map concat fst snd].
  rewrite (complete_size h) by (apply Hc; now left). rewrite combine_repeat_app. f_equal. apply IH. intros h' Hin. apply Hc. now right.
Qed.

Theorem chain_ids_aligned hs :
  (forall h, In h hs -> complete h) ->
  combine (chain_ids P Sh hs) (all_thetas hs) = labelled hs.
Proof. intros Hc. rewrite chain_ids_is_from. now apply aligned_from. Qed.

Lemma chain_ids_from_length hs : forall s,
  (forall h, In h hs -> complete h) -> length (chain_ids_from s hs) = length (all_thetas hs).
Proof.
  induction hs as [|h r IH]; intros s Hc; [reflexivity|].
  unfold chain_ids_from, all_thetas in *. cbn [length seq combine map concat fst snd].
  rewrite !app_length, repeat_length, (IH (Datatypes.S s)) by (intros h' Hin; apply Hc; now right).
  now rewrite (complete_size h) by (apply Hc; now left).
Qed.

(* position form: position p of the concatenation lies in holder number chain_ids[p] *)
Lemma position_from hs : forall s p,
  (forall h, In h hs -> complete h) -> (p < length (all_thetas hs))%nat ->
  exists c h off,
    nth_error (chain_ids_from s hs) p = Some (Z.of_nat (s + c)) /\
    nth_error hs c = Some h /\
    p = (length (all_thetas (firstn c hs)) + off)%nat /\
    (off < length (h_thetas h))%nat /\
    nth_error (all_thetas hs) p = nth_error (h_thetas h) off.
Proof.
  induction hs as [|h r IH]; intros s p Hc Hp; [cbn in Hp; tlia|].
  unfold chain_ids_from, all_thetas in *. cbn [length seq combine map concat fst snd] in *.
  rewrite (complete_size h) by (apply Hc; now left). destruct (Nat.lt_ge_cases p (length (h_thetas h))) as [Hlt|Hge].
  - exists 0%nat, h, p. repeat split.
    + rewrite nth_error_app1 by (now rewrite repeat_length). rewrite Nat.add_0_r.
      apply nth_error_repeat. exact Hlt.
    + exact Hlt.
    + now rewrite nth_error_app1.
  - rewrite app_length in Hp.
    destruct (IH (Datatypes.S s) (p - length (h_thetas h))%nat) as (c & h' & off & H1 & H2 & H3 & H4 & H5).
    + intros h' Hin. apply Hc. now right.
    + tlia.
    + exists (Datatypes.S c), h', off. repeat split.
      * rewrite nth_error_app2 by (rewrite repeat_length; tlia). rewrite repeat_length, H1. f_equal. tlia.
      * exact H2.
      * cbn [firstn map concat]. rewrite app_length. tlia.
      * exact H4.
      * rewrite nth_error_app2 by tlia. exact H5.
Qed.

Theorem chain_ids_position hs p :
  (forall h, In h hs -> complete h) -> (p < length (all_thetas hs))%nat ->
  exists c h off,
    nth_error (chain_ids P Sh hs) p = Some (Z.of_nat c) /\
    nth_error hs c = Some h /\
    p = (length (all_thetas (firstn c hs)) + off)%nat /\
    (off < length (h_thetas h))%nat /\
    nth_error (all_thetas hs) p = nth_error (h_thetas h) off.
Proof. intros Hc Hp. rewrite chain_ids_is_from. exact (position_from hs 0 p Hc Hp). Qed.

Lemma get_all (h : holder) : forall rest done,
  h_thetas h = done ++ rest ->
  res_map_all (fun k => get_theta P Sh h (Z.of_nat k)) (seq (length done) (length rest)) = Ok rest.
Proof.
  induction rest as [|t r IH]; intros done E; cbn [length seq res_map_all]; [reflexivity|].
  rewrite (get_in_range h (length done) t) by (rewrite E, nth_error_app2, Nat.sub_diag; [reflexivity | tlia]).
  cbn [res_bind]. replace (S (length done)) with (length (done ++ [t])) by (rewrite app_length; cbn [length]; tlia).
  rewrite IH by now rewrite <- app_assoc. reflexivity.
Qed.

Lemma get_all_err (h : holder) m : forall s,
  (s <= length (h_thetas h))%nat -> (s + m > length (h_thetas h))%nat ->
  res_map_all (fun k => get_theta P Sh h (Z.of_nat k)) (seq s m) = Err 2.
Proof.
  induction m as [|m IH]; intros s Hs H; [tlia|]. cbn [seq res_map_all].
  destruct (Nat.lt_ge_cases s (length (h_thetas h))) as [Hlt|Hge].
  - destruct (nth_error (h_thetas h) s) as [t|] eqn:N; [|apply nth_error_None in N; tlia].
    rewrite (get_in_range h s t N). cbn [res_bind]. rewrite IH by tlia. reflexivity.
  - rewrite get_out_of_range_refused by (unfold hlen; tlia). reflexivity.
Qed.

Lemma lengths_sum (hs : list holder) :
  (forall h, In h hs -> within_declared h) ->
  Z.of_nat (length (all_thetas hs)) <= total_declared hs /\
  (total_declared hs <= Z.of_nat (length (all_thetas hs)) -> forall h, In h hs -> complete h).
Proof.
  induction hs as [|h r IH]; intros Hw.
  - split; [cbn; tlia | intros _ h []].
  - unfold all_thetas, total_declared in *. cbn [map concat fold_right]. rewrite app_length.
    assert (Hh := Hw h (or_introl eq_refl)). unfold within_declared, hlen in Hh.
    destruct IH as [I1 I2]; [intros h' Hin; apply Hw; now right|].
    split; [tlia|]. intros Hge h' [<-|Hin].
    + unfold complete, hlen. tlia.
    + apply I2; [tlia | exact Hin].
Qed.

Lemma complete_total hs :
  (forall h, In h hs -> complete h) -> total_declared hs = Z.of_nat (length (all_thetas hs)).
Proof.
  induction hs as [|h r IH]; intros Hc; [reflexivity|].
  unfold total_declared, all_thetas in *. cbn [map concat fold_right]. rewrite app_length, IH by (intros h' Hin; apply Hc; now right).
  specialize (Hc h (or_introl eq_refl)). unfold complete, hlen in Hc. tlia.
Qed.

Lemma evaluate_complete_raw hs :
  hs <> [] -> (forall h, In h hs -> complete h) -> evaluate P Sh hs = Ok (labelled hs).
Proof.
  intros Hne Hc. unfold evaluate. rewrite concat_chain_major by exact Hne. cbn [res_bind h_declared h_thetas].
  rewrite (complete_total hs Hc), Nat2Z.id, (get_all _ _ []) by reflexivity. cbn [res_bind].
  rewrite chain_ids_is_from, chain_ids_from_length, Nat.eqb_refl by exact Hc. cbn [negb].
  now rewrite aligned_from.
Qed.

(* fewer samples than declared: the prediction loop asks for one that is not there *)
Lemma evaluate_short hs :
  hs <> [] -> total_declared hs > Z.of_nat (length (all_thetas hs)) -> evaluate P Sh hs = Err 2.
Proof.
  intros Hne Hgt. unfold evaluate. rewrite concat_chain_major by exact Hne. cbn [res_bind h_declared h_thetas].
  rewrite get_all_err by (cbn [h_thetas]; tlia). reflexivity.
Qed.

(* whenever the pipeline succeeds on holders that respect their declared size, the labels are right *)
Theorem evaluate_labels hs l :
  (forall h, In h hs -> within_declared h) -> evaluate P Sh hs = Ok l -> l = labelled hs.
Proof.
  intros Hw H.
  destruct hs as [|h0 r0] eqn:Ehs; [discriminate|]. rewrite <- Ehs in *.
  assert (Hne : hs <> []) by (rewrite Ehs; discriminate).
  destruct (lengths_sum hs Hw) as [H1 H2].
  destruct (Z_le_gt_dec (total_declared hs) (Z.of_nat (length (all_thetas hs)))) as [Hle|Hgt].
  - rewrite evaluate_complete_raw in H; [now injection H | exact Hne | now apply H2].
  - rewrite evaluate_short in H by assumption. discriminate.
Qed.

Theorem evaluate_partial_refused hs h :
  (forall h, In h hs -> within_declared h) -> In h hs -> hlen h < h_declared h ->
  evaluate P Sh hs = Err 2.
Proof.
  intros Hw Hin Hp.
  assert (Hne : hs <> []) by (intros ->; contradiction).
  destruct (lengths_sum hs Hw) as [H1 H2].
  destruct (Z_le_gt_dec (total_declared hs) (Z.of_nat (length (all_thetas hs)))) as [Hle|Hgt].
  - specialize (H2 Hle h Hin). unfold complete in H2. tlia.
  - now apply evaluate_short.
Qed.

Lemma normalize_complete (h : holder) : complete h -> complete (normalize h).
Proof. unfold complete, hlen. now rewrite normalize_thetas_length, normalize_declared. Qed.

Theorem evaluate_files_complete hs :
  hs <> [] -> (forall h, In h hs -> complete h /\ h_thetas h <> []) ->
  evaluate_files P Sh hs = Ok (labelled (map normalize hs)).
Proof.
  intros Hne Hc. unfold evaluate_files.
  rewrite (res_map_all_ok (save_load P Sh) normalize).
  - cbn [res_bind]. apply evaluate_complete_raw.
    + destruct hs; [congruence|discriminate].
    + intros h Hin. apply in_map_iff in Hin as [h' [<- Hin']]. apply normalize_complete, Hc, Hin'.
  - intros h Hin. destruct (Hc h Hin) as [Hcomp Hnn]. apply save_load_general; [exact Hnn|].
    unfold complete, within_declared in *. tlia.
Qed.

Lemma map_normalize_uniform hs : (forall h, In h hs -> shared_uniform h) -> map normalize hs = hs.
Proof.
  intros Hu. rewrite <- (map_id hs) at 2. apply map_ext_in. intros h Hin. apply normalize_uniform, Hu, Hin.
Qed.

Theorem evaluate_files_complete_uniform hs :
  hs <> [] -> (forall h, In h hs -> complete h /\ h_thetas h <> [] /\ shared_uniform h) ->
  evaluate_files P Sh hs = Ok (labelled hs).
Proof.
  intros Hne Hc. rewrite evaluate_files_complete.
  - rewrite map_normalize_uniform; [reflexivity|]. intros h Hin. apply Hc, Hin.
  - exact Hne.
  - intros h Hin. destruct (Hc h Hin) as (A & B & _). now split.
Qed.

End Thetas.
