(* C07: an MSEDistance object constructed with `sigmoid` measures with that flag - the translated __init__ composed with the
   translated method *)
From Coq Require Import List Qcanon.
From Batchie Require Import Lib.Sexp Lib.Num Model.Mse Generated.SrcInits Generated.SrcMse Proofs.C07SourceMse
  Proofs.C07Source_Init_MSEDistance.
Import ListNotations.

Theorem constructed_mse_distance_uses_its_flag : forall (orc : oracle) (sigmoid : bool) (a b : list Qc), length a = length b ->
  (dor s <- src_mse_distance_init sigmoid; src_mse_distance orc s a b) = mse_distance orc sigmoid a b.
Proof. intros. rewrite src_mse_distance_init_stores. cbn [res_bind]. now apply src_mse_is_model. Qed.
