(* C18 for the initial cover (SparseCoverPlateGenerator): the model RetroInit.sparse_cover (linked to the translated source by
   C13Source.link_sparse_cover_generate_and_unmask_initial_plate) is a function of the screen and of the PREFIX of the answer
   stream it consumes: the output and the unread rest do not depend on what follows, i.e. on nothing but (inputs, answers of the
   given generator) - the statement C18_explicit_stream makes about `prog`s, here for the state-passing form of the C13 link. *)
From Coq Require Import ZArith List.
From Batchie Require Import Lib.Sexp Model.Screen Model.Retro Model.RetroInit.
Import ListNotations.

Lemma sc_samples_stream : forall ctrl rows samples chosen ds c ds',
  sc_samples ctrl rows samples chosen ds = Ok (c, ds') ->
  exists used, ds = used ++ ds' /\ forall tail, sc_samples ctrl rows samples chosen (used ++ tail) = Ok (c, tail).
Proof.
  intros ctrl rows samples. induction samples as [|s rest IH]; intros chosen ds c ds' H; cbn in H.
  - inversion H; subst. exists []. split; [reflexivity | intros tail; reflexivity].
  - destruct ds as [|d ds1]; [discriminate|]. destruct d as [l|l]; [|discriminate].
    destruct l as [|i [|j l']]; try discriminate.
    destruct (memb i (sc_offer_sample ctrl rows s chosen)) eqn:Em; [|discriminate].
    destruct (IH _ _ _ _ H) as (used & Hd & Ht).
    exists (DInts [i] :: used). split; [cbn; rewrite Hd; reflexivity|].
    intros tail. cbn. rewrite Em. apply Ht.
Qed.

Lemma sc_loop_eq : forall ctrl rows chosen ds,
  sc_loop ctrl rows chosen ds =
  if is_nil (sc_remaining ctrl rows chosen) then Ok (chosen, ds)
  else match ds with
       | DInts [i] :: ds1 => if memb i (sc_offer_loop ctrl rows chosen) then sc_loop ctrl rows (chosen ++ [i]) ds1 else Err 94%Z
       | DInts _ :: _ => Err 91%Z
       | _ => Err 90%Z
       end.
Proof. intros ctrl rows chosen ds. destruct ds; reflexivity. Qed.

Lemma sc_loop_stream : forall ctrl rows ds chosen c ds',
  sc_loop ctrl rows chosen ds = Ok (c, ds') ->
  exists used, ds = used ++ ds' /\ forall tail, sc_loop ctrl rows chosen (used ++ tail) = Ok (c, tail).
Proof.
  intros ctrl rows ds. induction ds as [|d ds1 IH]; intros chosen c ds' H; rewrite sc_loop_eq in H;
    destruct (is_nil (sc_remaining ctrl rows chosen)) eqn:En.
  - inversion H; subst. exists []. split; [reflexivity|]. intros tail. cbn [app]. rewrite sc_loop_eq, En. reflexivity.
  - discriminate.
  - inversion H; subst. exists []. split; [reflexivity|]. intros tail. cbn [app]. rewrite sc_loop_eq, En. reflexivity.
  - destruct d as [l|l]; [|discriminate]. destruct l as [|i [|j l']]; try discriminate.
    destruct (memb i (sc_offer_loop ctrl rows chosen)) eqn:Em; [|discriminate].
    destruct (IH _ _ _ H) as (used & Hd & Ht).
    exists (DInts [i] :: used). split; [cbn; rewrite Hd; reflexivity|].
    intros tail. cbn [app]. rewrite sc_loop_eq, En, Em. apply Ht.
Qed.

Theorem sparse_cover_explicit_stream : forall ctrl reveal rows ds out ds',
  sparse_cover ctrl reveal rows ds = Ok (out, ds') ->
  exists used, ds = used ++ ds' /\ forall tail, sparse_cover ctrl reveal rows (used ++ tail) = Ok (out, tail).
Proof.
  intros ctrl reveal rows ds out ds' H. unfold sparse_cover in H.
  destruct (negb (forallb r_mask rows)) eqn:E0; [discriminate|].
  destruct (sc_samples ctrl rows (sample_names rows) [] ds) as [[c1 d1]|e1] eqn:E1; cbn in H; [|discriminate].
  destruct (sc_loop ctrl rows c1 d1) as [[c2 d2]|e2] eqn:E2; cbn in H; [|discriminate].
  match type of H with context [construct ?x] => destruct (construct x) as [cc|e3] eqn:E3 end; cbn in H; [|discriminate].
  inversion H; subst.
  destruct (sc_samples_stream _ _ _ _ _ _ _ E1) as (u1 & Hd1 & Ht1).
  destruct (sc_loop_stream _ _ _ _ _ _ E2) as (u2 & Hd2 & Ht2).
  exists (u1 ++ u2). split; [rewrite Hd1, Hd2, app_assoc; reflexivity|].
  intros tail. unfold sparse_cover. rewrite E0, <- app_assoc, (Ht1 (u2 ++ tail)). cbn. rewrite (Ht2 tail). cbn. rewrite E3. reflexivity.
Qed.
