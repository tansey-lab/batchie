(* C13 / C11, one of the pieces Proofs/C13SourceHelpers.v collects (its header describes the representation and the side conditions): Screen.plates = plates_of *)
From Coq Require Import ZArith List Lia.
From Batchie Require Import Lib.Sexp Model.Encode Model.Screen Model.Views Model.Retro Generated.SrcViews Proofs.C14Defs Proofs.C14Lists Proofs.C14Views Proofs.C14Source_Plates Proofs.C13SourceHelpers_Base.
Import ListNotations.
Open Scope nat_scope.

(* the plates of a screen object whose plate ids are fresh are, in order, the selection vectors plates_of lists: one per
   sorted distinct plate NAME; all are views of that object, of the parent's length *)
Theorem src_plates_is_plates_of : forall (tag : Z) (p : screen), screen_wf p -> plate_ids_fresh p ->
  exists vs, src_plates (tag, p) = Ok vs /\ map v_sel vs = plates_of (s_rows p) /\
             Forall (fun v => v_tag v = tag /\ v_parent v = p /\ view_ok v) vs.
Proof.
  intros tag p Hwf (m & Hm). rewrite src_plates_is_model. cbn [fst snd]. rewrite (plates_spec tag p Hwf).
  eexists. split; [reflexivity|]. split.
  - rewrite map_map. cbn [v_sel]. unfold plates_of, plate_names_of, plate_vec, in_plate.
    pose proof (fresh_ids_are_ranks _ _ _ _ Hm) as Hr. rewrite Hr.
    set (names := map r_plate (s_rows p)). set (su := sort_uniq name_cmp names).
    pose proof (ranks_sorted_unique names) as Hs. cbv zeta in Hs. fold su in Hs. rewrite Hs. rewrite map_map.
    rewrite <- (map_nth_seq su []) at 2. rewrite map_map. apply map_ext_in. intros j Hj. apply in_seq in Hj.
    pose proof (rank_eqb_name names j) as He. cbv zeta in He. fold su in He. rewrite He by lia.
    unfold names. now rewrite map_map.
  - apply Forall_forall. intros v Hv. apply in_map_iff in Hv. destruct Hv as (pid & <- & _). cbn [v_tag v_parent].
    repeat split. unfold view_ok. cbn [v_sel v_parent]. rewrite map_length. destruct Hwf as (_ & HP & _). exact HP.
Qed.
