(* C14, one piece of Proofs/C14SourceHelpers.v (which see): ScreenBase.n_plates on a ScreenSubset / Plate object *)
From Coq Require Import ZArith.
From Batchie Require Import Lib.Sexp Model.Views Generated.SrcPlates.
Open Scope Z_scope.

Theorem src_view_n_plates_is_model : forall v : view, src_view_n_plates v = Ok (Z.of_nat (length (view_unique_pids v))).
Proof. reflexivity. Qed.
