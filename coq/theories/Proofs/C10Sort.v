(* C10: the insertion sort of Model/Thetas.v, uniqueness of the sorted
   arrangement of a list with distinct keys, decimal keys. *)
From Coq Require Import ZArith List Lia Permutation Sorted DecimalNat.
From Batchie Require Import Model.Thetas.
Import ListNotations.

Lemma sort_insert_perm {A K} (key : A -> K) (leb : K -> K -> bool) x l :
  Permutation (sort_insert key leb x l) (x :: l).
Proof.
  induction l as [|y r IH]; cbn [sort_insert].
  - reflexivity.
  - destruct (leb (key x) (key y)).
    + reflexivity.
    + transitivity (y :: x :: r).
      * apply perm_skip, IH.
      * apply perm_swap.
Qed.

Lemma sort_by_perm {A K} (key : A -> K) (leb : K -> K -> bool) l :
  Permutation (sort_by key leb l) l.
Proof.
  induction l as [|x r IH]; cbn [sort_by fold_right].
  - constructor.
  - etransitivity; [apply sort_insert_perm|]. apply perm_skip, IH.
Qed.

Section NatKey.
Context {A : Type} (key : A -> nat).
Definition le_key (a b : A) : Prop := (key a <= key b)%nat.

Lemma sort_insert_sorted x l :
  StronglySorted le_key l -> StronglySorted le_key (sort_insert key Nat.leb x l).
Proof.
  induction l as [|y r IH]; intros Hs; cbn [sort_insert].
  - constructor; constructor.
  - apply StronglySorted_inv in Hs as [Hr Hy].
    destruct (Nat.leb (key x) (key y)) eqn:E.
    + apply Nat.leb_le in E. constructor.
      * constructor; assumption.
      * constructor; [exact E|].
        rewrite Forall_forall in *. intros z Hz. specialize (Hy z Hz). unfold le_key in *. lia.
    + apply Nat.leb_gt in E. constructor.
      * apply IH, Hr.
      * eapply Permutation_Forall; [symmetry; apply sort_insert_perm|].
        constructor; [unfold le_key; lia | exact Hy].
Qed.

Lemma sort_by_sorted l : StronglySorted le_key (sort_by key Nat.leb l).
Proof.
  induction l as [|x r IH]; cbn [sort_by fold_right].
  - constructor.
  - apply sort_insert_sorted, IH.
Qed.

Lemma key_inj_in l a b :
  NoDup (map key l) -> In a l -> In b l -> key a = key b -> a = b.
Proof.
  induction l as [|c r IH]; intros Hnd Ha Hb Hk; [contradiction|].
  cbn [map] in Hnd. inversion Hnd as [|? ? Hnotin Hnd']; subst.
  destruct Ha as [->|Ha], Hb as [->|Hb].
  - reflexivity.
  - exfalso. apply Hnotin. rewrite Hk. apply in_map, Hb.
  - exfalso. apply Hnotin. rewrite <- Hk. apply in_map, Ha.
  - apply IH; assumption.
Qed.

(* a list with distinct keys has exactly one sorted arrangement *)
Lemma sorted_perm_unique l1 : forall l2,
  StronglySorted le_key l1 -> StronglySorted le_key l2 -> NoDup (map key l1) ->
  Permutation l1 l2 -> l1 = l2.
Proof.
  induction l1 as [|a r1 IH]; intros l2 H1 H2 Hnd Hp.
  - apply Permutation_nil in Hp. now subst.
  - destruct l2 as [|b r2]; [symmetry in Hp; now apply Permutation_nil_cons in Hp|].
    assert (Hab : a = b).
    { apply StronglySorted_inv in H1 as [_ Fa]. apply StronglySorted_inv in H2 as [_ Fb].
      rewrite Forall_forall in Fa, Fb.
      assert (Hb : In b (a :: r1)) by (eapply Permutation_in; [symmetry; exact Hp | now left]).
      assert (Ha : In a (b :: r2)) by (eapply Permutation_in; [exact Hp | now left]).
      destruct Hb as [Hb|Hb]; [exact Hb|]. destruct Ha as [Ha|Ha]; [now symmetry|].
      apply (key_inj_in (a :: r1)); [exact Hnd | now left | now right |].
      specialize (Fa b Hb). specialize (Fb a Ha). unfold le_key in *. lia. }
    subst b. f_equal. apply IH.
    + now apply StronglySorted_inv in H1.
    + now apply StronglySorted_inv in H2.
    + cbn [map] in Hnd. now inversion Hnd.
    + eapply Permutation_cons_inv, Hp.
Qed.

(* sorting any rearrangement of a strictly key-sorted list gives that list back *)
Lemma sort_by_restores l0 gs :
  StronglySorted le_key l0 -> NoDup (map key l0) -> Permutation gs l0 ->
  sort_by key Nat.leb gs = l0.
Proof.
  intros Hs Hnd Hp. symmetry. apply sorted_perm_unique; [exact Hs | apply sort_by_sorted | exact Hnd |].
  transitivity gs; [symmetry; exact Hp | symmetry; apply sort_by_perm].
Qed.

Lemma keys_seq_sorted l : forall s n, map key l = seq s n -> StronglySorted le_key l.
Proof.
  induction l as [|a r IH]; intros s n H.
  - constructor.
  - destruct n as [|n]; [discriminate|]. cbn [map seq] in H. injection H as Ha Hr.
    constructor; [eapply IH, Hr|].
    rewrite Forall_forall. intros z Hz.
    assert (Hin : In (key z) (seq (S s) n)) by (rewrite <- Hr; apply in_map, Hz).
    apply in_seq in Hin. unfold le_key. lia.
Qed.
End NatKey.

(* int(str(k)) = k *)
Lemma index_of_key_of_index k : index_of_key (key_of_index k) = k.
Proof. apply Unsigned.of_to. Qed.

Lemma key_of_index_inj a b : key_of_index a = key_of_index b -> a = b.
Proof. intros H. rewrite <- (index_of_key_of_index a), <- (index_of_key_of_index b). now f_equal. Qed.
