(* C10: ThetaHolder.__iter__ (a generator; Generated/SrcCoreSmall.v) yields the stored samples, in their order *)
From Coq Require Import List.
From Batchie Require Import Lib.Sexp Model.Thetas Generated.SrcCoreSmall Proofs.PyRtLemmas.
Import ListNotations.
Open Scope Z_scope.

Theorem src_holder_iter_is_thetas : forall (P S : Type) (self : pyobj P S),
  src_holder_iter P S self = Ok (attr_thetas self).
Proof.
  intros P S self. unfold src_holder_iter.
  rewrite (res_fold_pure _ (fun r a => r ++ [a])) by reflexivity. cbn [res_bind]. now rewrite fold_snoc.
Qed.
