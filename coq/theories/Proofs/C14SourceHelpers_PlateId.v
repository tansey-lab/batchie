(* C14, one piece of Proofs/C14SourceHelpers.v (which see): Plate.plate_id *)
From Coq Require Import ZArith List Lia ZifyBool.
From Batchie Require Import Lib.Sexp Model.Views Generated.SrcPlates
  Proofs.C14SourceHelpers_ViewUniquePlateIds.
Import ListNotations.
Open Scope Z_scope.

Theorem src_plate_id_is_model : forall v : view, src_plate_id v = view_plate_id v.
Proof.
  intros v. unfold src_plate_id, view_plate_id.
  rewrite src_view_unique_plate_ids_is_model. cbn [res_bind].
  destruct (view_unique_pids v) as [|x [|y r]]; cbn [length]; try reflexivity.
  replace (Z.of_nat (S (S (length r))) =? 1) with false by lia. reflexivity.
Qed.
