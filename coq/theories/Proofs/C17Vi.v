(* C17: the generator clauses ("identical for identical triples and a different, non-overlapping stream for every other chain
   index") read on the whole function, per model class: what a successful run of `sample` hands to set_rng. *)
From Coq Require Import ZArith List Lia.
From Batchie Require Import Lib.Sexp Model.Sampling Proofs.C17Sampling.
Import ListNotations.
Open Scope Z_scope.

(* a trace hands the model the generator of the triple *)
Definition hands_key (seed nc ci : Z) (tr : list event) : Prop :=
  exists k, rng_key seed nc ci = Ok k /\ handed_key tr = Some k.

Lemma hands_key_distinct seed nc ci1 ci2 tr1 tr2 :
  0 <= ci1 < nc -> 0 <= ci2 < nc -> ci1 <> ci2 ->
  hands_key seed nc ci1 tr1 -> hands_key seed nc ci2 tr2 -> handed_key tr1 <> handed_key tr2.
Proof.
  intros H1 H2 Hne (k1 & K1 & ->) (k2 & K2 & ->) E. injection E as <-.
  now destruct (c17_key_injective _ _ _ _ _ _ _ H1 H2 K1 K2).
Qed.

Lemma hands_key_same seed nc ci tr tr' :
  hands_key seed nc ci tr -> hands_key seed nc ci tr' -> handed_key tr = handed_key tr'.
Proof. intros (k & K & ->) (k' & K' & ->). congruence. Qed.

Lemma hands_key_intro seed nc ci k rest :
  rng_key seed nc ci = Ok k -> hands_key seed nc ci (Reset :: SetRng (fst k) (snd k) :: rest).
Proof. intros Hk. exists k. split; [exact Hk|]. cbn [handed_key]. now destruct k. Qed.

(* MCMC models: the key handed over is rng_key of the triple ... *)
Lemma c17_handed_key_mcmc seed nc ci b t n len0 tr len :
  sample 0 seed (Some nc) (Some ci) (Some b) (Some t) n len0 0%nat = Ok (tr, len) ->
  hands_key seed nc ci tr.
Proof.
  intros H. destruct (c17_key_in_trace _ _ _ _ _ _ _ _ _ H) as (k & rest & Hk & -> & _).
  exact (hands_key_intro _ _ _ _ _ Hk).
Qed.

(* ... so two successful runs with different chain indices below n_chains hand over different keys (PARTIAL as
   C17_streams_distinct_partial: keys, not streams), whatever b, t, n and the holders are *)
Theorem c17_mcmc_chains_distinct seed nc ci1 ci2 b1 t1 n1 l1 b2 t2 n2 l2 tr1 len1 tr2 len2 :
  0 <= ci1 < nc -> 0 <= ci2 < nc -> ci1 <> ci2 ->
  sample 0 seed (Some nc) (Some ci1) (Some b1) (Some t1) n1 l1 0%nat = Ok (tr1, len1) ->
  sample 0 seed (Some nc) (Some ci2) (Some b2) (Some t2) n2 l2 0%nat = Ok (tr2, len2) ->
  handed_key tr1 <> handed_key tr2.
Proof.
  intros H1 H2 Hne R1 R2. apply c17_handed_key_mcmc in R1, R2. exact (hands_key_distinct _ _ _ _ _ _ H1 H2 Hne R1 R2).
Qed.

(* VI models, REPAIRED code (/repo 67fc5db): the generator is derived as in the MCMC branch *)

Lemma add_all_records N : forall (m : nat) len r, add_all N m len = Ok r -> forall e, In e (fst r) -> e = Record.
Proof.
  induction m as [|m IH]; intros len r H e He; cbn [add_all] in H.
  - injection H as <-. destruct He.
  - destruct (N <=? len); [discriminate|].
    destruct (add_all N m (len + 1)) as [r2|e2] eqn:E2; cbn [res_bind] in H; [|discriminate].
    injection H as <-. cbn [fst] in He. destruct He as [<-|He]; [reflexivity|]. eapply IH; eassumption.
Qed.

(* a successful VI run is Reset, SetRng (rng_key seed n_chains chain_index), one SampleVI n, then only records *)
Theorem c17_vi_key_in_trace seed nc ci b t n len0 ret tr len :
  sample 1 seed (Some nc) (Some ci) b t n len0 ret = Ok (tr, len) ->
  exists k rest, rng_key seed nc ci = Ok k /\ tr = Reset :: SetRng (fst k) (snd k) :: SampleVI n :: rest /\
                 forall e, In e rest -> e = Record.
Proof.
  unfold sample. cbn [Z.eqb]. unfold sample_vi.
  destruct (rng_key seed nc ci) as [k|e]; cbn [res_bind]; [|discriminate].
  destruct (add_all n ret len0) as [r|e] eqn:E; cbn [res_bind]; [|discriminate].
  intros H. injection H as <- _. exists k, (fst r). split; [reflexivity|]. split; [reflexivity|].
  exact (add_all_records _ _ _ _ E).
Qed.

Lemma c17_vi_handed_key seed nc ci b t n len0 ret tr len :
  sample 1 seed (Some nc) (Some ci) b t n len0 ret = Ok (tr, len) ->
  exists k, rng_key seed nc ci = Ok k /\ handed_key tr = Some k.
Proof.
  intros H. destruct (c17_vi_key_in_trace _ _ _ _ _ _ _ _ _ _ H) as (k & rest & Hk & -> & _).
  exact (hands_key_intro _ _ _ _ _ Hk).
Qed.

(* two successful VI runs with different chain indices below n_chains hand over different keys (PARTIAL: keys, not streams),
   whatever n, the holders and the numbers of samples the model returns are *)
Theorem c17_vi_chains_distinct seed nc ci1 ci2 b1 t1 n1 l1 r1 b2 t2 n2 l2 r2 tr1 len1 tr2 len2 :
  0 <= ci1 < nc -> 0 <= ci2 < nc -> ci1 <> ci2 ->
  sample 1 seed (Some nc) (Some ci1) b1 t1 n1 l1 r1 = Ok (tr1, len1) ->
  sample 1 seed (Some nc) (Some ci2) b2 t2 n2 l2 r2 = Ok (tr2, len2) ->
  handed_key tr1 <> handed_key tr2.
Proof.
  intros H1 H2 Hne R1 R2. apply c17_vi_handed_key in R1, R2. exact (hands_key_distinct _ _ _ _ _ _ H1 H2 Hne R1 R2).
Qed.

(* the same triple gives a VI model and an MCMC model the same key *)
Theorem c17_vi_key_as_mcmc seed nc ci b t n len0 ret tr len b' t' n' len0' tr' len' :
  sample 1 seed (Some nc) (Some ci) b t n len0 ret = Ok (tr, len) ->
  sample 0 seed (Some nc) (Some ci) (Some b') (Some t') n' len0' 0%nat = Ok (tr', len') ->
  handed_key tr = handed_key tr'.
Proof.
  intros R1 R2. apply c17_vi_handed_key in R1. apply c17_handed_key_mcmc in R2. exact (hands_key_same _ _ _ _ _ R1 R2).
Qed.

(* n_burnin and thin are not read for a VI model: the whole run is the same for every value of them *)
Theorem c17_vi_ignores_schedule seed nc ci b t b' t' n len0 ret :
  sample 1 seed nc ci b t n len0 ret = sample 1 seed nc ci b' t' n len0 ret.
Proof. reflexivity. Qed.

(* The PRE-REPAIR variant (sample_pre_repair: default_rng(seed) for every chain).
   REFUTED there: the clause "a different stream for every other chain index", inside the quantifier
   (seed 0, two chains, indices 0 and 1, one sample): both runs succeed and hand over the same key *)
Theorem c17_vi_streams_distinct_refuted :
  exists seed nc ci1 ci2 n tr1 len1 tr2 len2,
    0 <= seed /\ 1 <= n /\ 0 <= ci1 < nc /\ 0 <= ci2 < nc /\ ci1 <> ci2 /\
    sample_pre_repair 1 seed (Some nc) (Some ci1) (Some 0) (Some 1) n 0 (Z.to_nat n) = Ok (tr1, len1) /\
    sample_pre_repair 1 seed (Some nc) (Some ci2) (Some 0) (Some 1) n 0 (Z.to_nat n) = Ok (tr2, len2) /\
    handed_key tr1 = handed_key tr2.
Proof.
  exists 0, 2, 0, 1, 1, [Reset; SetRng 0 []; SampleVI 1; Record], 1, [Reset; SetRng 0 []; SampleVI 1; Record], 1.
  repeat split; try lia; vm_compute; try reflexivity; discriminate.
Qed.

Lemma c17_pre_repair_only_vi kind seed nc ci b t n len0 ret :
  kind <> 1 -> sample_pre_repair kind seed nc ci b t n len0 ret = sample kind seed nc ci b t n len0 ret.
Proof. intros H. unfold sample_pre_repair. destruct (kind =? 1) eqn:E; [lia|reflexivity]. Qed.
