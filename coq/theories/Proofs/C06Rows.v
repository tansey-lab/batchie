(* C06: plates, candidates, chunk contents, first-occurrence unique. *)
From Coq Require Import ZArith List Lia Bool Sorted.
From Batchie Require Import Lib.ListX Lib.Sexp Model.Scores Proofs.C06Split.
Import ListNotations.
Open Scope Z_scope.

Lemma zmem_true x l : zmem x l = true <-> In x l.
Proof.
  unfold zmem. rewrite existsb_exists. split.
  - intros (y & Hy & E). apply Z.eqb_eq in E. now subst.
  - intros H. exists x. split; [exact H|apply Z.eqb_refl].
Qed.
Lemma zmem_false x l : zmem x l = false <-> ~ In x l.
Proof. rewrite <- zmem_true. destruct (zmem x l); split; congruence. Qed.

Lemma StronglySorted_map_filter {A B} (R : B -> B -> Prop) (h : A -> B) (f : A -> bool) l :
  StronglySorted R (map h l) -> StronglySorted R (map h (filter f l)).
Proof.
  induction l as [|x l IH]; cbn [map filter]; intros H; [constructor|].
  inversion H as [|? ? Hs Hall]; subst.
  destruct (f x); [|now apply IH]. cbn [map]. constructor; [now apply IH|].
  eapply incl_Forall; [|exact Hall]. apply incl_map, incl_filter.
Qed.

(* a[mask] where the array and the mask are read off one list *)
Lemma mask_select_map {A} (g : A -> Z) (p : A -> bool) (l : list A) :
  mask_select (map g l) (map p l) = Ok (map g (filter p l)).
Proof.
  unfold mask_select. rewrite !map_length, Nat.eqb_refl. f_equal.
  induction l as [|x l IH]; cbn [map combine filter snd]; [reflexivity|].
  destruct (p x); cbn [map fst]; now rewrite IH.
Qed.

Lemma insert_uniq_In x l y : In y (insert_uniq x l) <-> y = x \/ In y l.
Proof.
  induction l as [|a l IH]; cbn [insert_uniq].
  - cbn [In]. intuition.
  - destruct (x <? a) eqn:E1; [cbn [In]; intuition|].
    destruct (x =? a) eqn:E2.
    + apply Z.eqb_eq in E2. subst. cbn [In]. intuition.
    + cbn [In]. rewrite IH. intuition.
Qed.

Lemma insert_uniq_sorted x l : StronglySorted Z.lt l -> StronglySorted Z.lt (insert_uniq x l).
Proof.
  induction 1 as [|a l Hs IH Hall]; cbn [insert_uniq].
  - repeat constructor.
  - destruct (x <? a) eqn:E1.
    + apply Z.ltb_lt in E1. constructor; [now constructor|].
      constructor; [exact E1|]. rewrite Forall_forall in *. intros y Hy. specialize (Hall y Hy). lia.
    + apply Z.ltb_ge in E1. destruct (x =? a) eqn:E2; [now constructor|].
      apply Z.eqb_neq in E2. constructor; [exact IH|].
      rewrite Forall_forall in *. intros y Hy. apply insert_uniq_In in Hy.
      destruct Hy as [->|Hy]; [lia|now apply Hall].
Qed.

Lemma sort_uniq_sorted l : StronglySorted Z.lt (sort_uniq l).
Proof. induction l as [|a l IH]; cbn [sort_uniq fold_right]; [constructor|now apply insert_uniq_sorted]. Qed.

Lemma sort_uniq_In l y : In y (sort_uniq l) <-> In y l.
Proof.
  induction l as [|a l IH]; cbn [sort_uniq fold_right In]; [reflexivity|].
  fold (sort_uniq l). rewrite insert_uniq_In, IH. intuition.
Qed.

Lemma positions_snd {A} (l : list A) : map snd (positions l) = l.
Proof. apply map_combine, seq_length. Qed.

Lemma indexed_snd s : map snd (indexed s) = s.
Proof. apply positions_snd. Qed.
Lemma indexed_fst s : map fst (indexed s) = seq 0 (length s).
Proof. apply map_combine, seq_length. Qed.

Lemma combine_seq_In {A} (l : list A) a i x :
  In (i, x) (combine (seq a (length l)) l) <-> (a <= i)%nat /\ nth_error l (i - a) = Some x.
Proof.
  revert a; induction l as [|y l IH]; intros a; cbn [length seq combine In].
  - split; [contradiction|]. intros [_ H]. destruct (i - a)%nat; discriminate.
  - rewrite IH. split.
    + intros [E|[Hle Hn]].
      * inversion E; subst. split; [lia|]. now rewrite Nat.sub_diag.
      * split; [lia|]. replace (i - a)%nat with (S (i - S a)) by lia. exact Hn.
    + intros [Hle Hn]. destruct (Nat.eq_dec i a) as [->|Hne].
      * rewrite Nat.sub_diag in Hn. cbn [nth_error] in Hn. left. congruence.
      * right. split; [lia|]. replace (i - a)%nat with (S (i - S a)) in Hn by lia. exact Hn.
Qed.

Lemma positions_In {A} (l : list A) i x : In (i, x) (positions l) <-> nth_error l i = Some x.
Proof. unfold positions. rewrite combine_seq_In, Nat.sub_0_r. intuition lia. Qed.

Lemma indexed_In s i r : In (i, r) (indexed s) <-> nth_error s i = Some r.
Proof. apply positions_In. Qed.

Lemma indexed_NoDup s : NoDup (indexed s).
Proof. apply (NoDup_map_inv fst). rewrite indexed_fst. apply seq_NoDup. Qed.

Lemma sub_rows_In s f i r :
  In (i, r) (sub_rows s f) <-> nth_error s i = Some r /\ f (r_plate r) = true.
Proof. unfold sub_rows. rewrite filter_In, indexed_In. reflexivity. Qed.

Lemma sub_rows_positions_ascending s f : StronglySorted lt (map fst (sub_rows s f)).
Proof. unfold sub_rows. apply StronglySorted_map_filter. rewrite indexed_fst. apply seq_sorted. Qed.

Lemma sub_rows_NoDup s f : NoDup (sub_rows s f).
Proof. unfold sub_rows. apply NoDup_filter, indexed_NoDup. Qed.

Lemma sub_rows_snd s f : map snd (sub_rows s f) = filter (fun r => f (r_plate r)) s.
Proof.
  unfold sub_rows. rewrite <- (indexed_snd s) at 2. now rewrite filter_map_comm.
Qed.

(* positions identify the rows of a screen *)
Lemma indexed_fst_inj s ir ir' : In ir (indexed s) -> In ir' (indexed s) -> fst ir = fst ir' -> ir = ir'.
Proof.
  destruct ir as [i r], ir' as [i' r']. cbn [fst]. intros H H' <-.
  apply indexed_In in H, H'. rewrite H in H'. now injection H' as <-.
Qed.

(* the selection vector of "the rows of the screen satisfying g" *)
Lemma selects_filter s (g : irow -> bool) ir :
  In ir (indexed s) -> selects (filter g (indexed s)) ir = g ir.
Proof.
  intros Hin. unfold selects. destruct (g ir) eqn:E.
  - apply existsb_exists. exists (fst ir). split; [|apply Nat.eqb_refl].
    apply in_map. apply filter_In. now split.
  - destruct (existsb _ _) eqn:X; [|reflexivity]. apply existsb_exists in X.
    destruct X as (j & Hj & Ej). apply Nat.eqb_eq in Ej. apply in_map_iff in Hj.
    destruct Hj as (ir' & <- & Hf). apply filter_In in Hf. destruct Hf as [Hin' Hg].
    rewrite (indexed_fst_inj s ir ir' Hin Hin' Ej) in E. congruence.
Qed.

Lemma selects_sub_rows s f ir :
  In ir (indexed s) -> selects (sub_rows s f) ir = f (r_plate (snd ir)).
Proof. intros H. unfold sub_rows. now rewrite selects_filter. Qed.

Lemma plates_In s p : In p (plates s) <-> exists pid, get_plate s pid = p /\ In pid (map r_plate s).
Proof. unfold plates, unique_plate_ids. rewrite in_map_iff. now setoid_rewrite sort_uniq_In. Qed.

Lemma forallb_snd {A B} (h : B -> bool) (l : list (A * B)) :
  forallb (fun ir => h (snd ir)) l = forallb h (map snd l).
Proof. induction l as [|x l IH]; cbn [forallb map]; [reflexivity|now rewrite IH]. Qed.

Lemma is_observed_get_plate s pid :
  is_observed (get_plate s pid) = forallb r_obs (filter (fun r => pid =? r_plate r) s).
Proof. unfold is_observed, get_plate. cbn [p_rows]. now rewrite forallb_snd, sub_rows_snd. Qed.

Lemma unobserved_iff s pid :
  is_observed (get_plate s pid) = false <-> exists r, In r s /\ r_plate r = pid /\ r_obs r = false.
Proof.
  rewrite is_observed_get_plate, forallb_false_iff. split.
  - intros (r & Hr & Ho). apply filter_In in Hr. destruct Hr as [Hr E]. apply Z.eqb_eq in E.
    exists r. now repeat split.
  - intros (r & Hr & E & Ho). exists r. split; [|exact Ho]. apply filter_In. split; [exact Hr|].
    apply Z.eqb_eq. now symmetry.
Qed.

Definition cand_ok (s : screen) (batch : list Z) (pid : Z) : bool :=
  negb (is_observed (get_plate s pid)) && negb (zmem pid batch).
Definition candidate_ids (s : screen) (batch : list Z) : list Z :=
  filter (cand_ok s batch) (unique_plate_ids s).

Lemma sorted_by_id_sorted s l :
  StronglySorted Z.lt l -> sorted_by_id (map (get_plate s) l) = map (get_plate s) l.
Proof.
  induction 1 as [|a l Hs IH Hall]; [reflexivity|].
  cbn [map sorted_by_id fold_right]. fold (sorted_by_id (map (get_plate s) l)). rewrite IH.
  destruct l as [|b l]; [reflexivity|]. cbn [map insert_by_id get_plate p_id].
  inversion Hall as [|? ? Hab _]; subst.
  destruct (a <=? b) eqn:E; [reflexivity|]. apply Z.leb_gt in E. lia.
Qed.

Lemma candidate_ids_sorted s batch : StronglySorted Z.lt (candidate_ids s batch).
Proof. apply StronglySorted_filter, sort_uniq_sorted. Qed.

(* the two filters of [candidates] are one filter on the ids, and the stable sort finds them ascending already *)
Lemma candidates_eq s batch : candidates s batch = map (get_plate s) (candidate_ids s batch).
Proof.
  unfold candidates, plates. rewrite filter_filter, filter_map_comm.
  exact (sorted_by_id_sorted s (candidate_ids s batch) (candidate_ids_sorted s batch)).
Qed.

Lemma candidate_ids_map s batch : map p_id (candidates s batch) = candidate_ids s batch.
Proof.
  rewrite candidates_eq, map_map. cbn [get_plate p_id]. apply map_id.
Qed.

Lemma candidates_NoDup_ids s batch : NoDup (map p_id (candidates s batch)).
Proof. rewrite candidate_ids_map. apply StronglySorted_lt_NoDup, candidate_ids_sorted. Qed.

Lemma candidate_ids_In s batch pid :
  In pid (candidate_ids s batch) <->
  In pid (map r_plate s) /\ (exists r, In r s /\ r_plate r = pid /\ r_obs r = false) /\ ~ In pid batch.
Proof.
  unfold candidate_ids, unique_plate_ids, cand_ok. rewrite filter_In, sort_uniq_In, andb_true_iff, !negb_true_iff.
  rewrite unobserved_iff, zmem_false. reflexivity.
Qed.

Lemma candidates_are_plates s batch p : In p (candidates s batch) -> p = get_plate s (p_id p).
Proof.
  rewrite candidates_eq, in_map_iff. intros (pid & <- & _). reflexivity.
Qed.

Lemma cands_same_id s batch p q :
  In p (candidates s batch) -> In q (candidates s batch) -> p_id p = p_id q -> p = q.
Proof.
  intros Hp Hq E. rewrite (candidates_are_plates s batch p Hp), (candidates_are_plates s batch q Hq). now rewrite E.
Qed.

Theorem candidates_spec s batch :
  StronglySorted Z.lt (map p_id (candidates s batch)) /\
  forall pid, In pid (map p_id (candidates s batch)) <->
    In pid (map r_plate s) /\ (exists r, In r s /\ r_plate r = pid /\ r_obs r = false) /\ ~ In pid batch.
Proof.
  rewrite candidate_ids_map. split; [apply candidate_ids_sorted|apply candidate_ids_In].
Qed.

Lemma candidates_on_screen s batch p : In p (candidates s batch) -> In (p_id p) (map r_plate s).
Proof. intros H. apply (in_map p_id) in H. now apply candidates_spec in H. Qed.

Definition batch_valid (s : screen) (batch : list Z) : Prop :=
  batch = [] \/ exists b, In b batch /\ In b (map r_plate s).

Definition handed_of (s : screen) (batch : list Z) (p : plate) : Z * list irow :=
  (p_id p, rows_for s batch p).

Definition chunk_plates (s : screen) (batch : list Z) (n : Z) (k : nat) : list plate :=
  nth k (array_split (candidates s batch) (Z.to_nat n)) [].

(* score_chunk's test "some batch id is a plate of the screen" *)
Lemma batch_present_iff s batch :
  existsb (fun p => zmem (p_id p) batch) (plates s) = true <-> exists b, In b batch /\ In b (map r_plate s).
Proof.
  rewrite existsb_exists. split.
  - intros (p & Hp & Hz). apply plates_In in Hp. destruct Hp as (b & <- & Hb). apply zmem_true in Hz. now exists b.
  - intros (b & Hb & Hs). exists (get_plate s b). split; [apply plates_In; now exists b|now apply zmem_true].
Qed.

Lemma chunk_plates_cands s batch n k p : In p (chunk_plates s batch n k) -> In p (candidates s batch).
Proof. apply array_split_In. Qed.

Lemma chunk_plates_cover s batch n p : 1 <= n -> In p (candidates s batch) ->
  exists k, 0 <= k < n /\ In p (chunk_plates s batch n (Z.to_nat k)).
Proof.
  intros Hn Hp. destruct (array_split_cover _ (Z.to_nat n) p ltac:(lia) Hp) as (j & Hj & Hin).
  exists (Z.of_nat j). split; [lia|]. unfold chunk_plates. now rewrite Nat2Z.id.
Qed.

Lemma score_chunk_ok s batch n k :
  batch_valid s batch -> 0 <= k < n ->
  score_chunk s batch n k = Ok (map (handed_of s batch) (chunk_plates s batch n (Z.to_nat k))).
Proof.
  intros Hb Hk. unfold score_chunk.
  destruct (n <=? 0) eqn:E; [apply Z.leb_le in E; lia|].
  rewrite py_index_in_range by (rewrite array_split_length; lia).
  rewrite (nth_error_nth' _ []) by (rewrite array_split_length; lia).
  fold (chunk_plates s batch n (Z.to_nat k)). unfold handed_of.
  destruct batch as [|b0 batch']; [reflexivity|].
  destruct Hb as [Hb|Hb]; [discriminate|]. now rewrite (proj2 (batch_present_iff s _) Hb).
Qed.

Lemma score_chunk_inv s batch n k ps :
  score_chunk s batch n k = Ok ps ->
  batch_valid s batch /\
  exists chunk, In chunk (array_split (candidates s batch) (Z.to_nat n)) /\ ps = map (handed_of s batch) chunk.
Proof.
  unfold score_chunk. destruct (n <=? 0); [discriminate|].
  destruct (py_index _ k) as [chunk|] eqn:Ei; [|discriminate]. apply py_index_In in Ei.
  destruct batch as [|b0 batch'].
  - intros [= <-]. split; [now left|now exists chunk].
  - destruct (existsb _ (plates s)) eqn:Ex; [|discriminate]. intros [= <-].
    split; [right; now apply batch_present_iff|now exists chunk].
Qed.

Lemma score_chunk_unknown_batch s batch n k :
  batch <> [] -> (forall b, In b batch -> ~ In b (map r_plate s)) ->
  exists tag, score_chunk s batch n k = Err tag.
Proof.
  intros Hne Hb. destruct (score_chunk s batch n k) as [ps|tag] eqn:E; [|now exists tag].
  apply score_chunk_inv in E. destruct E as ([->|(b & Hin & Hs)] & _); [congruence|now elim (Hb b Hin)].
Qed.

Lemma chunk_plates_all s batch (n : nat) :
  map (chunk_plates s batch (Z.of_nat n)) (seq 0 n) = array_split (candidates s batch) n.
Proof.
  unfold chunk_plates. rewrite Nat2Z.id.
  rewrite <- (array_split_length (candidates s batch) n) at 1. symmetry. apply list_eq_map_nth.
Qed.

Theorem chunks_partition s batch (n : nat) :
  (0 < n)%nat -> batch_valid s batch ->
  exists pss,
    res_map_all (score_chunk s batch (Z.of_nat n)) (map Z.of_nat (seq 0 n)) = Ok pss /\
    length pss = n /\
    map fst (concat pss) = map p_id (candidates s batch).
Proof.
  intros Hn Hb.
  set (g := fun j : nat => map (handed_of s batch) (chunk_plates s batch (Z.of_nat n) j)).
  exists (map g (seq 0 n)).
  split; [|split].
  - rewrite res_map_all_map. apply res_map_all_ok. intros j Hj. apply in_seq in Hj.
    unfold g. rewrite <- (Nat2Z.id j) at 2. apply score_chunk_ok; [exact Hb|lia].
  - now rewrite map_length, seq_length.
  - unfold g. rewrite <- (map_map (chunk_plates s batch (Z.of_nat n)) (map (handed_of s batch))).
    rewrite chunk_plates_all. rewrite <- concat_map, array_split_concat by exact Hn.
    rewrite map_map. reflexivity.
Qed.

Theorem chunks_disjoint s batch (n : nat) (k1 k2 : nat) pid ps1 ps2 :
  (k1 < n)%nat -> (k2 < n)%nat -> k1 <> k2 ->
  score_chunk s batch (Z.of_nat n) (Z.of_nat k1) = Ok ps1 ->
  score_chunk s batch (Z.of_nat n) (Z.of_nat k2) = Ok ps2 ->
  In pid (map fst ps1) -> In pid (map fst ps2) -> False.
Proof.
  intros H1 H2 Hne E1 E2 I1 I2.
  pose proof (proj1 (score_chunk_inv _ _ _ _ _ E1)) as Hb.
  rewrite score_chunk_ok in E1, E2 by (exact Hb || lia).
  injection E1 as <-. injection E2 as <-.
  rewrite map_map in I1, I2. cbn [handed_of fst] in I1, I2.
  unfold chunk_plates in I1, I2. rewrite !Nat2Z.id in I1, I2.
  set (ls := map (map p_id) (array_split (candidates s batch) n)).
  assert (Hnd : NoDup (concat ls)).
  { unfold ls. rewrite <- concat_map, array_split_concat by lia. apply candidates_NoDup_ids. }
  apply (NoDup_concat_disjoint ls k1 k2 pid Hnd Hne); unfold ls; change (@nil Z) with (map p_id []); now rewrite map_nth.
Qed.

Lemma zlist_eqb_eq a b : zlist_eqb a b = true <-> a = b.
Proof.
  revert b; induction a as [|x a IH]; intros [|y b]; cbn [zlist_eqb]; try (split; [discriminate|congruence]).
  - tauto.
  - rewrite andb_true_iff, Z.eqb_eq, IH. split; [intros [-> ->]; reflexivity|intros E; inversion E; auto].
Qed.

Lemma key_eqb_eq a b : key_eqb a b = true <-> a = b.
Proof.
  unfold key_eqb. rewrite andb_true_iff, Z.eqb_eq, zlist_eqb_eq.
  destruct a, b; cbn [fst snd]. split; [intros [-> ->]; reflexivity|intros E; inversion E; auto].
Qed.

Lemma key_mem_true k l : key_mem k l = true <-> In k l.
Proof.
  unfold key_mem. rewrite existsb_exists. split.
  - intros (y & Hy & E). apply key_eqb_eq in E. now subst.
  - intros H. exists k. split; [exact H|now apply key_eqb_eq].
Qed.
Lemma key_mem_false k l : key_mem k l = false <-> ~ In k l.
Proof. rewrite <- key_mem_true. destruct (key_mem k l); split; congruence. Qed.

Lemma uniq_first_incl seen l x : In x (uniq_first seen l) -> In x l.
Proof.
  revert seen; induction l as [|a l IH]; intros seen; cbn [uniq_first]; [contradiction|].
  destruct (key_mem (row_key a) seen).
  - intros H. right. eapply IH, H.
  - intros [->|H]; [now left|right; eapply IH, H].
Qed.

Lemma uniq_first_keys_fresh seen l k :
  In k (map row_key (uniq_first seen l)) -> ~ In k seen.
Proof.
  revert seen; induction l as [|a l IH]; intros seen; cbn [uniq_first]; [contradiction|].
  destruct (key_mem (row_key a) seen) eqn:E; [apply IH|].
  cbn [map In]. intros [<-|H]; [now apply key_mem_false|].
  intros Hs. apply (IH _ H). now right.
Qed.

Lemma uniq_first_NoDup seen l : NoDup (map row_key (uniq_first seen l)).
Proof.
  revert seen; induction l as [|a l IH]; intros seen; cbn [uniq_first]; [constructor|].
  destruct (key_mem (row_key a) seen); [apply IH|].
  cbn [map]. constructor; [|apply IH].
  intros H. apply uniq_first_keys_fresh in H. apply H. now left.
Qed.

Lemma uniq_first_keys_complete seen l k :
  In k (map row_key l) -> In k seen \/ In k (map row_key (uniq_first seen l)).
Proof.
  revert seen; induction l as [|a l IH]; intros seen; cbn [uniq_first map In]; [contradiction|].
  destruct (key_mem (row_key a) seen) eqn:E.
  - intros [<-|H]; [left; now apply key_mem_true|now apply IH].
  - cbn [map In]. intros [<-|H]; [right; now left|].
    destruct (IH (row_key a :: seen) H) as [[<-|Hs]|Hu]; [right; now left|now left|right; now right].
Qed.

Lemma uniq_first_seen_ext seen1 seen2 l :
  (forall k, In k seen1 <-> In k seen2) -> uniq_first seen1 l = uniq_first seen2 l.
Proof.
  revert seen1 seen2; induction l as [|a l IH]; intros seen1 seen2 H; cbn [uniq_first]; [reflexivity|].
  assert (E : key_mem (row_key a) seen1 = key_mem (row_key a) seen2)
    by (apply eq_true_iff_eq; rewrite !key_mem_true; apply H).
  rewrite E. destruct (key_mem (row_key a) seen2); [now apply IH|].
  f_equal. apply IH. intros k. cbn [In]. now rewrite H.
Qed.

Lemma uniq_first_app seen l1 l2 :
  uniq_first seen (l1 ++ l2) = uniq_first seen l1 ++ uniq_first (map row_key l1 ++ seen) l2.
Proof.
  revert seen; induction l1 as [|a l1 IH]; intros seen; cbn [app uniq_first map]; [reflexivity|].
  destruct (key_mem (row_key a) seen) eqn:E.
  - rewrite IH. f_equal. apply uniq_first_seen_ext. intros k. cbn [In]. rewrite !in_app_iff.
    apply key_mem_true in E. split; [tauto|]. intros [<-|H]; tauto.
  - cbn [app]. f_equal. rewrite IH. f_equal. apply uniq_first_seen_ext. intros k.
    cbn [In]. rewrite !in_app_iff. cbn [In]. tauto.
Qed.

(* a row of l is kept iff no earlier row of l has its key *)
Lemma uniq_first_first_occurrence pre x post :
  NoDup (pre ++ x :: post) ->
  (In x (uniq_first [] (pre ++ x :: post)) <-> ~ In (row_key x) (map row_key pre)).
Proof.
  intros Hnd. apply NoDup_remove_2 in Hnd. rewrite uniq_first_app, app_nil_r. cbn [uniq_first].
  destruct (key_mem (row_key x) (map row_key pre)) eqn:E.
  - (* dropped here, and x occurs nowhere else *)
    apply key_mem_true in E. split; [|tauto]. intros H. elim Hnd.
    apply in_app_or in H. apply in_or_app. destruct H as [H|H]; apply uniq_first_incl in H; auto.
  - apply key_mem_false in E. split; [tauto|]. intros _. apply in_elt.
Qed.

(* the reduction loses no condition *)
Lemma uniq_first_keys l k : In k (map row_key (uniq_first [] l)) <-> In k (map row_key l).
Proof.
  split.
  - intros H. apply in_map_iff in H. destruct H as (x & <- & Hx). apply in_map. eapply uniq_first_incl, Hx.
  - intros H. destruct (uniq_first_keys_complete [] _ _ H) as [[]|Hu]. exact Hu.
Qed.

Lemma union_rows_In s batch pid i r :
  In (i, r) (union_rows s batch pid) <-> nth_error s i = Some r /\ (r_plate r = pid \/ In (r_plate r) batch).
Proof. unfold union_rows. now rewrite sub_rows_In, orb_true_iff, Z.eqb_eq, zmem_true. Qed.

(* what score_chunk hands over, per candidate *)
Theorem handed_rows s batch n k ps pid rows :
  score_chunk s batch n k = Ok ps -> In (pid, rows) ps ->
  In pid (map p_id (candidates s batch)) /\
  rows = match batch with
         | [] => sub_rows s (Z.eqb pid)
         | _ => conditioned s batch pid
         end.
Proof.
  intros E Hin. apply score_chunk_inv in E. destruct E as (_ & chunk & Hchunk & ->).
  apply in_map_iff in Hin. destruct Hin as (p & [= <- <-] & Hp).
  apply (array_split_incl _ _ _ Hchunk) in Hp. split; [now apply in_map|].
  unfold rows_for. destruct batch; [|reflexivity].
  now rewrite (candidates_are_plates _ _ _ Hp) at 1.
Qed.
