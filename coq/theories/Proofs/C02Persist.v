(* C02: save/load of screens and experiment spaces (Model/Persist.v). *)
From Coq Require Import ZArith List.
From Batchie Require Import Lib.Sexp Lib.ListX Model.Encode Model.Screen Model.Persist Proofs.C01Props Proofs.C02Encode.
Import ListNotations.
Open Scope Z_scope.

(* the arrays written by save re-assemble to what was saved *)
Lemma zip_rows_save rows :
  zip_rows (map r_sample rows) (map r_plate rows)
           (map (fun r => map fst (r_treats r)) rows) (map (fun r => map snd (r_treats r)) rows)
           (map r_obs rows) (map r_mask rows) = Some rows.
Proof.
  induction rows as [|r rows IH]; cbn [map zip_rows]; [reflexivity|].
  rewrite !map_length, Nat.eqb_refl, IH. cbn [opt_bind]. rewrite combine_fst_snd. now destruct r.
Qed.

Lemma zip_tmap_save (m : tmapping) :
  zip_tmap (map (fun e => fst (fst e)) m) (map (fun e => snd (fst e)) m) (map snd m) = Some m.
Proof.
  induction m as [|[[n d] i] m IH]; cbn [map zip_tmap fst snd]; [reflexivity|]. now rewrite IH.
Qed.

Lemma zip_nmap_save (m : nmapping) : zip_nmap (map fst m) (map snd m) = Some m.
Proof.
  induction m as [|[n i] m IH]; cbn [map zip_nmap fst snd]; [reflexivity|]. now rewrite IH.
Qed.

(* load . save is the constructor call load_h5 makes, for ANY screen record *)
Lemma load_save_is_ctor s :
  load (save s)
  = mk_screen (s_rows s) (s_arity s) (s_ctrl s) (Some (s_tmap s, true)) (Some (s_smap s, true)) true true.
Proof.
  unfold load, save.
  cbn [f_arity f_tnames f_tdoses f_tm_names f_tm_doses f_tm_ids f_obs f_mask f_snames f_sm_names f_sm_ids f_pnames f_ctrl].
  now rewrite zip_rows_save, zip_tmap_save, zip_nmap_save.
Qed.

Lemma load_save rows arity ctrl tmap smap og mg s :
  mk_screen rows arity ctrl tmap smap og mg = Ok s ->
  load (save s) = Ok s.
Proof.
  intros H. rewrite load_save_is_ctor. eapply mk_screen_idem, H.
Qed.

Lemma load_save_observables rows arity ctrl tmap smap og mg s :
  mk_screen rows arity ctrl tmap smap og mg = Ok s ->
  exists s', load (save s) = Ok s'
    /\ length (s_rows s') = length (s_rows s)
    /\ map r_sample (s_rows s') = map r_sample (s_rows s)
    /\ map r_plate (s_rows s') = map r_plate (s_rows s)
    /\ map r_treats (s_rows s') = map r_treats (s_rows s)
    /\ map r_obs (s_rows s') = map r_obs (s_rows s)
    /\ map r_mask (s_rows s') = map r_mask (s_rows s)
    /\ s_arity s' = s_arity s
    /\ s_ctrl s' = s_ctrl s
    /\ s_tids s' = s_tids s /\ s_sids s' = s_sids s /\ s_pids s' = s_pids s
    /\ s_tmap s' = s_tmap s /\ s_smap s' = s_smap s /\ s_pmap s' = s_pmap s.
Proof.
  intros H. exists s. split; [eapply load_save; eassumption|]. repeat split.
Qed.

Lemma no_renumber rows arity ctrl tmap smap og mg s :
  mk_screen rows arity ctrl tmap smap og mg = Ok s ->
  exists s', load (save s) = Ok s'
  /\ s_tids s' = s_tids s /\ s_sids s' = s_sids s /\ s_pids s' = s_pids s
  /\ s_tmap s' = s_tmap s /\ s_smap s' = s_smap s /\ s_pmap s' = s_pmap s
  /\ (forall m b, tmap = Some (m, b) -> s_tmap s' = m)
  /\ (forall m b, smap = Some (m, b) -> s_smap s' = m).
Proof.
  intros H. exists s. split; [eapply load_save; eassumption|]. repeat split.
  - intros m b ->. eapply supplied_verbatim, H.
  - intros m b ->. eapply supplied_samples_verbatim, H.
Qed.

Lemma cycles_fixed s : load (save s) = Ok s -> forall n, cycles n s = Ok s.
Proof. intros H n. induction n as [|n IH]; cbn [cycles]; [reflexivity|]. rewrite H. cbn [res_bind]. exact IH. Qed.

Lemma fixed_point rows arity ctrl tmap smap og mg s :
  mk_screen rows arity ctrl tmap smap og mg = Ok s ->
  exists s', load (save s) = Ok s'
  /\ save s' = save s /\ load (save s') = Ok s' /\ forall n, cycles n s' = Ok s'.
Proof.
  intros H. assert (HL : load (save s) = Ok s) by (eapply load_save, H). exists s.
  split; [exact HL|]. split; [reflexivity|]. split; [exact HL|]. now apply cycles_fixed.
Qed.

Lemma any_cycles rows arity ctrl tmap smap og mg s :
  mk_screen rows arity ctrl tmap smap og mg = Ok s ->
  forall n, cycles n s = Ok s.
Proof. intros H. apply cycles_fixed. eapply load_save; eassumption. Qed.

Lemma space_load_save sp : space_load (space_save sp) = Ok sp.
Proof.
  unfold space_load, space_save. cbn [g_tnames g_tdoses g_tids g_snames g_sids g_ctrl].
  rewrite zip_tmap_save, zip_nmap_save. now destruct sp.
Qed.

Lemma space_cycles_fixed sp n : space_cycles n sp = Ok sp.
Proof.
  induction n as [|n IH]; cbn [space_cycles]; [reflexivity|]. rewrite space_load_save. cbn [res_bind]. exact IH.
Qed.

Lemma space_fixed_point sp :
  exists sp', space_load (space_save sp) = Ok sp'
  /\ sp' = sp /\ space_save sp' = space_save sp /\ forall n, space_cycles n sp' = Ok sp'.
Proof.
  exists sp. split; [apply space_load_save|]. split; [reflexivity|]. split; [reflexivity|].
  intros n. apply space_cycles_fixed.
Qed.

(* from_screen commutes with the screen's own round trip *)
Lemma space_of_screen_load_save rows arity ctrl tmap smap og mg s :
  mk_screen rows arity ctrl tmap smap og mg = Ok s ->
  space_load (space_save (space_of_screen s)) = Ok (space_of_screen s)
  /\ (forall n, space_cycles n (space_of_screen s) = Ok (space_of_screen s))
  /\ (forall s', load (save s) = Ok s' -> space_of_screen s' = space_of_screen s).
Proof.
  intros H. split; [apply space_load_save|]. split; [intros n; apply space_cycles_fixed|].
  intros s' HL'. erewrite load_save in HL' by exact H. now injection HL' as <-.
Qed.
