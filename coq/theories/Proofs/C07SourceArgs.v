(* The argument-handling glue of calculate_distance_matrix: the statements of get_args() after
   parser.parse_args(), and main() as a whole command.  The hand-written models Cli.cd_get_args /
   cli_calculate_distance_matrix_cmd equal the translations of the functions of /repo, regenerated on every run
   (Generated/SrcCliArgsDist.v, configurations ARGS_GET_ARGS_CD / ARGS_CMD_CD of harness/src_functions.py), for every
   introspection record, every record of string primitives, every constructor and library record and all raw namespaces.
   Then what the model says about --distance-metric-param: the cast KEY=VALUE items are what the constructor of the metric
   receives (never dropped); a key that is not a required __init__ argument of the class is a KeyError. *)
From Coq Require Import ZArith List.
From Batchie Require Import Lib.Sexp Lib.PyRt Model.Cli Generated.SrcCliArgsDist Proofs.PyRtLemmas
  Proofs.C07SourceCli Proofs.C18Args Proofs.C18SourceArgs_Cast Proofs.C18SourceIntrospect.
Import ListNotations.
Open Scope Z_scope.

Theorem src_cd_get_args_is_model : forall (Cls F O : Type) (I : introspect Cls) (P : pyprims F O) (raw : cd_ns Cls F O),
  src_cd_get_args Cls F O I P raw = cd_get_args I P raw.
Proof.
  intros. unfold src_cd_get_args, cd_get_args. cbv zeta.
  rewrite <- (resolve_block I P BDistanceMetric (cd_distance_metric raw) (cd_distance_metric_param raw)
                (fun c ps => Ok (cd_set_metric_params (cd_set_metric_cls raw c) ps))).
  fold s_batchie. cli_step.
  cbn [cd_metric_cls cd_distance_metric_param cd_set_metric_cls]. cli_step.
  apply res_bind_ret.
Qed.

(* main() as a whole command: get_args() is the translated get_args on the raw namespace, the metric is `construct` on the
   class and the parameters the namespace holds *)
Theorem src_cli_calculate_distance_matrix_cmd_is_model :
  forall (Cls F O : Type) (I : introspect Cls) (P : pyprims F O) (Scr Th Me Dm : Type)
         (construct : Cls -> list (str * pval F O) -> result Me) (L : cd_lib Scr Th Me Dm) (raw : cd_ns Cls F O),
  src_cli_calculate_distance_matrix_cmd Cls F O I P Scr Th Me Dm construct L raw
  = cli_calculate_distance_matrix_cmd I P construct L raw.
Proof.
  intros. unfold src_cli_calculate_distance_matrix_cmd, cli_calculate_distance_matrix_cmd. cbv zeta.
  rewrite src_cd_get_args_is_model.
  destruct (cd_get_args I P raw) as [a|e]; cbn [res_bind]; [|reflexivity].
  rewrite <- C07SourceCli.src_cli_calculate_distance_matrix_is_model.
  unfold SrcCli.src_cli_calculate_distance_matrix, instantiate. cbv zeta.
  cbn [cd_with_mk cd_load_screen cd_load_thetas cd_concat_thetas cd_mk_metric cd_calculate].
  repeat cli_step. all: reflexivity.
Qed.

(* the same, with the model spelled out: the metric component of the main() model IS the resolved class instantiated with
   the cast parameters; the plain arguments are those of the raw namespace *)
Theorem src_cli_calculate_distance_matrix_cmd_spelled :
  forall (Cls F O : Type) (I : introspect Cls) (P : pyprims F O) (Scr Th Me Dm : Type)
         (construct : Cls -> list (str * pval F O) -> result Me) (L : cd_lib Scr Th Me Dm) (raw : cd_ns Cls F O),
  src_cli_calculate_distance_matrix_cmd Cls F O I P Scr Th Me Dm construct L raw
  = (dor cp <- resolve I P BDistanceMetric (cd_distance_metric raw) (cd_distance_metric_param raw);
     cli_calculate_distance_matrix (cd_with_mk L (instantiate construct (fst cp) (snd cp))) (cd_plain raw)).
Proof.
  intros. rewrite src_cli_calculate_distance_matrix_cmd_is_model.
  unfold cli_calculate_distance_matrix_cmd, cd_get_args.
  destruct (resolve I P BDistanceMetric (cd_distance_metric raw) (cd_distance_metric_param raw)); reflexivity.
Qed.

(* with the introspection record made of the TRANSLATED get_class / get_required_init_args_with_annotations *)
Theorem src_cli_calculate_distance_matrix_cmd_world :
  forall (Mod Obj F O : Type) (W : pyworld Mod Obj) (P : pyprims F O) (Scr Th Me Dm : Type)
         (construct : Obj -> list (str * pval F O) -> result Me) (L : cd_lib Scr Th Me Dm) (raw : cd_ns Obj F O),
  src_cli_calculate_distance_matrix_cmd Obj F O (introspect_src W) P Scr Th Me Dm construct L raw
  = cli_calculate_distance_matrix_cmd (introspect_of W) P construct L raw.
Proof.
  intros. rewrite src_cli_calculate_distance_matrix_cmd_is_model.
  unfold cli_calculate_distance_matrix_cmd, cd_get_args. now rewrite resolve_src.
Qed.

(* a metric that could not be constructed leaves no output *)
Lemma no_metric_no_output (Scr Th Me Dm : Type) (L : cd_lib Scr Th Me Dm) e a out :
  cli_calculate_distance_matrix (cd_with_mk L (Err e)) a <> Ok out.
Proof.
  unfold cli_calculate_distance_matrix. cbn [cd_with_mk cd_load_screen cd_load_thetas cd_concat_thetas cd_mk_metric].
  destruct (cd_load_screen L (cd_data a)); cbn [res_bind]; [|discriminate].
  destruct (res_map_all (cd_load_thetas L) (cd_thetas a)) as [ths|e2]; cbn [res_bind]; [|discriminate].
  destruct (cd_concat_thetas L ths); cbn [res_bind]; discriminate.
Qed.

(* the command succeeds only through `construct` on the class found and on exactly the cast --distance-metric-param items:
   whenever the translated main() writes a file, the class lookup gave Some c, the cast of the KEY=VALUE items by the
   required-argument annotations of c succeeded with ps (= [] exactly when the option is absent or empty), construct c ps
   gave the metric m, and the file holds what the library computed WITH m. *)
Theorem cmd_metric_is_constructed_from_params :
  forall (Cls F O : Type) (I : introspect Cls) (P : pyprims F O) (Scr Th Me Dm : Type)
         (construct : Cls -> list (str * pval F O) -> result Me) (L : cd_lib Scr Th Me Dm) (raw : cd_ns Cls F O) out,
  src_cli_calculate_distance_matrix_cmd Cls F O I P Scr Th Me Dm construct L raw = Ok out ->
  exists c req ps m,
    i_get_class I s_batchie (cd_distance_metric raw) BDistanceMetric = Ok (Some c)
    /\ i_required I (Some c) = Ok req
    /\ cast_params P (cd_distance_metric_param raw) req = Ok ps
    /\ construct c ps = Ok m
    /\ cli_calculate_distance_matrix (cd_with_mk L (Ok m)) (cd_plain raw) = Ok out.
Proof.
  intros Cls F O I P Scr Th Me Dm construct L raw out H.
  rewrite src_cli_calculate_distance_matrix_cmd_spelled in H. unfold resolve in H.
  destruct (i_get_class I s_batchie (cd_distance_metric raw) BDistanceMetric) as [c|e]; cbn [res_bind] in H; [|discriminate].
  destruct (i_required I c) as [req|e] eqn:Hreq; cbn [res_bind] in H; [|discriminate].
  destruct (cast_params P (cd_distance_metric_param raw) req) as [ps|e] eqn:Hps; cbn [res_bind fst snd] in H; [|discriminate].
  destruct (instantiate construct c ps) as [m|e] eqn:Hm; [|now apply no_metric_no_output in H].
  destruct c as [c|]; [|discriminate]. cbn [instantiate unwrap res_bind] in Hm.
  exists c, req, ps, m. repeat split; assumption.
Qed.

(* a non-empty option is never dropped: its FIRST key must be a required __init__ argument of the class, else KeyError (25);
   in particular a class all of whose __init__ arguments have defaults (required = []) - MSEDistance(sigmoid=True), the only
   metric the package ships - refuses every --distance-metric-param *)
Lemma cast_params_first_key_absent :
  forall (F O : Type) (P : pyprims F O) k v rest req,
  kdict_find str_eqb req k = None ->
  cast_params P (Some ((k, v) :: rest)) req = Err 25.
Proof.
  intros. unfold cast_params, cast_dict. cbn [cast_items]. unfold kdict_get. rewrite H. reflexivity.
Qed.

Lemma model_param_not_required_is_key_error :
  forall (Cls F O : Type) (I : introspect Cls) (P : pyprims F O) (Scr Th Me Dm : Type)
         (construct : Cls -> list (str * pval F O) -> result Me) (L : cd_lib Scr Th Me Dm) (raw : cd_ns Cls F O) c req k v rest,
  i_get_class I s_batchie (cd_distance_metric raw) BDistanceMetric = Ok c ->
  i_required I c = Ok req ->
  cd_distance_metric_param raw = Some ((k, v) :: rest) ->
  kdict_find str_eqb req k = None ->
  cli_calculate_distance_matrix_cmd I P construct L raw = Err 25.
Proof.
  intros Cls F O I P Scr Th Me Dm construct L raw c req k v rest Hc Hr Hp Hk.
  unfold cli_calculate_distance_matrix_cmd, cd_get_args, resolve.
  rewrite Hc. cbn [res_bind]. rewrite Hr. cbn [res_bind].
  now rewrite Hp, cast_params_first_key_absent by exact Hk.
Qed.

Theorem cmd_param_not_required_is_key_error :
  forall (Cls F O : Type) (I : introspect Cls) (P : pyprims F O) (Scr Th Me Dm : Type)
         (construct : Cls -> list (str * pval F O) -> result Me) (L : cd_lib Scr Th Me Dm) (raw : cd_ns Cls F O) c req k v rest,
  i_get_class I s_batchie (cd_distance_metric raw) BDistanceMetric = Ok c ->
  i_required I c = Ok req ->
  cd_distance_metric_param raw = Some ((k, v) :: rest) ->
  kdict_find str_eqb req k = None ->
  src_cli_calculate_distance_matrix_cmd Cls F O I P Scr Th Me Dm construct L raw = Err 25.
Proof.
  intros. rewrite src_cli_calculate_distance_matrix_cmd_is_model.
  eapply model_param_not_required_is_key_error; eassumption.
Qed.

(* in the world of the translated introspection: a parameter of __init__ that HAS a default is not among the required
   arguments, whatever else the signature holds *)
Lemma kdict_find_set_other {V : Type} (d : list (str * V)) (n k : str) (v : V) :
  str_eqb n k = false -> kdict_find str_eqb (kdict_set str_eqb d n v) k = kdict_find str_eqb d k.
Proof.
  intros Hnk. induction d as [|[k0 v0] d IH]; cbn [kdict_set kdict_find].
  - now rewrite Hnk.
  - destruct (str_eqb k0 n) eqn:E0; cbn [kdict_find].
    + apply str_eqb_eq in E0. subst k0. now rewrite Hnk.
    + now rewrite IH.
Qed.

Lemma required_step_absent k : forall ps d,
  kdict_find str_eqb d k = None -> (forall sp, In (k, sp) ps -> sp_no_default sp = false) ->
  kdict_find str_eqb (fold_left required_step ps d) k = None.
Proof.
  induction ps as [|[n sp] ps IH]; intros d Hd H; cbn [fold_left]; [exact Hd|].
  apply IH; [|intros sp' Hin; apply H; now right].
  unfold required_step. cbn [fst snd].
  destruct (str_eqb n s_self); [exact Hd|].
  destruct (sp_no_default sp) eqn:Hnd; [|exact Hd].
  rewrite kdict_find_set_other; [exact Hd|].
  destruct (str_eqb n k) eqn:Hnk; [|reflexivity].
  apply str_eqb_eq in Hnk. subst n. rewrite (H sp) in Hnd by now left. discriminate.
Qed.

Theorem world_defaulted_param_not_required :
  forall (Mod Obj : Type) (W : pyworld Mod Obj) (o : Obj) ps k,
  w_isclass W o = true -> w_signature W o = Ok ps ->
  (forall sp, In (k, sp) ps -> sp_no_default sp = false) ->
  exists req, required_args W (Some o) = Ok req /\ kdict_find str_eqb req k = None.
Proof.
  intros Mod Obj W o ps k Hc Hs Hd. exists (fold_left required_step ps []). split.
  - unfold required_args. now rewrite Hc, Hs.
  - now apply required_step_absent.
Qed.

Theorem cmd_defaulted_param_is_key_error_world :
  forall (Mod Obj F O : Type) (W : pyworld Mod Obj) (P : pyprims F O) (Scr Th Me Dm : Type)
         (construct : Obj -> list (str * pval F O) -> result Me) (L : cd_lib Scr Th Me Dm) (raw : cd_ns Obj F O)
         (o : Obj) sig k v rest,
  get_class W s_batchie (cd_distance_metric raw) BDistanceMetric = Ok (Some o) ->
  w_isclass W o = true -> w_signature W o = Ok sig ->
  (forall sp, In (k, sp) sig -> sp_no_default sp = false) ->
  cd_distance_metric_param raw = Some ((k, v) :: rest) ->
  src_cli_calculate_distance_matrix_cmd Obj F O (introspect_src W) P Scr Th Me Dm construct L raw = Err 25.
Proof.
  intros Mod Obj F O W P Scr Th Me Dm construct L raw o sig k v rest Hc Hi Hs Hd Hp.
  destruct (world_defaulted_param_not_required Mod Obj W o sig k Hi Hs Hd) as [req [Hreq Hk]].
  rewrite src_cli_calculate_distance_matrix_cmd_world.
  exact (model_param_not_required_is_key_error Obj F O (introspect_of W) P Scr Th Me Dm construct L raw
           (Some o) req k v rest Hc Hreq Hp Hk).
Qed.
