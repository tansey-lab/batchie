(* C14, one piece of Proofs/C14SourceHelpers.v (which see): ScreenBase.is_observed on a Screen object *)
From Coq Require Import List.
From Batchie Require Import Lib.ListX Lib.Sexp Model.Views Generated.SrcPlates
  Proofs.C14SourceHelpers_Base.
Import ListNotations.
Open Scope Z_scope.

Theorem src_screen_is_observed_is_model : forall s : pyscreen, src_screen_is_observed s = Ok (screen_is_observed (snd s)).
Proof. intros s. unfold src_screen_is_observed, screen_is_observed, np_all, screen_mask. now rewrite forallb_map. Qed.
