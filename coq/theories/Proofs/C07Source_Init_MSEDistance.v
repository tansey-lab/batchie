(* C07: MSEDistance.__init__ (Generated/SrcInits.v) stores `sigmoid`, the attribute the translated distance reads *)
From Batchie Require Import Lib.Sexp Generated.SrcInits.

Theorem src_mse_distance_init_stores : forall sigmoid : bool, src_mse_distance_init sigmoid = Ok sigmoid.
Proof. reflexivity. Qed.
