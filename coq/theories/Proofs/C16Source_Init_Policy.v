(* C16: KPerSamplePlatePolicy.__init__ (Generated/SrcInits.v) stores its argument k: the self.k that the translated
   filter_eligible_plates reads (the parameter k of its link) is the value the policy was constructed with *)
From Coq Require Import ZArith.
From Batchie Require Import Lib.Sexp Generated.SrcInits.
Open Scope Z_scope.

Theorem src_k_per_sample_init_stores : forall k : Z, src_k_per_sample_init k = Ok k.
Proof. reflexivity. Qed.
