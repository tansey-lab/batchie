(* C16: select_next_plate performs steps of the history relation. *)
From Coq Require Import ZArith List Bool Permutation.
From Batchie Require Import Lib.Sexp Model.Policy Proofs.C16Policy Proofs.C16Hist.
Import ListNotations.
Open Scope Z_scope.

Definition id_of (sp : splate) : Z := plate_id (fst sp).

Lemma insert_perm p l : Permutation (insert_by_id p l) (p :: l).
Proof.
  induction l as [|q l IH]; cbn [insert_by_id]; [apply Permutation_refl|].
  destruct (plate_id q <=? plate_id p); [|apply Permutation_refl].
  eapply perm_trans; [apply perm_skip, IH|apply perm_swap].
Qed.

Lemma sort_perm l : Permutation (sort_by_id l) l.
Proof.
  induction l as [|p l IH]; cbn [sort_by_id fold_right]; [constructor|].
  eapply perm_trans; [apply insert_perm|]. apply perm_skip, IH.
Qed.

Lemma In_sort_by_id p l : In p (sort_by_id l) <-> In p l.
Proof. split; apply Permutation_in; [apply sort_perm|apply Permutation_sym, sort_perm]. Qed.

(* two filters that differ exactly on the one element carrying id i *)
Lemma filter_split_one (screen : list splate) (sp0 : splate) (f f' : splate -> bool) :
  NoDup (map id_of screen) -> In sp0 screen ->
  (forall x, In x screen -> id_of x <> id_of sp0 -> f' x = f x) ->
  f' sp0 = true -> f sp0 = false ->
  Permutation (filter f' screen) (sp0 :: filter f screen).
Proof.
  induction screen as [|sp rest IH]; intros Hnd Hin Hext Ht Hf; [destruct Hin|].
  cbn [map] in Hnd. inversion Hnd as [|? ? Hn Hd]; subst. destruct Hin as [->|Hin].
  - cbn [filter]. rewrite Ht, Hf. apply perm_skip.
    rewrite (filter_ext_in f' f rest); [apply Permutation_refl|].
    intros x Hx. apply Hext; [now right|]. intros E. apply Hn. rewrite <- E. now apply in_map.
  - assert (Hne : id_of sp <> id_of sp0).
    { intros E. apply Hn. rewrite E. now apply in_map. }
    cbn [filter]. rewrite (Hext sp (or_introl eq_refl) Hne).
    assert (IH' : Permutation (filter f' rest) (sp0 :: filter f rest)).
    { apply IH; try assumption. intros x Hx. apply Hext. now right. }
    destruct (f sp); [|exact IH'].
    eapply perm_trans; [apply perm_skip, IH'|apply perm_swap].
Qed.

Lemma argmin_first_In l x : argmin_first l = Some x -> In x l.
Proof.
  revert x; induction l as [|y l IH]; intros x; cbn [argmin_first]; [discriminate|].
  destruct (argmin_first l) as [z|].
  - destruct (snd z <? snd y); intros E; injection E as <-; [right; now apply IH|now left].
  - intros E; injection E as <-. now left.
Qed.

Lemma min_score_id_In scores ids i : min_score_id scores ids = Ok i -> In i ids.
Proof.
  unfold min_score_id. destruct (argmin_first _) as [iv|] eqn:E; [|discriminate].
  intros H. injection H as <-. apply argmin_first_In in E. apply filter_In in E as [_ E]. now apply mem_In.
Qed.

Lemma mem_snoc x l i : mem x (l ++ [i]) = mem x l || (x =? i).
Proof. rewrite mem_app. unfold mem at 2. cbn [existsb]. now rewrite orb_false_r. Qed.

Lemma select_args_nil screen : select_args screen [] = ([], snd (select_args screen [])).
Proof.
  unfold select_args. cbn [snd]. f_equal. induction screen as [|sp screen IH]; [reflexivity|exact IH].
Qed.

Definition in_batch (ids : list Z) (sp : splate) : bool := mem (id_of sp) ids.
Definition is_left (ids : list Z) (sp : splate) : bool := negb (snd sp) && negb (mem (id_of sp) ids).

Lemma select_args_eq screen ids :
  select_args screen ids
  = (map fst (filter (in_batch ids) screen), sort_by_id (map fst (filter (is_left ids) screen))).
Proof. reflexivity. Qed.

Lemma is_left_true ids p o : is_left ids (p, o) = true <-> o = false /\ ~ In (plate_id p) ids.
Proof.
  unfold is_left, id_of. cbn [fst snd].
  now rewrite andb_true_iff, !negb_true_iff, <- (mem_In (plate_id p) ids), not_true_iff_false.
Qed.

Lemma c16_select_args_spec screen ids p :
  (In p (fst (select_args screen ids)) <-> exists o, In (p, o) screen /\ In (plate_id p) ids) /\
  (In p (snd (select_args screen ids)) <-> In (p, false) screen /\ ~ In (plate_id p) ids).
Proof.
  rewrite select_args_eq. cbn [fst snd]. split.
  - rewrite in_map_iff. split.
    + intros ([p' o] & E & Hin). cbn [fst] in E. subst p'. apply filter_In in Hin as [Hin Hb].
      exists o. split; [exact Hin|]. now apply mem_In.
    + intros (o & Hin & Hids). exists (p, o). split; [reflexivity|]. apply filter_In. split; [exact Hin|].
      now apply mem_In.
  - rewrite In_sort_by_id, in_map_iff. split.
    + intros ([p' o] & E & Hin). cbn [fst] in E. subst p'. apply filter_In in Hin as [Hin Hl].
      apply is_left_true in Hl as [-> Hn]. now split.
    + intros [Hin Hn]. exists (p, false). split; [reflexivity|]. apply filter_In. split; [exact Hin|].
      now apply is_left_true.
Qed.

(* moving an unobserved plate that is not in the batch to the batch ids moves it from the second list to the first *)
Lemma select_args_snoc screen ids sp0 :
  NoDup (map id_of screen) -> In sp0 screen -> is_left ids sp0 = true ->
  Permutation (fst (select_args screen (ids ++ [id_of sp0]))) (fst sp0 :: fst (select_args screen ids)) /\
  Permutation (snd (select_args screen ids)) (fst sp0 :: snd (select_args screen (ids ++ [id_of sp0]))).
Proof.
  intros Hnd Hin Hl. rewrite !select_args_eq. cbn [fst snd]. split.
  - change (fst sp0 :: map fst (filter (in_batch ids) screen)) with (map fst (sp0 :: filter (in_batch ids) screen)).
    apply Permutation_map, filter_split_one; try assumption.
    + intros x _ Hx. unfold in_batch. rewrite mem_snoc. apply Z.eqb_neq in Hx. rewrite Hx. apply orb_false_r.
    + unfold in_batch. rewrite mem_snoc, Z.eqb_refl. apply orb_true_r.
    + apply andb_prop in Hl as [_ Hl]. now apply negb_true_iff in Hl.
  - eapply perm_trans; [apply sort_perm|]. eapply perm_trans; [|apply perm_skip, Permutation_sym, sort_perm].
    change (fst sp0 :: map fst (filter (is_left (ids ++ [id_of sp0])) screen))
      with (map fst (sp0 :: filter (is_left (ids ++ [id_of sp0])) screen)).
    apply Permutation_map, filter_split_one; try assumption.
    + intros x _ Hx. unfold is_left. rewrite mem_snoc. apply Z.eqb_neq in Hx. rewrite Hx. now rewrite orb_false_r.
    + unfold is_left. rewrite mem_snoc, Z.eqb_refl, orb_true_r. apply andb_false_r.
Qed.

(* a call that returns a plate: the policy accepted what it was handed, and the plate is one of those it allowed *)
Lemma select_next_inv k screen scores ids elids i :
  select_next k screen scores ids = Ok (elids, Some i) ->
  exists el p, filter_eligible k (fst (select_args screen ids)) (snd (select_args screen ids)) = Ok el /\
               elids = map plate_id el /\ In p el /\ plate_id p = i.
Proof.
  unfold select_next. destruct (select_args screen ids) as [b r]. cbn [fst snd].
  destruct (filter_eligible k b r) as [el|e]; cbn [res_bind]; [|discriminate].
  destruct el as [|p0 el']; [discriminate|].
  destruct (min_score_id scores _) as [best|e] eqn:Hmin; cbn [res_bind]; [|discriminate].
  intros H. injection H as <- <-. apply min_score_id_In, in_map_iff in Hmin as (p & Hp & Hin).
  now exists (p0 :: el'), p.
Qed.

Lemma c16_select_step k screen scores ids elids i :
  NoDup (map id_of screen) ->
  select_next k screen scores ids = Ok (elids, Some i) ->
  step k (select_args screen ids) (select_args screen (ids ++ [i])) /\
  In i elids /\ ~ In i ids /\ exists p, In (p, false) screen /\ plate_id p = i.
Proof.
  intros Hnd Hsel. destruct (select_next_inv _ _ _ _ _ _ Hsel) as (el & p & Hfe & -> & Hpel & <-).
  pose proof (proj2 (c16_eligible_subset _ _ _ _ Hfe) p Hpel) as HpR.
  apply c16_select_args_spec in HpR as [Hin Hnot].
  destruct (select_args_snoc screen ids (p, false) Hnd Hin) as [HB HR]; [now apply is_left_true|].
  split; [|split; [now apply in_map|split; [exact Hnot|now exists p]]].
  apply (step_intro k _ _ el p _ _ Hfe Hpel); [exact HB|exact HR].
Qed.

Lemma c16_select_reachable k screen ids :
  NoDup (map id_of screen) -> sel_hist k screen ids ->
  reachable k (snd (select_args screen [])) (select_args screen ids).
Proof.
  intros Hnd H. induction H as [|ids scores el i _ IH Hsel].
  - rewrite select_args_nil at 2. constructor.
  - eapply reach_step; [exact IH|]. now apply (c16_select_step k screen scores ids el i Hnd).
Qed.

