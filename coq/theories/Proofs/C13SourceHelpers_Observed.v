(* C13 / C11, one of the pieces Proofs/C13SourceHelpers.v collects (its header describes the representation and the side conditions): is_observed on a Screen and on a Plate *)
From Coq Require Import List.
From Batchie Require Import Lib.ListX Lib.Sexp Model.Screen Model.Views Model.RetroHoldout Generated.SrcPlates Proofs.C14Lists Proofs.C14SourceHelpers_Base Proofs.C14SourceHelpers_ScreenObserved Proofs.C14SourceHelpers_ViewObserved.
Import ListNotations.
Open Scope nat_scope.

(* screen.is_observed (C13_INITIAL_WRAPPER: `forallb r_mask`) and plate.is_observed (C11_BALANCED_HOLDOUT: [vec_observed]) *)
Theorem src_is_observed_is_retro :
  (forall s : pyscreen, src_screen_is_observed s = Ok (forallb r_mask (s_rows (snd s)))) /\
  (forall v : view, src_view_is_observed v = Ok (vec_observed (v_sel v) (s_rows (v_parent v)))).
Proof.
  split; [intros s; exact (src_screen_is_observed_is_model s)|].
  intros v. rewrite src_view_is_observed_is_model. unfold view_is_observed, view_mask, vec_observed.
  now rewrite select_map, forallb_map.
Qed.
