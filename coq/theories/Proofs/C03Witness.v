(* C03: the construction WITHOUT the mappings ([carry_mappings false]: reveal / mask / unmask as they were before
   /repo commit e414171 made them pass the mappings on) refutes ids_frozen.
   The witness is the prepared simulation of DESIGN section 6 row 1 (harness/c03.py WITNESS):
     parent: samples a a b b c c on plates p0 p0 p1 p1 p2 p2, treatments x x y y z z, plate p0 unobserved;
     fraction 1.0 holds out the whole of plate p0, so sample 'a' and treatment ('x', 1.0) occur only in the
     test half; the training half keeps b b c c with sample ids 1 1 2 2 (the parent's);
     one reveal_plates(train, [0]) / mask_screen / unmask_screen that rebuilds the mappings renumbers them 0 0 1 1. *)
From Coq Require Import ZArith List.
From Batchie Require Import Lib.Sexp Model.Screen Model.Reveal Model.Holdout Proofs.C03Frozen.
Import ListNotations.
Open Scope Z_scope.

Definition w_row (s p t : Z) (dose obs : Z) (m : bool) : row :=
  {| r_sample := [s]; r_plate := [112; p]; r_treats := [([t], dose)]; r_obs := obs; r_mask := m |}.

(* names: a=97 b=98 c=99, plates "p0" "p1" "p2", treatments x=120 y=121 z=122;
   doses are order keys of 1.0 and 2.0; observations are the bit patterns of 0.5, 0.25, 0.75 *)
Definition w_rows : list row :=
  [ w_row 97 48 120 4607182418800017408 4602678819172646912 false;
    w_row 97 48 120 4607182418800017408 4598175219545276416 false;
    w_row 98 49 121 4607182418800017408 4602678819172646912 true;
    w_row 98 49 121 4607182418800017408 4604930618986332160 true;
    w_row 99 50 122 4611686018427387904 4602678819172646912 true;
    w_row 99 50 122 4611686018427387904 4604930618986332160 true ].

Definition w_sel : list bool := [true; true; false; false; false; false].

Definition dummy_screen : screen :=
  {| s_rows := []; s_arity := 0; s_ctrl := []; s_tmap := []; s_smap := []; s_pmap := [];
     s_tids := []; s_sids := []; s_pids := [] |}.
Definition get (r : result screen) : screen := match r with Ok s => s | Err _ => dummy_screen end.

Definition w_parent : screen := Eval vm_compute in get (mk_screen w_rows 1 [] None None true true).
Definition w_train : screen :=
  Eval vm_compute in match holdout_split w_parent w_sel with Ok pr => fst pr | Err _ => dummy_screen end.
Definition w_test : screen :=
  Eval vm_compute in match holdout_split w_parent w_sel with Ok pr => snd pr | Err _ => dummy_screen end.
Definition w_after (o : op) : screen := get (history (carry_mappings false) [o] w_train).

Lemma w_parent_ok : mk_screen w_rows 1 [] None None true true = Ok w_parent.
Proof. vm_compute. reflexivity. Qed.
Lemma w_split_ok : holdout_split w_parent w_sel = Ok (w_train, w_test).
Proof. vm_compute. reflexivity. Qed.

(* what "refuted" means for one operation [o] that does not pass the mappings on *)
Definition refutes (o : op) : Prop :=
  exists rows sel p tr te s',
    mk_screen rows 1 [] None None true true = Ok p /\
    holdout_split p sel = Ok (tr, te) /\
    history (carry_mappings false) [o] tr = Ok s' /\
    map r_sample (s_rows s') = map r_sample (s_rows tr) /\      (* the same experiments ...           *)
    s_sids tr = [1; 1; 2; 2] /\ s_sids s' = [0; 0; 1; 1] /\      (* ... get other sample ids           *)
    s_tids tr = [[1]; [1]; [2]; [2]] /\ s_tids s' = [[0]; [0]; [1]; [1]] /\
    s_smap s' <> s_smap p /\ s_tmap s' <> s_tmap p /\            (* the mappings are not the parent's  *)
    ~ frozen_to p s' /\
    (space_n_samples s' < space_n_samples p) /\ (space_n_treatments s' < space_n_treatments p).

(* the witness for [refutes o], then one evaluation per conjunct *)
Ltac refute o :=
  exists w_rows, w_sel, w_parent, w_train, w_test, (w_after o);
  split; [exact w_parent_ok|]; split; [exact w_split_ok|];
  split; [vm_compute; reflexivity|];
  split; [vm_compute; reflexivity|];
  split; [vm_compute; reflexivity|];
  split; [vm_compute; reflexivity|];
  split; [vm_compute; reflexivity|];
  split; [vm_compute; reflexivity|];
  split; [vm_compute; discriminate|];
  split; [vm_compute; discriminate|];
  split; [intros (_ & H & _); vm_compute in H; discriminate|];
  split; vm_compute; reflexivity.

Theorem reveal_refuted : refutes (Reveal [0]).
Proof. refute (Reveal [0]). Qed.
Theorem mask_refuted : refutes Mask.
Proof. refute Mask. Qed.
Theorem unmask_refuted : refutes Unmask.
Proof. refute Unmask. Qed.

(* the same simulation under the repaired construction keeps the ids *)
Example repaired_keeps_ids :
  option_map s_sids (match history (carry_mappings true) [Reveal [0]; Mask; Unmask; SaveLoad; Reveal [1; 0]] w_train with
                     | Ok s => Some s | Err _ => None end) = Some [1; 1; 2; 2].
Proof. vm_compute. reflexivity. Qed.
