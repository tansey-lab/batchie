(* The command-line wrapper calculate_distance_matrix.main: the hand-written model Cli.cli_calculate_distance_matrix
   equals the translation of the WHOLE function of /repo, regenerated on every run (Generated/SrcCli.v, configuration
   CLI_DISTANCE_MATRIX of harness/src_functions.py), for every record of library functions and all parsed arguments. *)
From Coq Require Import List.
From Batchie Require Import Model.Cli Generated.SrcCli Proofs.PyRtLemmas.
Import ListNotations.

Theorem src_cli_calculate_distance_matrix_is_model :
  forall (Scr Th Me Dm : Type) (L : cd_lib Scr Th Me Dm) (a : cd_args),
  src_cli_calculate_distance_matrix Scr Th Me Dm L a = cli_calculate_distance_matrix L a.
Proof.
  intros. unfold src_cli_calculate_distance_matrix, cli_calculate_distance_matrix. cbv zeta.
  rewrite !res_map_all_ret.
  repeat cli_step. all: reflexivity.
Qed.
