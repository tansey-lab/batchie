(* C10: Metric.__init__ (Generated/SrcInits.v) stores its argument: `self.model`, which the translated methods of the class
   read, is the value the object was constructed with *)
From Batchie Require Import Lib.Sexp Generated.SrcInits.

Theorem src_metric_init_stores : forall (Mo : Type) (model : Mo), src_metric_init Mo model = Ok model.
Proof. reflexivity. Qed.
