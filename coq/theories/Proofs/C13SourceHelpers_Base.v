(* C13 / C11, one of the pieces Proofs/C13SourceHelpers.v collects (its header describes the representation and the side conditions): the representation (fresh ids = ranks of the sorted names) and the facts that mention no translated function *)
From Coq Require Import ZArith List Bool Lia.
From Batchie Require Import Lib.Sexp Model.Encode Model.Screen Model.Views Model.Retro Proofs.PyRtLemmas Proofs.C01Sort Proofs.C01Encode Proofs.C14Defs Proofs.C14Lists Proofs.C14Unique Proofs.C14Views Proofs.C14ToScreen.
From Batchie Require Proofs.C03Screen.
Import ListNotations.
Open Scope nat_scope.

Definition rank_in (su : list name) (n : name) : Z := Z.of_nat (index_of n su).
Definition plate_ids_fresh (p : screen) : Prop := exists m, encode_names (map r_plate (s_rows p)) None 6%Z = Ok (s_pids p, m).
Definition sample_ids_fresh (p : screen) : Prop := exists m, encode_names (map r_sample (s_rows p)) None 6%Z = Ok (s_sids p, m).

Lemma index_of_lt n (su : list name) : In n su -> index_of n su < length su.
Proof.
  induction su as [|y su IH]; cbn [In index_of length]; [tauto|]. intros H.
  destruct (name_eqb n y) eqn:E; [lia|]. destruct H as [->|H]; [rewrite name_eqb_refl in E; discriminate|]. specialize (IH H). lia.
Qed.

Lemma nth_index_of n (su : list name) : In n su -> nth (index_of n su) su [] = n.
Proof.
  induction su as [|y su IH]; cbn [In index_of]; [tauto|]. intros H.
  destruct (name_eqb n y) eqn:E; [apply name_eqb_eq in E; now subst|].
  destruct H as [->|H]; [rewrite name_eqb_refl in E; discriminate|]. cbn [nth]. now apply IH.
Qed.

Lemma index_of_nth (su : list name) : NoDup su -> forall j, j < length su -> index_of (nth j su []) su = j.
Proof.
  induction su as [|y su IH]; intros ND j Hj; cbn [length] in Hj; [lia|].
  inversion ND as [|? ? Hy ND']; subst. destruct j as [|j]; cbn [nth index_of]; [now rewrite name_eqb_refl|].
  destruct (name_eqb (nth j su []) y) eqn:E.
  - apply name_eqb_eq in E. exfalso. apply Hy. rewrite <- E. apply nth_In. lia.
  - f_equal. apply IH; [exact ND' | lia].
Qed.

Lemma nlookup_number_from su : forall (i : Z) n, In n su ->
  nlookup (number_from i su) n = Some (i + rank_in su n)%Z.
Proof.
  unfold rank_in. induction su as [|y su IH]; intros i n H; cbn [In number_from nlookup index_of] in *; [tauto|].
  destruct (name_eqb n y) eqn:E; [f_equal; lia|].
  destruct H as [->|H]; [rewrite name_eqb_refl in E; discriminate|]. rewrite IH by exact H. f_equal. lia.
Qed.

(* what the encoder answers without a mapping: every name's rank among the sorted distinct names *)
Lemma fresh_ids_are_ranks names tag ids m : encode_names names None tag = Ok (ids, m) ->
  ids = map (rank_in (sort_uniq name_cmp names)) names.
Proof.
  unfold encode_names, build_nmapping. set (su := sort_uniq name_cmp names).
  destruct (opt_map_all (nlookup (number_from 0%Z su)) names) as [r|] eqn:E; [|discriminate]. intros [= <- _].
  apply opt_map_all_Some in E.
  assert (Hin : forall n, In n names -> In n su) by (intros n Hn; now apply (sort_uniq_In name_cmp name_cmp_spec)).
  clearbody su. induction E as [|a b l r Hab _ IH]; cbn [map]; [reflexivity|].
  rewrite nlookup_number_from in Hab by (apply Hin; now left). injection Hab as <-.
  rewrite IH by (intros n Hn; apply Hin; now right). f_equal.
Qed.

Lemma ranks_sorted_unique names :
  let su := sort_uniq name_cmp names in
  sort_uniq Z.compare (map (rank_in su) names) = map Z.of_nat (seq 0 (length su)).
Proof.
  intros su.
  assert (S : SSorted Z.compare (map Z.of_nat (seq 0 (length su)))) by (rewrite <- zseq_0; apply zseq_sorted).
  rewrite <- (sort_uniq_of_sorted Z.compare Zcmp_spec _ S).
  apply (sort_uniq_ext Z.compare Zcmp_spec). intros z. rewrite !in_map_iff. split.
  - intros (n & <- & Hn). exists (index_of n su). split; [reflexivity|]. apply in_seq.
    assert (In n su) by (now apply (sort_uniq_In name_cmp name_cmp_spec)). pose proof (index_of_lt n su H). lia.
  - intros (j & <- & Hj). apply in_seq in Hj. exists (nth j su []). split.
    + unfold rank_in. f_equal. apply index_of_nth; [apply (sort_uniq_NoDup name_cmp name_cmp_spec) | change (j < length su); lia].
    + apply (sort_uniq_In name_cmp name_cmp_spec). apply nth_In. change (j < length su). lia.
Qed.

(* the rows with id j are the rows named by the j-th sorted name *)
Lemma rank_eqb_name names j :
  let su := sort_uniq name_cmp names in j < length su ->
  map (fun x => (x =? Z.of_nat j)%Z) (map (rank_in su) names) = map (fun n => name_eqb n (nth j su [])) names.
Proof.
  intros su Hj. rewrite map_map. apply map_ext_in. intros n Hn.
  assert (Hs : In n su) by (now apply (sort_uniq_In name_cmp name_cmp_spec)).
  assert (ND : NoDup su) by apply (sort_uniq_NoDup name_cmp name_cmp_spec).
  unfold rank_in. destruct (name_eqb n (nth j su [])) eqn:E.
  - apply name_eqb_eq in E. rewrite E, index_of_nth by assumption. apply Z.eqb_refl.
  - apply Z.eqb_neq. intros Q. apply Nat2Z.inj in Q. rewrite <- Q, nth_index_of, name_eqb_refl in E by exact Hs. discriminate.
Qed.

(* every constructed screen has fresh plate ids (and fresh sample ids when no mapping is passed) *)
Lemma mk_screen_ids_fresh rows ar ctrl tm sm og mg s : mk_screen rows ar ctrl tm sm og mg = Ok s ->
  plate_ids_fresh s /\ (sm = None -> sample_ids_fresh s).
Proof.
  intros H. destruct (C03Screen.mk_screen_inv H) as [tflat B]. unfold plate_ids_fresh, sample_ids_fresh.
  rewrite (C03Screen.b_rows B). split; [exists (s_pmap s); exact (C03Screen.b_plates B)|].
  intros ->. exists (s_smap s). exact (C03Screen.b_samples B).
Qed.

Lemma bor_vec_vor a b : bor_vec a b = vor a b.
Proof. unfold bor_vec. revert b; induction a as [|x a IH]; intros [|y b]; cbn [combine map vor fst snd]; try reflexivity. now rewrite IH. Qed.

Lemma select_vselect {A} sel (l : list A) : select sel l = vselect sel l.
Proof. reflexivity. Qed.

Lemma with_plate_set_plate nm r : with_plate nm r = set_plate nm r.
Proof. reflexivity. Qed.

Lemma relabel_vrelabel nm : forall sel rows, length sel = length rows -> relabel sel nm rows = vrelabel sel nm rows.
Proof.
  unfold relabel. induction sel as [|b sel IH]; intros [|r rows] H; cbn [length] in H; try discriminate; cbn [combine map vrelabel fst snd];
    [reflexivity|]. rewrite IH by lia. reflexivity.
Qed.

Lemma vcount_select {A} sel (l : list A) : length sel = length l -> length (select sel l) = vcount sel.
Proof.
  revert l; induction sel as [|b sel IH]; intros [|x l] H; cbn [length] in H; try discriminate; cbn [select vcount]; [reflexivity|].
  destruct b; cbn [length]; rewrite IH by lia; lia.
Qed.

Lemma vor_length_same a b : length a = length b -> length (vor a b) = length a.
Proof. revert b; induction a as [|x a IH]; intros [|y b] H; cbn [length] in H; try discriminate; cbn [vor length]; [reflexivity|]. now rewrite IH by lia. Qed.

Lemma view_size_vcount v : view_ok v -> Z.of_nat (view_size v) = plate_size (v_sel v).
Proof.
  intros Hok. unfold view_size, view_tids, plate_size. f_equal. apply vcount_select. exact Hok.
Qed.

Lemma encode_names_fresh_total names : exists ids m, encode_names names None 6%Z = Ok (ids, m).
Proof. destruct (nbuilt_encode_ok names 6%Z) as [ids H]. now exists ids, (build_nmapping names). Qed.

Definition res_rows (r : result screen) : result (list row) := dor s <- r; Ok (s_rows s).

Lemma mk_screen_not_uniform rows ar ctrl : forallb (fun r => Nat.eqb (length (r_treats r)) ar) rows = true ->
  plate_uniform rows = false -> mk_screen rows ar ctrl None None true true = Err 2%Z.
Proof. intros H1 H2. unfold mk_screen. cbn [negb andb]. rewrite H1, H2. reflexivity. Qed.

(* what a screen built by the constructor without mappings satisfies: the side conditions of the C13SourceHelpers_* theorems *)
Definition fresh_screen (s : screen) : Prop :=
  screen_wf s /\ screen_valid s /\ plate_ids_fresh s /\ sample_ids_fresh s.

Lemma mk_screen_fresh rows ar ctrl s : mk_screen rows ar ctrl None None true true = Ok s -> fresh_screen s.
Proof.
  intros H. split; [eapply mk_screen_wf; exact H|]. split; [eapply mk_screen_valid; exact H|].
  destruct (mk_screen_ids_fresh _ _ _ _ _ _ _ _ H) as [A B]. split; [exact A | now apply B].
Qed.

Lemma existsb_id_map_filter {A} (f : A -> bool) l : existsb (fun b : bool => b) (map f l) = negb (is_nil (filter f l)).
Proof. induction l as [|x l IH]; cbn [map existsb filter]; [reflexivity|]. destruct (f x); [reflexivity | exact IH]. Qed.

Lemma is_nil_same {A} (l : list A) : PyRt.is_nil l = Retro.is_nil l.
Proof. destruct l; reflexivity. Qed.

(* ranks in a strictly sorted list are strictly monotone *)
Lemma rank_monotone (su : list name) : SSorted name_cmp su -> forall a b, In a su -> In b su ->
  name_cmp a b = Lt -> index_of a su < index_of b su.
Proof.
  induction su as [|y su IH]; intros HS a b Ha Hb Hlt; [destruct Ha|].
  inversion HS as [|? ? HS' Hall]; subst. rewrite Forall_forall in Hall. cbn [index_of].
  destruct (name_eqb a y) eqn:Ea.
  - apply name_eqb_eq in Ea. subst a. destruct (name_eqb b y) eqn:Eb; [|lia].
    apply name_eqb_eq in Eb. subst b. exfalso. exact (cmp_lt_irrefl name_cmp name_cmp_spec y Hlt).
  - destruct Ha as [->|Ha]; [rewrite name_eqb_refl in Ea; discriminate|].
    destruct (name_eqb b y) eqn:Eb.
    + apply name_eqb_eq in Eb. subst b. exfalso. apply (cmp_lt_irrefl name_cmp name_cmp_spec a).
      eapply (cmp_trans _ name_cmp_spec); [exact Hlt | exact (Hall a Ha)].
    + destruct Hb as [->|Hb]; [rewrite name_eqb_refl in Eb; discriminate|]. specialize (IH HS' a b Ha Hb Hlt). lia.
Qed.

Lemma map_rank_sorted (su l : list name) : SSorted name_cmp su -> (forall x, In x l -> In x su) -> SSorted name_cmp l ->
  SSorted Z.compare (map (rank_in su) l).
Proof.
  intros HS Hin Hl. induction Hl as [|a l Hl' IH Hall]; cbn [map]; [constructor|].
  constructor; [apply IH; intros x Hx; apply Hin; now right|].
  rewrite Forall_forall in *. intros z Hz. apply in_map_iff in Hz. destruct Hz as (b & <- & Hb).
  unfold C01Sort.cmp_lt, rank_in. apply Z.compare_lt_iff. apply Nat2Z.inj_lt.
  apply rank_monotone; [exact HS | apply Hin; now left | apply Hin; now right | exact (Hall b Hb)].
Qed.

(* np.unique of ranks = ranks of np.unique of names *)
Lemma sort_uniq_ranks (su l : list name) : SSorted name_cmp su -> (forall x, In x l -> In x su) ->
  sort_uniq Z.compare (map (rank_in su) l) = map (rank_in su) (sort_uniq name_cmp l).
Proof.
  intros HS Hin.
  rewrite <- (sort_uniq_of_sorted Z.compare Zcmp_spec (map (rank_in su) (sort_uniq name_cmp l))).
  - apply (sort_uniq_ext Z.compare Zcmp_spec). intros z. rewrite !in_map_iff.
    split; intros (n & Hz & Hn); exists n; (split; [exact Hz|]); now apply (sort_uniq_In name_cmp name_cmp_spec).
  - apply map_rank_sorted; [exact HS | | apply (sort_uniq_sorted name_cmp name_cmp_spec)].
    intros x Hx. apply Hin. exact (proj1 (sort_uniq_In name_cmp name_cmp_spec l x) Hx).
Qed.

Lemma In_vselect {A} sel (l : list A) x : In x (vselect sel l) -> In x l.
Proof. rewrite <- select_vselect. apply In_select. Qed.
