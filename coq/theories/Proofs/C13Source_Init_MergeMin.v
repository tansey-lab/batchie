(* C13: MergeMinPlateSmoother.__init__ (Generated/SrcInits.v) stores what it is constructed with - min_size *)
From Coq Require Import ZArith.
From Batchie Require Import Lib.Sexp Generated.SrcInits.
Open Scope Z_scope.

Theorem src_merge_min_init_stores : forall min_size : Z, src_merge_min_init min_size = Ok min_size.
Proof. reflexivity. Qed.
