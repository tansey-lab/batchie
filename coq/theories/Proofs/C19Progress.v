(* C19 — progress of the retrospective mode after a crash ("rerunning it ... continues the simulation").
   From ANY reachable tree with c completed steps, calls that are not interrupted complete one further step each, except that
   the first one may be spent on naming the incomplete directory (which the operator removes); after n - c + 1 such calls the
   run is the never-interrupted one. *)
From Coq Require Import ZArith List Lia.
From Batchie Require Import Model.Orchestrate Proofs.C19Base Proofs.C19Canon Proofs.C19Step Proofs.C19Main.
Import ListNotations.
Open Scope Z_scope.

Section Progress.
Variables (bs n : nat) (fixed : bool).
Hypothesis Hbs : (1 <= bs)%nat.
Hypothesis Hn : (1 <= n)%nat.
Hypothesis Hfix : fixed = true \/ bs = 1%nat.

Local Notation canon := (canon Retro bs n).
Local Notation B := (Z.of_nat bs).

Definition good (e : entry) : Prop := entry_ok e = true /\ full_entry e.

(* from a tree without an incomplete directory: one step per call until all n are complete *)
Lemma run_good : forall es c x,
  Forall good es -> okx c x -> (forall d, x <> XIncomplete d) -> (c <= n)%nat ->
  exists x', fst (script_run Retro fixed B n (canon c x) es) = canon (Nat.min n (c + length es)) x'
             /\ okx (Nat.min n (c + length es)) x' /\ (forall d, x' <> XIncomplete d).
Proof.
  induction es as [|e r IH]; intros c x Hes Hx Hx' Hc.
  - exists x. cbn [script_run fst length]. rewrite Nat.add_0_r, Nat.min_r by lia. auto.
  - inversion Hes as [|? ? [He Hf] Hr]; subst. cbn [script_run length].
    assert (Hi : is_inc x = false) by (destruct x; try reflexivity; now destruct (Hx' d)).
    destruct (Nat.eq_dec c n) as [->|Hne].
    + rewrite (attempt_done Retro bs n Hbs Hn fixed n x e Hx Hfix) by (auto || apply Nat.leb_refl).
      destruct (IH n x Hr Hx Hx' (le_n _)) as (x' & E & Hok & Hni).
      destruct (script_run Retro fixed B n (canon n x) r) as [f2 gs]. cbn [fst] in *.
      exists x'. rewrite Nat.min_l in * by lia. auto.
    + destruct (attempt_full Retro bs n Hbs Hn fixed c x e Hx Hfix Hi) as [ps ->];
        [cbn; lia|intros _; lia|exact He|exact Hf|].
      destruct (IH (S c) XNone Hr I ltac:(intros d; discriminate) ltac:(lia)) as (x' & E & Hok & Hni).
      destruct (script_run Retro fixed B n (canon (S c) XNone) r) as [f2 gs]. cbn [fst] in *.
      exists x'. replace (c + S (length r))%nat with (S c + length r)%nat by lia. auto.
Qed.

(* from any tree: an incomplete directory costs the one call that names it *)
Lemma run_good_any : forall es c x,
  Forall good es -> okx c x -> (c <= n)%nat ->
  exists c' x', fst (script_run Retro fixed B n (canon c x) es) = canon c' x' /\ okx c' x' /\ (c' <= n)%nat
                /\ (Nat.min n (c + length es - 1) <= c')%nat.
Proof.
  intros es c x Hes Hx Hc.
  destruct (is_inc x) eqn:Hi.
  - destruct x as [| |d]; try discriminate. destruct es as [|e r].
    + exists c, (XIncomplete d). cbn [script_run fst length]. repeat split; auto. lia.
    + inversion Hes as [|? ? He Hr]; subst. cbn [script_run length].
      rewrite (attempt_named Retro bs n Hbs Hn fixed c d e Hx Hfix (fun _ => Hc)).
      destruct (run_good r c XEmptyIter Hr I ltac:(intros d'; discriminate) Hc) as (x' & E & Hok & _).
      destruct (script_run Retro fixed B n (canon c XEmptyIter) r) as [f2 gs]. cbn [fst] in *.
      exists (Nat.min n (c + length r)), x'. repeat split; auto; lia.
  - destruct (run_good es c x Hes Hx ltac:(intros d ->; discriminate) Hc) as (x' & E & Hok & _).
    exists (Nat.min n (c + length es)), x'. repeat split; auto; lia.
Qed.

Theorem retro_progress sched0 es :
  sched_ok sched0 -> Forall good es ->
  let f := fst (script_run Retro fixed B n [] sched0) in
  let f' := fst (script_run Retro fixed B n f es) in
  completed f' = ideal Retro bs n (length (completed f')) /\
  (Nat.min n (length (completed f) + length es - 1) <= length (completed f') <= n)%nat.
Proof.
  intros Hs Hes. cbn zeta.
  destruct (invariant Retro bs n fixed Hbs Hn Hfix sched0 Hs) as (c & x & -> & Hx & Hcn).
  specialize (Hcn eq_refl).
  destruct (run_good_any es c x Hes Hx Hcn) as (c' & x' & E' & Hx' & Hc' & Hge). rewrite E'.
  rewrite !(completed_canon Retro bs n Hbs Hn) by assumption.
  rewrite !(ideal_length Retro bs n). auto.
Qed.

(* n - c + 1 uninterrupted calls finish the simulation *)
Theorem retro_rerun_finishes sched0 es :
  sched_ok sched0 -> Forall good es ->
  let f := fst (script_run Retro fixed B n [] sched0) in
  (n + 1 <= length (completed f) + length es)%nat ->
  completed (fst (script_run Retro fixed B n f es)) = crash_free Retro bs n.
Proof.
  intros Hs Hes. cbn zeta. intros Hlen.
  destruct (retro_progress sched0 es Hs Hes) as [E [Hlo Hhi]]. cbn zeta in *.
  rewrite E. unfold crash_free. f_equal. lia.
Qed.

End Progress.
