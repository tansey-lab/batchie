(* One piece of Proofs/C18SourceParser.v (which see): the option table of reveal_plate.get_parser(), read from /repo on every run
   (Generated/SrcParser_reveal_plate.v), provides what the argument record of that command assumes. *)
From Coq Require Import List.
From Batchie Require Import Model.Cli Proofs.C18Parser Generated.SrcParser_reveal_plate.

Theorem parser_reveal_plate_fields : forall f, In f (rp_fields ++ logging_fields) -> declares src_parser_reveal_plate f.
Proof. apply declares_all. vm_compute. reflexivity. Qed.

Theorem parser_reveal_plate_dests_derived : dests_derived src_parser_reveal_plate.
Proof. apply dests_derived_sound. vm_compute. reflexivity. Qed.

Theorem parser_reveal_plate_dests_distinct : dests_distinct src_parser_reveal_plate.
Proof. apply dests_distinct_sound. vm_compute. reflexivity. Qed.
