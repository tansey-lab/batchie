(* C14, one piece of Proofs/C14Source.v (conventions and objects: see there): Screen.subset_observed / subset_unobserved *)
From Coq Require Import List.
From Batchie Require Import Model.Views Generated.SrcViews Proofs.C14Source_ScreenSubset.
Import ListNotations.
Open Scope Z_scope.

(* None iff no row is observed; otherwise self.subset(mask) *)
Theorem src_subset_observed_is_model : forall s : pyscreen,
  src_subset_observed s = opt_result (subset_observed (fst s) (snd s)).
Proof.
  intros s. unfold src_subset_observed, subset_observed.
  destruct (existsb (fun b => b) (screen_mask (snd s))); [|reflexivity].
  rewrite src_screen_subset_is_model. reflexivity.
Qed.

Theorem src_subset_unobserved_is_model : forall s : pyscreen,
  src_subset_unobserved s = opt_result (subset_unobserved (fst s) (snd s)).
Proof.
  intros s. unfold src_subset_unobserved, subset_unobserved.
  destruct (existsb (fun b => b) (map negb (screen_mask (snd s)))); [|reflexivity].
  rewrite src_screen_subset_is_model. reflexivity.
Qed.
