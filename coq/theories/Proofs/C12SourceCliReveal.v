(* reveal_plate.main over the C12 / C03 vocabulary (Model/Reveal.v): the translated wrapper, with the library call
   reveal_plates standing for the TRANSLATED library function (Generated/SrcReveal.v), is load, the model's
   reveal_plates (mappings carried), save. *)
From Coq Require Import List.
From Batchie Require Import Lib.Sexp Model.Screen Model.Reveal Generated.SrcReveal Proofs.C12Source_Reveal.
From Batchie Require Model.Cli Generated.SrcCli Proofs.C12SourceCli.
Import ListNotations.
Open Scope Z_scope.

Theorem src_cli_reveal_plate_reveal : forall (load : Cli.path -> result screen) (a : Cli.rp_args),
  SrcCli.src_cli_reveal_plate screen (Cli.mk_rp_lib load src_reveal_plates) a
  = dor s <- load (Cli.rp_screen a);
    dor s' <- reveal_plates (carry_mappings true) s (Cli.rp_plate_id a);
    Ok [(Cli.rp_output a, s')].
Proof.
  intros. rewrite C12SourceCli.src_cli_reveal_plate_is_model. unfold Cli.cli_reveal_plate.
  cbn [Cli.rp_load_screen Cli.rp_reveal].
  destruct (load (Cli.rp_screen a)) as [s|t]; cbn [res_bind]; [|reflexivity].
  rewrite src_reveal_plates_is_model. reflexivity.
Qed.
